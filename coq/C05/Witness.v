(* C05: computed witnesses on the example schema of coq/Codec/Example.v (vm_compute on concrete
   byte strings; the same byte strings are in known_findings.d/C05.json against the real code
   on the FIX42UTEST schema). *)
From Coq Require Import NArith ZArith List Bool String.
From F8 Require Import Codec.Bytes Codec.Meta Codec.Extract Codec.Decode Codec.Encode Codec.Render Codec.Example
                       C05.Spec_C05 C05.Obs C05.Perm.
Import ListNotations.
Local Open Scope N_scope.
Local Open Scope string_scope.

Definition fx : list N := bs "FIX.4.2".
(* the whole property evaluated on the model *)
Definition c05_run (c : ctx) (clean : list N) (toks : list (list N)) (dirty : list N) : bool :=
  c05_ok clean toks (obs_of_res c (factory c real_caps dirty false true))
         (obs_of_res c (factory c real_caps clean false false)) (reenc_of c dirty true).
Definition values_run (c : ctx) (clean dirty : list N) : bool :=
  c05_values_ok (obs_of_res c (factory c real_caps dirty false true))
                (obs_of_res c (factory c real_caps clean false false)).
Definition is_ok {A} (r : res A) : bool := match r with Ok _ => true | _ => false end.

Definition hb_clean : list N := mkwire fx (map bs ["35=0"; "49=A"; "56=B"; "34=7"; "112=TEST"]).
Definition hb_end : list N := mkwire fx (map bs ["35=0"; "49=A"; "56=B"; "34=7"; "112=TEST"; "9999=x"; "70000=y=z"]).
(* "E" with the mandatory body field 66, an optional one and the trailer pair 93/89 *)
Definition e_toks : list string := ["35=E"; "49=A"; "56=B"; "34=7"; "66=L1"; "55=IBM"; "93=1"; "89=z"].
Definition e_clean : list N := mkwire fx (map bs e_toks).
Definition e_body : list N :=
  mkwire fx (map bs ["35=E"; "49=A"; "56=B"; "34=7"; "66=L1"; "9999=x"; "55=IBM"; "93=1"; "89=z"]).
Definition e_hdr : list N :=
  mkwire fx (map bs ["35=E"; "49=A"; "9999=x"; "56=B"; "34=7"; "66=L1"; "55=IBM"; "93=1"; "89=z"]).

(* the header decoder keeps the rest of the message: its _unknown holds the body, and 10= *)
Lemma c05_header_swallows_lemma :
  match factory ex_ctx real_caps hb_clean false true with
  | Ok m => mb_unknown (m_hdr m) = bs "112=TEST|10=156|" /\ mb_unknown (m_body m) = bs "10=156|"
  | _ => False
  end.
Proof. vm_compute. split; reflexivity. Qed.

