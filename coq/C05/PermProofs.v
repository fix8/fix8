(* The permissive run of MessageBase::decode's loop follows the strict run up to the
   point where the strict one stops, and from there on only collects unknown tokens. *)
From Coq Require Import NArith ZArith List Bool Lia.
From F8 Require Import Codec.Bytes Codec.Meta Codec.Extract Codec.Decode Codec.Encode C05.Spec_C05 C05.Obs C05.Perm C07.Chksum.
Import ListNotations.
Local Open Scope N_scope.

Section P.
Variable c : ctx. Variable cp : caps. Variable from : list N. Variable fsize : N. Variable gfuel : nat.

Lemma fp_with_unknown m u : mb_fp (with_unknown m u) = mb_fp m.
Proof. destruct m; reflexivity. Qed.
Lemma with_unknown_idem m u v : with_unknown (with_unknown m u) v = with_unknown m v.
Proof. destruct m; reflexivity. Qed.
Lemma with_unknown_self m : with_unknown m (mb_unknown m) = m.
Proof. destruct m; reflexivity. Qed.

(* once the strict run has stopped, the permissive run only collects unknown tokens; stated for
   any content of the unknown buffer, which is all that changes along the way *)
Lemma perm_tail : forall n k m u off pos lvo tb,
  tail_unk cp from fsize k (mb_fp m) off = true -> find_missing (mb_fp m) = None ->
  dec_loop c cp from fsize true gfuel n (with_unknown m u) off pos (Some pos) lvo tb = Fuel \/
  exists u', dec_loop c cp from fsize true gfuel n (with_unknown m u) off pos (Some pos) lvo tb = Ok (with_unknown m u', lvo).
Proof.
  induction n; intros k m u off pos lvo tb H Hm; [left; reflexivity|].
  destruct k; [discriminate|]. cbn [tail_unk] in H. cbn [dec_loop].
  assert (Fin : forall off', exists u', dec_finish true (with_unknown m u) off' pos (Some pos) lvo = Ok (with_unknown m u', lvo)).
  { intros off'. unfold dec_finish. rewrite fp_with_unknown, Hm. exists u. cbn. rewrite N.eqb_refl. reflexivity. }
  destruct (off <=? fsize); [|right; apply Fin].
  destruct (tok_at cp from fsize off); [|right; apply Fin|discriminate].
  rewrite fp_with_unknown.
  destruct (find_trait (mb_fp m) (fast_atoi_u16 tag)); [discriminate|].
  rewrite with_unknown_idem. exact (IHn k m _ _ _ _ _ H Hm).
Qed.

Lemma sfinish_ok m off fw m' off' fw' :
  sfinish m off fw = Ok (m', off', fw') -> m' = m /\ off' = off /\ fw' = fw /\ find_missing (mb_fp m) = None.
Proof. unfold sfinish. destruct (find_missing (mb_fp m)) eqn:E; [discriminate|]. intros H. injection H as <- <- <-. auto. Qed.

Lemma perm_prefix : forall n k m off pos tb m' off' fw,
  sdec_loop c cp from fsize gfuel n m off pos tb = Ok (m', off', fw) ->
  tail_hyp cp from fsize k (mb_fp m') off' fw = true ->
  dec_loop c cp from fsize true gfuel n m off pos None 0 tb = Fuel \/
  exists u, dec_loop c cp from fsize true gfuel n m off pos None 0 tb = Ok (with_unknown m' u, off').
Proof.
  induction n; intros k m off pos tb m' off' fw H T; [discriminate|].
  cbn [sdec_loop] in H. cbn [dec_loop].
  destruct (off <=? fsize) eqn:E1.
  2:{ apply sfinish_ok in H as (-> & -> & -> & Hm). unfold dec_finish. rewrite Hm. right. exists (mb_unknown m). rewrite with_unknown_self. reflexivity. }
  destruct (tok_at cp from fsize off) as [tag val result| |] eqn:E2.
  3:{ discriminate. }
  2:{ apply sfinish_ok in H as (-> & -> & -> & Hm). unfold dec_finish. rewrite Hm. right. exists (mb_unknown m). rewrite with_unknown_self. reflexivity. }
  destruct (find_trait (mb_fp m) (fast_atoi_u16 tag)) as [tr|] eqn:E3.
  2:{ apply sfinish_ok in H as (-> & -> & -> & Hm). cbn [tail_hyp] in T. destruct k; [discriminate|]. cbn [tail_unk] in T.
      rewrite E1, E2, E3 in T.
      exact (perm_tail n k m _ _ _ _ _ T Hm). }
  destruct (t_present tr) eqn:E4.
  { destruct (t_auto tr) eqn:E4a; [|discriminate]. eapply IHn; eauto. }
  destruct (find_be (c_fields c) (fast_atoi_u16 tag)) eqn:E5; [|discriminate].
  destruct (opt_group c cp from fsize gfuel _ tr _ _ _) as [[m2 off2]| | | |] eqn:E6; try discriminate.
  destruct (negb (t_ftype tr =? ft_Length) || (fast_atoi_u16 tag =? Common_BodyLength)) eqn:E7.
  { eapply IHn; eauto. }
  destruct (MAX_FLD_LENGTH - 1 <? fast_atoi_u32 val) eqn:E8; [discriminate|].
  destruct (extract_element_fixed_width _ _ _ _ _) as [tag2 val2 result2| |] eqn:E9; try discriminate.
  destruct (cstr_known _) as [tagstr|] eqn:E10; [|discriminate].
  destruct (find_trait (mb_fp m2) (fast_atoi_u16 tagstr)) as [tr2|] eqn:E11.
  2:{ apply sfinish_ok in H as (-> & -> & -> & Hm). cbn [tail_hyp] in T. rewrite E9 in T.
      exact (perm_tail n k m2 _ _ _ _ _ T Hm). }
  destruct (negb (t_ftype tr2 =? ft_data) || negb (fast_atoi_u16 tag + 1 =? fast_atoi_u16 tagstr)) eqn:E12.
  { eapply IHn; eauto. }
  destruct (find_be (c_fields c) (fast_atoi_u16 tagstr)) eqn:E13; [|discriminate].
  destruct (opt_group c cp from fsize gfuel _ tr2 _ _ _) as [[m4 off4]| | | |] eqn:E14; try discriminate.
  eapply IHn; eauto.
Qed.

Definition erase3 (r : res (mbase * N * option N)) : res (mbase * N) :=
  match r with Ok (m, o, _) => Ok (m, o) | Exc e => Exc e | OOB s => OOB s | Diverge => Diverge | Fuel => Fuel end.

(* sdec_loop is dec_loop in strict mode, branch for branch: every scrutinee of the two bodies other
   than the recursive call is destructed, and each branch is closed by the induction hypothesis or
   holds by computation *)
Lemma sdec_erase : forall n m off pos lvp lvo tb,
  dec_loop c cp from fsize false gfuel n m off pos lvp lvo tb = erase3 (sdec_loop c cp from fsize gfuel n m off pos tb).
Proof.
  induction n; intros; [reflexivity|].
  cbn [sdec_loop dec_loop]. unfold dec_finish, sfinish.
  repeat (first [ rewrite IHn | reflexivity
    | match goal with |- context [match ?x with _ => _ end] =>
        lazymatch x with context [sdec_loop] => fail | _ => destruct x eqn:? end end ]; cbn [erase3 andb]).
Qed.
End P.

Lemma mbase_decode_strict c cp from m off ignore :
  mbase_decode c cp from m off ignore false = erase3 (smbase_decode c cp from m off ignore).
Proof. unfold mbase_decode, mb_decode, smbase_decode, fsize_of. apply sdec_erase. Qed.

Lemma part_perm c cp from m off ignore o' :
  part_hyp c cp from m off ignore = Some o' ->
  exists m', mbase_decode c cp from m off ignore false = Ok (m', o') /\
    (mbase_decode c cp from m off ignore true = Fuel \/
     exists u, mbase_decode c cp from m off ignore true = Ok (with_unknown m' u, o')).
Proof.
  unfold part_hyp. intros H.
  destruct (smbase_decode c cp from m off ignore) as [[[m' off'] fw]| | | |] eqn:E; try discriminate.
  destruct (tail_hyp _ _ _ _ _ _ _) eqn:T; [|discriminate]. inversion H; subst.
  exists m'. split.
  - rewrite mbase_decode_strict, E. reflexivity.
  - unfold mbase_decode, mb_decode. unfold smbase_decode in E. eapply perm_prefix; eauto.
Qed.

Lemma set_value_unknown m u f v : set_value (with_unknown m u) f v = with_unknown (set_value m f v) u.
Proof. destruct m; reflexivity. Qed.
Lemma strip_with_unknown m u : strip_unknown (with_unknown m u) = strip_unknown m.
Proof. destruct m; reflexivity. Qed.

Theorem c05_values_partial_lemma c cp from nock ms :
  c05_hyp c cp from = true ->
  factory c cp from nock false = Ok ms ->
  factory c cp from nock true = Fuel \/
  exists mp, factory c cp from nock true = Ok mp /\ msg_known mp = msg_known ms.
Proof.
  unfold c05_hyp, factory. intros H S.
  destruct (extract_header _ _ _ _ _) as [[[hlen len] mtype]| | | |]; try discriminate.
  cbn [bind] in *.
  destruct (hlen =? 0); [discriminate|].
  destruct (find_msg _ _) as [md|]; [|discriminate].
  destruct (part_hyp c cp from (m_hdr _) hlen 0) as [o1|] eqn:P1; [|discriminate].
  destruct (part_hyp c cp from (m_body _) o1 0) as [o2|] eqn:P2; [|discriminate].
  destruct (part_hyp c cp from (m_trl _) o2 7) as [o3|] eqn:P3; [|discriminate].
  apply part_perm in P1. destruct P1 as [h [S1 Q1]].
  apply part_perm in P2. destruct P2 as [b [S2 Q2]].
  apply part_perm in P3. destruct P3 as [t [S3 Q3]].
  unfold msg_decode in *. rewrite S1 in S. cbn [bind] in S. rewrite S2 in S. cbn [bind] in S.
  rewrite S3 in S. cbn [bind m_hdr m_body m_trl m_type] in S.
  destruct Q1 as [F1|[uh Q1]]; [left; rewrite F1; reflexivity|]. rewrite Q1. cbn [bind].
  destruct Q2 as [F2|[ub Q2]]; [left; rewrite F2; reflexivity|]. rewrite Q2. cbn [bind].
  destruct Q3 as [F3|[ut Q3]]; [left; rewrite F3; reflexivity|]. rewrite Q3. cbn [bind m_hdr m_body m_trl m_type].
  right.
  destruct (lenN from <? 7); [discriminate|].
  destruct (negb _ || negb _); [discriminate|].
  destruct nock.
  - inversion S; subst. eexists; split; [reflexivity|].
    unfold msg_known; cbn [m_hdr m_body m_trl m_type].
    rewrite !set_value_unknown, !strip_with_unknown. reflexivity.
  - destruct (calc_chksum _ _ _ _) as [[mchk x]|]; [|discriminate].
    destruct (_ =? _); [|discriminate].
    inversion S; subst. eexists; split; [reflexivity|].
    unfold msg_known; cbn [m_hdr m_body m_trl m_type].
    rewrite !set_value_unknown, !strip_with_unknown. reflexivity.
Qed.

Lemma bytes_eqb_refl a : bytes_eqb a a = true.
Proof. induction a; cbn; [reflexivity|]. rewrite N.eqb_refl. exact IHa. Qed.
Lemma fields_eqb_refl a : fields_eqb a a = true.
Proof. induction a as [|[f v] r IH]; cbn; [reflexivity|]. rewrite N.eqb_refl, bytes_eqb_refl. exact IH. Qed.

Lemma node_eqb_refl : forall a, node_eqb a a = true.
Proof.
  fix IH 1. intros [f g u]. cbn [node_eqb]. rewrite fields_eqb_refl. cbn [andb].
  induction g as [|[k els] r IHg]; [reflexivity|].
  rewrite N.eqb_refl. cbn [andb].
  induction els as [|x xs IHx]; [exact IHg|]. rewrite IH. exact IHx.
Qed.

Lemma node_eqb_unknown f g u u' : node_eqb (ON f g u) (ON f g u') = true.
Proof. exact (node_eqb_refl (ON f g u)). Qed.

Lemma obs_strip c a b f :
  strip_unknown a = strip_unknown b ->
  node_eqb (drop_field f (obs_of_mb c a)) (drop_field f (obs_of_mb c b)) = true /\
  node_eqb (obs_of_mb c a) (obs_of_mb c b) = true.
Proof.
  destruct a as [fp s fl p g u], b as [fp' s' fl' p' g' u']. unfold strip_unknown. cbn [with_unknown].
  intros H. injection H; intros; subst. split.
  - cbn [obs_of_mb drop_field]. apply node_eqb_unknown.
  - cbn [obs_of_mb]. apply node_eqb_unknown.
Qed.

Theorem c05_values_spec_lemma c from nock ms mp :
  c05_hyp c real_caps from = true ->
  factory c real_caps from nock false = Ok ms ->
  factory c real_caps from nock true = Ok mp ->
  c05_values_ok (obs_of_res c (Ok mp)) (obs_of_res c (Ok ms)) = true.
Proof.
  intros H S P. destruct (c05_values_partial_lemma c real_caps from nock ms H S) as [F|[mp' [P' K]]].
  - rewrite F in P; discriminate.
  - rewrite P' in P. inversion P; subst. unfold msg_known in K. injection K; intros Kt Kb Kh _.
    cbn [obs_of_res c05_values_ok]. unfold msg_known_eqb, obs_of_msg. cbn [o_hdr o_body o_trl].
    destruct (obs_strip c _ _ 9 Kh) as [E1 _]. destruct (obs_strip c _ _ 9 Kb) as [_ E2].
    destruct (obs_strip c _ _ 10 Kt) as [E3 _]. rewrite E1, E2, E3. reflexivity.
Qed.
