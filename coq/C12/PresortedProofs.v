(* presorted_set: from every state satisfying [ps_wf] each operation succeeds inside the allocated
   block and answers like a sorted list of unique keys ([ps_step_refines]); sets built by the
   hash-array constructor do so on the histories [hist_ok] admits. *)
From Coq Require Import Arith List Bool Lia ZArith.
From F8 Require Import C12.Bisect C12.BisectProofs C12.Tables C12.Presorted C12.Spec_C12 C12.TablesProofs.
Import ListNotations.
Local Open Scope Z_scope.

Definition keys_sorted (L : list elem) : bool := sortedb Z.ltb (map fst L).
Definition abs (s : pset) : list elem := firstn (p_sz s) (p_arr s).

Lemma sl_count_lt_keys L k : sl_count_lt L k = count_lt Z.ltb (map fst L) k.
Proof.
  unfold sl_count_lt, count_lt. induction L as [|x t IH]; [reflexivity|].
  cbn [map filter]. destruct (fst x <? k); cbn [length]; rewrite IH; reflexivity.
Qed.

Lemma sl_count_lt_le L k : (sl_count_lt L k <= length L)%nat.
Proof. apply filter_length_le. Qed.

Lemma sl_index_find : forall L k i, sl_index L k i = find_from (fun x => fst x =? k) L i.
Proof.
  induction L as [|x t IH]; intros k i; cbn [sl_index find_from]; [reflexivity|].
  destruct (fst x =? k); [reflexivity | apply IH].
Qed.

Lemma sl_index_spec L k i :
  match sl_index L k i with
  | Some m => (i <= m)%nat /\ nth_error (map fst L) (m - i) = Some k
  | None => ~ In k (map fst L)
  end.
Proof. rewrite sl_index_find. apply find_from_spec. intros x. apply Z.eqb_eq. Qed.

Lemma sl_mem_In L k : sl_mem L k = true <-> In k (map fst L).
Proof.
  unfold sl_mem. pose proof (sl_index_spec L k 0%nat) as H. destruct (sl_index L k 0) as [m|].
  - destruct H as [_ Hm]. split; [|reflexivity]. intros _. eapply nth_error_In; eassumption.
  - split; [discriminate | intros C; exfalso; exact (H C)].
Qed.

Lemma sl_mem_false L k : sl_mem L k = false -> ~ In k (map fst L).
Proof. rewrite <- sl_mem_In. congruence. Qed.

Lemma exact_index_sl L k r :
  (forall i, r = Some i <-> nth_error (map fst L) i = Some k) -> sl_index L k 0 = r.
Proof.
  rewrite sl_index_find. apply find_from_exact. intros x. apply Z.eqb_eq.
Qed.

Lemma sl_index_sorted L k :
  keys_sorted L = true ->
  sl_index L k 0 = if sl_mem L k then Some (sl_count_lt L k) else None.
Proof.
  intros Hs. unfold sl_mem. pose proof (sl_index_spec L k 0%nat) as H.
  destruct (sl_index L k 0) as [m|]; [|reflexivity].
  destruct H as [_ Hm]. rewrite Nat.sub_0_r in Hm. f_equal. rewrite sl_count_lt_keys.
  symmetry. apply (o_count_lt_member Z.ltb Zltb_strict_total _ _ _ Hs Hm).
Qed.

Lemma sortedb_cons_intro k ks :
  sortedb Z.ltb ks = true -> (forall y, In y ks -> k < y) -> sortedb Z.ltb (k :: ks) = true.
Proof.
  intros Hs Hall. destruct ks as [|y t]; [reflexivity|]. cbn [sortedb].
  apply andb_true_iff. split; [|exact Hs]. apply Z.ltb_lt, Hall. left. reflexivity.
Qed.

Lemma sl_insert_keys_In e L y : In y (map fst (sl_insert e L)) <-> y = fst e \/ In y (map fst L).
Proof.
  induction L as [|x t IH]; cbn [sl_insert map In]; [intuition|].
  destruct (fst e <? fst x); cbn [map In]; [intuition|]. rewrite IH. intuition.
Qed.

Lemma sl_insert_length e L : length (sl_insert e L) = S (length L).
Proof.
  induction L as [|x t IH]; cbn [sl_insert]; [reflexivity|].
  destruct (fst e <? fst x); cbn [length]; [|rewrite IH]; reflexivity.
Qed.

Lemma sl_insert_sorted e L :
  keys_sorted L = true -> ~ In (fst e) (map fst L) -> keys_sorted (sl_insert e L) = true.
Proof.
  unfold keys_sorted. induction L as [|x t IH]; intros Hs Hn; [reflexivity|].
  cbn [sl_insert]. destruct (fst e <? fst x) eqn:E.
  - cbn [map]. cbn [map] in Hs. cbn [sortedb]. rewrite E. exact Hs.
  - cbn [map] in *. destruct (o_sortedb_cons Z.ltb Zltb_strict_total _ _ Hs) as [Hs' Hall].
    apply sortedb_cons_intro.
    + apply IH; [exact Hs'|]. intros C. apply Hn. right. exact C.
    + intros y Hy. apply sl_insert_keys_In in Hy. destruct Hy as [->|Hy].
      * apply Z.ltb_ge in E. assert (fst x <> fst e) by (intros C; apply Hn; left; exact C). lia.
      * apply Z.ltb_lt, Hall, Hy.
Qed.

Lemma sl_insert_split e L :
  keys_sorted L = true -> ~ In (fst e) (map fst L) ->
  sl_insert e L = firstn (sl_count_lt L (fst e)) L ++ e :: skipn (sl_count_lt L (fst e)) L.
Proof.
  unfold keys_sorted, sl_count_lt. induction L as [|x t IH]; intros Hs Hn; [reflexivity|].
  cbn [map] in Hs. destruct (o_sortedb_cons Z.ltb Zltb_strict_total _ _ Hs) as [Hs' Hall].
  cbn [sl_insert filter]. destruct (fst e <? fst x) eqn:E.
  - (* e goes in front: no key of x :: t is smaller *)
    apply Z.ltb_lt in E. assert ((fst x <? fst e) = false) as -> by (apply Z.ltb_ge; lia).
    assert (filter (fun y : Z * Z => fst y <? fst e) t = []) as ->; [|reflexivity].
    clear IH Hs Hs' Hn. induction t as [|y t IHt]; [reflexivity|].
    cbn [filter]. assert (fst x < fst y) by (apply Z.ltb_lt, Hall; left; reflexivity).
    assert ((fst y <? fst e) = false) as -> by (apply Z.ltb_ge; lia).
    apply IHt. intros z Hz. apply Hall. right. exact Hz.
  - assert ((fst x <? fst e) = true) as ->.
    { apply Z.ltb_ge in E. apply Z.ltb_lt.
      assert (fst x <> fst e) by (intros C; apply Hn; left; exact C). lia. }
    cbn [length firstn skipn app]. f_equal. apply IH; [exact Hs'|].
    intros C. apply Hn. right. exact C.
Qed.

Lemma firstn_exact {A} (L rest : list A) : firstn (length L) (L ++ rest) = L.
Proof. rewrite firstn_app, Nat.sub_diag, firstn_all, firstn_O. apply app_nil_r. Qed.

Lemma read_range_mid (P M Q : list elem) pos n :
  pos = length P -> n = length M -> read_range (P ++ M ++ Q) pos n = Some M.
Proof.
  intros -> ->. unfold read_range. rewrite !app_length.
  assert ((length P + length M <=? length P + (length M + length Q))%nat = true) as -> by (apply Nat.leb_le; lia).
  rewrite skipn_app, Nat.sub_diag, skipn_all, skipn_O. cbn [app]. rewrite firstn_exact. reflexivity.
Qed.

Lemma write_at_mid (P M Q src : list elem) pos :
  pos = length P -> length src = length M -> write_at (P ++ M ++ Q) pos src = Some (P ++ src ++ Q).
Proof.
  intros -> Hl. unfold write_at. rewrite !app_length, Hl.
  assert ((length P + length M <=? length P + (length M + length Q))%nat = true) as -> by (apply Nat.leb_le; lia).
  rewrite firstn_exact, skipn_app, skipn_all2 by lia.
  replace (length P + length M - length P)%nat with (length M) by lia.
  rewrite skipn_app, skipn_all, Nat.sub_diag, skipn_O. reflexivity.
Qed.

(* memmove(where + 1, where, n); memcpy(where, what): open a gap and fill it.  The window memmove
   writes is A2 ++ [j] without its first element. *)
Lemma shift_insert (A1 A2 : list elem) (j what : elem) (rest : list elem) :
  exists a1, write_at (A1 ++ A2 ++ j :: rest) (length A1 + 1) A2 = Some a1 /\
             write_at a1 (length A1) [what] = Some ((A1 ++ what :: A2) ++ rest).
Proof.
  destruct (A2 ++ [j]) as [|x B] eqn:EB; [destruct A2; discriminate|].
  assert (length B = length A2) as HB.
  { apply (f_equal (@length _)) in EB. rewrite app_length in EB. cbn [length] in EB. lia. }
  assert (A1 ++ A2 ++ j :: rest = (A1 ++ [x]) ++ B ++ rest) as ->.
  { change (j :: rest) with ([j] ++ rest). rewrite (app_assoc A2), EB, <- app_assoc. reflexivity. }
  exists (A1 ++ [x] ++ A2 ++ rest). split.
  - rewrite (write_at_mid (A1 ++ [x]) B rest A2), <- app_assoc; [reflexivity | | lia].
    rewrite app_length. reflexivity.
  - rewrite (write_at_mid A1 [x] (A2 ++ rest) [what]), <- app_assoc; reflexivity.
Qed.

(* the three memcpy's into the fresh block *)
Lemma realloc_copy (A1 A2 : list elem) (what : elem) (extra : nat) :
  let n := (length A1 + 1 + length A2 + extra)%nat in
  exists n1 n2,
    (if (0 <? length A1)%nat then write_at (repeat junk n) 0 A1 else Some (repeat junk n)) = Some n1 /\
    write_at n1 (length A1) [what] = Some n2 /\
    write_at n2 (length A1 + 1) A2 = Some ((A1 ++ what :: A2) ++ repeat junk extra).
Proof.
  intros n. exists (A1 ++ repeat junk (1 + length A2 + extra)), (A1 ++ [what] ++ repeat junk (length A2 + extra)).
  assert (repeat junk n = [] ++ repeat junk (length A1) ++ repeat junk (1 + length A2 + extra)) as Hn.
  { cbn [app]. rewrite <- repeat_app. f_equal. unfold n. lia. }
  split; [|split].
  - destruct A1 as [|a A1]; [exact (f_equal Some Hn)|]. cbn [Nat.ltb Nat.leb length]. rewrite Hn.
    apply write_at_mid; [reflexivity | rewrite repeat_length; reflexivity].
  - change (repeat junk (1 + length A2 + extra)) with ([junk] ++ repeat junk (length A2 + extra)).
    apply write_at_mid; reflexivity.
  - rewrite repeat_app, (app_assoc A1 [what]).
    rewrite write_at_mid, <- !app_assoc; [reflexivity | | rewrite repeat_length; reflexivity].
    rewrite app_length. reflexivity.
Qed.

(* The block has _rsz slots once there is one: the explicit constructor leaves _arr null, and the
   first insert (the _sz = 0 branch) allocates it -- hence the disjunct. *)
Definition ps_wf (s : pset) : Prop :=
  p_hash s = None /\ (p_sz s <= p_rsz s)%nat /\ (0 < p_rsz s)%nat /\
  (p_sz s = 0%nat \/ length (p_arr s) = p_rsz s) /\ keys_sorted (abs s) = true.

Lemma wf_no_hash s : ps_wf s -> p_hash s = None.
Proof. intros Hwf. apply Hwf. Qed.

Lemma wf_le s : ps_wf s -> (p_sz s <= p_rsz s)%nat.
Proof. intros Hwf. apply Hwf. Qed.

Lemma abs_nil s : p_sz s = 0%nat -> abs s = [].
Proof. intros H. unfold abs. rewrite H. reflexivity. Qed.

Lemma abs_layout s L rest : p_arr s = L ++ rest -> p_sz s = length L -> abs s = L.
Proof. intros Ha Hz. unfold abs. rewrite Ha, Hz. apply firstn_exact. Qed.

Lemma abs_length s : ps_wf s -> length (abs s) = p_sz s.
Proof.
  intros Hwf. pose proof (wf_le s Hwf) as Hle. destruct Hwf as [_ [_ [_ [[H0|Hl] _]]]].
  - rewrite (abs_nil s H0), H0. reflexivity.
  - unfold abs. rewrite firstn_length. lia.
Qed.

Lemma wf_sorted s : ps_wf s -> keys_sorted (abs s) = true.
Proof. intros Hwf. apply Hwf. Qed.

Lemma arr_split s : p_arr s = abs s ++ skipn (p_sz s) (p_arr s).
Proof. unfold abs. symmetry. apply firstn_skipn. Qed.

Lemma wf_layout s L rest :
  p_hash s = None -> p_arr s = L ++ rest -> p_sz s = length L ->
  p_rsz s = (length L + length rest)%nat -> (0 < p_rsz s)%nat -> keys_sorted L = true ->
  ps_wf s /\ abs s = L.
Proof.
  intros Hh Ha Hz Hr Hpos Hs.
  pose proof (abs_layout s L rest Ha Hz) as HL.
  split; [|exact HL]. unfold ps_wf. rewrite HL. repeat split; try assumption; try lia.
  right. rewrite Ha, app_length. lia.
Qed.

Lemma equal_range_wf s what :
  ps_wf s ->
  equal_range_at elt (p_arr s) what 0 (p_sz s) =
  Some (sl_count_lt (abs s) (fst what),
        if sl_mem (abs s) (fst what) then (sl_count_lt (abs s) (fst what) + 1)%nat
        else sl_count_lt (abs s) (fst what)).
Proof.
  intros Hwf. pose proof (wf_sorted s Hwf) as Hs.
  rewrite <- (abs_length s Hwf), (arr_split s). unfold elt.
  rewrite (equal_range_at_keys fst Z.ltb Zltb_trans Z.ltb_irrefl).
  destruct (o_equal_range_member Z.ltb Zltb_strict_total (map fst (abs s)) (fst what) Hs)
    as [a [b [-> [-> [Hin Hnin]]]]].
  rewrite <- sl_count_lt_keys in *. f_equal. f_equal. destruct (sl_mem (abs s) (fst what)) eqn:M.
  - apply sl_mem_In in M. apply Hin, M.
  - apply Hnin, sl_mem_false, M.
Qed.

Lemma find_answer_wf s what :
  ps_wf s ->
  ps_find_answer s what = Some (Some (sl_count_lt (abs s) (fst what)), sl_mem (abs s) (fst what)).
Proof.
  intros Hwf. unfold ps_find_answer. rewrite (wf_no_hash s Hwf), (equal_range_wf s what Hwf).
  f_equal. f_equal. destruct (sl_mem (abs s) (fst what)).
  - apply negb_true_iff, Nat.eqb_neq. lia.
  - apply negb_false_iff, Nat.eqb_refl.
Qed.

Lemma find_wf s k : ps_wf s -> ps_find s k = Some (sl_index (abs s) k 0).
Proof.
  intros Hwf. unfold ps_find. rewrite (wf_no_hash s Hwf), (equal_range_wf s (key_elem k) Hwf).
  cbn [key_elem fst]. rewrite (sl_index_sorted (abs s) k (wf_sorted s Hwf)).
  f_equal. destruct (sl_mem (abs s) k).
  - rewrite (proj2 (Nat.eqb_neq _ _)) by lia. reflexivity.
  - rewrite Nat.eqb_refl. reflexivity.
Qed.

Lemma at_len s i : length (abs s) = p_sz s -> ps_at s i = Some (nth_error (abs s) i).
Proof.
  intros Hl. unfold ps_at. destruct (i <? p_sz s)%nat eqn:E.
  - apply Nat.ltb_lt in E. rewrite (arr_split s), nth_error_app1 by lia.
    destruct (nth_error (abs s) i) eqn:En; [reflexivity|]. apply nth_error_None in En. lia.
  - apply Nat.ltb_ge in E. f_equal. symmetry. apply nth_error_None. lia.
Qed.

Lemma calc_reserve_pos sz res : (1 <= calc_reserve sz res)%nat.
Proof.
  unfold calc_reserve. destruct (sz =? 0)%nat.
  - destruct (res =? 0)%nat eqn:E; [lia|]. apply Nat.eqb_neq in E. lia.
  - destruct (sz * res / 100 =? 0)%nat eqn:E2; [lia|]. apply Nat.eqb_neq in E2. lia.
Qed.

Lemma detach_no_hash s : p_hash s = None -> detach s = s.
Proof. destruct s as [a z r v h]. cbn. intros ->. reflexivity. Qed.

Lemma insert_gen_dup fixed s e :
  ps_wf s -> sl_mem (abs s) (fst e) = true ->
  ps_insert_gen fixed s e = Some (s, RInsert false None false).
Proof.
  intros Hwf M. unfold ps_insert_gen. destruct (Nat.eqb_spec (p_sz s) 0) as [E0|E0].
  - rewrite (abs_nil s E0) in M. discriminate.
  - rewrite (find_answer_wf s e Hwf), M. reflexivity.
Qed.

Lemma wf_after_insert s e rest rsz' :
  ps_wf s -> ~ In (fst e) (map fst (abs s)) -> rsz' = (p_sz s + 1 + length rest)%nat ->
  let s' := upd s (sl_insert e (abs s) ++ rest) (p_sz s + 1) rsz' in
  ps_wf s' /\ abs s' = sl_insert e (abs s).
Proof.
  intros Hwf Hn -> s'. pose proof (abs_length s Hwf) as Hl.
  destruct (wf_layout s' (sl_insert e (abs s)) rest) as [Hwf' Habs];
    cbn [s' upd p_hash p_arr p_sz p_rsz]; rewrite ?sl_insert_length; try lia.
  - exact (wf_no_hash s Hwf).
  - reflexivity.
  - apply sl_insert_sorted; [apply wf_sorted, Hwf | exact Hn].
  - split; [exact Hwf' | exact Habs].
Qed.

(* the stale flag: set exactly when the routine before 5f81ca8 had to grow the block *)
Lemma insert_gen_new fixed s e :
  ps_wf s -> sl_mem (abs s) (fst e) = false ->
  exists s',
    ps_insert_gen fixed s e =
      Some (s', RInsert true (Some (sl_count_lt (abs s) (fst e)))
                        (negb (p_sz s =? 0)%nat && negb (p_sz s <? p_rsz s)%nat && negb fixed)) /\
    ps_wf s' /\ abs s' = sl_insert e (abs s).
Proof.
  intros Hwf M. pose proof Hwf as [Hh [Hle [Hpos [Hlen Hs]]]].
  pose proof (abs_length s Hwf) as Hl. pose proof (sl_mem_false _ _ M) as Hn.
  unfold ps_insert_gen. destruct (Nat.eqb_spec (p_sz s) 0) as [E0|E0]; cbn [negb andb].
  - (* first element: a fresh block of _rsz slots *)
    rewrite Hh. destruct (p_rsz s) as [|m] eqn:Hm; [lia|].
    change (repeat junk (S m)) with ([] ++ [junk] ++ repeat junk m).
    rewrite write_at_mid by reflexivity.
    pose proof (abs_nil s E0) as Habs.
    pose proof (wf_after_insert s e (repeat junk m) (S m) Hwf Hn) as H.
    rewrite Habs, E0 in H. rewrite Habs.
    eexists. split; [reflexivity|]. apply H. rewrite repeat_length. lia.
  - rewrite (find_answer_wf s e Hwf), M, Hh.
    pose proof (sl_insert_split e (abs s) Hs Hn) as Hsplit.
    pose proof (sl_count_lt_le (abs s) (fst e)) as Hc. rewrite Hl in Hc.
    set (c := sl_count_lt (abs s) (fst e)) in *.
    set (A1 := firstn c (abs s)) in *. set (A2 := skipn c (abs s)) in *.
    assert (abs s = A1 ++ A2) as HA by (symmetry; apply firstn_skipn).
    assert (length A1 = c) as HA1 by (unfold A1; rewrite firstn_length; lia).
    assert (length A2 = (p_sz s - c)%nat) as HA2 by (unfold A2; rewrite skipn_length; lia).
    assert (length (p_arr s) = p_rsz s) as Hcap by (destruct Hlen; [contradiction | assumption]).
    destruct (Nat.ltb_spec (p_sz s) (p_rsz s)) as [Efull|Efull]; cbn [negb andb].
    + (* room left: shift the tail by one slot *)
      destruct (skipn (p_sz s) (p_arr s)) as [|j rest] eqn:Er.
      { apply (f_equal (@length _)) in Er. rewrite skipn_length in Er. cbn [length] in Er. lia. }
      assert (p_arr s = A1 ++ A2 ++ j :: rest) as Harr.
      { rewrite (arr_split s), Er, HA, <- app_assoc. reflexivity. }
      rewrite Harr, (read_range_mid A1 A2 (j :: rest)) by lia.
      destruct (shift_insert A1 A2 j e rest) as [a1 [W1 W2]].
      rewrite HA1 in W1, W2. rewrite W1, W2.
      eexists. split; [reflexivity|]. rewrite <- Hsplit. apply wf_after_insert; [assumption | assumption|].
      rewrite Harr, !app_length in Hcap. cbn [length] in Hcap. lia.
    + (* full: a new block of _sz + calc_reserve(_sz, _reserve) slots *)
      pose proof (calc_reserve_pos (p_sz s) (p_reserve s)) as Hcr.
      set (cr := calc_reserve (p_sz s) (p_reserve s)) in *.
      assert (p_arr s = A1 ++ A2 ++ []) as Harr.
      { rewrite (arr_split s), skipn_all2, HA, <- app_assoc by lia. reflexivity. }
      destruct (realloc_copy A1 A2 e (cr - 1)) as [n1 [n2 [C1 [C2 C3]]]].
      replace (length A1 + 1 + length A2 + (cr - 1))%nat with (p_sz s + cr)%nat in C1 by lia.
      rewrite HA1 in C1, C2, C3.
      assert (read_range (p_arr s) 0 c = Some A1) as R1.
      { rewrite Harr. apply (read_range_mid [] A1 (A2 ++ [])); [reflexivity | lia]. }
      assert (read_range (p_arr s) c (p_sz s - c) = Some A2) as R2.
      { rewrite Harr. apply read_range_mid; lia. }
      rewrite R1, R2, C1, C2, C3.
      eexists. split; [reflexivity|]. rewrite <- Hsplit.
      apply wf_after_insert; [assumption | assumption | rewrite repeat_length; lia].
Qed.

Lemma insert_dup s e :
  ps_wf s -> sl_mem (abs s) (fst e) = true -> ps_insert s e = Some (s, RInsert false None false).
Proof.
  intros Hwf M. unfold ps_insert. rewrite (detach_no_hash s (wf_no_hash s Hwf)). apply insert_gen_dup; assumption.
Qed.

(* the current code (5f81ca8): the returned position is always that of the inserted element *)
Lemma insert_new s e :
  ps_wf s -> sl_mem (abs s) (fst e) = false ->
  exists s', ps_insert s e = Some (s', RInsert true (Some (sl_count_lt (abs s) (fst e))) false) /\
             ps_wf s' /\ abs s' = sl_insert e (abs s).
Proof.
  intros Hwf M. unfold ps_insert. rewrite (detach_no_hash s (wf_no_hash s Hwf)).
  destruct (insert_gen_new true s e Hwf M) as [s' H]. rewrite andb_false_r in H. exists s'. exact H.
Qed.

Lemma insert_position s e s' pos :
  ps_wf s -> ps_insert s e = Some (s', RInsert true pos false) ->
  exists i, pos = Some i /\ nth_error (abs s') i = Some e /\ (i < p_sz s')%nat.
Proof.
  intros Hwf Hi. destruct (sl_mem (abs s) (fst e)) eqn:M.
  - rewrite (insert_dup s e Hwf M) in Hi. discriminate.
  - destruct (insert_new s e Hwf M) as [s1 [Hi' [Hwf1 Habs]]].
    rewrite Hi in Hi'. inversion Hi'; subst s1 pos.
    exists (sl_count_lt (abs s) (fst e)). split; [reflexivity|].
    pose proof (sl_count_lt_le (abs s) (fst e)) as Hc.
    rewrite <- (abs_length s' Hwf1), Habs, sl_insert_length. split; [|lia].
    rewrite (sl_insert_split e (abs s) (wf_sorted s Hwf) (sl_mem_false _ _ M)).
    rewrite nth_error_app2; rewrite firstn_length, Nat.min_l by lia; [|lia].
    rewrite Nat.sub_diag. reflexivity.
Qed.

Lemma insert_range_wf : forall es s,
  ps_wf s ->
  exists s', ps_insert_range s es = Some s' /\ ps_wf s' /\
             abs s' = sl_insert_range (abs s) es.
Proof.
  induction es as [|e t IH]; intros s Hwf; cbn [ps_insert_range sl_insert_range].
  - exists s. split; [reflexivity|]. split; [exact Hwf | reflexivity].
  - destruct (sl_mem (abs s) (fst e)) eqn:M.
    + rewrite (insert_dup s e Hwf M). exists s. split; [reflexivity|]. split; [exact Hwf | reflexivity].
    + destruct (insert_new s e Hwf M) as [s1 [-> [Hwf1 Habs]]].
      destruct (IH s1 Hwf1) as [s' [Hr [Hwf' Habs']]].
      exists s'. split; [exact Hr|]. split; [exact Hwf'|]. rewrite Habs', Habs. reflexivity.
Qed.

Theorem ps_step_refines s o :
  ps_wf s ->
  exists s' r, ps_step s o = Some (s', r) /\ ps_wf s' /\
               spec_step (abs s) o = (abs s', r).
Proof.
  intros Hwf.
  assert (forall r : out, exists s' r', Some (s, r) = Some (s', r') /\ ps_wf s' /\
                                  (abs s, r) = (abs s', r')) as Hsame.
  { intros r. exists s, r. split; [reflexivity|]. split; [exact Hwf | reflexivity]. }
  destruct o as [k|k|i|e|es|]; cbn [ps_step spec_step].
  - rewrite (find_wf s k Hwf). apply Hsame.
  - rewrite (find_answer_wf s (key_elem k) Hwf). apply Hsame.
  - rewrite (at_len s i (abs_length s Hwf)). apply Hsame.
  - destruct (sl_mem (abs s) (fst e)) eqn:M.
    + rewrite (insert_dup s e Hwf M). apply Hsame.
    + destruct (insert_new s e Hwf M) as [s1 [-> [Hwf1 Habs]]].
      eexists _, _. split; [reflexivity|]. split; [exact Hwf1|]. rewrite Habs. reflexivity.
  - destruct (insert_range_wf es s Hwf) as [s' [-> [Hwf' Habs]]].
    exists s', RRange. split; [reflexivity|]. split; [exact Hwf'|]. rewrite Habs. reflexivity.
  - eexists _, _. split; [reflexivity|]. destruct Hwf as [Hh [Hle [Hpos [Hlen Hs]]]]. split; [|reflexivity].
    unfold ps_wf, upd, abs; cbn. repeat split; try lia; try assumption.
Qed.

Theorem ps_run_refines : forall ops s,
  ps_wf s ->
  exists s' rs, ps_run s ops = Some (s', rs) /\ ps_wf s' /\
    map fst rs = spec_run (abs s) ops /\
    Forall (fun x => (snd (fst x) <= snd x)%nat) rs.
Proof.
  induction ops as [|o t IH]; intros s Hwf; cbn [ps_run spec_run].
  - exists s, []. split; [reflexivity|]. split; [exact Hwf|]. split; [reflexivity | constructor].
  - destruct (ps_step_refines s o Hwf) as [s1 [r [Hstep [Hwf1 Hspec]]]]. rewrite Hstep.
    destruct (IH s1 Hwf1) as [s' [rs [Hrun [Hwf' [Hmap Hall]]]]]. rewrite Hrun.
    eexists _, _. split; [reflexivity|]. split; [exact Hwf'|]. rewrite Hspec. split.
    + cbn [map fst snd]. rewrite Hmap. f_equal. f_equal. symmetry. apply abs_length. exact Hwf1.
    + constructor; [|exact Hall]. cbn. apply wf_le, Hwf1.
Qed.

(* an entry of rs is ((answer, _sz), _rsz) after the step: size <= rsize throughout *)
Definition refines (s : pset) (L : list elem) (ops : list op) : Prop :=
  exists s' rs, ps_run s ops = Some (s', rs) /\ map fst rs = spec_run L ops /\
                Forall (fun x => (snd (fst x) <= snd x)%nat) rs.

Lemma run_detached ops s : ps_wf s -> refines s (abs s) ops.
Proof.
  intros Hwf. destruct (ps_run_refines ops s Hwf) as [s' [rs [H1 [_ [H2 H3]]]]].
  exists s', rs. repeat split; assumption.
Qed.

(* the constructors establish the invariant for any reserve, 0 included *)
Lemma init_array_wf tab reserve :
  keys_sorted tab = true -> ps_wf (ps_init_array tab reserve) /\ abs (ps_init_array tab reserve) = tab.
Proof.
  intros Hs. pose proof (calc_reserve_pos (length tab) reserve).
  apply (wf_layout _ tab (repeat junk (length tab + calc_reserve (length tab) reserve - length tab)));
    cbn [ps_init_array p_hash p_arr p_sz p_rsz]; rewrite ?repeat_length; try reflexivity; try assumption; lia.
Qed.

Lemma init_explicit_wf sz reserve : ps_wf (ps_init_explicit sz reserve) /\ abs (ps_init_explicit sz reserve) = [].
Proof.
  split; [|reflexivity]. unfold ps_wf, ps_init_explicit, abs; cbn [p_hash p_sz p_rsz p_arr firstn].
  pose proof (calc_reserve_pos sz reserve). repeat split; try lia.
Qed.

Theorem presorted_refines_lemma tab reserve ops :
  keys_sorted tab = true -> refines (ps_init_array tab reserve) tab ops.
Proof.
  intros Hs. destruct (init_array_wf tab reserve Hs) as [Hwf Habs].
  pose proof (run_detached ops _ Hwf) as H. rewrite Habs in H. exact H.
Qed.

(* Sets built from a hash array.  The hash array indexes the initial layout; it is consulted by
   find until the first insert detaches it.  Constructor precondition: the table is non-empty and
   strictly sorted by (non-negative) key -- what the generated trait tables satisfy (evaluated on
   every dumped table). *)
Inductive hmode := HDetached | HIntact | HCleared.

Definition hash_intact (s : pset) : Prop :=
  exists tab extra, p_hash s = Some (map fst tab) /\ p_arr s = tab ++ extra /\ p_sz s = length tab /\
    length (p_arr s) = p_rsz s /\ (p_sz s < p_rsz s)%nat /\
    keys_sorted tab = true /\ nonneg_keys (map fst tab) = true /\ tab <> [].

Definition inv (s : pset) (m : hmode) : Prop :=
  match m with
  | HDetached => ps_wf s
  | HIntact => hash_intact s
  | HCleared => p_sz s = 0%nat /\ (0 < p_rsz s)%nat
  end.

(* the histories for which a hash-built set answers like the sorted list: while the hash array is
   attached, find(key, answer) only for keys that are present, and no lookup between a clear() and
   the next insert.  (The code still gets the excluded cases wrong, see the _refuted witnesses.) *)
Fixpoint hist_ok (m : hmode) (L : list elem) (ops : list op) : bool :=
  match ops with
  | [] => true
  | o :: t =>
    match m with
    | HDetached => true
    | HIntact =>
      match o with
      | OFind _ | OAt _ => hist_ok m L t
      | OFindA k => sl_mem L k && hist_ok m L t
      | OInsert _ => true
      | OInsertRange [] => hist_ok m L t
      | OInsertRange (_ :: _) => true
      | OClear => hist_ok HCleared [] t
      end
    | HCleared =>
      match o with
      | OAt _ | OClear | OInsertRange [] => hist_ok HCleared [] t
      | OInsert _ | OInsertRange (_ :: _) => true
      | OFind _ | OFindA _ => false
      end
    end
  end.

(* the table the hash array was built from is the set's content *)
Lemma intact_abs s :
  hash_intact s ->
  p_hash s = Some (map fst (abs s)) /\ length (abs s) = p_sz s /\ (p_sz s < p_rsz s)%nat /\
  length (p_arr s) = p_rsz s /\ keys_sorted (abs s) = true /\
  nonneg_keys (map fst (abs s)) = true /\ abs s <> [].
Proof.
  intros [tab [extra [Hh [Ha [Hz [Hl [Hlt [Hs [Hn Hne]]]]]]]]].
  rewrite (abs_layout s tab extra Ha Hz).
  repeat split; try assumption. symmetry. exact Hz.
Qed.

Lemma hash_lookup_intact s k :
  hash_intact s ->
  exists r, ftha_find (map fst (abs s)) (map fst (p_arr s)) k = Some r /\
            (forall i, r = Some i <-> nth_error (map fst (abs s)) i = Some k).
Proof.
  intros Hi. destruct (intact_abs s Hi) as [_ [_ [_ [_ [Hs [Hn Hne]]]]]].
  rewrite (arr_split s), map_app. apply ftha_find_exact; [assumption | assumption|].
  destruct (abs s); [congruence | discriminate].
Qed.

Lemma find_intact s k : hash_intact s -> ps_find s k = Some (sl_index (abs s) k 0).
Proof.
  intros Hi. destruct (hash_lookup_intact s k Hi) as [r [Hr Hiff]].
  destruct (intact_abs s Hi) as [Hh [Hl _]].
  unfold ps_find. rewrite Hh, Hr, (exact_index_sl (abs s) k r Hiff).
  destruct r as [j|]; [|reflexivity].
  assert (j < p_sz s)%nat.
  { rewrite <- Hl, <- (map_length fst). apply nth_error_Some.
    rewrite (proj1 (Hiff j) eq_refl). discriminate. }
  rewrite (proj2 (Nat.eqb_neq _ _)) by lia. reflexivity.
Qed.

Lemma find_answer_intact s k :
  hash_intact s -> sl_mem (abs s) k = true ->
  ps_find_answer s (key_elem k) = Some (Some (sl_count_lt (abs s) k), true).
Proof.
  intros Hi Hm. destruct (hash_lookup_intact s k Hi) as [r [Hr Hiff]].
  destruct (intact_abs s Hi) as [Hh [_ [_ [_ [Hs _]]]]].
  unfold ps_find_answer. cbn [key_elem fst]. rewrite Hh, Hr.
  pose proof (exact_index_sl (abs s) k r Hiff) as Hsl.
  rewrite (sl_index_sorted (abs s) k Hs), Hm in Hsl. subst r. reflexivity.
Qed.

Lemma detach_intact s : hash_intact s -> ps_wf (detach s).
Proof.
  intros Hi. destruct (intact_abs s Hi) as [_ [_ [Hlt [Hl [Hs _]]]]].
  unfold ps_wf. change (abs (detach s)) with (abs s). cbn [detach p_hash p_sz p_rsz p_arr].
  repeat split; try lia; try assumption.
Qed.

Lemma detach_cleared s : p_sz s = 0%nat -> (0 < p_rsz s)%nat -> ps_wf (detach s).
Proof.
  intros Hz Hr. unfold ps_wf, abs. cbn [detach p_hash p_sz p_rsz p_arr]. rewrite Hz. cbn [firstn].
  repeat split; try lia.
Qed.

Lemma ps_insert_detach s e : ps_insert s e = ps_insert (detach s) e.
Proof. reflexivity. Qed.

Lemma ps_insert_range_detach s e t : ps_insert_range s (e :: t) = ps_insert_range (detach s) (e :: t).
Proof. reflexivity. Qed.

Lemma run_cons s o t s1 r L1 :
  ps_step s o = Some (s1, r) -> spec_step (abs s) o = (L1, r) ->
  length L1 = p_sz s1 -> (p_sz s1 <= p_rsz s1)%nat ->
  refines s1 L1 t -> refines s (abs s) (o :: t).
Proof.
  intros Hstep Hspec Hlen Hle [s' [rs [Hrun [Hmap Hall]]]].
  unfold refines. cbn [ps_run spec_run]. rewrite Hstep, Hrun, Hspec.
  eexists _, _. split; [reflexivity|]. split.
  - cbn [map fst snd]. rewrite Hmap, Hlen. reflexivity.
  - constructor; [cbn; exact Hle | exact Hall].
Qed.

(* a step that detaches the hash array (insert / non-empty range insert) and everything after it *)
Lemma run_after_detach s o t :
  ps_wf (detach s) -> ps_step s o = ps_step (detach s) o -> refines s (abs s) (o :: t).
Proof.
  intros Hwf Hstep. destruct (run_detached (o :: t) (detach s) Hwf) as [s' [rs [Hrun H]]].
  exists s', rs. split; [|exact H]. cbn [ps_run] in *. rewrite Hstep. exact Hrun.
Qed.

(* clear() leaves the hash array attached: what follows runs in the cleared mode *)
Lemma run_clear s t :
  (0 < p_rsz s)%nat -> refines (upd s (p_arr s) 0 (p_rsz s)) [] t -> refines s (abs s) (OClear :: t).
Proof.
  intros Hr. apply (run_cons s OClear t (upd s (p_arr s) 0 (p_rsz s)) RClear []); [reflexivity | reflexivity | reflexivity|].
  cbn. lia.
Qed.

Theorem ps_run_refines_gen : forall ops s m,
  inv s m -> hist_ok m (abs s) ops = true -> refines s (abs s) ops.
Proof.
  induction ops as [|o t IH]; intros s m Hinv Hok.
  - exists s, []. split; [reflexivity|]. split; [reflexivity | constructor].
  - destruct m; cbn [inv] in Hinv.
    + apply run_detached. exact Hinv.
    + (* hash array attached, nothing inserted or cleared yet: lookups leave the state as it is *)
      destruct (intact_abs s Hinv) as [_ [Hlen [Hlt _]]].
      assert (forall r, ps_step s o = Some (s, r) -> spec_step (abs s) o = (abs s, r) ->
                        hist_ok HIntact (abs s) t = true -> refines s (abs s) (o :: t)) as Hstay.
      { intros r Hstep Hspec Hok'. apply (run_cons s o t s r (abs s) Hstep Hspec Hlen); [lia|].
        apply (IH s HIntact Hinv Hok'). }
      destruct o as [k|k|i|e|[|e es]|]; cbn [hist_ok] in Hok.
      * apply (Hstay (RFind (sl_index (abs s) k 0))); [|reflexivity | exact Hok].
        cbn [ps_step]. rewrite (find_intact s k Hinv). reflexivity.
      * apply andb_true_iff in Hok. destruct Hok as [Hm Hok].
        apply (Hstay (RFindA (Some (sl_count_lt (abs s) k)) true)); [| |exact Hok].
        -- cbn [ps_step]. rewrite (find_answer_intact s k Hinv Hm). reflexivity.
        -- cbn [spec_step]. rewrite Hm. reflexivity.
      * apply (Hstay (RAt (nth_error (abs s) i))); [|reflexivity | exact Hok].
        cbn [ps_step]. rewrite (at_len s i Hlen). reflexivity.
      * apply run_after_detach; [apply detach_intact, Hinv | reflexivity].
      * apply (Hstay RRange); [reflexivity | reflexivity | exact Hok].
      * apply run_after_detach; [apply detach_intact, Hinv | reflexivity].
      * apply run_clear; [lia|]. apply (IH (upd s (p_arr s) 0 (p_rsz s)) HCleared); [|exact Hok].
        cbn. split; [reflexivity | lia].
    + (* cleared while the hash array was attached *)
      destruct Hinv as [Hz Hr].
      pose proof (abs_nil s Hz) as Habs.
      assert (forall r, ps_step s o = Some (s, r) -> spec_step [] o = ([], r) ->
                        hist_ok HCleared [] t = true -> refines s (abs s) (o :: t)) as Hstay.
      { intros r Hstep Hspec Hok'. rewrite <- Habs in Hspec at 1.
        apply (run_cons s o t s r [] Hstep Hspec); [cbn; lia | lia|].
        rewrite <- Habs. apply (IH s HCleared); [split; assumption | rewrite Habs; exact Hok']. }
      rewrite Habs in Hok.
      destruct o as [k|k|i|e|[|e es]|]; cbn [hist_ok] in Hok; try discriminate.
      * apply (Hstay (RAt None)); [| destruct i; reflexivity | exact Hok].
        cbn [ps_step]. unfold ps_at. rewrite Hz. reflexivity.
      * apply run_after_detach; [apply detach_cleared; assumption | reflexivity].
      * apply (Hstay RRange); [reflexivity | reflexivity | exact Hok].
      * apply run_after_detach; [apply detach_cleared; assumption | reflexivity].
      * apply run_clear; [lia|]. apply (IH (upd s (p_arr s) 0 (p_rsz s)) HCleared); [|exact Hok].
        cbn. split; [reflexivity | lia].
Qed.

Lemma init_hash_intact tab :
  keys_sorted tab = true -> nonneg_keys (map fst tab) = true -> tab <> [] ->
  hash_intact (ps_init_hash tab) /\ abs (ps_init_hash tab) = tab.
Proof.
  intros Hs Hn Hne. pose proof (calc_reserve_pos (length tab) 0) as Hc. split.
  - exists tab, (repeat junk (length tab + calc_reserve (length tab) 0 - length tab)).
    unfold ps_init_hash; cbn [p_hash p_arr p_sz p_rsz].
    repeat split; try assumption; try reflexivity; [|lia].
    rewrite app_length, repeat_length. lia.
  - apply firstn_exact.
Qed.

Theorem presorted_hash_refines_lemma tab ops :
  keys_sorted tab = true -> nonneg_keys (map fst tab) = true -> tab <> [] ->
  hist_ok HIntact tab ops = true -> refines (ps_init_hash tab) tab ops.
Proof.
  intros Hs Hn Hne Hok. destruct (init_hash_intact tab Hs Hn Hne) as [Hi Habs].
  pose proof (ps_run_refines_gen ops (ps_init_hash tab) HIntact Hi) as H.
  rewrite Habs in H. exact (H Hok).
Qed.

(* the oracle's comparison of observations is reflexive: it accepts what the sorted list yields *)
Lemma onat_eqb_refl a : onat_eqb a a = true.
Proof. destruct a; cbn; [apply Nat.eqb_refl | reflexivity]. Qed.

Lemma out_eqb_refl o : out_eqb o o = true.
Proof.
  destruct o as [r|p a|[e|]|ok pos st| |]; cbn; try reflexivity.
  - apply onat_eqb_refl.
  - rewrite onat_eqb_refl, eqb_reflx. reflexivity.
  - unfold elem_eqb. rewrite !Z.eqb_refl. reflexivity.
  - rewrite !eqb_reflx, onat_eqb_refl. reflexivity.
Qed.

Lemma outs_eqb_refl l : outs_eqb l l = true.
Proof. induction l as [|[o n] l IH]; cbn; [reflexivity|]. rewrite out_eqb_refl, Nat.eqb_refl, IH. reflexivity. Qed.

Theorem insert_never_stale_lemma s e s' ok pos stale :
  ps_wf s -> ps_insert s e = Some (s', RInsert ok pos stale) -> stale = false.
Proof.
  intros Hwf Hi. destruct (sl_mem (abs s) (fst e)) eqn:M.
  - rewrite (insert_dup s e Hwf M) in Hi. inversion Hi. reflexivity.
  - destruct (insert_new s e Hwf M) as [s1 [Hi' _]]. rewrite Hi in Hi'. inversion Hi'. reflexivity.
Qed.

Theorem insert_orig_stale_lemma s e s' ok pos stale :
  ps_wf s -> ps_insert_orig s e = Some (s', RInsert ok pos stale) ->
  (stale = true <-> (ok = true /\ p_sz s <> 0%nat /\ p_sz s = p_rsz s)).
Proof.
  intros Hwf Hi. unfold ps_insert_orig in Hi. destruct (sl_mem (abs s) (fst e)) eqn:M.
  - rewrite (insert_gen_dup false s e Hwf M) in Hi. inversion Hi.
    split; [discriminate | intros [C _]; discriminate].
  - destruct (insert_gen_new false s e Hwf M) as [s1 [Hi' _]]. rewrite Hi in Hi'. inversion Hi'.
    pose proof (wf_le s Hwf) as Hle.
    rewrite andb_true_r, andb_true_iff, !negb_true_iff, Nat.eqb_neq, Nat.ltb_ge. intuition lia.
Qed.

(* the witness of the stale iterator: a full two-element set (30 = FIX8_RESERVE_PERCENT, the
   default reserve of the constructors) *)
Definition full_set : pset :=
  {| p_arr := [(1, 0); (2, 0)]; p_sz := 2; p_rsz := 2; p_reserve := 30; p_hash := None |}.

Lemma full_set_wf : ps_wf full_set.
Proof. unfold ps_wf, full_set, abs; cbn. repeat split; try lia. Qed.
