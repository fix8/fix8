(* On a table sorted by key (hence with unique keys) GeneratedTable::_find, F8MetaCntx::find_be,
   the hash-array find and the reverse name maps return the exact index. *)
From Coq Require Import Arith List Bool Lia ZArith.
From F8 Require Import C12.Bisect C12.BisectProofs C12.Tables C12.Spec_C12.
Import ListNotations.

Section Generated.
  Context {K : Type}.
  Variable ltK : K -> K -> bool.
  Hypothesis O : strict_total ltK.

  Theorem gt_find_exact keys k :
    sortedb ltK keys = true ->
    exists r, gt_find ltK keys k = Some r /\ forall i, r = Some i <-> nth_error keys i = Some k.
  Proof.
    intros Hs. unfold gt_find. rewrite (o_lower_bound_sorted ltK O keys k Hs).
    pose proof (count_lt_le ltK keys k) as Hle.
    set (c := count_lt ltK keys k) in *.
    destruct (Nat.eqb_spec c (length keys)) as [E|E].
    - exists None. split; [reflexivity|]. intros i. split; [discriminate|]. intros Hi.
      assert (i < length keys) by (apply nth_error_Some; congruence).
      apply (o_lower_bound_hit ltK O keys k i Hs) in Hi. fold c in Hi. lia.
    - destruct (nth_error keys c) as [x|] eqn:Ex. 2:{ apply nth_error_None in Ex. lia. }
      exists (if ltK k x then None else Some c). split; [reflexivity|]. intros i.
      rewrite (o_lower_bound_hit ltK O keys k i Hs). fold c. destruct (ltK k x) eqn:Ekx; split.
      + discriminate.
      + intros [-> [y [Hy Hky]]]. congruence.
      + intros H. inversion H; subst i. split; [reflexivity|]. exists x. split; assumption.
      + intros [-> _]. reflexivity.
  Qed.

  Theorem gt_find_ptr_exact {V : Type} (T : list (K * V)) k :
    sortedb ltK (map fst T) = true ->
    exists r, gt_find_ptr ltK T k = Some r /\ forall v, r = Some v <-> In (k, v) T.
  Proof.
    intros Hs. unfold gt_find_ptr. destruct (gt_find_exact (map fst T) k Hs) as [r [-> Hiff]].
    assert (forall v, In (k, v) T <-> exists j, r = Some j /\ nth_error T j = Some (k, v)) as Hin.
    { intros v. split.
      - intros H. apply In_nth_error in H. destruct H as [j Hj]. exists j. split; [|exact Hj].
        apply Hiff. rewrite nth_error_map, Hj. reflexivity.
      - intros [j [_ Hj]]. eapply nth_error_In; eassumption. }
    destruct r as [i|].
    - pose proof (proj1 (Hiff i) eq_refl) as Hi. rewrite nth_error_map in Hi.
      destruct (nth_error T i) as [[k' v']|] eqn:Et; [|discriminate]. cbn in Hi. inversion Hi; subst k'.
      exists (Some v'). split; [reflexivity|]. intros v. rewrite Hin. split.
      + intros H. inversion H; subst v. exists i. split; [reflexivity | exact Et].
      + intros [j [Hj Hv]]. inversion Hj; subst j. congruence.
    - exists None. split; [reflexivity|]. intros v. rewrite Hin. split; [discriminate|].
      intros [j [C _]]. discriminate.
  Qed.

  Variable eqK : K -> K -> bool.
  Hypothesis eqK_eq : forall a b, eqK a b = true <-> a = b.

  Lemma exact_lookup_ok keys k r :
    (forall i, r = Some i <-> nth_error keys i = Some k) -> c12_lookup_ok eqK keys k r = true.
  Proof.
    intros Hiff. unfold c12_lookup_ok. destruct r as [i|].
    - rewrite (proj1 (Hiff i) eq_refl). apply eqK_eq. reflexivity.
    - apply negb_true_iff. apply not_true_iff_false. intros C. apply existsb_exists in C.
      destruct C as [x [Hx He]]. apply eqK_eq in He. subst x.
      apply In_nth_error in Hx. destruct Hx as [j Hj]. apply Hiff in Hj. discriminate.
  Qed.

  Theorem gt_find_ok keys k r :
    sortedb ltK keys = true -> gt_find ltK keys k = Some r -> c12_lookup_ok eqK keys k r = true.
  Proof.
    intros Hs Hr. destruct (gt_find_exact keys k Hs) as [r' [Hr' Hiff]].
    assert (r' = r) by congruence. subst. apply exact_lookup_ok. exact Hiff.
  Qed.
End Generated.

Local Open Scope Z_scope.

Lemma last_write_absent : forall keys k i acc, ~ In k keys -> last_write keys k i acc = acc.
Proof.
  induction keys as [|x t IH]; intros k i acc Hn; cbn [last_write]; [reflexivity|].
  destruct (x =? k) eqn:E.
  - apply Z.eqb_eq in E. subst. exfalso. apply Hn. left. reflexivity.
  - apply IH. intros C. apply Hn. right. exact C.
Qed.

Lemma last_write_member : forall keys k j i acc,
  NoDup keys -> nth_error keys j = Some k -> last_write keys k i acc = Some (i + j)%nat.
Proof.
  induction keys as [|x t IH]; intros k j i acc Hnd Hj; [destruct j; discriminate|].
  inversion Hnd as [|? ? Hx Hnd']; subst. cbn [last_write]. destruct j.
  - cbn in Hj. inversion Hj; subst. rewrite Z.eqb_refl.
    rewrite last_write_absent by assumption. f_equal. lia.
  - cbn [nth_error] in Hj. destruct (x =? k) eqn:E.
    + apply Z.eqb_eq in E. subst. exfalso. apply Hx. eapply nth_error_In; eassumption.
    + rewrite (IH k j (i + 1)%nat acc Hnd' Hj). f_equal. lia.
Qed.

Lemma last_write_sound : forall keys k i acc m,
  last_write keys k i acc = Some m ->
  acc = Some m \/ ((i <= m)%nat /\ nth_error keys (m - i) = Some k).
Proof.
  induction keys as [|x t IH]; intros k i acc m H; cbn [last_write] in H; [left; exact H|].
  apply IH in H. destruct H as [H|[Hle H]].
  - destruct (x =? k) eqn:E; [|left; exact H]. inversion H; subst. apply Z.eqb_eq in E. subst.
    right. split; [lia|]. rewrite Nat.sub_diag. reflexivity.
  - right. split; [lia|]. replace (m - i)%nat with (S (m - (i + 1)))%nat by lia. exact H.
Qed.

Lemma last_write_exact keys k i :
  NoDup keys -> (last_write keys k 0 None = Some i <-> nth_error keys i = Some k).
Proof.
  intros Hnd. split.
  - intros H. apply last_write_sound in H. destruct H as [H|[_ H]]; [discriminate|].
    rewrite Nat.sub_0_r in H. exact H.
  - apply (last_write_member keys k i 0%nat None Hnd).
Qed.

Definition nonneg_keys (keys : list Z) : bool := forallb (fun k => 0 <=? k) keys.

(* the array spans the keys: its size is the last (largest) key + 1 *)
Lemma direct_size_sorted keys :
  sortedb Z.ltb keys = true -> nonneg_keys keys = true -> keys <> [] ->
  exists lastk, nth_error keys (length keys - 1) = Some lastk /\ direct_size keys = Some (lastk + 1) /\
                forall i k, nth_error keys i = Some k -> 0 <= k <= lastk.
Proof.
  intros Hs Hnn Hne. unfold direct_size.
  destruct (nth_error keys (length keys - 1)) as [lastk|] eqn:El.
  2:{ apply nth_error_None in El. destruct keys; [congruence | cbn [length] in El; lia]. }
  assert (forall i k, nth_error keys i = Some k -> 0 <= k <= lastk) as Hall.
  { intros i k Hi. split.
    - apply Z.leb_le, (proj1 (forallb_forall _ keys) Hnn). eapply nth_error_In, Hi.
    - assert (i < length keys)%nat by (apply nth_error_Some; congruence).
      destruct (Nat.eq_dec i (length keys - 1)) as [->|Hne'].
      + assert (k = lastk) by congruence. lia.
      + apply Z.lt_le_incl, Z.ltb_lt.
        apply (o_sortedb_nth Z.ltb Zltb_strict_total keys Hs i (length keys - 1)%nat); [lia | exact Hi | exact El]. }
  exists lastk. split; [reflexivity|]. split; [|exact Hall].
  assert (forallb (fun k => (0 <=? k) && (k <? lastk + 1)) keys = true) as ->; [|reflexivity].
  apply forallb_forall. intros k Hk. apply In_nth_error in Hk. destruct Hk as [i Hi].
  specialize (Hall i k Hi). apply andb_true_iff. split; [apply Z.leb_le | apply Z.ltb_lt]; lia.
Qed.

(* the last premise: the constructor of F8MetaCntx throws on a field table whose last key is 0 *)
Theorem find_be_exact keys k :
  sortedb Z.ltb keys = true -> nonneg_keys keys = true -> keys <> [] ->
  nth_error keys (length keys - 1) <> Some 0 ->
  exists r, find_be keys k = Some r /\ forall i, r = Some i <-> nth_error keys i = Some k.
Proof.
  intros Hs Hnn Hne Hlast. destruct (direct_size_sorted keys Hs Hnn Hne) as [lastk [El [Hsz Hall]]].
  unfold find_be. rewrite Hsz.
  assert ((lastk + 1 =? 1) = false) as ->.
  { apply Z.eqb_neq. intros E. apply Hlast. rewrite El. f_equal. lia. }
  pose proof (o_sortedb_NoDup Z.ltb Zltb_strict_total keys Hs) as Hnd.
  eexists. split; [reflexivity|]. intros i. destruct (k <? lastk + 1) eqn:E.
  - apply last_write_exact, Hnd.
  - apply Z.ltb_ge in E. split; [discriminate|]. intros Hi. specialize (Hall i k Hi). lia.
Qed.

(* the hash-array find of a message's field-trait set: its array starts with a copy of the table
   (spare slots may follow) *)
Theorem ftha_find_exact keys extra k :
  sortedb Z.ltb keys = true -> nonneg_keys keys = true -> keys <> [] ->
  exists r, ftha_find keys (keys ++ extra) k = Some r /\ forall i, r = Some i <-> nth_error keys i = Some k.
Proof.
  intros Hs Hnn Hne. destruct (direct_size_sorted keys Hs Hnn Hne) as [lastk [_ [Hsz Hall]]].
  unfold ftha_find. rewrite Hsz.
  pose proof (o_sortedb_NoDup Z.ltb Zltb_strict_total keys Hs) as Hnd.
  destruct (k <? lastk + 1) eqn:E.
  - unfold ftha_cell. destruct (last_write keys k 0 None) as [j|] eqn:Elw.
    + pose proof (proj1 (last_write_exact keys k j Hnd) Elw) as Hj.
      rewrite nth_error_app1, Hj, Z.eqb_refl by (apply nth_error_Some; congruence).
      eexists. split; [reflexivity|]. intros i. rewrite <- (last_write_exact keys k i Hnd), Elw. reflexivity.
    + assert (forall i, nth_error keys i <> Some k) as Hn.
      { intros i Hi. apply (last_write_exact keys k i Hnd) in Hi. congruence. }
      destruct keys as [|x t]; [congruence|]. cbn [app nth_error].
      assert ((x =? k) = false) as -> by (apply Z.eqb_neq; intros ->; apply (Hn 0%nat); reflexivity).
      eexists. split; [reflexivity|]. intros i. split; [discriminate|]. intros Hi. destruct (Hn i Hi).
  - apply Z.ltb_ge in E. eexists. split; [reflexivity|]. intros i. split; [discriminate|].
    intros Hi. specialize (Hall i k Hi). lia.
Qed.

Lemma list_eqb_eq : forall a b, list_eqb a b = true <-> a = b.
Proof.
  induction a as [|x a IH]; destruct b as [|y b]; cbn [list_eqb]; try (split; [discriminate|congruence]).
  - split; reflexivity.
  - rewrite andb_true_iff, Z.eqb_eq, IH. split; [intros [-> ->]; reflexivity | intros H; inversion H; auto].
Qed.

Lemma first_index_find : forall names n k, first_index names n k = find_from (fun x => list_eqb x n) names k.
Proof.
  induction names as [|x t IH]; intros n k; cbn [first_index find_from]; [reflexivity|].
  destruct (list_eqb x n); [reflexivity | apply IH].
Qed.

Lemma first_index_spec names n k :
  match first_index names n k with
  | Some j => (k <= j)%nat /\ nth_error names (j - k) = Some n
  | None => ~ In n names
  end.
Proof.
  pose proof (find_from_spec _ (fun x => x) n (fun x => list_eqb_eq x n) names k) as H.
  rewrite map_id in H. rewrite first_index_find. exact H.
Qed.

Theorem reverse_find_exact ce names n :
  NoDup names -> (ce = true -> n <> []) ->
  forall j, reverse_find ce names n = Some j <-> nth_error names j = Some n.
Proof.
  intros Hnd Hce j. unfold reverse_find.
  assert ((ce && match n with [] => true | _ => false end) = false) as ->.
  { destruct ce; [|reflexivity]. destruct n; [exfalso; apply Hce; reflexivity | reflexivity]. }
  pose proof (first_index_spec names n 0%nat) as H. destruct (first_index names n 0) as [m|].
  - destruct H as [_ Hm]. rewrite Nat.sub_0_r in Hm. split.
    + intros E. inversion E; subst. exact Hm.
    + intros Hj. f_equal. eapply (proj1 (NoDup_nth_error names) Hnd); [|congruence].
      apply nth_error_Some. congruence.
  - split; [discriminate|]. intros Hj. exfalso. apply H. eapply nth_error_In; eassumption.
Qed.

Theorem reverse_find_empty names : reverse_find true names [] = None.
Proof. reflexivity. Qed.
