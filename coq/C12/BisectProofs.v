(* Both loops are bisection on a predicate ([bis_loop]): on a range inside the array they return
   an index of the range, and the partition point when the predicate is monotone there.  On a
   sorted array the partition points of (< key) and (<= key) are the counts of such elements. *)
From Coq Require Import Arith List Bool Lia ZArith.
From F8 Require Import C12.Bisect.
Import ListNotations.

Lemma div2_lt n : n <> 0 -> Nat.div2 n < n.
Proof. intros. apply Nat.lt_div2. lia. Qed.

Lemma filter_length_le {A} (p : A -> bool) l : length (filter p l) <= length l.
Proof. induction l as [|a l IH]; cbn [filter length]; [lia|]. destruct (p a); cbn [length]; lia. Qed.

Lemma count_lt_le {A} (lt : A -> A -> bool) l v : count_lt lt l v <= length l.
Proof. apply filter_length_le. Qed.

(* The linear scans of the oracles (Spec_C10.index_from, Spec_C12.sl_index) and of the reverse
   name maps (Tables.first_index) are all this function: the first position, counted from i,
   whose element satisfies p. *)
Fixpoint find_from {A} (p : A -> bool) (l : list A) (i : nat) : option nat :=
  match l with
  | [] => None
  | x :: t => if p x then Some i else find_from p t (i + 1)
  end.

Section FindFrom.
  Context {A B : Type} (p : A -> bool) (f : A -> B) (v : B).
  Hypothesis p_spec : forall x, p x = true <-> f x = v.

  Lemma find_from_spec : forall l i,
    match find_from p l i with
    | Some m => i <= m /\ nth_error (map f l) (m - i) = Some v
    | None => ~ In v (map f l)
    end.
  Proof.
    induction l as [|x t IH]; intros i; cbn [find_from map]; [intros []|].
    destruct (p x) eqn:E.
    - apply p_spec in E. rewrite Nat.sub_diag. split; [lia | cbn; congruence].
    - specialize (IH (i + 1)). destruct (find_from p t (i + 1)) as [m|].
      + destruct IH as [Hi Hn]. split; [lia|].
        replace (m - i) with (S (m - (i + 1))) by lia. exact Hn.
      + intros [C|C]; [|exact (IH C)]. apply p_spec in C. congruence.
  Qed.

  Lemma find_from_exact l r :
    (forall i, r = Some i <-> nth_error (map f l) i = Some v) -> find_from p l 0 = r.
  Proof.
    intros Hiff. pose proof (find_from_spec l 0) as H. destruct (find_from p l 0) as [m|].
    - destruct H as [_ Hm]. rewrite Nat.sub_0_r in Hm. symmetry. apply Hiff. exact Hm.
    - destruct r as [i|]; [|reflexivity]. exfalso. apply H.
      eapply nth_error_In. apply Hiff. reflexivity.
  Qed.
End FindFrom.

Section Generic.
  Context {A : Type}.

  Fixpoint bis_loop (p : A -> bool) (fuel : nat) (l : list A) (first len : nat) : option nat :=
    if len =? 0 then Some first else
    match fuel with
    | O => None
    | S f =>
      let half := Nat.div2 len in
      let middle := first + half in
      match nth_error l middle with
      | None => None
      | Some m => if p m then bis_loop p f l (middle + 1) (len - half - 1)
                  else bis_loop p f l first half
      end
    end.

  Lemma lb_loop_bis (lt : A -> A -> bool) v : forall fuel l first len,
    lb_loop lt fuel l v first len = bis_loop (fun m => lt m v) fuel l first len.
  Proof.
    induction fuel; intros; cbn [lb_loop bis_loop]; destruct (len =? 0); auto.
    destruct (nth_error l (first + Nat.div2 len)); auto.
    destruct (lt a v); auto.
  Qed.

  Lemma ub_loop_bis (lt : A -> A -> bool) v : forall fuel l first len,
    ub_loop lt fuel l v first len = bis_loop (fun m => negb (lt v m)) fuel l first len.
  Proof.
    induction fuel; intros; cbn [ub_loop bis_loop]; destruct (len =? 0); auto.
    destruct (nth_error l (first + Nat.div2 len)); auto.
    destruct (lt v a); cbn [negb]; auto.
  Qed.

  Definition part_at (p : A -> bool) (l : list A) (first len r : nat) : Prop :=
    first <= r <= first + len /\
    (forall i x, first <= i < r -> nth_error l i = Some x -> p x = true) /\
    (forall i x, r <= i < first + len -> nth_error l i = Some x -> p x = false).

  Definition mono_at (p : A -> bool) (l : list A) (first len : nat) : Prop :=
    forall i j x y, first <= i -> i <= j -> j < first + len ->
      nth_error l i = Some x -> nth_error l j = Some y -> p y = true -> p x = true.

  Lemma mono_at_sub p l first len first' len' :
    first <= first' -> first' + len' <= first + len ->
    mono_at p l first len -> mono_at p l first' len'.
  Proof. unfold mono_at; intros ? ? H i j x y ? ? ?. apply (H i j x y); lia. Qed.

  Lemma part_at_empty p l first : part_at p l first 0 first.
  Proof. split; [lia|]. split; intros; lia. Qed.

  (* the probed element first + k decides on which side of it the partition point lies *)
  Lemma part_at_right p l first len k m r :
    mono_at p l first len -> k < len -> nth_error l (first + k) = Some m -> p m = true ->
    part_at p l (first + k + 1) (len - k - 1) r -> part_at p l first len r.
  Proof.
    intros Hm Hk En Pm [Hr [Ha Hb]]. split; [lia|]. split.
    - intros i x Hi Hx. destruct (le_lt_dec i (first + k)).
      + apply (Hm i (first + k) x m); try lia; assumption.
      + apply (Ha i x); [lia | assumption].
    - intros i x Hi Hx. apply (Hb i x); [lia | assumption].
  Qed.

  Lemma part_at_left p l first len k m r :
    mono_at p l first len -> k < len -> nth_error l (first + k) = Some m -> p m = false ->
    part_at p l first k r -> part_at p l first len r.
  Proof.
    intros Hm Hk En Pm [Hr [Ha Hb]]. split; [lia|]. split.
    - intros i x Hi Hx. apply (Ha i x); [lia | assumption].
    - intros i x Hi Hx. destruct (le_lt_dec (first + k) i).
      + destruct (p x) eqn:Px; [|reflexivity]. rewrite <- Pm. symmetry.
        apply (Hm (first + k) i m x); try lia; assumption.
      + apply (Hb i x); [lia | assumption].
  Qed.

  Lemma bis_loop_spec p : forall fuel l first len,
    len <= fuel -> first + len <= length l ->
    exists r, bis_loop p fuel l first len = Some r /\ first <= r <= first + len /\
              (mono_at p l first len -> part_at p l first len r).
  Proof.
    induction fuel as [|fuel IH]; intros l first len Hf Hb.
    - assert (len = 0) as -> by lia. exists first.
      split; [reflexivity|]. split; [lia|]. intros _. apply part_at_empty.
    - cbn [bis_loop]. destruct (Nat.eqb_spec len 0) as [->|E0].
      + exists first. split; [reflexivity|]. split; [lia|]. intros _. apply part_at_empty.
      + pose proof (div2_lt len E0) as Hh. set (half := Nat.div2 len) in *.
        destruct (nth_error l (first + half)) as [m|] eqn:En.
        2:{ apply nth_error_None in En. lia. }
        destruct (p m) eqn:Pm.
        * destruct (IH l (first + half + 1) (len - half - 1)) as [r [Hr [Hin Hp]]]; try lia.
          exists r. split; [exact Hr|]. split; [lia|]. intros Hm.
          apply (part_at_right p l first len half m); try assumption.
          apply Hp. eapply mono_at_sub; [| |exact Hm]; lia.
        * destruct (IH l first half) as [r [Hr [Hin Hp]]]; try lia.
          exists r. split; [exact Hr|]. split; [lia|]. intros Hm.
          apply (part_at_left p l first len half m); try assumption.
          apply Hp. eapply mono_at_sub; [| |exact Hm]; lia.
  Qed.

  Lemma part_at_tail p a l len r : part_at p (a :: l) 0 (S len) r -> part_at p l 0 len (pred r).
  Proof.
    intros [Hr [Ht Hf]]. split; [lia|]. split.
    - intros i x Hi Hx. apply (Ht (S i) x); [lia | exact Hx].
    - intros i x Hi Hx. apply (Hf (S i) x); [lia | exact Hx].
  Qed.

  Lemma part_at_count (p : A -> bool) : forall (l : list A) r,
    part_at p l 0 (length l) r -> length (filter p l) = r.
  Proof.
    induction l as [|a l IH]; intros r Hp; cbn [length filter] in *; [destruct Hp; lia|].
    pose proof (IH _ (part_at_tail p a l _ r Hp)) as Hl. destruct Hp as [Hr [Ht Hf]].
    destruct r as [|r].
    - rewrite (Hf 0 a); [exact Hl | lia | reflexivity].
    - rewrite (Ht 0 a); [|lia|reflexivity]. cbn [length]. f_equal. exact Hl.
  Qed.

  Lemma bis_range p l first len :
    first + len <= length l -> mono_at p l first len ->
    exists r, bis_loop p len l first len = Some r /\ part_at p l first len r.
  Proof.
    intros Hb Hm. destruct (bis_loop_spec p len l first len) as [r [Hr [_ Hp]]]; [lia | assumption|].
    exists r. split; [exact Hr | exact (Hp Hm)].
  Qed.

  Lemma bis_count p l :
    mono_at p l 0 (length l) ->
    bis_loop p (length l) l 0 (length l) = Some (length (filter p l)) /\
    part_at p l 0 (length l) (length (filter p l)).
  Proof.
    intros Hm. destruct (bis_range p l 0 (length l)) as [r [Hr Hp]]; [lia | exact Hm|].
    rewrite (part_at_count p l r Hp). split; assumption.
  Qed.
End Generic.

Lemma bis_loop_keys {A B} (f : A -> B) (p : B -> bool) (rest : list A) : forall fuel l first len,
  first + len <= length l ->
  bis_loop (fun a => p (f a)) fuel (l ++ rest) first len = bis_loop p fuel (map f l) first len.
Proof.
  induction fuel as [|fuel IH]; intros l first len Hb; cbn [bis_loop];
    destruct (Nat.eqb_spec len 0) as [->|E0]; try reflexivity.
  pose proof (div2_lt len E0). rewrite nth_error_app1, nth_error_map by lia.
  destruct (nth_error l (first + Nat.div2 len)) as [m|]; [|reflexivity]. cbn [option_map].
  destruct (p (f m)); apply IH; lia.
Qed.

Section Order.
  Context {A : Type}.
  Variable lt : A -> A -> bool.
  Hypothesis lt_trans : forall a b c, lt a b = true -> lt b c = true -> lt a c = true.
  Hypothesis lt_irrefl : forall a, lt a a = false.

  Lemma lt_asym a b : lt a b = true -> lt b a = false.
  Proof.
    intros H. destruct (lt b a) eqn:E; [|reflexivity].
    rewrite <- (lt_irrefl a). symmetry. eapply lt_trans; eassumption.
  Qed.

  Lemma sortedb_cons x l : sortedb lt (x :: l) = true ->
    sortedb lt l = true /\ forall y, In y l -> lt x y = true.
  Proof.
    revert x. induction l as [|y l IH]; intros x H.
    - split; [reflexivity | intros ? []].
    - cbn [sortedb] in H. apply andb_true_iff in H. destruct H as [Hxy Hs].
      split; [exact Hs|]. intros z [->|Hz]; [exact Hxy|].
      destruct (IH y Hs) as [_ Hy]. eapply lt_trans; [exact Hxy | apply Hy, Hz].
  Qed.

  Lemma sortedb_nth : forall l, sortedb lt l = true ->
    forall i j x y, i < j -> nth_error l i = Some x -> nth_error l j = Some y -> lt x y = true.
  Proof.
    induction l as [|a l IH]; intros Hs i j x y Hij Hx Hy.
    - destruct i; discriminate.
    - destruct (sortedb_cons a l Hs) as [Hs' Ha].
      destruct j; [lia|]. cbn [nth_error] in Hy. destruct i.
      + cbn in Hx. inversion Hx; subst. apply Ha. eapply nth_error_In; eassumption.
      + cbn [nth_error] in Hx. apply (IH Hs' i j); [lia | assumption | assumption].
  Qed.

  Lemma sortedb_NoDup l : sortedb lt l = true -> NoDup l.
  Proof.
    induction l as [|a l IH]; intros Hs; [constructor|].
    destruct (sortedb_cons a l Hs) as [Hs' Ha]. constructor; [|auto].
    intros Hin. specialize (Ha a Hin). rewrite lt_irrefl in Ha. discriminate.
  Qed.

  Lemma sorted_mono p l first len :
    sortedb lt l = true -> (forall x y, lt x y = true -> p y = true -> p x = true) ->
    mono_at p l first len.
  Proof.
    intros Hs Hp i j x y _ Hij _ Hx Hy Py. destruct (Nat.eq_dec i j) as [->|Hne]; [congruence|].
    apply (Hp x y); [|exact Py]. apply (sortedb_nth l Hs i j); [lia | assumption | assumption].
  Qed.

  Lemma sorted_mono_lt l v first len : sortedb lt l = true ->
    mono_at (fun m => lt m v) l first len.
  Proof. intros Hs. apply sorted_mono; [exact Hs|]. intros x y. apply lt_trans. Qed.

  Lemma sorted_mono_le l v first len : sortedb lt l = true ->
    mono_at (fun m => negb (lt v m)) l first len.
  Proof.
    intros Hs. apply sorted_mono; [exact Hs|]. intros x y Hxy Hy.
    apply negb_true_iff in Hy. apply negb_true_iff.
    destruct (lt v x) eqn:E; [|reflexivity]. rewrite <- Hy. symmetry. eapply lt_trans; eassumption.
  Qed.

  Lemma lower_bound_at_spec l v first len :
    sortedb lt l = true -> first + len <= length l ->
    exists r, lower_bound_at lt l v first len = Some r /\ part_at (fun m => lt m v) l first len r.
  Proof.
    intros Hs Hb. unfold lower_bound_at. rewrite lb_loop_bis.
    apply bis_range; [exact Hb | apply sorted_mono_lt, Hs].
  Qed.

  Lemma upper_bound_at_spec l v first len :
    sortedb lt l = true -> first + len <= length l ->
    exists r, upper_bound_at lt l v first len = Some r /\
              part_at (fun m => negb (lt v m)) l first len r.
  Proof.
    intros Hs Hb. unfold upper_bound_at. rewrite ub_loop_bis.
    apply bis_range; [exact Hb | apply sorted_mono_le, Hs].
  Qed.

  Lemma lower_bound_total l v : exists r, lower_bound lt l v = Some r /\ r <= length l.
  Proof.
    unfold lower_bound, lower_bound_at. rewrite lb_loop_bis.
    destruct (bis_loop_spec (fun m => lt m v) (length l) l 0 (length l)) as [r [Hr [? _]]]; try lia.
    exists r. split; [exact Hr | lia].
  Qed.

  Theorem lower_bound_sorted l v :
    sortedb lt l = true -> lower_bound lt l v = Some (count_lt lt l v).
  Proof.
    intros Hs. unfold lower_bound, lower_bound_at. rewrite lb_loop_bis.
    apply (bis_count (fun m => lt m v)), sorted_mono_lt, Hs.
  Qed.

  Theorem upper_bound_sorted l v :
    sortedb lt l = true -> upper_bound lt l v = Some (count_le lt l v).
  Proof.
    intros Hs. unfold upper_bound, upper_bound_at. rewrite ub_loop_bis.
    apply (bis_count (fun m => negb (lt v m))), sorted_mono_le, Hs.
  Qed.

  Lemma count_lt_part l v :
    sortedb lt l = true -> part_at (fun m => lt m v) l 0 (length l) (count_lt lt l v).
  Proof. intros Hs. apply (bis_count (fun m => lt m v)), sorted_mono_lt, Hs. Qed.

  (* equal_range: the three-way split only skips steps that both loops take alike *)
  Lemma er_loop_pair v : forall fuel l first len,
    er_loop lt fuel l v first len =
    match lb_loop lt fuel l v first len, ub_loop lt fuel l v first len with
    | Some a, Some b => Some (a, b)
    | _, _ => None
    end.
  Proof.
    induction fuel as [|fuel IH]; intros l first len; cbn [er_loop lb_loop ub_loop];
      destruct (len =? 0); try reflexivity.
    destruct (nth_error l (first + Nat.div2 len)) as [m|]; [|reflexivity].
    destruct (lt m v) eqn:P1.
    - rewrite (lt_asym m v P1). apply IH.
    - destruct (lt v m); [apply IH | reflexivity].
  Qed.

  Lemma equal_range_at_spec l v first len :
    sortedb lt l = true -> first + len <= length l ->
    exists a b, equal_range_at lt l v first len = Some (a, b) /\
                part_at (fun m => lt m v) l first len a /\
                part_at (fun m => negb (lt v m)) l first len b.
  Proof.
    intros Hs Hb.
    destruct (lower_bound_at_spec l v first len Hs Hb) as [a [Ha Pa]].
    destruct (upper_bound_at_spec l v first len Hs Hb) as [b [Hb' Pb]].
    exists a, b. split; [|split; assumption].
    unfold equal_range_at, lower_bound_at, upper_bound_at in *. rewrite er_loop_pair, Ha, Hb'. reflexivity.
  Qed.

  Theorem equal_range_sorted l v :
    sortedb lt l = true ->
    equal_range lt l v = Some (count_lt lt l v, count_le lt l v).
  Proof.
    intros Hs. pose proof (lower_bound_sorted l v Hs) as Ha. pose proof (upper_bound_sorted l v Hs) as Hb.
    unfold equal_range, lower_bound, upper_bound, equal_range_at, lower_bound_at, upper_bound_at in *.
    rewrite er_loop_pair, Ha, Hb. reflexivity.
  Qed.

  Hypothesis lt_tricho : forall a b, lt a b = false -> lt b a = false -> a = b.

  (* the index of a member is the partition point of (< v), the next one that of (<= v) *)
  Theorem count_lt_member l v i :
    sortedb lt l = true -> nth_error l i = Some v -> count_lt lt l v = i.
  Proof.
    intros Hs Hv. apply part_at_count.
    assert (i < length l) by (apply nth_error_Some; congruence).
    split; [lia|]. split; intros j x Hj Hx.
    - apply (sortedb_nth l Hs j i); [lia | assumption | assumption].
    - destruct (Nat.eq_dec j i) as [->|Hne]; [replace x with v by congruence; apply lt_irrefl|].
      apply lt_asym, (sortedb_nth l Hs i j); [lia | assumption | assumption].
  Qed.

  Theorem count_le_member l v i :
    sortedb lt l = true -> nth_error l i = Some v -> count_le lt l v = i + 1.
  Proof.
    intros Hs Hv. apply part_at_count.
    assert (i < length l) by (apply nth_error_Some; congruence).
    split; [lia|]. split; intros j x Hj Hx.
    - apply negb_true_iff.
      destruct (Nat.eq_dec j i) as [->|Hne]; [replace x with v by congruence; apply lt_irrefl|].
      apply lt_asym, (sortedb_nth l Hs j i); [lia | assumption | assumption].
    - apply negb_false_iff, (sortedb_nth l Hs i j); [lia | assumption | assumption].
  Qed.

  (* v sits at index i exactly when i is its lower bound and the element there is not above v:
     the test made by binary_search, GeneratedTable::_find and get_rlm_idx *)
  Theorem lower_bound_hit l v i :
    sortedb lt l = true ->
    (nth_error l i = Some v <->
     i = count_lt lt l v /\ exists x, nth_error l i = Some x /\ lt v x = false).
  Proof.
    intros Hs. split.
    - intros Hi. split; [symmetry; apply count_lt_member; assumption|].
      exists v. split; [exact Hi | apply lt_irrefl].
    - intros [-> [x [Hx Hvx]]]. rewrite Hx. f_equal. apply lt_tricho; [|exact Hvx].
      destruct (count_lt_part l v Hs) as [_ [_ Hb]]. apply (Hb (count_lt lt l v) x); [|exact Hx].
      split; [lia|]. apply nth_error_Some. congruence.
  Qed.

  Theorem binary_search_sorted l v :
    sortedb lt l = true ->
    exists b, binary_search lt l v = Some b /\ (b = true <-> In v l).
  Proof.
    intros Hs. unfold binary_search. rewrite (lower_bound_sorted l v Hs).
    pose proof (count_lt_le lt l v) as Hle.
    assert (In v l <-> exists x, nth_error l (count_lt lt l v) = Some x /\ lt v x = false) as Hin.
    { split.
      - intros H. apply In_nth_error in H. destruct H as [i Hi].
        apply (lower_bound_hit l v i Hs) in Hi. destruct Hi as [-> Hx]. exact Hx.
      - intros Hx. eapply nth_error_In. apply (lower_bound_hit l v _ Hs). split; [reflexivity | exact Hx]. }
    destruct (Nat.eqb_spec (count_lt lt l v) (length l)) as [E|E].
    - exists false. split; [reflexivity|]. split; [discriminate|]. rewrite Hin. intros [x [Hx _]].
      assert (count_lt lt l v < length l) by (apply nth_error_Some; congruence). lia.
    - destruct (nth_error l (count_lt lt l v)) as [x|] eqn:Ex. 2:{ apply nth_error_None in Ex. lia. }
      exists (negb (lt v x)). split; [reflexivity|]. rewrite negb_true_iff, Hin. split.
      + intros Hvx. exists x. split; [reflexivity | exact Hvx].
      + intros [y [Hy Hvy]]. congruence.
  Qed.

  Theorem count_lt_nonmember l v :
    sortedb lt l = true -> ~ In v l -> count_lt lt l v < length l ->
    exists y, nth_error l (count_lt lt l v) = Some y /\ lt v y = true /\
              (forall j z, j < count_lt lt l v -> nth_error l j = Some z -> lt z v = true).
  Proof.
    intros Hs Hn Hlt. destruct (count_lt_part l v Hs) as [_ [Ha _]].
    destruct (nth_error l (count_lt lt l v)) as [y|] eqn:Ey. 2:{ apply nth_error_None in Ey. lia. }
    exists y. split; [reflexivity|]. split.
    - destruct (lt v y) eqn:E; [reflexivity|]. exfalso. apply Hn.
      eapply nth_error_In. apply (lower_bound_hit l v _ Hs). split; [reflexivity|]. exists y. auto.
    - intros j z Hj Hz. apply (Ha j z); [lia | exact Hz].
  Qed.

  Lemma part_le_of_nonmember l v a :
    sortedb lt l = true -> ~ In v l ->
    part_at (fun m => lt m v) l 0 (length l) a ->
    part_at (fun m => negb (lt v m)) l 0 (length l) a.
  Proof.
    intros Hs Hn [Hr [Ha Hb]]. split; [exact Hr|]. split.
    - intros i x Hi Hx. apply negb_true_iff. apply lt_asym. apply (Ha i x Hi Hx).
    - intros i x Hi Hx. apply negb_false_iff.
      pose proof (Hb i x Hi Hx) as Hxv. cbn in Hxv.
      destruct (lt v x) eqn:E; [reflexivity|]. exfalso. apply Hn.
      rewrite <- (lt_tricho x v Hxv E). eapply nth_error_In; eassumption.
  Qed.

  Theorem equal_range_member l v :
    sortedb lt l = true ->
    exists a b, equal_range lt l v = Some (a, b) /\ a = count_lt lt l v /\
                (In v l -> nth_error l a = Some v /\ b = a + 1) /\ (~ In v l -> b = a).
  Proof.
    intros Hs. exists (count_lt lt l v), (count_le lt l v).
    split; [apply equal_range_sorted, Hs|]. split; [reflexivity|]. split.
    - intros Hin. apply In_nth_error in Hin. destruct Hin as [i Hi].
      rewrite (count_lt_member l v i Hs Hi), (count_le_member l v i Hs Hi).
      split; [exact Hi | reflexivity].
    - (* no element is equivalent to v: the two predicates agree on l *)
      intros Hn. unfold count_le, count_lt. f_equal. apply filter_ext_in. intros x Hx.
      destruct (lt x v) eqn:E1; [rewrite (lt_asym x v E1); reflexivity|].
      destruct (lt v x) eqn:E2; [reflexivity|]. exfalso. apply Hn.
      rewrite <- (lt_tricho x v E1 E2). exact Hx.
  Qed.
End Order.

(* presorted_set compares elements by key: on the first part of the array (the occupied slots)
   the search is the search for the key in the list of keys *)
Lemma equal_range_at_keys {A B} (f : A -> B) (lt : B -> B -> bool)
    (lt_trans : forall a b c, lt a b = true -> lt b c = true -> lt a c = true)
    (lt_irrefl : forall a, lt a a = false) (l rest : list A) (v : A) :
  equal_range_at (fun a b => lt (f a) (f b)) (l ++ rest) v 0 (length l) =
  equal_range lt (map f l) (f v).
Proof.
  unfold equal_range, equal_range_at. rewrite map_length.
  rewrite (er_loop_pair lt lt_trans lt_irrefl).
  rewrite (er_loop_pair (fun a b => lt (f a) (f b)) (fun a b c => lt_trans _ _ _) (fun a => lt_irrefl _)).
  rewrite !lb_loop_bis, !ub_loop_bis.
  rewrite (bis_loop_keys f (fun x => lt x (f v))), (bis_loop_keys f (fun x => negb (lt (f v) x))) by lia.
  reflexivity.
Qed.

Local Open Scope Z_scope.

Lemma Zltb_trans a b c : (a <? b) = true -> (b <? c) = true -> (a <? c) = true.
Proof. rewrite !Z.ltb_lt. lia. Qed.
Lemma Zltb_tricho a b : (a <? b) = false -> (b <? a) = false -> a = b.
Proof. rewrite !Z.ltb_ge. lia. Qed.

Lemma str_ltb_cons x a y b :
  str_ltb (x :: a) (y :: b) = if x <? y then true else if y <? x then false else str_ltb a b.
Proof. reflexivity. Qed.

Lemma str_ltb_irrefl a : str_ltb a a = false.
Proof. induction a as [|x a IH]; [reflexivity|]. rewrite str_ltb_cons, Z.ltb_irrefl. exact IH. Qed.

Lemma str_ltb_cons_true x a y b :
  str_ltb (x :: a) (y :: b) = true <-> x < y \/ x = y /\ str_ltb a b = true.
Proof.
  rewrite str_ltb_cons. destruct (Z.ltb_spec x y); [intuition lia|].
  destruct (Z.ltb_spec y x); [intuition (lia || discriminate)|].
  assert (x = y) by lia. intuition lia.
Qed.

Lemma str_ltb_trans : forall a b c, str_ltb a b = true -> str_ltb b c = true -> str_ltb a c = true.
Proof.
  induction a as [|x a IH]; intros [|y b] [|z c]; try discriminate; try reflexivity.
  rewrite !str_ltb_cons_true. intros [Hxy|[-> Hab]] [Hyz|[-> Hbc]]; [left; lia | left; lia | left; lia|].
  right. split; [reflexivity | eapply IH; eassumption].
Qed.

Lemma str_ltb_tricho : forall a b, str_ltb a b = false -> str_ltb b a = false -> a = b.
Proof.
  induction a as [|x a IH]; intros [|y b]; try discriminate; [reflexivity|].
  rewrite !str_ltb_cons. destruct (Z.ltb_spec x y); [discriminate|]. destruct (Z.ltb_spec y x); [discriminate|].
  intros Hab Hba. assert (x = y) by lia. subst y. f_equal. apply IH; assumption.
Qed.

Record strict_total {A : Type} (lt : A -> A -> bool) : Prop := {
  st_trans : forall a b c, lt a b = true -> lt b c = true -> lt a c = true;
  st_irrefl : forall a, lt a a = false;
  st_tricho : forall a b, lt a b = false -> lt b a = false -> a = b }.

Lemma Zltb_strict_total : strict_total Z.ltb.
Proof. split; [exact Zltb_trans | exact Z.ltb_irrefl | exact Zltb_tricho]. Qed.
Lemma str_ltb_strict_total : strict_total str_ltb.
Proof. split; [exact str_ltb_trans | exact str_ltb_irrefl | exact str_ltb_tricho]. Qed.

(* Section Order's facts with the order given as one [strict_total] argument. *)
Section Packaged.
  Context {A : Type} (lt : A -> A -> bool) (O : strict_total lt).
  Let T := st_trans lt O.
  Let I := st_irrefl lt O.
  Let C := st_tricho lt O.
  Definition o_asym := lt_asym lt T I.
  Definition o_sortedb_cons := sortedb_cons lt T.
  Definition o_sortedb_nth := sortedb_nth lt T.
  Definition o_sortedb_NoDup := sortedb_NoDup lt T I.
  Definition o_upper_bound_at_spec := upper_bound_at_spec lt T.
  Definition o_equal_range_at_spec := equal_range_at_spec lt T I.
  Definition o_lower_bound_sorted := lower_bound_sorted lt T.
  Definition o_upper_bound_sorted := upper_bound_sorted lt T.
  Definition o_count_lt_part := count_lt_part lt T.
  Definition o_equal_range_sorted := equal_range_sorted lt T I.
  Definition o_equal_range_member := equal_range_member lt T I C.
  Definition o_binary_search_sorted := binary_search_sorted lt T I C.
  Definition o_lower_bound_hit := lower_bound_hit lt T I C.
  Definition o_part_le_of_nonmember := part_le_of_nonmember lt T I C.
  Definition o_count_lt_member := count_lt_member lt T I.
  Definition o_count_lt_nonmember := count_lt_nonmember lt T I C.
End Packaged.
