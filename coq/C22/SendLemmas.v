(* C22/C23: what Session::send does to the two timestamps supervision looks at, what it does to a freshly
   generated message (the generate_* builders), and how that message reads on the wire. *)
From Coq Require Import NArith ZArith List Bool Lia.
From F8 Require Import Sess.Bytes Sess.Msg Sess.Persist Sess.Session Sess.SessLemmas Sess.SendLemmas Sess.ProcessLemmas
  C22.Hyp C22.Spec_C22.
Import ListNotations.
Local Open Scope N_scope.

Lemma no_soh_nosoh : forall l, no_soh l = nosoh l.
Proof. reflexivity. Qed.

Section Adds.
Variable sc : schema.

Lemma add_hdr'_custom : forall t v m, m_custom (add_hdr' sc t v m) = m_custom m.
Proof. exact (SessLemmas.add_hdr'_custom sc). Qed.
Lemma add_hdr'_noinc : forall t v m, m_noinc (add_hdr' sc t v m) = m_noinc m.
Proof. exact (SessLemmas.add_hdr'_noinc sc). Qed.
Lemma add_hdr'_eob : forall t v m, m_eob (add_hdr' sc t v m) = m_eob m.
Proof. exact (SessLemmas.add_hdr'_eob sc). Qed.

Lemma add_body'_type : forall t v m, m_type (add_body' sc t v m) = m_type m.
Proof. intros. destruct (add_body'_cases sc t v m) as [E|[p E]]; rewrite E; reflexivity. Qed.
Lemma add_body'_hdr : forall t v m, m_hdr (add_body' sc t v m) = m_hdr m.
Proof. intros. destruct (add_body'_cases sc t v m) as [E|[p E]]; rewrite E; reflexivity. Qed.
Lemma add_body'_custom : forall t v m, m_custom (add_body' sc t v m) = m_custom m.
Proof. intros. destruct (add_body'_cases sc t v m) as [E|[p E]]; rewrite E; reflexivity. Qed.
Lemma add_body'_noinc : forall t v m, m_noinc (add_body' sc t v m) = m_noinc m.
Proof. intros. destruct (add_body'_cases sc t v m) as [E|[p E]]; rewrite E; reflexivity. Qed.
Lemma add_body'_eob : forall t v m, m_eob (add_body' sc t v m) = m_eob m.
Proof. intros. destruct (add_body'_cases sc t v m) as [E|[p E]]; rewrite E; reflexivity. Qed.

Lemma add_body'_get_other : forall t t' v m, t' <> t ->
  get_field t' (m_body (add_body' sc t v m)) = get_field t' (m_body m).
Proof.
  intros. destruct (add_body'_cases sc t v m) as [E|[p E]]; rewrite E; [reflexivity|].
  apply get_add_other. assumption.
Qed.
Lemma add_body'_get_same : forall t v m, body_pos_ok sc (m_type m) t = true -> NoDup (tags (m_body m)) ->
  get_field t (m_body (add_body' sc t v m)) = Some v.
Proof.
  intros t v m H ND. unfold body_pos_ok in H. unfold add_body', add_body.
  destruct (find_def (m_type m) (sc_msgs sc)) as [d|]; [|discriminate].
  destruct (assoc t (d_pos d)) as [p|]; [|discriminate]. apply get_add_same. exact ND.
Qed.
Lemma add_body'_nodup : forall t v m, NoDup (tags (m_body m)) -> NoDup (tags (m_body (add_body' sc t v m))).
Proof.
  intros. destruct (add_body'_cases sc t v m) as [E|[p E]]; rewrite E; [assumption|].
  apply nodup_add. assumption.
Qed.
Lemma add_body'_vals_ok : forall t v m, nosoh v = true -> vals_ok (m_body m) = true ->
  vals_ok (m_body (add_body' sc t v m)) = true.
Proof.
  intros. destruct (add_body'_cases sc t v m) as [E|[p E]]; rewrite E; [assumption|].
  apply vals_ok_add; assumption.
Qed.
End Adds.

Lemma frames_aux_partition : forall fuel raw acc ms rest,
  frames_aux fuel raw acc = (ms, rest) -> (concat ms ++ rest = concat (rev acc) ++ raw)%list.
Proof.
  induction fuel; intros raw acc ms rest H; cbn [frames_aux] in H.
  - inversion H; subst. reflexivity.
  - destruct raw as [|b raw'].
    + inversion H; subst. reflexivity.
    + destruct (frame_len (b :: raw')) as [[|n]|].
      * inversion H; subst. reflexivity.
      * apply IHfuel in H. rewrite H. cbn [rev]. rewrite concat_app. cbn [concat]. rewrite app_nil_r.
        rewrite <- app_assoc. rewrite firstn_skipn. reflexivity.
      * inversion H; subst. reflexivity.
Qed.

Lemma frames_partition : forall raw ms rest, frames raw = (ms, rest) -> (concat ms ++ rest)%list = raw.
Proof. intros. unfold frames in H. apply frames_aux_partition in H. exact H. Qed.

Definition has_out (evs : list event) : bool :=
  existsb (fun e => match e with EOut _ => true | EOutRaw _ => true | _ => false end) evs.

Lemma has_out_app : forall a b, has_out (a ++ b) = has_out a || has_out b.
Proof. intros. unfold has_out. apply existsb_app. Qed.

Lemma out_events_nonempty : forall buf, buf <> [] -> has_out (out_events buf) = true.
Proof.
  intros buf NE. unfold out_events. destruct (frames buf) as [ms rest] eqn:F.
  apply frames_partition in F. rewrite has_out_app.
  destruct ms as [|x ms]; [|reflexivity]. cbn [concat app] in F. subst rest.
  destruct buf; [contradiction|reflexivity].
Qed.

(* What a piece of the session may do to the two timestamps: last_sent becomes `now` exactly when bytes go to
   the socket, last_received is left alone.  Sends, supervision ticks and the inbound path all keep to this. *)
Definition timers (now : Z) (s s' : sess) (e : list event) : Prop :=
  (if has_out e then s_last_sent s' = now else s_last_sent s' = s_last_sent s) /\
  s_last_recv s' = s_last_recv s.

Lemma timers_refl : forall now s, timers now s s [].
Proof. intros. split; reflexivity. Qed.

Lemma timers_trans : forall now a b c e1 e2, timers now a b e1 -> timers now b c e2 -> timers now a c (e1 ++ e2).
Proof.
  intros now a b c e1 e2 [A1 A2] [B1 B2]. split; [|congruence].
  rewrite has_out_app. destruct (has_out e2); [rewrite orb_true_r; exact B1|].
  rewrite orb_false_r. destruct (has_out e1); congruence.
Qed.

Lemma timers_then : forall now a b c e,
  timers now a b e -> s_last_sent c = s_last_sent b -> s_last_recv c = s_last_recv b -> timers now a c e.
Proof.
  intros now a b c e T LS LR. rewrite <- (app_nil_r e).
  eapply timers_trans; [exact T|]. split; assumption.
Qed.

Lemma app_not_nil_r : forall (A : Type) (a b : list A), b <> [] -> (a ++ b)%list <> [].
Proof. intros A a b H E. apply app_eq_nil in E. destruct E. contradiction. Qed.

Lemma send_rel : forall sc now s m c n ok s' evs,
  send sc now s m c n = (ok, s', evs) -> s_state s' = s_state s /\ timers now s s' evs.
Proof.
  intros sc now s m c n ok s' evs H. unfold send in H.
  destruct (send_process_writes _ _ _ _ _ _ _ H) as [[E ->]|(buf & NE & E & ->)]; rewrite E; unfold timers;
    rewrite ?out_events_nonempty by exact NE; repeat split.
Qed.

Definition fresh (ty : bytes) (body : list field) (noinc : bool) : msg := mkMsg ty [] body 0 noinc true.

(* what send_process encodes for a message that comes without header fields (wire_stamped) *)
Definition wire (sc : schema) (s : sess) (now : Z) (m : msg) : msg :=
  add_hdr' sc T_SendingTime (fmt_time now)
    (add_hdr' sc T_MsgSeqNum (dec (s_next_send s))
      (add_hdr' sc T_TargetCompID (s_tgt s) (add_hdr' sc T_SenderCompID (s_snd s) m))).

Lemma wire_stamped : forall sc s now ty body n,
  wire sc s now (fresh ty body n) = stamped sc now s (s_next_send s) (fresh ty body n).
Proof.
  intros. unfold stamped, addressed. cbn [fresh m_hdr has_field get_field].
  rewrite has_after_add_other by discriminate. reflexivity.
Qed.

Lemma send_fresh : forall sc now s ty body n,
  nosoh (sc_begin sc) = true -> s_closed s = false -> s_batch s = [] ->
  exists p,
    send sc now s (fresh ty body false) 0 n =
    (true, sent now (if n || beq ty mt_sequence_reset then s_next_send s else s_next_send s + 1) p s,
     [EOut (encode sc (wire sc s now (fresh ty body n)))]).
Proof.
  intros sc now s ty body n B CL BT. unfold send. cbn [N.eqb].
  replace (if n then set_noinc true (fresh ty body false) else fresh ty body false) with (fresh ty body n)
    by (destruct n; reflexivity).
  rewrite send_process_fresh by reflexivity. unfold out_seq. cbn [fresh m_eob m_custom N.eqb].
  (* open socket, empty batch: one frame goes out *)
  rewrite CL, BT, <- wire_stamped. cbn [app]. rewrite out_events_encode by exact B.
  unfold persisted, increments, sent. cbn [fresh m_custom m_noinc m_type N.eqb andb s_next_send w_batch w_last_sent].
  match goal with |- context [w_per ?p _] => exists p end.
  destruct n, (beq ty mt_sequence_reset); reflexivity.
Qed.

Lemma wire_type : forall sc s now m, m_type (wire sc s now m) = m_type m.
Proof. intros. unfold wire. rewrite !add_hdr'_type. reflexivity. Qed.
Lemma wire_body : forall sc s now m, m_body (wire sc s now m) = m_body m.
Proof. intros. unfold wire. rewrite !add_hdr'_body. reflexivity. Qed.

Lemma wire_hdr_other : forall sc s now ty body n t,
  t <> T_SendingTime -> t <> T_MsgSeqNum -> t <> T_TargetCompID -> t <> T_SenderCompID ->
  get_field t (m_hdr (wire sc s now (fresh ty body n))) = None.
Proof. intros. unfold wire. rewrite !add_hdr'_get_other by assumption. reflexivity. Qed.

Lemma wire_wf : forall sc s now ty body n,
  nosoh (sc_begin sc) = true -> nosoh ty = true -> vals_ok body = true ->
  nosoh (s_snd s) = true -> nosoh (s_tgt s) = true ->
  wf_msg sc (wire sc s now (fresh ty body n)) = true.
Proof.
  intros sc s now ty body n B T V S1 S2.
  assert (W : wf_sess s = true) by (unfold wf_sess; rewrite S1, S2; reflexivity).
  pose proof (stamped_kept sc now s (s_next_send s) (fresh ty body n) W (NoDup_nil _) eq_refl) as K.
  rewrite <- wire_stamped in K. destruct K as (Ty & Bo & _ & Vh & _).
  unfold wf_msg. rewrite Ty, Bo, Vh, B. cbn [fresh m_type m_body]. rewrite T, V. reflexivity.
Qed.

(* kind_of, read off the message instead of its bytes *)
Definition msg_kind (ty : bytes) (body : list field) : kind :=
  if beq ty mt_heartbeat then KHeartbeat (get_field T_TestReqID body)
  else if beq ty mt_test_request then KTestRequest (get_field T_TestReqID body)
  else if beq ty mt_logout then KLogout
  else if beq ty mt_logon then KLogon (get_field T_HeartBtInt body)
  else if beq ty mt_reject then KReject
  else KOther.

Section Obs.
Variables (sc : schema) (s : sess) (now : Z) (ty : bytes) (body : list field) (n : bool).
Hypothesis B : nosoh (sc_begin sc) = true.
Hypothesis T : nosoh ty = true.
Hypothesis V : vals_ok body = true.
Hypothesis S1 : nosoh (s_snd s) = true.
Hypothesis S2 : nosoh (s_tgt s) = true.

Let raw := encode sc (wire sc s now (fresh ty body n)).

Lemma wire_msgtype : msgtype_of raw = Some ty.
Proof.
  unfold msgtype_of, tagb, raw. rewrite tok_get_encode_type by (apply wire_wf; assumption).
  rewrite wire_type. reflexivity.
Qed.

Lemma wire_body_tag : forall t,
  t <> 8 -> t <> 9 -> t <> 10 -> t <> T_MsgType ->
  t <> T_SendingTime -> t <> T_MsgSeqNum -> t <> T_TargetCompID -> t <> T_SenderCompID ->
  tok_get (tagb t) (tokens raw) = get_field t body.
Proof.
  intros t H8 H9 H10 H35 H52 H34 H56 H49. unfold tagb, raw.
  rewrite tok_get_encode by (try apply wire_wf; assumption).
  rewrite wire_hdr_other by assumption. rewrite wire_body. cbn [fresh m_body].
  destruct (get_field t body); [reflexivity|]. apply N.eqb_neq in H10. rewrite H10. reflexivity.
Qed.

Lemma wire_kind : kind_of raw = msg_kind ty body.
Proof.
  unfold kind_of, msg_kind, testreqid_of. rewrite wire_msgtype, !wire_body_tag by discriminate. reflexivity.
Qed.

Lemma wire_kind_heartbeat : ty = mt_heartbeat -> kind_of raw = KHeartbeat (get_field T_TestReqID body).
Proof. intro E. rewrite wire_kind, E. reflexivity. Qed.
Lemma wire_kind_test_request : ty = mt_test_request -> kind_of raw = KTestRequest (get_field T_TestReqID body).
Proof. intro E. rewrite wire_kind, E. reflexivity. Qed.
Lemma wire_kind_logout : ty = mt_logout -> kind_of raw = KLogout.
Proof. intro E. rewrite wire_kind, E. reflexivity. Qed.
Lemma wire_kind_logon : ty = mt_logon -> kind_of raw = KLogon (get_field T_HeartBtInt body).
Proof. intro E. rewrite wire_kind, E. reflexivity. Qed.
End Obs.
