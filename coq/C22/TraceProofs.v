(* C22: trace-level theorems, by induction over timelines (Timeline.tl_run): the two timestamps supervision
   looks at are the observable instants; the state test_request_sent is entered only by a supervision tick;
   hence the trace-level forms of the Heartbeat rule and of what is true about the supervision Logout. *)
From Coq Require Import NArith ZArith List Bool.
From F8 Require Import Sess.Bytes Sess.Msg Sess.Persist Sess.Session Sess.Wire Sess.SessLemmas Sess.ProcessLemmas
  C22.Hyp C22.Spec_C22 C22.SendLemmas C22.HbProofs C22.Invariant C22.Timeline.
Import ListNotations.
Local Open Scope N_scope.

Lemma ev_out_has_out : forall e, ev_out e = has_out e.
Proof. reflexivity. Qed.
Lemma ev_ret_has_ret : forall e, ev_ret e = has_ret e.
Proof. reflexivity. Qed.

Section Trace.
Variable sc : schema.
Variable decode : bytes -> decode_result.
Variable fl : bytes.

Lemma tick_rel : forall now s b s' e, heartbeat_service sc now s = (b, s', e) -> timers now s s' e.
Proof.
  intros now s b s' e H. unfold heartbeat_service in H.
  destruct (is_shutdown s); [inversion H; subst; apply timers_refl|].
  destruct (if (Z.of_N (s_hb s) <=? secs_between now (s_last_sent s))%Z then _ else _) as [s1 e1] eqn:ST1.
  assert (A1 : timers now s s1 e1).
  { destruct (Z.of_N (s_hb s) <=? secs_between now (s_last_sent s))%Z.
    - destruct (send sc now s (generate_heartbeat sc []) 0 false) as [[ok sa] ea] eqn:SE.
      inversion ST1; subst. eapply send_rel. exact SE.
    - inversion ST1; subst. apply timers_refl. }
  cbv zeta in H.
  destruct (Z.of_N (s_hb s1 + s_hb s1 / 5) <? secs_between now (s_last_recv s1))%Z; [|inversion H; subst; exact A1].
  destruct (s_state s1 =? st_test_request_sent).
  - destruct (send sc now s1 _ 0 true) as [[ok s2] e2] eqn:SE.
    destruct (stop_eq (w_state st_logoff_sent s2)) as (c & r & E). rewrite E in H.
    inversion H; subst. eapply timers_trans; [exact A1|].
    eapply timers_then; [eapply send_rel; exact SE| |]; reflexivity.
  - destruct (negb (s_state s1 =? st_session_terminated)); [|inversion H; subst; exact A1].
    destruct (send sc now s1 _ 0 false) as [[ok s2] e2] eqn:SE.
    inversion H; subst. eapply timers_trans; [exact A1|].
    eapply timers_then; [eapply send_rel; exact SE| |]; reflexivity.
Qed.

Definition step_spec (o : tl_op) (s s' : sess) (e : list event) : Prop :=
  (if ev_out e then s_last_sent s' = tl_time o else s_last_sent s' = s_last_sent s) /\
  (if is_recv o && ev_ret e then s_last_recv s' = tl_time o else s_last_recv s' = s_last_recv s) /\
  (s_state s' = st_test_request_sent -> s_state s <> st_test_request_sent -> is_tick o = true).

Lemma step_rel : forall o s s' e, tl_step sc decode fl s o = (s', e) -> step_spec o s s' e.
Proof.
  intros o s s' e H. destruct o as [t|t ms|t m c n]; cbn [tl_step] in H.
  - destruct (heartbeat_service sc t s) as [[b s1] e1] eqn:E. inversion H; subst.
    apply tick_rel in E. destruct E as [A B]. split; [exact A|]. split; [exact B|]. reflexivity.
  - apply R_reader_loop in H. destruct H as [e0 [EV [R1 [R2 R3]]]]. cbn [app] in EV. subst e0.
    split; [exact R2|]. split; [exact R3|]. intros X Y. apply R1 in X. contradiction.
  - destruct (send sc t s m c n) as [[ok s1] e1] eqn:E. inversion H; subst.
    apply send_rel in E. destruct E as [St [A B]].
    split; [exact A|]. split; [exact B|]. intros X Y. congruence.
Qed.

Lemma run_cons : forall s o ops,
  tl_run sc decode fl s (o :: ops) =
  mkRec o s (snd (tl_step sc decode fl s o)) (fst (tl_step sc decode fl s o)) ::
  tl_run sc decode fl (fst (tl_step sc decode fl s o)) ops.
Proof. intros. cbn [tl_run]. destruct (tl_step sc decode fl s o). reflexivity. Qed.

Theorem trace_last_sent : forall ops s,
  s_last_sent (tl_final sc decode fl s ops) = last_out_instant (s_last_sent s) (tl_run sc decode fl s ops).
Proof.
  induction ops as [|o ops IH]; intro s; [reflexivity|].
  rewrite run_cons. cbn [tl_final last_out_instant r_evs r_op]. rewrite IH.
  destruct (tl_step sc decode fl s o) as [s' e] eqn:E. cbn [fst snd].
  apply step_rel in E. destruct E as [A _]. destruct (ev_out e); rewrite A; reflexivity.
Qed.

Theorem trace_last_recv : forall ops s,
  s_last_recv (tl_final sc decode fl s ops) = last_in_instant (s_last_recv s) (tl_run sc decode fl s ops).
Proof.
  induction ops as [|o ops IH]; intro s; [reflexivity|].
  rewrite run_cons. cbn [tl_final last_in_instant r_evs r_op]. rewrite IH.
  destruct (tl_step sc decode fl s o) as [s' e] eqn:E. cbn [fst snd].
  apply step_rel in E. destruct E as [_ [B _]]. destruct (is_recv o && ev_ret e); rewrite B; reflexivity.
Qed.

(* every record of a run is a step from the state reached by running a prefix; hence the instants observed
   before it are the timestamps it starts from *)
Lemma run_split : forall ops s a r b,
  tl_run sc decode fl s ops = (a ++ r :: b)%list ->
  tl_step sc decode fl (r_pre r) (r_op r) = (r_post r, r_evs r) /\
  exists ops1, a = tl_run sc decode fl s ops1 /\ r_pre r = tl_final sc decode fl s ops1.
Proof.
  induction ops as [|o ops IH]; intros s a r b H.
  - destruct a; discriminate.
  - rewrite run_cons in H. destruct a as [|x a]; cbn [app] in H; inversion H as [[X Y]].
    + cbn [r_pre r_op r_post r_evs]. split; [destruct (tl_step sc decode fl s o); reflexivity|].
      exists []. split; reflexivity.
    + apply IH in Y. destruct Y as [ST [ops1 [E1 E2]]]. split; [exact ST|].
      exists (o :: ops1). rewrite run_cons, <- E1. split; [reflexivity|exact E2].
Qed.

Lemma run_instants : forall ops s a r b,
  tl_run sc decode fl s ops = (a ++ r :: b)%list ->
  last_out_instant (s_last_sent s) a = s_last_sent (r_pre r) /\
  last_in_instant (s_last_recv s) a = s_last_recv (r_pre r).
Proof.
  intros ops s a r b H. apply run_split in H. destruct H as [_ [ops1 [-> ->]]].
  rewrite trace_last_sent, trace_last_recv. split; reflexivity.
Qed.

Definition pending_rec (x : tl_rec) : Prop :=
  s_state (r_pre x) = st_test_request_sent /\ s_state (r_post x) = st_test_request_sent.

Definition has_origin (a : list tl_rec) : Prop :=
  exists a1 r0 a2, a = (a1 ++ r0 :: a2)%list /\ is_tick (r_op r0) = true /\
    s_state (r_pre r0) <> st_test_request_sent /\ s_state (r_post r0) = st_test_request_sent /\
    Forall pending_rec a2.

Lemma pending_origin_gen : forall ops s a r b,
  tl_run sc decode fl s ops = (a ++ r :: b)%list ->
  s_state (r_pre r) = st_test_request_sent ->
  (s_state s = st_test_request_sent /\ Forall pending_rec a) \/ has_origin a.
Proof.
  induction ops as [|o ops IH]; intros s a r b H ST.
  - destruct a; discriminate.
  - rewrite run_cons in H. destruct a as [|x a].
    + cbn [app] in H. inversion H; subst. cbn [r_pre] in ST. left. split; [exact ST|constructor].
    + cbn [app] in H. inversion H as [[X Y]].
      destruct (tl_step sc decode fl s o) as [s' e] eqn:E. cbn [fst snd] in *.
      destruct (IH s' a r b Y ST) as [[Q F]|[a1 [r0 [a2 [F1 [F2 [F3 [F4 F5]]]]]]]].
      * destruct (N.eq_dec (s_state s) st_test_request_sent) as [PS|PS].
        { left. split; [exact PS|]. constructor; [|exact F]. split; assumption. }
        { right. exists [], (mkRec o s e s'), a. cbn [app r_op r_pre r_post].
          pose proof (step_rel _ _ _ _ E) as [_ [_ TK]].
          repeat split; auto. }
      * right. exists (mkRec o s e s' :: a1), r0, a2. subst a. repeat split; auto.
Qed.

Theorem trace_pending_origin : forall ops s a r b,
  s_state s <> st_test_request_sent ->
  tl_run sc decode fl s ops = (a ++ r :: b)%list ->
  s_state (r_pre r) = st_test_request_sent ->
  has_origin a.
Proof.
  intros ops s a r b NP H ST. destruct (pending_origin_gen ops s a r b H ST) as [[Q _]|O]; [contradiction|exact O].
Qed.

Section TickRecord.
Variables (ops : list tl_op) (s0 : sess) (a : list tl_rec) (r : tl_rec) (b : list tl_rec) (t : Z).
Hypothesis SOK : schema_ok sc = true.
Hypothesis RUN : tl_run sc decode fl s0 ops = (a ++ r :: b)%list.
Hypothesis OP : r_op r = TTick t.
Hypothesis OK : sess_ok (r_pre r) = true.
Hypothesis LIVE : is_shutdown (r_pre r) = false.
Hypothesis H1 : 1 <= s_hb (r_pre r).

Lemma tick_record : forall ok s' evs,
  heartbeat_service sc t (r_pre r) = (ok, s', evs) -> r_post r = s' /\ r_evs r = evs.
Proof.
  intros ok s' evs HS. destruct (run_split _ _ _ _ _ RUN) as [ST _].
  rewrite OP in ST. cbn [tl_step] in ST. rewrite HS in ST. inversion ST. split; reflexivity.
Qed.

Theorem trace_heartbeat :
  hb_due (s_hb (r_pre r)) t (last_out_instant (s_last_sent s0) a) = true ->
  exists raw rest, r_evs r = EOut raw :: rest /\ kind_of raw = KHeartbeat None.
Proof.
  intros DUE. rewrite (proj1 (run_instants _ _ _ _ _ RUN)) in DUE.
  destruct (heartbeat_due sc SOK t (r_pre r) OK LIVE H1 DUE) as (s' & raw & rest & HS & K & _).
  apply tick_record in HS. destruct HS as [_ ->]. exists raw, rest. split; [reflexivity|exact K].
Qed.

Theorem trace_logout_partial :
  s_state s0 <> st_test_request_sent ->
  existsb is_lo (outs (r_evs r)) = true ->
  has_origin a /\
  quiet_due (s_hb (r_pre r)) t (last_in_instant (s_last_recv s0) a) = true /\
  s_state (r_post r) = st_session_terminated.
Proof.
  intros NP LO. rewrite (proj2 (run_instants _ _ _ _ _ RUN)).
  destruct (logout_step sc SOK t (r_pre r) OK LIVE H1) as (s' & evs & HS & EQ & FIN).
  apply tick_record in HS. destruct HS as [<- <-].
  rewrite LO in EQ. symmetry in EQ. apply andb_true_iff in EQ. destruct EQ as [Q PE]. apply N.eqb_eq in PE.
  split; [eapply trace_pending_origin; eassumption|]. split; [exact Q|]. apply FIN. exact LO.
Qed.
End TickRecord.
End Trace.
