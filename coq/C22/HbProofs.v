(* C22: the supervision tick on the session model (Sess.Session): the thresholds, the messages the session
   generates and what one send of them does, the exact result of heartbeat_service, and the named statements
   of the property as its corollaries. *)
From Coq Require Import NArith ZArith List Bool Lia.
From F8 Require Import Sess.Bytes Sess.Msg Sess.Persist Sess.Session Sess.Wire Sess.SessLemmas Sess.ProcessLemmas
  C22.Hyp C22.Spec_C22 C22.SendLemmas.
Import ListNotations.
Local Open Scope N_scope.

Lemma NS_pos : (0 < NS)%Z.
Proof. reflexivity. Qed.

(* secs_between truncates toward zero (Z.quot, as the C++ does), the property's `elapsed` is a floor: they
   differ only for a negative difference, where no threshold is reached (the Heartbeat's for H >= 1) *)
Lemma quot_div_cases : forall a : Z,
  (0 <= a /\ Z.quot a NS = a / NS)%Z \/ (a < 0 /\ Z.quot a NS <= 0 /\ a / NS < 0)%Z.
Proof.
  intro a. destruct (Z_lt_le_dec a 0) as [L|L].
  - right. split; [exact L|]. split.
    + apply Z.quot_le_upper_bound; [reflexivity|lia].
    + apply Z.div_lt_upper_bound; [reflexivity|lia].
  - left. split; [exact L|]. apply Z.quot_div_nonneg; [exact L|reflexivity].
Qed.

Lemma hb_due_quot : forall H now ls, 1 <= H ->
  (Z.of_N H <=? secs_between now ls)%Z = hb_due H now ls.
Proof.
  intros H now ls H1. unfold hb_due, elapsed, secs_between.
  destruct (quot_div_cases (now - ls)) as [[_ E]|[_ [A B]]].
  - rewrite E. reflexivity.
  - assert (P : (1 <= Z.of_N H)%Z) by lia.
    transitivity false; [|symmetry]; apply Z.leb_gt; lia.
Qed.

Lemma quiet_due_quot : forall H now lr,
  (Z.of_N (H + H / 5) <? secs_between now lr)%Z = quiet_due H now lr.
Proof.
  intros H now lr. unfold quiet_due, period, elapsed, secs_between.
  destruct (quot_div_cases (now - lr)) as [[_ E]|[_ [A B]]].
  - rewrite E. reflexivity.
  - pose proof (N2Z.is_nonneg (H + H / 5)) as P.
    transitivity false; [|symmetry]; apply Z.ltb_ge; lia.
Qed.

Lemma sess_ok_split : forall s, sess_ok s = true ->
  s_closed s = false /\ s_batch s = [] /\ nosoh (s_snd s) = true /\ nosoh (s_tgt s) = true.
Proof.
  intros s H. unfold sess_ok in H. rewrite !andb_true_iff in H. destruct H as [[[A B] C] D].
  rewrite negb_true_iff in A. destruct (s_batch s); [|discriminate]. repeat split; assumption.
Qed.

Lemma sess_ok_join : forall s, s_closed s = false -> s_batch s = [] -> nosoh (s_snd s) = true -> nosoh (s_tgt s) = true ->
  sess_ok s = true.
Proof. intros s A B C D. unfold sess_ok, no_soh. fold (nosoh (s_snd s)) (nosoh (s_tgt s)). rewrite A, B, C, D. reflexivity. Qed.

Lemma sess_ok_sent : forall now k p s, sess_ok s = true -> sess_ok (sent now k p s) = true.
Proof. intros now k p s H. apply sess_ok_split in H. apply sess_ok_join; try apply H. reflexivity. Qed.

Lemma schema_ok_split : forall sc, schema_ok sc = true ->
  nosoh (sc_begin sc) = true /\ body_pos_ok sc mt_heartbeat T_TestReqID = true /\
  body_pos_ok sc mt_test_request T_TestReqID = true /\ body_pos_ok sc mt_logon T_HeartBtInt = true /\
  body_pos_ok sc mt_logon T_EncryptMethod = true /\ body_pos_ok sc mt_logon T_ResetSeqNumFlag = true.
Proof.
  intros sc H. unfold schema_ok in H. rewrite !andb_true_iff in H. tauto.
Qed.

(* What every generate_* builder yields: no header yet, no custom number, values that can be framed. *)
Definition generated (m : msg) : Prop :=
  m_hdr m = [] /\ m_custom m = 0 /\ m_noinc m = false /\ m_eob m = true /\
  nosoh (m_type m) = true /\ vals_ok (m_body m) = true.

Lemma generated_fresh : forall m, generated m -> m = fresh (m_type m) (m_body m) false.
Proof. intros [ty hdr body c n e]. unfold generated. cbn. intros (-> & -> & -> & -> & _). reflexivity. Qed.

Section Gen.
Variable sc : schema.
Hypothesis SOK : schema_ok sc = true.

Lemma generated_new : forall ty, nosoh ty = true -> generated (new_msg ty).
Proof. intros ty T. repeat split. exact T. Qed.

Lemma generated_add : forall t v m, nosoh v = true -> generated m -> generated (add_body' sc t v m).
Proof.
  intros t v m N (A & B & C & D & E & F). unfold generated.
  rewrite add_body'_hdr, add_body'_custom, add_body'_noinc, add_body'_eob, add_body'_type.
  repeat split; try assumption. apply add_body'_vals_ok; assumption.
Qed.

Lemma heartbeat_generated : forall id, nosoh id = true -> generated (generate_heartbeat sc id).
Proof.
  intros id N. unfold generate_heartbeat.
  destruct id; [|apply generated_add; [exact N|]]; apply generated_new; reflexivity.
Qed.

Lemma heartbeat_kind : forall id, id <> [] ->
  let m := generate_heartbeat sc id in msg_kind (m_type m) (m_body m) = KHeartbeat (Some id).
Proof.
  intros id NE. unfold generate_heartbeat. destruct id; [contradiction|].
  rewrite add_body'_type. unfold msg_kind. cbn [new_msg m_type beq mt_heartbeat N.eqb Pos.eqb andb].
  rewrite add_body'_get_same; [reflexivity| |constructor]. apply (schema_ok_split sc SOK).
Qed.

Lemma test_request_generated : forall id, nosoh id = true -> generated (generate_test_request sc id).
Proof. intros id N. apply generated_add; [exact N|]. apply generated_new. reflexivity. Qed.

Lemma test_request_kind : forall id,
  let m := generate_test_request sc id in msg_kind (m_type m) (m_body m) = KTestRequest (Some id).
Proof.
  intros id. unfold generate_test_request. rewrite add_body'_type. unfold msg_kind.
  cbn [new_msg m_type beq mt_heartbeat mt_test_request N.eqb Pos.eqb andb].
  rewrite add_body'_get_same; [reflexivity| |constructor]. apply (schema_ok_split sc SOK).
Qed.

Lemma logout_generated : forall text,
  match text with Some t => nosoh t = true | None => True end -> generated (generate_logout sc text).
Proof.
  intros text N. unfold generate_logout.
  destruct text; [apply generated_add; [exact N|]|]; apply generated_new; reflexivity.
Qed.

Lemma logout_kind : forall text,
  let m := generate_logout sc text in msg_kind (m_type m) (m_body m) = KLogout.
Proof. intros text. unfold generate_logout. destruct text; [rewrite add_body'_type|]; reflexivity. Qed.

Lemma send_generated : forall now s m n, sess_ok s = true -> generated m ->
  exists p raw,
    send sc now s m 0 n =
    (true, sent now (if n || beq (m_type m) mt_sequence_reset then s_next_send s else s_next_send s + 1) p s,
     [EOut raw]) /\
    kind_of raw = msg_kind (m_type m) (m_body m).
Proof.
  intros now s m n OK G. pose proof (generated_fresh m G) as E. destruct G as (_ & _ & _ & _ & T & V).
  destruct (schema_ok_split sc SOK) as [B _]. destruct (sess_ok_split s OK) as (CL & BT & S1 & S2).
  destruct (send_fresh sc now s (m_type m) (m_body m) n B CL BT) as [p SE]. rewrite <- E in SE.
  exists p. eexists. split; [exact SE|]. apply wire_kind; assumption.
Qed.
End Gen.

Definition all_out (evs : list event) : bool :=
  forallb (fun e => match e with EOut _ => true | _ => false end) evs.

Lemma all_out_app : forall a b, all_out (a ++ b) = all_out a && all_out b.
Proof. intros. apply forallb_app. Qed.

Lemma outs_app : forall a b, outs (a ++ b) = (outs a ++ outs b)%list.
Proof. intros. apply flat_map_app. Qed.

Lemma all_out_head : forall evs k rest, all_out evs = true -> outs evs = k :: rest ->
  exists raw evs', evs = EOut raw :: evs' /\ kind_of raw = k /\ outs evs' = rest /\ all_out evs' = true.
Proof.
  intros evs k rest A O. destruct evs as [|e evs']; [discriminate|].
  cbn [all_out forallb] in A. destruct e; try discriminate. cbn [andb] in A.
  cbn [outs flat_map app] in O. inversion O. exists b, evs'. repeat split; assumption.
Qed.

Definition is_plain_hb (k : kind) : bool := match k with KHeartbeat None => true | _ => false end.
Definition is_hb (k : kind) : bool := match k with KHeartbeat _ => true | _ => false end.
Definition is_tr (k : kind) : bool := match k with KTestRequest _ => true | _ => false end.
Definition is_lo (k : kind) : bool := match k with KLogout => true | _ => false end.

Section Tick.
Variable sc : schema.
Hypothesis SOK : schema_ok sc = true.
Variables (now : Z) (s : sess).
Hypothesis OK : sess_ok s = true.
Hypothesis LIVE : is_shutdown s = false.
Hypothesis H1 : 1 <= s_hb s.

Theorem tick_exact :
  let H := s_hb s in
  let hb := hb_due H now (s_last_sent s) in
  let q := quiet_due H now (s_last_recv s) in
  let pend := s_state s =? st_test_request_sent in
  exists s' evs,
    heartbeat_service sc now s = (true, s', evs) /\ all_out evs = true /\
    outs evs = ((if hb then [KHeartbeat None] else []) ++
                (if q then (if pend then [KLogout] else [KTestRequest (Some txt_test)]) else []))%list /\
    s_state s' = (if q then (if pend then st_session_terminated else st_test_request_sent) else s_state s) /\
    s_last_sent s' = (if hb || q then now else s_last_sent s) /\
    s_last_recv s' = s_last_recv s /\ s_hb s' = s_hb s /\
    is_shutdown s' = q && pend /\ (q && pend = false -> sess_ok s' = true).
Proof.
  intros H hb q pend.
  unfold heartbeat_service. rewrite LIVE, (hb_due_quot _ now _ H1). fold H hb.
  pose proof LIVE as SH. unfold is_shutdown in SH. apply orb_false_iff in SH. destruct SH as [SH1 SH2].
  (* the Heartbeat, if due: the session can still write, and what the second test reads has not moved *)
  assert (ST1 : exists s1 e1,
            (if hb then let '(_, sa, ea) := send sc now s (generate_heartbeat sc []) 0 false in (sa, ea) else (s, [])) = (s1, e1) /\
            sess_ok s1 = true /\ all_out e1 = true /\ outs e1 = (if hb then [KHeartbeat None] else []) /\
            s_last_sent s1 = (if hb then now else s_last_sent s) /\
            s_state s1 = s_state s /\ s_last_recv s1 = s_last_recv s /\ s_hb s1 = s_hb s /\ s_shutdown s1 = s_shutdown s).
  { destruct hb.
    - destruct (send_generated sc SOK now s _ false OK (heartbeat_generated sc [] eq_refl)) as (p & raw & SE & K).
      rewrite SE. do 2 eexists. split; [reflexivity|]. split; [apply sess_ok_sent; exact OK|].
      cbn [outs flat_map app]. rewrite K. repeat split.
    - exists s, []. repeat split. exact OK. }
  destruct ST1 as (s1 & e1 & -> & OK1 & A1 & O1 & LS1 & Cst & Clr & Chb & Csh).
  cbv zeta. rewrite Chb, Clr, Cst, quiet_due_quot. fold H q pend.
  destruct q; [destruct pend eqn:PE|].
  - (* Logout, stop, terminated *)
    destruct (send_generated sc SOK now s1 (generate_logout sc (if pr_sd (s_par s1) then None else Some txt_ignored)) true OK1)
      as (p & raw & -> & K).
    { apply logout_generated. destruct (pr_sd (s_par s1)); reflexivity. }
    rewrite logout_kind in K. cbn [orb].
    destruct (stop_eq (w_state st_logoff_sent (sent now (s_next_send s1) p s1))) as (c & r & ->).
    do 2 eexists. split; [reflexivity|].
    rewrite all_out_app, outs_app, A1, O1. cbn [outs flat_map app]. rewrite K, orb_true_r.
    repeat split; try assumption. discriminate.
  - (* TestRequest *)
    rewrite SH2. cbn [negb].
    destruct (send_generated sc SOK now s1 _ false OK1 (test_request_generated sc txt_test eq_refl))
      as (p & raw & -> & K).
    rewrite (test_request_kind sc SOK) in K.
    do 2 eexists. split; [reflexivity|].
    rewrite all_out_app, outs_app, A1, O1. cbn [outs flat_map app]. rewrite K, orb_true_r.
    repeat split; try assumption.
    + unfold is_shutdown. cbn. rewrite Csh, SH1. reflexivity.
    + intros _. apply sess_ok_sent. exact OK1.
  - do 2 eexists. split; [reflexivity|].
    rewrite app_nil_r, orb_false_r. repeat split; try assumption.
    + unfold is_shutdown. rewrite Csh, Cst, SH1, SH2. reflexivity.
    + intros _. exact OK1.
Qed.

Theorem heartbeat_due :
  hb_due (s_hb s) now (s_last_sent s) = true ->
  exists s' raw rest,
    heartbeat_service sc now s = (true, s', EOut raw :: rest) /\ kind_of raw = KHeartbeat None /\
    s_last_sent s' = now.
Proof.
  intros D. destruct tick_exact as (s' & evs & E & A & O & _ & LS & _).
  rewrite D in O, LS.
  destruct (all_out_head _ _ _ A O) as (raw & evs' & -> & K & _).
  exists s', raw, evs'. repeat split; assumption.
Qed.

Theorem tick_only :
  (hb_due (s_hb s) now (s_last_sent s) = false ->
   exists s' evs, heartbeat_service sc now s = (true, s', evs) /\ existsb is_hb (outs evs) = false) /\
  (quiet_due (s_hb s) now (s_last_recv s) = false \/ s_state s = st_test_request_sent ->
   exists s' evs, heartbeat_service sc now s = (true, s', evs) /\ existsb is_tr (outs evs) = false).
Proof.
  destruct tick_exact as (s' & evs & E & _ & O & _).
  split; intro D; exists s', evs; (split; [exact E|]); rewrite O.
  - rewrite D. destruct (quiet_due (s_hb s) now (s_last_recv s)), (s_state s =? st_test_request_sent); reflexivity.
  - destruct (hb_due (s_hb s) now (s_last_sent s)), D as [D|D]; rewrite D; try reflexivity;
      destruct (quiet_due (s_hb s) now (s_last_recv s)); reflexivity.
Qed.

Theorem testreq_due :
  quiet_due (s_hb s) now (s_last_recv s) = true -> s_state s <> st_test_request_sent ->
  exists s' evs,
    heartbeat_service sc now s = (true, s', evs) /\
    existsb (fun k => match k with KTestRequest (Some id) => beq id txt_test | _ => false end) (outs evs) = true /\
    existsb is_lo (outs evs) = false /\
    s_state s' = st_test_request_sent /\ s_last_recv s' = s_last_recv s /\ s_hb s' = s_hb s /\
    sess_ok s' = true /\ is_shutdown s' = false.
Proof.
  intros Q NP. apply N.eqb_neq in NP.
  destruct tick_exact as (s' & evs & E & _ & O & ST & _ & LR & HB & SH & OK').
  rewrite Q, NP in *. exists s', evs. rewrite O.
  repeat split; try assumption; try (destruct (hb_due (s_hb s) now (s_last_sent s)); reflexivity).
  apply OK'. reflexivity.
Qed.

(* the period is measured from the LAST RECEPTION, not from the TestRequest *)
Theorem logout_step :
  exists s' evs,
    heartbeat_service sc now s = (true, s', evs) /\
    existsb is_lo (outs evs) = quiet_due (s_hb s) now (s_last_recv s) && (s_state s =? st_test_request_sent) /\
    (existsb is_lo (outs evs) = true -> s_state s' = st_session_terminated /\ is_shutdown s' = true).
Proof.
  destruct tick_exact as (s' & evs & E & _ & O & ST & _ & _ & _ & SH & _).
  exists s', evs. split; [exact E|]. rewrite O.
  destruct (hb_due (s_hb s) now (s_last_sent s)), (quiet_due (s_hb s) now (s_last_recv s)),
    (s_state s =? st_test_request_sent); (split; [reflexivity|]); intro X; try discriminate X; split; assumption.
Qed.

Theorem tick_meets_spec_partial : forall tp,
  let H := s_hb s in
  let pend := s_state s =? st_test_request_sent in
  (pend = true -> quiet_due H now (s_last_recv s) = quiet_due H now (Z.max tp (s_last_recv s))) ->
  exists s' evs,
    heartbeat_service sc now s = (true, s', evs) /\
    let w := tick_wants H pend now (s_last_sent s) (s_last_recv s) tp in
    match_outs w (outs evs) = true /\
    s_state s' = (if has_want WLo w then st_session_terminated
                  else if has_want WTr w then st_test_request_sent else s_state s).
Proof.
  intros tp H pend HYP. destruct tick_exact as (s' & evs & E & _ & O & ST & _).
  exists s', evs. split; [exact E|]. cbv zeta. rewrite O, ST. unfold tick_wants. fold H pend.
  destruct pend; [rewrite <- HYP by reflexivity|];
    destruct (hb_due H now (s_last_sent s)), (quiet_due H now (s_last_recv s)); split; reflexivity.
Qed.
End Tick.

Definition demo_sess : sess :=
  mkSess st_continuous 2 2 true T0 T0 30 Initiator [67;76;73] [83;82;86] [] (mkParams false true false false []) []
         (p_empty PNone) false false true 0 0.

(* F27: the Logout comes one tick after the TestRequest *)
Theorem logout_next_tick : forall sc, schema_ok sc = true ->
  let s := demo_sess in
  let t1 := (T0 + 37 * NS)%Z in
  let t2 := (t1 + NS)%Z in
  exists s1 e1 s2 e2,
    heartbeat_service sc t1 s = (true, s1, e1) /\ existsb is_tr (outs e1) = true /\ existsb is_lo (outs e1) = false /\
    heartbeat_service sc t2 s1 = (true, s2, e2) /\ existsb is_lo (outs e2) = true /\
    s_state s2 = st_session_terminated /\
    (* only one second after the TestRequest; the property asks for the whole period (36 s) *)
    elapsed t2 t1 = 1%Z /\ period (s_hb s1) = 36 /\
    has_want WLo (tick_wants (s_hb s1) true t2 (s_last_sent s1) (s_last_recv s1) t1) = false.
Proof.
  intros sc SOK s t1 t2.
  (* at t1 the Heartbeat and the TestRequest are due, nothing is pending *)
  destruct (tick_exact sc SOK t1 s eq_refl eq_refl) as (s1 & e1 & E1 & _ & O1 & ST1 & LS1 & LR1 & HB1 & SH1 & OK1);
    [cbn; lia|].
  change (hb_due (s_hb s) t1 (s_last_sent s)) with true in *.
  change (quiet_due (s_hb s) t1 (s_last_recv s)) with true in *.
  change (s_state s =? st_test_request_sent) with false in *.
  (* at t2 last_received has not moved, so the period is still exceeded, now with the TestRequest pending *)
  destruct (tick_exact sc SOK t2 s1 (OK1 eq_refl) SH1) as (s2 & e2 & E2 & _ & O2 & ST2 & _);
    [rewrite HB1; cbn; lia|].
  rewrite HB1, LR1, ST1 in O2, ST2.
  change (quiet_due (s_hb s) t2 (s_last_recv s)) with true in *.
  exists s1, e1, s2, e2. rewrite O1, O2, HB1, LS1, LR1.
  repeat split; assumption.
Qed.
