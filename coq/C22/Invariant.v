(* C22: an invariant of the WHOLE inbound path (Session::process with every handler, the resend
   machinery included) and of the reader loop, for every decoder:
     - the state test_request_sent is never entered,
     - last_sent becomes `now` exactly when bytes go to the socket, and is otherwise untouched,
     - last_received is not touched by process (the reader sets it before calling process).
   Proved compositionally over the state/event/exception monad of the model. *)
From Coq Require Import NArith ZArith List Bool.
From F8 Require Import Sess.Bytes Sess.Msg Sess.Persist Sess.Session Sess.SessLemmas Sess.ProcessLemmas
  C22.Hyp C22.Spec_C22 C22.SendLemmas.
Import ListNotations.
Local Open Scope N_scope.

Section Inv.
Variable sc : schema.
Variable decode : bytes -> decode_result.
Variable fl : bytes.
Variable now : Z.

(* what one piece of the inbound path may do; the last two clauses are SendLemmas.timers *)
Definition P (s s' : sess) (e : list event) : Prop :=
  (s_state s' = st_test_request_sent -> s_state s = st_test_request_sent) /\
  (if has_out e then s_last_sent s' = now else s_last_sent s' = s_last_sent s) /\
  s_last_recv s' = s_last_recv s.

Lemma P_refl : forall s, P s s [].
Proof. intros. split; [auto|apply timers_refl]. Qed.

Lemma P_trans : forall a b c e1 e2, P a b e1 -> P b c e2 -> P a c (e1 ++ e2).
Proof. intros a b c e1 e2 [A1 A2] [B1 B2]. split; [auto|eapply timers_trans; eassumption]. Qed.

Lemma P_then : forall a b c e, P a b e -> P b c [] -> P a c e.
Proof. intros a b c e A B. rewrite <- (app_nil_r e). eapply P_trans; eassumption. Qed.

Lemma P_same : forall s s', s_state s' = s_state s -> s_last_sent s' = s_last_sent s -> s_last_recv s' = s_last_recv s ->
  P s s' [].
Proof. intros s s' A B C. split; [congruence|]. split; assumption. Qed.

Lemma P_state : forall s st, st <> st_test_request_sent -> P s (w_state st s) [].
Proof. intros s st H. split; [cbn; intro; contradiction|]. split; reflexivity. Qed.

Lemma P_send : forall s m c n ok s' e, send sc now s m c n = (ok, s', e) -> P s s' e.
Proof. intros s m c n ok s' e H. apply send_rel in H. destruct H as [St T]. split; [congruence|exact T]. Qed.

Lemma P_stop : forall s, P s (stop s) [].
Proof.
  intros. unfold stop. destruct (s_shutdown s); [apply P_refl|]. apply P_same; reflexivity.
Qed.

Definition keeps {A} (x : M A) : Prop := forall s r s' e, x s = (r, s', e) -> P s s' e.

Lemma keeps_ret : forall A (a : A), keeps (ret a).
Proof. intros A a s r s' e H. inversion H; subst. apply P_refl. Qed.
Lemma keeps_throw : forall A t f, keeps (@throw A t f).
Proof. intros A t f s r s' e H. inversion H; subst. apply P_refl. Qed.
Lemma keeps_get : keeps get.
Proof. intros s r s' e H. inversion H; subst. apply P_refl. Qed.
Lemma keeps_emit : forall ev, has_out [ev] = false -> keeps (emit ev).
Proof.
  intros ev NO s r s' e H. inversion H; subst. split; [auto|]. split; [rewrite NO; reflexivity|reflexivity].
Qed.
Lemma keeps_modify : forall f, (forall s, P s (f s) []) -> keeps (modify f).
Proof. intros f F s r s' e H. inversion H; subst. apply F. Qed.
Lemma keeps_set_state : forall st, st <> st_test_request_sent -> keeps (set_state st).
Proof. intros st H. apply keeps_modify. intro s. apply P_state. exact H. Qed.
Lemma keeps_do_send : forall m c n, keeps (do_send sc now m c n).
Proof.
  intros m c n s r s' e H. unfold do_send in H.
  destruct (send sc now s m c n) as [[ok s1] e1] eqn:E. inversion H; subst. eapply P_send. exact E.
Qed.
Lemma keeps_bind : forall A B (x : M A) (f : A -> M B), keeps x -> (forall a, keeps (f a)) -> keeps (bind x f).
Proof.
  intros A B x f KX KF s r s' e H. unfold bind in H.
  destruct (x s) as [[[a|ex] s1] e1] eqn:EX.
  - destruct (f a s1) as [[r2 s2] e2] eqn:EF. inversion H; subst.
    eapply P_trans; [eapply KX; exact EX|eapply KF; exact EF].
  - inversion H; subst. eapply KX. exact EX.
Qed.

Lemma P_update_persist : forall s, P s (update_persist_seqnums s) [].
Proof. intros. unfold update_persist_seqnums. destruct (p_attached (s_per s)); [apply P_same; reflexivity|apply P_refl]. Qed.

Lemma P_recover : forall s, P s (recover_seqnums s) [].
Proof. intros. unfold recover_seqnums. destruct (p_get_ctrl (s_per s)) as [[a b]|]; [apply P_same; reflexivity|apply P_refl]. Qed.

Create HintDb kp.

(* Walks a handler along its binds and case distinctions; the leaves are ret, throw, get, set_state to
   a state other than test_request_sent, sends, notes, updates that keep the three fields, and handlers
   already shown (the hints). *)
Ltac kp :=
  repeat first
    [ solve [auto 1 with kp nocore]
    | apply keeps_ret | apply keeps_throw | apply keeps_get
    | apply keeps_set_state; discriminate
    | apply keeps_do_send
    | apply keeps_emit; reflexivity
    | apply keeps_bind; [|intros; cbv beta]
    | apply keeps_modify; intro; first [apply P_stop | apply P_update_persist | apply P_same; reflexivity]
    | progress cbv zeta
    | match goal with
      | |- keeps (if ?c then _ else _) => destruct c
      | |- keeps (match ?x with _ => _ end) => destruct x
      end ].

Lemma keeps_compid_check : forall m, keeps (compid_check m).
Proof. intros. unfold compid_check. kp. Qed.
Hint Resolve keeps_compid_check : kp.

Lemma keeps_sequence_check : forall q m, keeps (sequence_check sc now q m).
Proof. intros. unfold sequence_check. kp. Qed.
Hint Resolve keeps_sequence_check : kp.

Lemma keeps_enforce : forall q m, keeps (enforce sc now q m).
Proof. intros. unfold enforce. kp. Qed.
Hint Resolve keeps_enforce : kp.

Lemma keeps_outbound_reject : forall q mt t, keeps (handle_outbound_reject sc now q mt t).
Proof. intros. unfold handle_outbound_reject. kp. Qed.
Hint Resolve keeps_outbound_reject : kp.

Lemma keeps_handle_logon : forall q m, keeps (handle_logon sc now q m).
Proof.
  intros. unfold handle_logon. kp.
  all: apply keeps_modify; intro s.
  all: try (apply P_same; reflexivity).
  eapply (P_trans _ (recover_seqnums s) _ [] []); [apply P_recover|].
  apply P_same; repeat match goal with |- context [if ?c then _ else _] => destruct c end; reflexivity.
Qed.
Hint Resolve keeps_handle_logon : kp.

Lemma keeps_handle_logout : forall q m, keeps (handle_logout sc now q m).
Proof. intros. unfold handle_logout. kp. Qed.
Hint Resolve keeps_handle_logout : kp.

Lemma keeps_handle_sequence_reset : forall q m, keeps (handle_sequence_reset sc now q m).
Proof. intros. unfold handle_sequence_reset. kp. Qed.
Hint Resolve keeps_handle_sequence_reset : kp.

Lemma keeps_retrans_record : forall b l q raw, keeps (retrans_record sc decode now b l q raw).
Proof. intros. unfold retrans_record. kp. Qed.
Hint Resolve keeps_retrans_record : kp.

Lemma keeps_retrans_loop : forall fuel b f l c, keeps (retrans_loop sc decode now fuel b f l c).
Proof.
  induction fuel; intros; cbn [retrans_loop].
  - kp.
  - kp.
Qed.
Hint Resolve keeps_retrans_loop : kp.

Lemma keeps_retrans_final : forall b i l, keeps (retrans_final sc now b i l).
Proof. intros. unfold retrans_final. kp. Qed.
Hint Resolve keeps_retrans_final : kp.

Lemma keeps_handle_resend_request : forall q m, keeps (handle_resend_request sc decode now q m).
Proof. intros. unfold handle_resend_request. kp. Qed.
Hint Resolve keeps_handle_resend_request : kp.

Lemma keeps_handle_test_request : forall q m, keeps (handle_test_request sc now q m).
Proof. intros. unfold handle_test_request. kp. Qed.
Hint Resolve keeps_handle_test_request : kp.

Lemma keeps_handle_heartbeat : forall q m, keeps (handle_heartbeat sc now q m).
Proof. intros. unfold handle_heartbeat. kp. Qed.
Hint Resolve keeps_handle_heartbeat : kp.

Lemma keeps_handle_application : forall q m, keeps (handle_application sc now q m).
Proof. intros. unfold handle_application. kp. Qed.
Hint Resolve keeps_handle_application : kp.

Lemma keeps_dispatch : forall q m, keeps (dispatch sc decode now q m).
Proof. intros. unfold dispatch. kp. Qed.
Hint Resolve keeps_dispatch : kp.

Lemma keeps_process_body : forall q m, keeps (process_body sc decode now q m).
Proof. intros. unfold process_body. kp. Qed.

Lemma P_process_catch : forall s q mt r s1 e1 b s' e',
  P s s1 e1 -> process_catch sc now q mt (r, s1, e1) = (b, s', e') -> P s s' e'.
Proof.
  intros s q mt r s1 e1 b s' e' H C. unfold process_catch in C.
  destruct r as [b0|[text [|]]].
  - inversion C; subst. exact H.
  - (* a session-level exception: a Logout when the logon was under way, then stop *)
    destruct ((s_state s1 =? st_logon_received) && negb (pr_sd (s_par s1))).
    + destruct (send sc now (w_state st_session_terminated s1) (generate_logout sc (Some text)) 0 true)
        as [[ok sb] eb] eqn:E.
      inversion C; subst. eapply P_trans; [exact H|].
      eapply P_then; [|apply P_stop]. eapply P_then; [|apply P_state; discriminate].
      eapply (P_trans _ _ _ []); [|eapply P_send; exact E]. apply P_state. discriminate.
    + inversion C; subst. eapply P_trans; [exact H|apply P_stop].
  - (* a Reject; the message still counts as received *)
    destruct (handle_outbound_reject sc now q mt text s1) as [[r2 s2] e2] eqn:E.
    inversion C; subst. eapply P_trans; [exact H|].
    eapply P_then; [|apply P_update_persist].
    eapply P_then; [eapply keeps_outbound_reject; exact E|apply P_same; reflexivity].
Qed.

Theorem P_process : forall raw s b s' e, process sc decode fl now raw s = (b, s', e) -> P s s' e.
Proof.
  intros raw s b s' e H. unfold process in H.
  destruct (find_after pat_34 raw) as [rest|].
  - destruct (fast_atoi_u rest SOH 0) as [q|].
    + destruct (decode raw) as [m|text force].
      * destruct (process_body sc decode now q m s) as [[r s1] e1] eqn:E.
        eapply P_process_catch; [|exact H]. eapply keeps_process_body. exact E.
      * eapply P_process_catch; [|exact H]. apply P_refl.
    + inversion H; subst. split; [auto|]. split; reflexivity.
  - eapply P_process_catch; [|exact H]. apply P_refl.
Qed.
End Inv.

Definition has_ret (evs : list event) : bool :=
  existsb (fun e => match e with ERet _ => true | _ => false end) evs.
Lemma has_ret_app : forall a b, has_ret (a ++ b) = has_ret a || has_ret b.
Proof. intros. apply existsb_app. Qed.

Definition R (now : Z) (s s' : sess) (e : list event) : Prop :=
  (s_state s' = st_test_request_sent -> s_state s = st_test_request_sent) /\
  (if has_out e then s_last_sent s' = now else s_last_sent s' = s_last_sent s) /\
  (if has_ret e then s_last_recv s' = now else s_last_recv s' = s_last_recv s).

Theorem R_reader_loop : forall sc decode fl now l s evs s' evs',
  reader_loop sc decode fl now l s evs = (s', evs') ->
  exists e, evs' = (evs ++ e)%list /\ R now s s' e.
Proof.
  intros sc decode fl now. induction l as [|raw l IH]; intros s evs s' evs' H; cbn [reader_loop] in H.
  - inversion H; subst. exists []. rewrite app_nil_r. split; [reflexivity|]. repeat split; auto.
  - destruct (negb (s_reader s) || is_shutdown s).
    + inversion H; subst. exists []. rewrite app_nil_r. split; [reflexivity|]. repeat split; auto.
    + (* last_received := now, process, RET, and on with the rest *)
      destruct (process sc decode fl now raw (w_last_recv now s)) as [[r s1] e1] eqn:E.
      apply P_process in E. destruct E as [E1 [E2 E3]].
      set (s2 := if is_shutdown s1 then _ else s1) in H.
      assert (Q : s_state s2 = s_state s1 /\ s_last_sent s2 = s_last_sent s1 /\ s_last_recv s2 = s_last_recv s1)
        by (unfold s2; destruct (is_shutdown s1); repeat split).
      destruct Q as (Q1 & Q2 & Q3).
      apply IH in H. destruct H as [e [-> [R1 [R2 R3]]]].
      exists (e1 ++ [ERet (if r then 1 else 0)%Z] ++ e)%list. split; [rewrite <- !app_assoc; reflexivity|].
      split; [|split].
      * intro X. apply E1. rewrite <- Q1. apply R1. exact X.
      * rewrite !has_out_app. cbn [has_out existsb orb].
        destruct (has_out e); [rewrite orb_true_r; exact R2|]. rewrite orb_false_r, R2, Q2. exact E2.
      * rewrite !has_ret_app. cbn [has_ret existsb orb]. rewrite orb_true_r.
        destruct (has_ret e); [exact R3|]. rewrite R3, Q3, E3. reflexivity.
Qed.
