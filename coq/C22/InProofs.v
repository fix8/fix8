(* C22: the inbound side: an inbound TestRequest is answered with a Heartbeat carrying the same TestReqID;
   an inbound Heartbeat while a TestRequest is outstanding returns the session to normal operation. *)
From Coq Require Import NArith ZArith List Bool.
From F8 Require Import Sess.Bytes Sess.Msg Sess.Persist Sess.Session Sess.SessLemmas Sess.ProcessLemmas
  C19.Run19 C19.DeliverProofs C22.Hyp C22.Spec_C22 C22.SendLemmas C22.HbProofs.
Import ListNotations.
Local Open Scope N_scope.

Section In.
Variable sc : schema.
Hypothesis SOK : schema_ok sc = true.
Variable decode : bytes -> decode_result.
Variable fl : bytes.
Variable now : Z.

Lemma sess_ok_w_state : forall st s, sess_ok (w_state st s) = sess_ok s.
Proof. reflexivity. Qed.

Lemma resend_request_generated : forall b e, generated (generate_resend_request sc b e).
Proof.
  intros. unfold generate_resend_request.
  do 2 (apply generated_add; [apply clean_nosoh, dec_clean|]). apply generated_new. reflexivity.
Qed.

(* of the four outcomes of the gate (C19.DeliverProofs.enforce_outcome) only the ResendRequest writes the session *)
Lemma enforce_keeps : forall q m s r s1 e1,
  sess_ok s = true -> enforce sc now q m s = (r, s1, e1) ->
  sess_ok s1 = true /\ (s_state s = st_test_request_sent -> s_state s1 = st_test_request_sent).
Proof.
  intros q m s r s1 e1 OK E. pose proof (enforce_outcome sc now q m s) as O. rewrite E in O.
  destruct (verdict_of s q m) eqn:V; cbn [outcome] in O.
  - inversion O; subst; auto.
  - inversion O; subst; auto.
  - (* it goes out in state continuous, so no TestRequest was outstanding *)
    destruct (send_generated sc SOK now s _ false OK (resend_request_generated (s_next_recv s) 0)) as (p & raw & SE & _).
    unfold resend_msg in O. rewrite SE in O. inversion O; subst.
    split; [apply sess_ok_sent; exact OK|]. intro X. rewrite (verdict_resend _ _ _ V) in X. discriminate X.
  - destruct O as [text O]. inversion O; subst; auto.
Qed.

Section Decoded.
Variables (raw : bytes) (s : sess) (rest : bytes) (q : N) (m : msg).
Hypothesis F1 : find_after pat_34 raw = Some rest.
Hypothesis F2 : fast_atoi_u rest SOH 0 = Some q.
Hypothesis D : decode raw = DecOk m.

(* dispatch selects the handler h (of any type but Logout, whose second component is true) and h returns *)
Lemma process_handled : forall (h : M bool) r s1 e1,
  dispatch sc decode now q m = bind h (fun r => ret (r, false)) ->
  h s = (inl r, s1, e1) ->
  exists p, process sc decode fl now raw s = (r, w_per p (w_next_recv (s_next_recv s1 + 1) s1), e1).
Proof.
  intros h r s1 e1 DI H.
  assert (DS : dispatch sc decode now q m s = (inl (r, false), s1, e1))
    by (rewrite DI, (bind_inl _ H); cbn [ret]; rewrite app_nil_r; reflexivity).
  rewrite (process_returns sc decode fl now raw rest q m F1 F2 D _ _ _ _ DS).
  unfold update_persist_seqnums. destruct (p_attached _); eexists; reflexivity.
Qed.

Theorem testreq_answer : forall id b s1 e1,
  sess_ok s = true ->
  m_type m = mt_test_request -> get_field T_TestReqID (m_body m) = Some id -> id <> [] -> nosoh id = true ->
  enforce sc now q m s = (inl b, s1, e1) ->
  exists s' out,
    process sc decode fl now raw s = (true, s', (e1 ++ [EOut out])%list) /\
    kind_of out = KHeartbeat (Some id) /\ s_state s' = s_state s1.
Proof.
  intros id b s1 e1 OK TY ID NE NS ENF.
  destruct (enforce_keeps q m s _ s1 e1 OK ENF) as [OK1 _].
  destruct (send_generated sc SOK now s1 _ false OK1 (heartbeat_generated sc id NS)) as (p & out & SE & K).
  rewrite (heartbeat_kind sc SOK id NE) in K.
  edestruct process_handled as [p' E].
  { unfold dispatch. rewrite TY. reflexivity. }
  { unfold handle_test_request, bind, do_send, ret. rewrite ENF, ID, SE, app_nil_r. reflexivity. }
  rewrite E. do 2 eexists. split; [reflexivity|]. split; [exact K|reflexivity].
Qed.

Theorem hb_resets : forall b s1 e1,
  sess_ok s = true ->
  m_type m = mt_heartbeat -> s_state s = st_test_request_sent ->
  enforce sc now q m s = (inl b, s1, e1) ->
  exists s', process sc decode fl now raw s = (true, s', e1) /\ s_state s' = st_continuous.
Proof.
  intros b s1 e1 OK TY ST ENF.
  destruct (enforce_keeps q m s _ s1 e1 OK ENF) as [_ ST1]. specialize (ST1 ST).
  edestruct process_handled as [p' E].
  { unfold dispatch. rewrite TY. reflexivity. }
  { unfold handle_heartbeat, bind, get, set_state, modify, ret. rewrite ENF, ST1.
    cbn [N.eqb st_test_request_sent Pos.eqb]. rewrite !app_nil_r. reflexivity. }
  rewrite E. eexists. split; reflexivity.
Qed.
End Decoded.

End In.
