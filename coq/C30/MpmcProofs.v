(* C30 — the interleaving model C30/Mpmc.v keeps an invariant [Inv s m a] that couples a model
   state [s] with the state [m] of the property monitor (Spec_C30.mon) and proof-only bookkeeping
   [a] (which tickets sit in which slot), so the monitor accepts every trace.  Tickets are plain
   numbers; all that is used of `t & mask` is I1..I4 of Section Q (range, period, congruent
   tickets are at least mask+1 apart, identity on small numbers); the rest is linear arithmetic. *)
From Coq Require Import Arith List Bool Lia PeanoNat.
From F8 Require Import C30.Mpmc C30.Spec_C30 C30.TraceProofs.
Import ListNotations.

Lemma upd_same {A} (f : nat -> A) k v : upd f k v k = v.
Proof. unfold upd. rewrite Nat.eqb_refl. reflexivity. Qed.
Lemma upd_other {A} (f : nat -> A) k v j : j <> k -> upd f k v j = f j.
Proof. unfold upd. intros. destruct (Nat.eqb_spec j k); congruence. Qed.

(* split on whether [j] is the updated index [k] *)
Ltac updcase j k :=
  destruct (Nat.eq_dec j k) as [->|?];
  [ rewrite ?upd_same | rewrite ?upd_other by assumption ].

Section LandFacts.
Variable k : nat.
Let mask := Nat.ones k.

Lemma land_mod t : Nat.land t mask = t mod (mask + 1).
Proof.
  unfold mask. rewrite Nat.land_ones, Nat.ones_equiv.
  pose proof (Nat.pow_nonzero 2 k). replace (Nat.pred (2 ^ k) + 1) with (2 ^ k) by lia. reflexivity.
Qed.

Lemma land_range t : Nat.land t mask <= mask.
Proof. rewrite land_mod. pose proof (Nat.mod_upper_bound t (mask + 1)). lia. Qed.

Lemma land_period t : Nat.land (t + mask + 1) mask = Nat.land t mask.
Proof.
  rewrite !land_mod. replace (t + mask + 1) with (t + 1 * (mask + 1)) by lia. apply Nat.mod_add. lia.
Qed.

Lemma land_apart a b : Nat.land a mask = Nat.land b mask -> a < b -> a + mask + 1 <= b.
Proof.
  rewrite !land_mod, <- Nat.add_assoc. set (n := mask + 1). intros He Hlt.
  pose proof (Nat.div_mod a n) as Ha. pose proof (Nat.div_mod b n) as Hb. rewrite He in Ha.
  assert (a / n < b / n) by nia. nia.
Qed.

Lemma land_small i : i <= mask -> Nat.land i mask = i.
Proof. intros. rewrite land_mod. apply Nat.mod_small. lia. Qed.
End LandFacts.

Local Opaque Nat.land.

Section Q.
Variable mask : nat.
Local Notation idx t := (Nat.land t mask).
Hypothesis I1 : forall t, idx t <= mask.
Hypothesis I2 : forall t, idx (t + mask + 1) = idx t.
Hypothesis I3 : forall a b, idx a = idx b -> a < b -> a + mask + 1 <= b.
Hypothesis I4 : forall i, i <= mask -> idx i = i.

Lemma same_lane x k : idx x = idx k -> k <= x -> x < k + mask + 1 -> x = k.
Proof.
  intros Hc H1 H2. destruct (Nat.eq_dec x k); [assumption|].
  assert (L : k < x) by lia. pose proof (I3 k x (eq_sym Hc) L). lia.
Qed.

(* proof-only bookkeeping, per slot: [slk] = the tickets of the payloads stored in the buffer,
   oldest first; [lo] = the ticket the next slot pop takes out, [hi] = the ticket the next slot
   push stores (they run ahead of seqC / seqP by one round between the slot operation and the
   final store, see i_lo / i_hi) *)
Record aux := { hi : nat -> nat; lo : nat -> nat; slk : nat -> list nat }.

Inductive chain : nat -> list nat -> nat -> Prop :=
| ch_nil a : chain a [] a
| ch_cons a l b : chain (a + mask + 1) l b -> chain a (a :: l) b.

Lemma chain_snoc a l b : chain a l b -> chain a (l ++ [b]) (b + mask + 1).
Proof. induction 1; cbn; constructor; [constructor | assumption]. Qed.
Lemma chain_le a l b : chain a l b -> a <= b.
Proof. induction 1; lia. Qed.

Definition payof (m : mon) (k : nat) : option nat := option_map snd (nth_error (wP m) k).

Lemma payof_Some m k d : payof m k = Some d <-> exists t, nth_error (wP m) k = Some (t, d).
Proof.
  unfold payof. destruct (nth_error (wP m) k) as [[t v]|]; cbn; split.
  - intros [= ->]. exists t. reflexivity.
  - intros [t' [= _ ->]]. reflexivity.
  - discriminate.
  - intros [t' [=]].
Qed.

(* the program as the monitor sees it: operation in progress first *)
Definition cur (T : thread) : list op :=
  match tpc T with
  | Idle => tprog T
  | P1 v | P2 v _ | P3 v _ | P4 v _ | P5 v _ => Push v :: tprog T
  | C1 | C2 _ | C3 _ | C3a _ | C4 _ | C5 _ _ => Pop :: tprog T
  end.

(* what thread t knows at each program point *)
Definition TI (s : st) (m : mon) (a : aux) (t : nat) (p : pc) : Prop :=
  match p with
  | Idle | P1 _ | P2 _ _ | C1 => True
  | P3 v pw => pw <= sp s (idx pw)
  | P4 v pw => sp s (idx pw) = pw /\ pw < pP s /\ hi a (idx pw) = pw /\
               nth_error (wP m) pw = Some (t, v)
  | P5 v pw => sp s (idx pw) = pw /\ pw < pP s /\ hi a (idx pw) = pw + mask + 1 /\
               nth_error (wP m) pw = Some (t, v)
  | C2 pr => pr <= pC s
  | C3 pr => pr <= pC s /\ pr <= sc s (idx pr)
  | C3a pr => pr <= sc s (idx pr) /\ pr < sp s (idx pr)
  | C4 pr => sc s (idx pr) = pr /\ pr < pC s /\ pr < sp s (idx pr) /\ lo a (idx pr) = pr /\
             nth_error (wC m) pr = Some t
  | C5 pr d => sc s (idx pr) = pr /\ pr < pC s /\ pr < sp s (idx pr) /\ lo a (idx pr) = pr + mask + 1 /\
               nth_error (wC m) pr = Some t /\ payof m pr = Some d
  end.

(* the ticket a thread holds between its CAS and its final store *)
Definition holdP (p : pc) : option nat := match p with P4 _ pw | P5 _ pw => Some pw | _ => None end.
Definition holdC (p : pc) : option nat := match p with C4 pr | C5 pr _ => Some pr | _ => None end.

Record Inv (s : st) (m : mon) (a : aux) : Prop := {
  i_lenP : length (wP m) = pP s;
  i_lenC : length (wC m) = pC s;
  i_congP : forall i, i <= mask -> idx (sp s i) = i;
  i_congC : forall i, i <= mask -> idx (sc s i) = i;
  i_bndP : forall i, i <= mask -> sp s i < pP s + mask + 1;
  i_bndC : forall i, i <= mask -> sc s i < pC s + mask + 1;
  i_scsp : forall i, i <= mask -> sc s i <= sp s i;
  i_done : forall k, mem k (pdone m) = true <-> k < sp s (idx k);
  i_claimed : forall k, k < pC s -> k < sp s (idx k);
  i_hi : forall i, i <= mask -> hi a i = sp s i \/ (hi a i = sp s i + mask + 1 /\ sp s i < pP s);
  i_lo : forall i, i <= mask -> lo a i = sc s i \/ (lo a i = sc s i + mask + 1 /\ sc s i < pC s);
  i_chain : forall i, i <= mask -> chain (lo a i) (slk a i) (hi a i);
  i_pay : forall i, i <= mask -> map Some (sl s i) = map (payof m) (slk a i);
  i_slk : forall i k, i <= mask -> In k (slk a i) -> k < pP s;
  i_rem : forall t, rem m t = cur (th s t);
  i_pend : forall t, pendP m t = holdP (tpc (th s t)) /\ pendC m t = holdC (tpc (th s t));
  i_th : forall t, TI s m a t (tpc (th s t));
  (* every ticket below a cursor is completed or held by a thread between its CAS and its final store *)
  i_heldP : forall k, k < pP s -> k < sp s (idx k) \/ exists t, holdP (tpc (th s t)) = Some k;
  i_heldC : forall k, k < pC s -> k < sc s (idx k) \/ exists t, holdC (tpc (th s t)) = Some k
}.

Lemma cur_start prog : cur (start prog) = prog.
Proof. destruct prog as [|[v|] r]; reflexivity. Qed.
Lemma TI_start s m a t prog : TI s m a t (tpc (start prog)).
Proof. destruct prog as [|[w|] r]; exact Logic.I. Qed.
Lemma start_free prog : holds_ticket (tpc (start prog)) = false.
Proof. destruct prog as [|[w|] r]; reflexivity. Qed.

Lemma not_holding p : holds_ticket p = false -> holdP p = None /\ holdC p = None.
Proof. destruct p; try discriminate; split; reflexivity. Qed.

Definition aux_init : aux := {| hi := fun i => i; lo := fun i => i; slk := fun _ => [] |}.

Lemma inv_init progs : Inv (init progs) (mon_init progs) aux_init.
Proof.
  constructor; cbn; intros; auto; try lia.
  - (* i_done *) split; [discriminate|].
    destruct (le_lt_dec k mask) as [L|L]; [rewrite (I4 _ L) | pose proof (I1 k)]; lia.
  - (* i_chain *) constructor.
  - (* i_rem *) rewrite cur_start. reflexivity.
  - (* i_pend *) destruct (nth t progs []) as [|[v|] r]; split; reflexivity.
  - (* i_th *) apply TI_start.
Qed.

Lemma holdP_at s m a t pw :
  Inv s m a -> holdP (tpc (th s t)) = Some pw ->
  sp s (idx pw) = pw /\ exists v, nth_error (wP m) pw = Some (t, v).
Proof.
  intros I H. pose proof (i_th _ _ _ I t) as T.
  destruct (tpc (th s t)); try discriminate; injection H as ->; destruct T as (? & ? & ? & ?); eauto.
Qed.

Lemma holdC_at s m a t pr :
  Inv s m a -> holdC (tpc (th s t)) = Some pr -> sc s (idx pr) = pr /\ nth_error (wC m) pr = Some t.
Proof.
  intros I H. pose proof (i_th _ _ _ I t) as T.
  destruct (tpc (th s t)); try discriminate; injection H as ->; destruct T as (? & ? & ? & ? & T); [|destruct T]; auto.
Qed.

Lemma exclP s m a t t0 pw pw0 :
  Inv s m a -> t0 <> t -> holdP (tpc (th s t)) = Some pw -> holdP (tpc (th s t0)) = Some pw0 ->
  idx pw0 <> idx pw.
Proof.
  intros I Hne H1 H2 He.
  destruct (holdP_at _ _ _ _ _ I H1) as (E1 & v1 & W1). destruct (holdP_at _ _ _ _ _ I H2) as (E2 & v2 & W2).
  rewrite He in E2. assert (pw0 = pw) by congruence. subst pw0. congruence.
Qed.

Lemma exclC s m a t t0 pr pr0 :
  Inv s m a -> t0 <> t -> holdC (tpc (th s t)) = Some pr -> holdC (tpc (th s t0)) = Some pr0 ->
  idx pr0 <> idx pr.
Proof.
  intros I Hne H1 H2 He.
  destruct (holdC_at _ _ _ _ _ I H1) as (E1 & W1). destruct (holdC_at _ _ _ _ _ I H2) as (E2 & W2).
  rewrite He in E2. assert (pr0 = pr) by congruence. subst pr0. congruence.
Qed.

(* frame: a thread's knowledge survives the moves of the others *)
Lemma TI_stable s m a s' m' a' t0 p :
  TI s m a t0 p ->
  pP s <= pP s' -> pC s <= pC s' ->
  (forall i, sp s i <= sp s' i) -> (forall i, sc s i <= sc s' i) ->
  (forall k x, nth_error (wP m) k = Some x -> nth_error (wP m') k = Some x) ->
  (forall k x, nth_error (wC m) k = Some x -> nth_error (wC m') k = Some x) ->
  (forall pw, holdP p = Some pw -> sp s' (idx pw) = sp s (idx pw) /\ hi a' (idx pw) = hi a (idx pw)) ->
  (forall pr, holdC p = Some pr -> sc s' (idx pr) = sc s (idx pr) /\ lo a' (idx pr) = lo a (idx pr)) ->
  TI s' m' a' t0 p.
Proof.
  intros H HP HC Hsp Hsc HwP HwC HholdP HholdC.
  destruct p; cbn [TI holdP holdC] in *; auto.
  - specialize (Hsp (idx pw)). lia.
  - destruct (HholdP pw eq_refl) as [-> ->]. destruct H as (?&?&?&?). repeat split; auto; lia.
  - destruct (HholdP pw eq_refl) as [-> ->]. destruct H as (?&?&?&?). repeat split; auto; lia.
  - lia.
  - specialize (Hsc (idx pr)). lia.
  - specialize (Hsc (idx pr)). specialize (Hsp (idx pr)). lia.
  - destruct (HholdC pr eq_refl) as [-> ->]. specialize (Hsp (idx pr)).
    destruct H as (?&?&?&?&?). repeat split; auto; lia.
  - destruct (HholdC pr eq_refl) as [-> ->]. specialize (Hsp (idx pr)).
    destruct H as (?&?&?&?&?&Hpay). repeat split; auto; try lia.
    apply payof_Some in Hpay as [t' E]. apply payof_Some. exists t'. apply HwP, E.
Qed.

(* discharges the premises of [TI_stable] for the components a move leaves alone or only grows *)
Ltac stab :=
  cbn [pP pC sp sc sl th wP wC pdone pendP pendC rem hi lo slk];
  intros; auto using nth_error_app_keep; try lia.

(* i_heldP / i_heldC: [f] is holdP or holdC, [c] the cursor, [sq] the slots' sequence numbers.
   In the lemmas thread t moves to X. *)
Definition covered (f : pc -> option nat) (c : nat) (sq : nat -> nat) (ths : nat -> thread) : Prop :=
  forall k, k < c -> k < sq (idx k) \/ exists u, f (tpc (ths u)) = Some k.

Lemma covered_keep f c sq ths t X :
  covered f c sq ths -> f (tpc X) = f (tpc (ths t)) -> covered f c sq (upd ths t X).
Proof.
  intros H E k Hk. destruct (H k Hk) as [L|(u & Hu)]; [left; assumption | right; exists u].
  updcase u t; congruence.
Qed.

Lemma covered_win f c sq ths t X :
  covered f c sq ths -> f (tpc (ths t)) = None -> f (tpc X) = Some c ->
  covered f (c + 1) sq (upd ths t X).
Proof.
  intros H E0 E1 k Hk. destruct (Nat.eq_dec k c) as [->|Hne].
  - right. exists t. rewrite upd_same. assumption.
  - destruct (H k) as [L|(u & Hu)]; [lia | left; assumption | right; exists u].
    updcase u t; congruence.
Qed.

Lemma covered_release f c sq ths t X k0 :
  covered f c sq ths -> f (tpc (ths t)) = Some k0 -> sq (idx k0) <= k0 + mask + 1 ->
  covered f c (upd sq (idx k0) (k0 + mask + 1)) (upd ths t X).
Proof.
  intros H E Hle k Hk. destruct (H k Hk) as [L|(u & Hu)].
  - left. destruct (Nat.eq_dec (idx k) (idx k0)) as [Ei|Ei];
      [rewrite Ei in *; rewrite upd_same | rewrite upd_other by assumption]; lia.
  - destruct (Nat.eq_dec u t) as [->|Hne].
    + left. assert (k = k0) by congruence. subst k. rewrite upd_same. lia.
    + right. exists u. rewrite upd_other by assumption. assumption.
Qed.

Lemma covered_quiet f c sq ths :
  covered f c sq ths -> (forall u, f (tpc (ths u)) = None) -> forall k, k < c -> k < sq (idx k).
Proof. intros H Q k Hk. destruct (H k Hk) as [L|(u & Hu)]; [assumption | congruence]. Qed.

(* moves that touch nothing shared: only thread t's program point (and, for an empty pop,
   the monitor's view of its program) changes *)
Lemma inv_local s m a t T' m' :
  Inv s m a ->
  wP m' = wP m -> wC m' = wC m -> pdone m' = pdone m -> pendP m' = pendP m -> pendC m' = pendC m ->
  (forall t0, t0 <> t -> rem m' t0 = rem m t0) -> rem m' t = cur T' ->
  holds_ticket (tpc (th s t)) = false -> holds_ticket (tpc T') = false ->
  TI s m a t (tpc T') ->
  Inv (set_th s t T') m' a.
Proof.
  intros I E1 E2 E3 E4 E5 Hrem Hremt [Hh1 Hh2]%not_holding [Hh3 Hh4]%not_holding HT.
  assert (Hstab : forall t0 p, TI s m a t0 p -> TI (set_th s t T') m' a t0 p).
  { intros t0 p H. eapply TI_stable; [exact H | unfold set_th; stab ..]; congruence. }
  constructor; unfold set_th; cbn [pP pC sp sc sl th]; rewrite ?E1, ?E2, ?E3; try apply I.
  - intros i Hi. rewrite (i_pay _ _ _ I i Hi). apply map_ext. intros k. unfold payof. rewrite E1. reflexivity.
  - intros t0. updcase t0 t; [assumption | rewrite Hrem by assumption; apply I].
  - intros t0. rewrite E4, E5. destruct (i_pend _ _ _ I t0) as [A B]. rewrite A, B.
    updcase t0 t; [rewrite Hh1, Hh2, Hh3, Hh4|]; split; reflexivity.
  - intros t0. updcase t0 t; [apply (Hstab t _ HT) | apply (Hstab t0 _ (i_th _ _ _ I t0))].
  - apply (covered_keep holdP); [exact (i_heldP _ _ _ I) | congruence].
  - apply (covered_keep holdC); [exact (i_heldC _ _ _ I) | congruence].
Qed.

Definition accepted (m : mon) (r : st * list ev) : Prop :=
  exists m' a', mons m (snd r) = Some m' /\ Inv (fst r) m' a'.

Lemma goto_accepted s m a t p0 p e :
  Inv s m a -> tpc (th s t) = p0 -> mon_step m e = Some m ->
  cur {| tpc := p; tprog := tprog (th s t) |} = cur {| tpc := p0; tprog := tprog (th s t) |} ->
  holds_ticket p0 = false -> holds_ticket p = false -> TI s m a t p ->
  accepted m (goto s t p, [e]).
Proof.
  intros I Hpc He Hcur H0 H1 HT. exists m, a. split; [cbn [snd mons]; rewrite He; reflexivity|].
  apply (inv_local s m a); auto.
  - rewrite (i_rem _ _ _ I t), Hcur. unfold cur. rewrite Hpc. reflexivity.
  - rewrite Hpc. assumption.
Qed.

Lemma at_pc s m a t p :
  Inv s m a -> tpc (th s t) = p ->
  TI s m a t p /\ pendP m t = holdP p /\ pendC m t = holdC p /\
  rem m t = cur {| tpc := p; tprog := tprog (th s t) |}.
Proof.
  intros I <-. destruct (i_pend _ _ _ I t). repeat split; try assumption; [apply I | apply (i_rem _ _ _ I)].
Qed.

Lemma step_P3 s m a t v pw : Inv s m a -> tpc (th s t) = P3 v pw -> accepted m (step mask t s).
Proof.
  intros I Hpc. destruct (at_pc _ _ _ _ _ I Hpc) as (Hle & HpP & HpC & Hrem). cbn [TI] in Hle.
  unfold step. rewrite Hpc. destruct (Nat.eqb_spec (pP s) pw) as [<-|HP].
  2: { apply (goto_accepted _ _ a _ _ _ _ I Hpc); reflexivity. }
  (* it wins ticket preadP; the slot is free, since seqP[idx] cannot be a round ahead *)
  pose proof (I1 (pP s)) as Hi.
  assert (Hsp : sp s (idx (pP s)) = pP s).
  { apply same_lane; [apply (i_congP _ _ _ I _ Hi) | assumption | apply (i_bndP _ _ _ I _ Hi)]. }
  eexists; exists a. split.
  { cbn [snd mons mon_step]. unfold idle.
    rewrite (i_lenP _ _ _ I), Nat.eqb_refl, Hrem, HpP, HpC. cbn [cur tpc hd_error is_push].
    rewrite Nat.eqb_refl. reflexivity. }
  constructor; cbn [fst pP pC sp sc sl th wP wC pdone pendP pendC rem]; try apply I.
  - rewrite last_length, (i_lenP _ _ _ I). lia.
  - intros i Hi'. pose proof (i_bndP _ _ _ I i Hi'). lia.
  - intros i Hi'. destruct (i_hi _ _ _ I i Hi') as [E|[E L]]; [left; exact E | right; split; [exact E | lia]].
  - (* the payloads on record for stored tickets do not move: these are below preadP *)
    intros i Hi'. rewrite (i_pay _ _ _ I i Hi'). apply map_ext_in. intros k Hk.
    pose proof (i_slk _ _ _ I i k Hi' Hk). unfold payof. cbn [wP].
    rewrite nth_error_app1; [reflexivity | rewrite (i_lenP _ _ _ I); assumption].
  - intros i k Hi' Hk. pose proof (i_slk _ _ _ I i k Hi' Hk). lia.
  - intros t0. updcase t0 t; [exact Hrem | apply I].
  - intros t0. updcase t0 t; [split; [reflexivity | exact HpC] | apply I].
  - intros t0. updcase t0 t.
    + cbn [tpc TI pP sp wP]. repeat split; try lia.
      * destruct (i_hi _ _ _ I _ Hi) as [E|[E L]]; lia.
      * rewrite <- (i_lenP _ _ _ I). apply nth_error_last.
    + eapply TI_stable; [apply (i_th _ _ _ I t0) | stab ..].
  - apply (covered_win holdP); [exact (i_heldP _ _ _ I) | rewrite Hpc; reflexivity | reflexivity].
  - apply (covered_keep holdC); [exact (i_heldC _ _ _ I) | rewrite Hpc; reflexivity].
Qed.

Lemma step_P4 s m a t v pw : Inv s m a -> tpc (th s t) = P4 v pw -> accepted m (step mask t s).
Proof.
  intros I Hpc. destruct (at_pc _ _ _ _ _ I Hpc) as ((Hsp & HltP & Hhi & HwP) & HpP & HpC & Hrem).
  pose proof (I1 pw) as Hi. unfold step. rewrite Hpc.
  exists m, {| hi := upd (hi a) (idx pw) (pw + mask + 1); lo := lo a;
               slk := upd (slk a) (idx pw) (slk a (idx pw) ++ [pw]) |}.
  split; [reflexivity|].
  constructor; cbn [fst pP pC sp sc sl th hi lo slk]; try apply I.
  - intros i Hi'. updcase i (idx pw); [right; split; lia | apply I; assumption].
  - intros i Hi'. updcase i (idx pw); [|apply I; assumption].
    pose proof (i_chain _ _ _ I _ Hi) as Hc. rewrite Hhi in Hc. apply chain_snoc. exact Hc.
  - intros i Hi'. updcase i (idx pw); [|apply I; assumption].
    rewrite !map_app, (i_pay _ _ _ I _ Hi). cbn [map].
    rewrite (proj2 (payof_Some m pw v) (ex_intro _ t HwP)). reflexivity.
  - intros i k Hi'. updcase i (idx pw); [|apply (i_slk _ _ _ I); assumption].
    intros [Hk|[<-|[]]]%in_app_or; [eapply (i_slk _ _ _ I); eassumption | assumption].
  - intros t0. updcase t0 t; [exact Hrem | apply I].
  - intros t0. updcase t0 t; [split; assumption | apply I].
  - intros t0. updcase t0 t.
    + cbn [tpc TI pP sp wP hi]. rewrite upd_same. repeat split; assumption.
    + eapply TI_stable; [apply (i_th _ _ _ I t0) | stab ..].
      split; [reflexivity|]. apply upd_other. eapply (exclP s m a t t0); eauto. rewrite Hpc; reflexivity.
  - apply (covered_keep holdP); [exact (i_heldP _ _ _ I) | rewrite Hpc; reflexivity].
  - apply (covered_keep holdC); [exact (i_heldC _ _ _ I) | rewrite Hpc; reflexivity].
Qed.

Lemma step_P5 s m a t v pw : Inv s m a -> tpc (th s t) = P5 v pw -> accepted m (step mask t s).
Proof.
  intros I Hpc. destruct (at_pc _ _ _ _ _ I Hpc) as ((Hsp & HltP & Hhi & HwP) & HpP & HpC & Hrem).
  cbn [cur tpc tprog] in Hrem. pose proof (I1 pw) as Hi. unfold step. rewrite Hpc.
  assert (Hmono : forall i, sp s i <= upd (sp s) (idx pw) (pw + mask + 1) i).
  { intros i. updcase i (idx pw); lia. }
  eexists; exists a. split.
  { cbn [snd mons mon_step]. rewrite HpP. cbn [holdP]. rewrite HwP, Hrem. cbn [hd_error is_push].
    rewrite !Nat.eqb_refl. reflexivity. }
  constructor; cbn [fst pP pC sp sc sl th wP wC pdone pendP pendC rem]; try apply I.
  - intros i Hi'. updcase i (idx pw); [apply I2 | apply I; assumption].
  - intros i Hi'. updcase i (idx pw); [lia | apply I; assumption].
  - intros i Hi'. pose proof (i_scsp _ _ _ I i Hi'). specialize (Hmono i). lia.
  - (* i_done: in pw's lane a ticket below pw + mask + 1 is at most pw *)
    intros k. cbn [mem existsb]. fold (mem k (pdone m)).
    rewrite orb_true_iff, Nat.eqb_eq, (i_done _ _ _ I k).
    destruct (Nat.eq_dec (idx k) (idx pw)) as [He|Hne].
    + rewrite He, upd_same, Hsp. split; [intros [->|]; lia|]. intros Hlt.
      destruct (le_lt_dec k pw) as [L|L]; [lia|]. pose proof (I3 pw k (eq_sym He) L). lia.
    + rewrite upd_other by assumption. split; [intros [->|]; [congruence | assumption] | right; assumption].
  - intros k Hk. pose proof (i_claimed _ _ _ I k Hk). specialize (Hmono (idx k)). lia.
  - intros i Hi'. updcase i (idx pw); [left; assumption | apply I; assumption].
  - intros t0. updcase t0 t; [|apply I]. symmetry. apply cur_start.
  - intros t0. updcase t0 t; [|apply I].
    destruct (not_holding _ (start_free (tprog (th s t)))) as [-> ->]. split; [reflexivity | exact HpC].
  - intros t0. updcase t0 t; [apply TI_start|].
    eapply TI_stable; [apply (i_th _ _ _ I t0) | stab ..].
    split; [|reflexivity]. apply upd_other. eapply (exclP s m a t t0); eauto. rewrite Hpc; reflexivity.
  - apply (covered_release holdP); [exact (i_heldP _ _ _ I) | rewrite Hpc; reflexivity | lia].
  - apply (covered_keep holdC); [exact (i_heldC _ _ _ I) | rewrite Hpc; apply not_holding, start_free].
Qed.

Lemma step_C3 s m a t pr : Inv s m a -> tpc (th s t) = C3 pr -> accepted m (step mask t s).
Proof.
  intros I Hpc. destruct (at_pc _ _ _ _ _ I Hpc) as ((HleC & Hle) & HpP & HpC & Hrem).
  cbn [cur tpc tprog] in Hrem. unfold step. rewrite Hpc.
  destruct (Nat.leb_spec (sp s (idx pr)) pr) as [Hx|Hx].
  2: { apply (goto_accepted _ _ a _ _ _ _ I Hpc); try reflexivity. cbn [TI]. lia. }
  (* the pop reports empty: ticket pr is still unclaimed, and push pr has not returned *)
  assert (HprC : pr = pC s).
  { destruct (Nat.eq_dec pr (pC s)); [assumption|]. pose proof (i_claimed _ _ _ I pr). lia. }
  assert (Hnd : mem pr (pdone m) = false).
  { apply not_true_iff_false. rewrite (i_done _ _ _ I). lia. }
  eexists; exists a. split.
  - cbn [snd mons mon_step]. unfold idle.
    rewrite (i_lenC _ _ _ I), <- HprC, Nat.eqb_refl, Hnd, Hrem, HpP, HpC. reflexivity.
  - apply (inv_local s m a); cbn [fst wP wC pdone pendP pendC rem tpc]; auto.
    + intros. apply upd_other; assumption.
    + rewrite upd_same. symmetry. apply cur_start.
    + rewrite Hpc; reflexivity.
    + apply start_free.
    + apply TI_start.
Qed.

Lemma step_C3a s m a t pr : Inv s m a -> tpc (th s t) = C3a pr -> accepted m (step mask t s).
Proof.
  intros I Hpc. destruct (at_pc _ _ _ _ _ I Hpc) as ((Hle & Hlt) & HpP & HpC & Hrem).
  unfold step. rewrite Hpc. destruct (Nat.eqb_spec (pC s) pr) as [<-|HC].
  2: { apply (goto_accepted _ _ a _ _ _ _ I Hpc); reflexivity. }
  pose proof (I1 (pC s)) as Hi.
  assert (Hsc : sc s (idx (pC s)) = pC s).
  { apply same_lane; [apply (i_congC _ _ _ I _ Hi) | assumption | apply (i_bndC _ _ _ I _ Hi)]. }
  eexists; exists a. split.
  { cbn [snd mons mon_step]. unfold idle.
    rewrite (i_lenC _ _ _ I), Nat.eqb_refl, Hrem, HpP, HpC, (proj2 (i_done _ _ _ I _) Hlt). reflexivity. }
  constructor; cbn [fst pP pC sp sc sl th wP wC pdone pendP pendC rem]; try apply I.
  - rewrite last_length, (i_lenC _ _ _ I). lia.
  - intros i Hi'. pose proof (i_bndC _ _ _ I i Hi'). lia.
  - intros k Hk. destruct (Nat.eq_dec k (pC s)) as [->|]; [assumption | apply (i_claimed _ _ _ I); lia].
  - intros i Hi'. destruct (i_lo _ _ _ I i Hi') as [E|[E L]]; [left; exact E | right; split; [exact E | lia]].
  - intros t0. updcase t0 t; [exact Hrem | apply I].
  - intros t0. updcase t0 t; [split; [exact HpP | reflexivity] | apply I].
  - intros t0. updcase t0 t.
    + cbn [tpc TI pC sc sp wC]. repeat split; try lia.
      * destruct (i_lo _ _ _ I _ Hi) as [E|[E L]]; lia.
      * rewrite <- (i_lenC _ _ _ I). apply nth_error_last.
    + eapply TI_stable; [apply (i_th _ _ _ I t0) | stab ..].
  - apply (covered_keep holdP); [exact (i_heldP _ _ _ I) | rewrite Hpc; reflexivity].
  - apply (covered_win holdC); [exact (i_heldC _ _ _ I) | rewrite Hpc; reflexivity | reflexivity].
Qed.

(* the oldest ticket of a slot that the consumer side has not taken out, if its push has
   returned, sits at the head of the slot buffer with its payload *)
Lemma slot_head s m a i k :
  Inv s m a -> i <= mask -> lo a i = k -> k < sp s i ->
  exists d rest l, sl s i = d :: rest /\ slk a i = k :: l /\ payof m k = Some d /\
                   chain (k + mask + 1) l (hi a i) /\ map Some rest = map (payof m) l.
Proof.
  intros I Hi Hlo Hlt.
  pose proof (i_chain _ _ _ I _ Hi) as Hch. rewrite Hlo in Hch.
  pose proof (i_pay _ _ _ I _ Hi) as Hpay.
  assert (sp s i <= hi a i) by (destruct (i_hi _ _ _ I _ Hi) as [E|[E _]]; lia).
  inversion Hch as [x Ex Ey | x l b Hch' Ex Ey Ez]; [lia|]. subst x b.
  rewrite <- Ey in Hpay. destruct (sl s i) as [|d rest]; [discriminate|].
  cbn [map] in Hpay. injection Hpay as Hd Hrest. exists d, rest, l. auto.
Qed.

(* the consumer takes the head of the slot buffer: it is the payload of its own ticket *)
Lemma pres_C4 s m a t pr :
  Inv s m a -> tpc (th s t) = C4 pr ->
  exists d rest, sl s (idx pr) = d :: rest /\ payof m pr = Some d /\
  Inv {| pP := pP s; pC := pC s; sp := sp s; sc := sc s; sl := upd (sl s) (idx pr) rest;
         th := upd (th s) t {| tpc := C5 pr d; tprog := tprog (th s t) |} |}
      m
      {| hi := hi a; lo := upd (lo a) (idx pr) (pr + mask + 1);
         slk := upd (slk a) (idx pr) (tl (slk a (idx pr))) |}.
Proof.
  intros I Hpc. destruct (at_pc _ _ _ _ _ I Hpc) as ((Hsc & HltC & HltP & Hlo & HwC) & HpP & HpC & Hrem).
  pose proof (I1 pr) as Hi.
  destruct (slot_head _ _ _ _ _ I Hi Hlo HltP) as (d & rest & l & Hsl & Hslk & Hd & Hch & Hrest).
  exists d, rest. split; [assumption|]. split; [assumption|].
  constructor; cbn [pP pC sp sc sl th hi lo slk]; try apply I.
  - intros i Hi'. updcase i (idx pr); [right; split; lia | apply I; assumption].
  - intros i Hi'. updcase i (idx pr); [|apply I; assumption]. rewrite Hslk. exact Hch.
  - intros i Hi'. updcase i (idx pr); [|apply I; assumption]. rewrite Hslk. exact Hrest.
  - intros i k Hi'. updcase i (idx pr); [|apply (i_slk _ _ _ I); assumption].
    intros Hk. apply (i_slk _ _ _ I _ k Hi). rewrite Hslk in *. right. exact Hk.
  - intros t0. updcase t0 t; [exact Hrem | apply I].
  - intros t0. updcase t0 t; [split; assumption | apply I].
  - intros t0. updcase t0 t.
    + cbn [tpc TI pC sc sp wC lo]. rewrite upd_same. repeat split; assumption.
    + eapply TI_stable; [apply (i_th _ _ _ I t0) | stab ..].
      split; [reflexivity|]. apply upd_other. eapply (exclC s m a t t0); eauto. rewrite Hpc; reflexivity.
  - apply (covered_keep holdP); [exact (i_heldP _ _ _ I) | rewrite Hpc; reflexivity].
  - apply (covered_keep holdC); [exact (i_heldC _ _ _ I) | rewrite Hpc; reflexivity].
Qed.

Lemma step_C4 s m a t pr : Inv s m a -> tpc (th s t) = C4 pr -> accepted m (step mask t s).
Proof.
  intros I Hpc. destruct (pres_C4 s m a t pr I Hpc) as (d & rest & Hsl & _ & I').
  unfold step. rewrite Hpc, Hsl. eexists; eexists. split; [reflexivity | exact I'].
Qed.

Lemma step_C5 s m a t pr d : Inv s m a -> tpc (th s t) = C5 pr d -> accepted m (step mask t s).
Proof.
  intros I Hpc.
  destruct (at_pc _ _ _ _ _ I Hpc) as ((Hsc & HltC & HltP & Hlo & HwC & Hpay) & HpP & HpC & Hrem).
  cbn [cur tpc tprog] in Hrem. pose proof (I1 pr) as Hi. unfold step. rewrite Hpc.
  assert (Hmono : forall i, sc s i <= upd (sc s) (idx pr) (pr + mask + 1) i).
  { intros i. updcase i (idx pr); lia. }
  eexists; exists a. split.
  { cbn [snd mons mon_step]. rewrite HpC, Hrem. cbn [holdC].
    apply payof_Some in Hpay as [t' ->]. rewrite !Nat.eqb_refl. reflexivity. }
  constructor; cbn [fst pP pC sp sc sl th wP wC pdone pendP pendC rem]; try apply I.
  - intros i Hi'. updcase i (idx pr); [apply I2 | apply I; assumption].
  - intros i Hi'. updcase i (idx pr); [lia | apply I; assumption].
  - intros i Hi'. updcase i (idx pr); [|apply I; assumption].
    pose proof (I3 pr (sp s (idx pr)) (eq_sym (i_congP _ _ _ I _ Hi)) HltP). lia.
  - intros i Hi'. updcase i (idx pr); [left; assumption | apply I; assumption].
  - intros t0. updcase t0 t; [|apply I]. symmetry. apply cur_start.
  - intros t0. updcase t0 t; [|apply I].
    destruct (not_holding _ (start_free (tprog (th s t)))) as [-> ->]. split; [exact HpP | reflexivity].
  - intros t0. updcase t0 t; [apply TI_start|].
    eapply TI_stable; [apply (i_th _ _ _ I t0) | stab ..].
    split; [|reflexivity]. apply upd_other. eapply (exclC s m a t t0); eauto. rewrite Hpc; reflexivity.
  - apply (covered_keep holdP); [exact (i_heldP _ _ _ I) | rewrite Hpc; apply not_holding, start_free].
  - apply (covered_release holdC); [exact (i_heldC _ _ _ I) | rewrite Hpc; reflexivity | lia].
Qed.

Lemma step_inv t s m a : Inv s m a -> accepted m (step mask t s).
Proof.
  intros I. destruct (tpc (th s t)) eqn:Hpc;
    eauto using step_P3, step_P4, step_P5, step_C3, step_C3a, step_C4, step_C5.
  all: destruct (at_pc _ _ _ _ _ I Hpc) as (Ht & _); unfold step; rewrite Hpc.
  - (* Idle *) exists m, a. split; [reflexivity | exact I].
  - (* P1 *) apply (goto_accepted _ _ a _ _ _ _ I Hpc); reflexivity.
  - (* P2 *) destruct (Nat.eqb_spec pw (sp s (idx pw)));
      apply (goto_accepted _ _ a _ _ _ _ I Hpc); try reflexivity; cbn [TI]; auto; lia.
  - (* C1 *) apply (goto_accepted _ _ a _ _ _ _ I Hpc); try reflexivity. cbn [TI]. lia.
  - (* C2 *) destruct (Nat.eqb_spec pr (sc s (idx pr)));
      apply (goto_accepted _ _ a _ _ _ _ I Hpc); try reflexivity; cbn [TI] in *; auto; lia.
Qed.

Lemma quiet_facts s m a :
  Inv s m a -> (forall u, holds_ticket (tpc (th s u)) = false) ->
  (forall k, k < pP s -> mem k (pdone m) = true) /\
  (pC s < pP s -> sc s (idx (pC s)) = pC s /\ pC s < sp s (idx (pC s)) /\
                  exists d rest, sl s (idx (pC s)) = d :: rest /\ payof m (pC s) = Some d).
Proof.
  intros I Q.
  pose proof (covered_quiet holdP _ _ _ (i_heldP _ _ _ I) (fun u => proj1 (not_holding _ (Q u)))) as QP.
  pose proof (covered_quiet holdC _ _ _ (i_heldC _ _ _ I) (fun u => proj2 (not_holding _ (Q u)))) as QC.
  split; [intros k Hk; apply (i_done _ _ _ I); auto|].
  intros Hlt. set (C := pC s) in *. pose proof (I1 C) as Hi.
  pose proof (i_congC _ _ _ I _ Hi) as Hc.
  assert (Hsc : sc s (idx C) = C).
  { apply same_lane; [assumption | | apply (i_bndC _ _ _ I _ Hi)].
    (* a seqC[idx] below C would be a pop ticket that has been released: beyond itself *)
    destruct (le_lt_dec C (sc s (idx C))) as [L|L]; [assumption|].
    pose proof (QC _ L) as H. rewrite Hc in H. lia. }
  pose proof (QP C Hlt) as Hsp.
  assert (Hlo : lo a (idx C) = C) by (destruct (i_lo _ _ _ I _ Hi) as [E|[E L]]; [congruence | fold C in L; lia]).
  destruct (slot_head _ _ _ _ _ I Hi Hlo Hsp) as (d & rest & l & Hsl & _ & Hd & _).
  eauto 6.
Qed.

Lemma goto_fields s t p :
  pP (goto s t p) = pP s /\ pC (goto s t p) = pC s /\ sp (goto s t p) = sp s /\ sc (goto s t p) = sc s /\
  sl (goto s t p) = sl s /\ tpc (th (goto s t p) t) = p /\ tprog (th (goto s t p) t) = tprog (th s t).
Proof. unfold goto, set_th. cbn. rewrite upd_same. cbn. repeat split. Qed.

(* a pop that starts in a quiet state and runs alone: its six shared actions, one by one *)
Lemma solo_pop s m a t :
  Inv s m a -> (forall u, holds_ticket (tpc (th s u)) = false) -> pC s < pP s -> tpc (th s t) = C1 ->
  exists d evs, snd (run mask [t; t; t; t; t; t] s) = evs ++ [EDoneC t (pC s) d] /\ payof m (pC s) = Some d.
Proof.
  intros I Q Hlt Hpc.
  destruct (quiet_facts s m a I Q) as (_ & H). destruct (H Hlt) as (Hsc & Hsp & d & rest & Hsl & Hpay).
  exists d. set (C := pC s) in *.
  cbn [run].
  (* 1: read preadC *)
  unfold step at 1. rewrite Hpc. fold C.
  destruct (goto_fields s t (C2 C)) as (F1 & F2 & F3 & F4 & F5 & F6 & F7). set (s1 := goto s t (C2 C)) in *.
  (* 2: read seqC[idx] = C *)
  unfold step at 1. rewrite F6, F4, Hsc, Nat.eqb_refl.
  destruct (goto_fields s1 t (C3 C)) as (G1 & G2 & G3 & G4 & G5 & G6 & G7). set (s2 := goto s1 t (C3 C)) in *.
  (* 3: read seqP[idx] > C *)
  unfold step at 1. rewrite G6, G3, F3. destruct (Nat.leb_spec (sp s (idx C)) C) as [L|_]; [lia|].
  destruct (goto_fields s2 t (C3a C)) as (K1 & K2 & K3 & K4 & K5 & K6 & K7). set (s3 := goto s2 t (C3a C)) in *.
  (* 4: CAS on preadC succeeds *)
  unfold step at 1. rewrite K6, K2, G2, F2. fold C. rewrite Nat.eqb_refl.
  set (s4 := {| pP := pP s3; pC := C + 1; sp := sp s3; sc := sc s3; sl := sl s3;
                th := upd (th s3) t {| tpc := C4 C; tprog := tprog (th s3 t) |} |}).
  (* 5: slot pop *)
  unfold step at 1. change (th s4 t) with (upd (th s3) t {| tpc := C4 C; tprog := tprog (th s3 t) |} t).
  rewrite upd_same. cbn [tpc tprog]. change (sl s4) with (sl s3). rewrite K5, G5, F5, Hsl.
  (* 6: final store, pop returns d *)
  unfold step at 1. cbn [th]. rewrite upd_same. cbn [tpc tprog snd app].
  exists [ERd t C; ERd t C; ERd t (sp s (idx C)); ECas t C true; EWinC t C; ESlPop t (Some d); EWr t (C + mask + 1)].
  split; [reflexivity | exact Hpay].
Qed.

Lemma run_inv sched : forall s m a, Inv s m a -> accepted m (run mask sched s).
Proof.
  induction sched as [|t r IH]; intros s m a I; cbn [run].
  - exists m, a. split; [reflexivity | exact I].
  - destruct (step_inv t s m a I) as (m1 & a1 & Hm1 & I1').
    destruct (step mask t s) as [s1 e1]. cbn [fst snd] in *.
    destruct (IH s1 m1 a1 I1') as (m2 & a2 & Hm2 & I2').
    destruct (run mask r s1) as [s2 e2]. cbn [fst snd] in *.
    exists m2, a2. cbn [fst snd]. split; [|exact I2']. rewrite mons_app, Hm1. exact Hm2.
Qed.

Lemma run_app s1 : forall s2 s,
  run mask (s1 ++ s2) s =
  let (x, e1) := run mask s1 s in let (y, e2) := run mask s2 x in (y, e1 ++ e2).
Proof.
  induction s1 as [|t r IH]; intros s2 s; cbn [app run].
  - destruct (run mask s2 s); reflexivity.
  - destruct (step mask t s) as [x e]. rewrite IH.
    destruct (run mask r x) as [y e1]. destruct (run mask s2 y) as [z e2].
    rewrite app_assoc. reflexivity.
Qed.

Lemma drain_is_run fuel nthr : forall s, exists sched, drain mask fuel nthr s = run mask sched s.
Proof.
  induction fuel as [|f IH]; intros s; cbn [drain].
  - exists []. reflexivity.
  - destruct (rr_pass nthr s) as [|t0 pass] eqn:E; [exists []; reflexivity|].
    destruct (run mask (t0 :: pass) s) as [s1 e1] eqn:E1.
    destruct (IH s1) as (sch & Hs). rewrite Hs.
    exists ((t0 :: pass) ++ sch). rewrite run_app, E1. reflexivity.
Qed.

End Q.

Lemma next_pow2_loop_pow fuel x : forall j, exists j', j <= j' /\ next_pow2_loop fuel x (2 ^ j) = 2 ^ j'.
Proof.
  induction fuel as [|f IH]; intros j; cbn [next_pow2_loop].
  - exists j. split; [lia | reflexivity].
  - destruct (Nat.ltb (2 ^ j) x).
    + destruct (IH (S j)) as (j' & L & E). exists j'. split; [lia|].
      rewrite <- E. f_equal.
    + exists j. split; [lia | reflexivity].
Qed.

Lemma norm_nq_pow2 nq : exists k, 1 <= k /\ norm_nq nq - 1 = Nat.ones k.
Proof.
  unfold norm_nq. set (x := if Nat.ltb nq 2 then 2 else nq).
  assert (Hx : 2 <= x) by (unfold x; destruct (Nat.ltb_spec nq 2); lia).
  destruct (is_pow2 x) eqn:E.
  - unfold is_pow2 in E. apply andb_true_iff in E. destruct E as [E _]. apply Nat.eqb_eq in E.
    exists (Nat.log2 x). split; [apply Nat.log2_pos; lia|].
    rewrite Nat.ones_equiv. rewrite <- E. lia.
  - destruct x as [|x']; [lia|]. cbn [next_pow2_loop].
    destruct (Nat.ltb_spec 1 (S x')) as [_|L]; [|lia].
    destruct (next_pow2_loop_pow x' (S x') 1) as (j' & L & E').
    exists j'. split; [assumption|]. change (2 * 1) with (2 ^ 1). rewrite E'.
    rewrite Nat.ones_equiv. lia.
Qed.

Lemma model_inv k progs sched :
  accepted (Nat.ones k) (mon_init progs) (run (Nat.ones k) sched (init progs)).
Proof.
  apply (run_inv _ (land_range k) (land_period k) (land_apart k) sched _ _ aux_init).
  apply (inv_init _ (land_range k) (land_small k)).
Qed.

Lemma all_schedules k progs sched :
  c30_ok progs (snd (run (Nat.ones k) sched (init progs))) = true.
Proof.
  destruct (model_inv k progs sched) as (m & _ & Hm & _). unfold c30_ok. rewrite Hm. reflexivity.
Qed.

Lemma c30_exec_lemma : forall nq progs sched fuel,
  c30_ok (all_progs progs) (exec nq progs sched fuel) = true.
Proof.
  intros nq progs sched fuel. unfold exec.
  destruct (norm_nq_pow2 nq) as (k & _ & ->).
  set (sch0 := filter _ sched).
  destruct (run (Nat.ones k) sch0 (init (all_progs progs))) as [s1 e1] eqn:E1.
  destruct (drain_is_run (Nat.ones k) fuel (length progs) s1) as (sch1 & Hd1). rewrite Hd1.
  destruct (run (Nat.ones k) sch1 s1) as [s2 e2] eqn:E2.
  destruct (drain_is_run (Nat.ones k) fuel (S (length progs)) s2) as (sch2 & Hd2). rewrite Hd2.
  pose proof (all_schedules k (all_progs progs) (sch0 ++ sch1 ++ sch2)) as H.
  rewrite run_app, E1, run_app, E2 in H. destruct (run (Nat.ones k) sch2 s2) as [s3 e3]. exact H.
Qed.

Lemma no_loss k progs sched :
  let s := fst (run (Nat.ones k) sched (init progs)) in
  let tr := snd (run (Nat.ones k) sched (init progs)) in
  (forall u, holds_ticket (tpc (th s u)) = false) ->
  (forall j, j < pP s -> In j (donesP tr)) /\
  (forall t, pC s < pP s -> tpc (th s t) = C1 ->
     exists d tp evs, snd (run (Nat.ones k) [t; t; t; t; t; t] s) = evs ++ [EDoneC t (pC s) d] /\
                      In (EWinP tp (pC s) d) tr).
Proof.
  intros s tr Q. destruct (model_inv k progs sched) as (m & a & M%accepted_MI & I).
  fold s in I. fold tr in M.
  destruct (quiet_facts _ (land_range k) (land_apart k) s m a I Q) as (Hall & _).
  split.
  - intros j Hj. apply (MI_pdone _ _ _ _ M). auto.
  - intros t Hlt Hpc.
    destruct (solo_pop _ (land_range k) (land_apart k) s m a t I Q Hlt Hpc) as (d & evs & E & Hpay).
    apply payof_Some in Hpay as [tp Hn].
    exists d, tp, evs. split; [exact E | apply (m_wP _ _ _ M); exact Hn].
Qed.

(* an experiment in which six elements go round a 2-slot queue (tickets wrap twice), with a
   failed CAS, an empty pop and a producer stalled between its CAS and its store: the monitor's
   checks are exercised and everything pushed is returned exactly once *)
Definition nv_progs : list (list op) :=
  [[Push 11; Push 12; Push 13]; [Push 21; Push 22; Push 23]; [Pop; Pop; Pop]; [Pop; Pop; Pop]].
Definition nv_sched : list nat := [2;2;2; 0;1;0;1;0;1; 3;3;3; 1;1;1;1;1; 2;2;2;2; 1;1;1;1;1;1;1;1; 3;3;3].
