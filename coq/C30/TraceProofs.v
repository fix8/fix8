(* C30 — what acceptance by the monitor (Spec_C30.c30_ok) means for a trace, stated on the trace
   itself.  Pure list reasoning about the monitor: of C30/Mpmc.v only the types of operations and
   events and [upd] are used. *)
From Coq Require Import Arith List Bool Lia Permutation.
From F8 Require Import C30.Mpmc C30.Spec_C30.
Import ListNotations.

Lemma mem_In k l : mem k l = true <-> In k l.
Proof.
  unfold mem. rewrite existsb_exists. split.
  - intros (x & Hx & E). apply Nat.eqb_eq in E. subst. assumption.
  - intros H. exists k. split; [assumption | apply Nat.eqb_refl].
Qed.

Lemma mons_app m e1 e2 :
  mons m (e1 ++ e2) = match mons m e1 with Some m1 => mons m1 e2 | None => None end.
Proof.
  revert m. induction e1 as [|e r IH]; intros m; cbn [app mons]; [reflexivity|].
  destruct (mon_step m e); [apply IH | reflexivity].
Qed.

Lemma mons_snoc m tr e :
  mons m (tr ++ [e]) = match mons m tr with Some m1 => mon_step m1 e | None => None end.
Proof.
  rewrite mons_app. destruct (mons m tr) as [m1|]; [|reflexivity].
  cbn [mons]. destruct (mon_step m1 e); reflexivity.
Qed.

Lemma idle_true m t : idle m t = true -> pendP m t = None /\ pendC m t = None.
Proof. unfold idle. destruct (pendP m t), (pendC m t); try discriminate. split; reflexivity. Qed.

Lemma is_push_hd l v : is_push (hd_error l) v = true -> exists r, l = Push v :: r.
Proof. destruct l as [|[w|] r]; try discriminate. cbn. intros ->%Nat.eqb_eq. eauto. Qed.

Lemma is_pop_hd l : is_pop (hd_error l) = true -> exists r, l = Pop :: r.
Proof. destruct l as [|[w|] r]; try discriminate. eauto. Qed.

Lemma in_snoc {A} (x y : A) l : In x (l ++ [y]) <-> In x l \/ x = y.
Proof. rewrite in_app_iff. cbn. intuition. Qed.

Lemma in_snoc_l {A} (x y : A) l : In x l -> In x (l ++ [y]).
Proof. intros. apply in_snoc. left. assumption. Qed.

Lemma NoDup_snoc {A} (l : list A) x : NoDup l -> ~ In x l -> NoDup (l ++ [x]).
Proof. intros. apply (Permutation_NoDup (Permutation_cons_append l x)). constructor; assumption. Qed.

Lemma nth_error_app_keep {A} (l : list A) x k y : nth_error l k = Some y -> nth_error (l ++ [x]) k = Some y.
Proof. intros H. rewrite nth_error_app1; [assumption|]. apply nth_error_Some. congruence. Qed.

Lemma nth_error_last {A} (l : list A) x : nth_error (l ++ [x]) (length l) = Some x.
Proof. rewrite nth_error_app2, Nat.sub_diag by apply Nat.le_refl. reflexivity. Qed.

Lemma nth_error_snoc {A} (l : list A) x k y :
  nth_error (l ++ [x]) k = Some y -> nth_error l k = Some y \/ k = length l /\ y = x.
Proof.
  destruct (Nat.lt_ge_cases k (length l)) as [L|L]; [rewrite nth_error_app1 by assumption; auto|].
  rewrite nth_error_app2 by assumption.
  destruct (k - length l) as [|j] eqn:E; cbn; [|destruct j; discriminate].
  intros [= <-]. right. split; [lia | reflexivity].
Qed.

Lemma In_donesP k tr : In k (donesP tr) <-> exists t v, In (EDoneP t k v) tr.
Proof.
  unfold donesP. rewrite in_flat_map. split.
  - intros (e & He & Hk). destruct e; try contradiction. destruct Hk as [<-|[]]. eauto.
  - intros (t & v & H). exists (EDoneP t k v). split; [assumption | left; reflexivity].
Qed.

(* [ops_of t0 tr ++ rem m t0] is thread t0's program: an event that is not the return of an
   operation leaves both parts alone, the return of thread t's operation o moves o across *)
Lemma ops_keep tr e t0 : ops_of t0 [e] = [] -> ops_of t0 (tr ++ [e]) = ops_of t0 tr.
Proof. unfold ops_of. rewrite flat_map_app. intros ->. apply app_nil_r. Qed.

Lemma ops_done tr e (rem : nat -> list op) t o r t0 :
  ops_of t0 [e] = (if Nat.eqb t t0 then [o] else []) -> rem t = o :: r ->
  ops_of t0 (tr ++ [e]) ++ upd rem t (tl (rem t)) t0 = ops_of t0 tr ++ rem t0.
Proof.
  unfold ops_of, upd. rewrite flat_map_app, (Nat.eqb_sym t0 t). intros -> Hr.
  destruct (Nat.eqb_spec t t0) as [<-|]; [rewrite Hr|]; rewrite <- app_assoc; reflexivity.
Qed.

(* One side of the monitor is a ticket dispenser: tickets 0 .. n-1 have been handed out, [pend t]
   is the one thread t holds, [dones] are those given back; every ticket is in exactly one place. *)
Record disp (n : nat) (pend : nat -> option nat) (dones : list nat) : Prop := {
  d_nodup : NoDup dones;
  d_out : forall k, k < n <-> In k dones \/ exists t, pend t = Some k;
  d_held : forall t k, pend t = Some k -> ~ In k dones /\ forall t', pend t' = Some k -> t' = t
}.

Lemma disp_init : disp 0 (fun _ => None) [].
Proof.
  constructor; [constructor | | discriminate].
  intros k. split; [lia | intros [[]|(t & [=])]].
Qed.

Lemma disp_win n pend dones t :
  disp n pend dones -> pend t = None -> disp (S n) (upd pend t (Some n)) dones.
Proof.
  intros [ND Out Held] Ht.
  assert (Hn : ~ In n dones /\ forall t', pend t' <> Some n).
  { split; [intros H | intros t' H]; apply (Nat.lt_irrefl n), Out; eauto. }
  constructor; [assumption | |]; unfold upd.
  - intros k. rewrite Nat.lt_succ_r, Nat.le_lteq, Out. split.
    + intros [[H|(t0 & H)]| ->]; [left; assumption | right; exists t0 | right; exists t].
      * destruct (Nat.eqb_spec t0 t) as [->|]; [congruence | assumption].
      * rewrite Nat.eqb_refl. reflexivity.
    + intros [H|(t0 & H)]; [left; left; assumption|].
      destruct (Nat.eqb_spec t0 t); [right; congruence | left; right; exists t0; assumption].
  - intros t0 k. destruct (Nat.eqb_spec t0 t) as [->|Hne].
    + intros [= <-]. split; [apply Hn|].
      intros t'. destruct (Nat.eqb_spec t' t); [auto|]. intros H. destruct (proj2 Hn t' H).
    + intros H. destruct (Held t0 k H) as [A B]. split; [assumption|].
      intros t'. destruct (Nat.eqb_spec t' t) as [->|]; [|apply B].
      intros [= ->]. destruct (proj2 Hn t0 H).
Qed.

Lemma disp_done n pend dones t k :
  disp n pend dones -> pend t = Some k -> disp n (upd pend t None) (dones ++ [k]).
Proof.
  intros [ND Out Held] Ht. destruct (Held t k Ht) as [Hk Huniq].
  constructor; unfold upd.
  - apply NoDup_snoc; assumption.
  - intros k0. rewrite Out, in_snoc. split.
    + intros [H|(t0 & H)]; [left; left; assumption|].
      destruct (Nat.eq_dec t0 t) as [->|Hne]; [left; right; congruence | right; exists t0].
      rewrite (proj2 (Nat.eqb_neq t0 t) Hne). assumption.
    + intros [[H| ->]|(t0 & H)]; [left; assumption | right; exists t; assumption |].
      destruct (Nat.eqb_spec t0 t); [discriminate | right; exists t0; assumption].
  - intros t0 k0. destruct (Nat.eqb_spec t0 t) as [->|Hne]; [discriminate|].
    intros H. destruct (Held t0 k0 H) as [A B]. split.
    + rewrite in_snoc. intros [H'| ->]; [auto | apply Hne, (Huniq t0 H)].
    + intros t'. destruct (Nat.eqb_spec t' t); [discriminate | apply B].
Qed.

Section MI.
Variable progs : list (list op).

(* what the monitor state says about the trace that led to it *)
Record MI (tr : list ev) (m : mon) : Prop := {
  m_tP : ticketsP tr = seq 0 (length (wP m));
  m_tC : ticketsC tr = seq 0 (length (wC m));
  m_wP : forall k t v, nth_error (wP m) k = Some (t, v) -> In (EWinP t k v) tr;
  m_pdone : pdone m = rev (donesP tr);
  m_done : forall t k v, In (EDoneP t k v) tr -> nth_error (wP m) k = Some (t, v);
  m_dispP : disp (length (wP m)) (pendP m) (donesP tr);
  m_dispC : disp (length (wC m)) (pendC m) (donesC tr);
  m_heldC : forall t k, pendC m t = Some k ->
              In (EWinC t k) tr /\ mem k (pdone m) = true /\ hd_error (rem m t) = Some Pop;
  m_rem : forall t, ops_of t tr ++ rem m t = nth t progs []
}.

Lemma MI_init : MI [] (mon_init progs).
Proof.
  constructor; cbn; intros; try discriminate; try contradiction; auto using disp_init.
  destruct k; discriminate.
Qed.

Lemma MI_pdone tr m k : MI tr m -> mem k (pdone m) = true <-> In k (donesP tr).
Proof. intros M. rewrite mem_In, (m_pdone _ _ M), <- in_rev. reflexivity. Qed.

(* push the trace projections through [tr ++ [e]] *)
Ltac fm := unfold ticketsP, ticketsC, donesP, donesC in *; rewrite ?flat_map_app;
           cbn [flat_map app wP wC pdone pendP pendC rem]; rewrite ?app_nil_r.

Lemma MI_WinP tr m t k v m' :
  MI tr m -> mon_step m (EWinP t k v) = Some m' -> MI (tr ++ [EWinP t k v]) m'.
Proof.
  intros [TP TC WP PD DN DP DC HC R] H. cbn [mon_step] in H.
  destruct (Nat.eqb_spec k (length (wP m))) as [->|]; [|discriminate].
  destruct (is_push _ v); [|discriminate].
  destruct (idle m t) eqn:Hidle; [|discriminate]. injection H as <-.
  apply idle_true in Hidle as [HpP _].
  constructor; fm; auto.
  - rewrite TP, last_length, seq_S. reflexivity.
  - intros k0 t0 v0 [Hn|[-> [= <- <-]]]%nth_error_snoc; apply in_snoc; auto.
  - intros t0 k0 v0 [Hin|[=]]%in_snoc. apply nth_error_app_keep. auto.
  - rewrite last_length. apply disp_win; assumption.
  - intros t0 k0 Hp. destruct (HC t0 k0 Hp) as (? & ? & ?). auto using in_snoc_l.
  - intros t0. rewrite ops_keep by reflexivity. apply R.
Qed.

Lemma MI_DoneP tr m t k v m' :
  MI tr m -> mon_step m (EDoneP t k v) = Some m' -> MI (tr ++ [EDoneP t k v]) m'.
Proof.
  intros [TP TC WP PD DN DP DC HC R] H. cbn [mon_step] in H.
  destruct (pendP m t) as [k'|] eqn:HpP; [|discriminate].
  destruct (nth_error (wP m) k') as [[t' v']|] eqn:Hn; [|discriminate].
  destruct (Nat.eqb_spec k k') as [<-|]; [|discriminate].
  destruct (Nat.eqb_spec t' t) as [->|]; [|discriminate].
  destruct (Nat.eqb_spec v' v) as [->|]; [|discriminate].
  destruct (is_push _ v) eqn:Hpush; [|discriminate]. injection H as <-.
  apply is_push_hd in Hpush as [r Hr].
  constructor; fm; auto using in_snoc_l.
  - rewrite rev_unit, PD. reflexivity.
  - intros t0 k0 v0 [Hin|[= <- <- <-]]%in_snoc; auto.
  - apply disp_done; assumption.
  - (* a thread holding a pop ticket is not the one whose push returns *)
    intros t0 k0 Hp. destruct (HC t0 k0 Hp) as (A & B & C). unfold upd, mem in *. cbn [existsb].
    destruct (Nat.eqb_spec t0 t) as [->|]; [rewrite Hr in C; discriminate|].
    rewrite B. auto using in_snoc_l, orb_true_r.
  - intros t0. erewrite ops_done; [apply R | apply app_nil_r | exact Hr].
Qed.

Lemma MI_WinC tr m t k m' :
  MI tr m -> mon_step m (EWinC t k) = Some m' -> MI (tr ++ [EWinC t k]) m'.
Proof.
  intros [TP TC WP PD DN DP DC HC R] H. cbn [mon_step] in H.
  destruct (Nat.eqb_spec k (length (wC m))) as [->|]; [|discriminate].
  destruct (mem _ (pdone m)) eqn:Hmem; [|discriminate].
  destruct (is_pop _) eqn:Hpop; [|discriminate].
  destruct (idle m t) eqn:Hidle; [|discriminate]. injection H as <-.
  apply idle_true in Hidle as [_ HpC]. apply is_pop_hd in Hpop as [r Hr].
  constructor; fm; auto using in_snoc_l.
  - rewrite TC, last_length, seq_S. reflexivity.
  - intros t0 k0 v0 [Hin|[=]]%in_snoc. auto.
  - rewrite last_length. apply disp_win; assumption.
  - intros t0 k0. unfold upd. destruct (Nat.eqb_spec t0 t) as [->|].
    + intros [= <-]. rewrite Hr, in_snoc. auto.
    + intros Hp. destruct (HC t0 k0 Hp) as (? & ? & ?). auto using in_snoc_l.
  - intros t0. rewrite ops_keep by reflexivity. apply R.
Qed.

Lemma MI_DoneC tr m t k d m' :
  MI tr m -> mon_step m (EDoneC t k d) = Some m' -> MI (tr ++ [EDoneC t k d]) m'.
Proof.
  intros [TP TC WP PD DN DP DC HC R] H. cbn [mon_step] in H.
  destruct (pendC m t) as [k'|] eqn:HpC; [|discriminate].
  destruct (nth_error (wP m) k') as [[t' v']|]; [|discriminate].
  destruct (Nat.eqb_spec k k') as [<-|]; [|discriminate].
  destruct (Nat.eqb_spec v' d); [|discriminate].
  destruct (is_pop _) eqn:Hpop; [|discriminate]. injection H as <-.
  apply is_pop_hd in Hpop as [r Hr].
  constructor; fm; auto using in_snoc_l.
  - intros t0 k0 v0 [Hin|[=]]%in_snoc. auto.
  - apply disp_done; assumption.
  - intros t0 k0. unfold upd. destruct (Nat.eqb_spec t0 t); [discriminate|].
    intros Hp. destruct (HC t0 k0 Hp) as (? & ? & ?). auto using in_snoc_l.
  - intros t0. erewrite ops_done; [apply R | apply app_nil_r | exact Hr].
Qed.

Lemma MI_EmptyC tr m t k m' :
  MI tr m -> mon_step m (EEmptyC t k) = Some m' -> MI (tr ++ [EEmptyC t k]) m'.
Proof.
  intros [TP TC WP PD DN DP DC HC R] H. cbn [mon_step] in H.
  destruct (Nat.eqb_spec k (length (wC m))); [|discriminate].
  destruct (mem _ (pdone m)); [discriminate|].
  destruct (is_pop _) eqn:Hpop; [|discriminate].
  destruct (idle m t) eqn:Hidle; [|discriminate]. injection H as <-.
  apply idle_true in Hidle as [_ HpC]. apply is_pop_hd in Hpop as [r Hr].
  constructor; fm; auto using in_snoc_l.
  - intros t0 k0 v0 [Hin|[=]]%in_snoc. auto.
  - intros t0 k0 Hp. destruct (HC t0 k0 Hp) as (? & ? & ?). unfold upd.
    destruct (Nat.eqb_spec t0 t); [congruence|]. auto using in_snoc_l.
  - intros t0. erewrite ops_done; [apply R | apply app_nil_r | exact Hr].
Qed.

Lemma MI_step tr m e m' : MI tr m -> mon_step m e = Some m' -> MI (tr ++ [e]) m'.
Proof.
  destruct e; eauto using MI_WinP, MI_DoneP, MI_WinC, MI_DoneC, MI_EmptyC.
  (* the shared-memory actions: the monitor and every projection of the trace ignore them *)
  all: intros [TP TC WP PD DN DP DC HC R] [= <-]; constructor; fm; auto using in_snoc_l.
  all: try (intros t0 k0 v0 [Hin|[=]]%in_snoc; auto).
  all: try (intros t0 k0 Hp; destruct (HC t0 k0 Hp) as (? & ? & ?); auto using in_snoc_l).
  all: intros t0; rewrite ops_keep by reflexivity; apply R.
Qed.

Lemma mons_MI tr2 : forall tr1 m1 m, MI tr1 m1 -> mons m1 tr2 = Some m -> MI (tr1 ++ tr2) m.
Proof.
  induction tr2 as [|e r IH]; intros tr1 m1 m M H; cbn [mons] in H.
  - injection H as <-. rewrite app_nil_r. exact M.
  - destruct (mon_step m1 e) as [m2|] eqn:E; [|discriminate].
    change (e :: r) with ([e] ++ r). rewrite app_assoc. eauto using MI_step.
Qed.

Lemma accepted_MI tr m : mons (mon_init progs) tr = Some m -> MI tr m.
Proof. apply (mons_MI tr [] _ m MI_init). Qed.

Lemma ok_accepted tr : c30_ok progs tr = true -> exists m, MI tr m.
Proof. unfold c30_ok. destruct (mons (mon_init progs) tr) as [m|] eqn:E; [eauto using accepted_MI | discriminate]. Qed.

Lemma accepted_split tr tr1 e tr2 : c30_ok progs tr = true -> tr = tr1 ++ e :: tr2 ->
  exists m1 m2, MI tr1 m1 /\ mon_step m1 e = Some m2.
Proof.
  unfold c30_ok. intros H ->. rewrite mons_app in H.
  destruct (mons (mon_init progs) tr1) as [m1|] eqn:E1; [|discriminate].
  cbn [mons] in H. destruct (mon_step m1 e) as [m2|] eqn:E2; [|discriminate].
  eauto using accepted_MI.
Qed.

Lemma tickets_consecutive tr : c30_ok progs tr = true ->
  ticketsP tr = seq 0 (length (ticketsP tr)) /\ ticketsC tr = seq 0 (length (ticketsC tr)).
Proof.
  intros (m & M)%ok_accepted. rewrite (m_tP _ _ M), (m_tC _ _ M), !seq_length. split; reflexivity.
Qed.

Lemma ticket_order tr : c30_ok progs tr = true ->
  forall tr1 t k d tr2, tr = tr1 ++ EDoneC t k d :: tr2 ->
  exists tp, In (EWinP tp k d) tr1 /\ In (EDoneP tp k d) tr1 /\ In (EWinC t k) tr1.
Proof.
  intros H tr1 t k d tr2 E. destruct (accepted_split _ _ _ _ H E) as (m1 & m2 & M & Hs).
  cbn [mon_step] in Hs.
  destruct (pendC m1 t) as [k'|] eqn:HpC; [|discriminate].
  destruct (nth_error (wP m1) k') as [[tp v]|] eqn:Hn; [|discriminate].
  destruct (Nat.eqb_spec k k') as [<-|]; [|discriminate].
  destruct (Nat.eqb_spec v d) as [->|]; [|discriminate].
  destruct (m_heldC _ _ M _ _ HpC) as (HwinC & (t0 & v0 & Hdone)%(MI_pdone _ _ _ M)%In_donesP & _).
  pose proof (m_done _ _ M _ _ _ Hdone) as E0. rewrite Hn in E0. injection E0 as <- <-.
  exists tp. auto using (m_wP _ _ M).
Qed.

Lemma at_most_once tr : c30_ok progs tr = true -> NoDup (donesC tr) /\ NoDup (donesP tr).
Proof. intros (m & M)%ok_accepted. split; [apply (m_dispC _ _ M) | apply (m_dispP _ _ M)]. Qed.

Lemma empty_only_if tr : c30_ok progs tr = true ->
  forall tr1 t k tr2, tr = tr1 ++ EEmptyC t k :: tr2 ->
  k = length (ticketsC tr1) /\ forall tp v, ~ In (EDoneP tp k v) tr1.
Proof.
  intros H tr1 t k tr2 E. destruct (accepted_split _ _ _ _ H E) as (m1 & m2 & M & Hs).
  cbn [mon_step] in Hs.
  destruct (Nat.eqb_spec k (length (wC m1))) as [->|]; [|discriminate].
  destruct (mem _ (pdone m1)) eqn:Hmem; [discriminate|].
  split.
  - rewrite (m_tC _ _ M), seq_length. reflexivity.
  - intros tp v Hin. rewrite <- not_true_iff_false, (MI_pdone _ _ _ M), In_donesP in Hmem. eauto.
Qed.

Lemma program_order tr : c30_ok progs tr = true ->
  forall t, exists rest, nth t progs [] = ops_of t tr ++ rest.
Proof. intros (m & M)%ok_accepted t. exists (rem m t). symmetry. apply (m_rem _ _ M). Qed.

Lemma reservation_order tr : c30_ok progs tr = true ->
  forall a t1 k1 v1 b t2 k2 v2 c, tr = a ++ EWinP t1 k1 v1 :: b ++ EWinP t2 k2 v2 :: c -> k1 < k2.
Proof.
  intros H a t1 k1 v1 b t2 k2 v2 c E. rewrite app_comm_cons, app_assoc in E.
  destruct (accepted_split _ _ _ _ H E) as (m1 & m2 & M & Hs). cbn [mon_step] in Hs.
  destruct (Nat.eqb_spec k2 (length (wP m1))) as [->|]; [|discriminate].
  (* k1 is among the tickets handed out before the second reservation: 0 .. k2-1 *)
  assert (Hin : In k1 (ticketsP (a ++ EWinP t1 k1 v1 :: b))).
  { unfold ticketsP. rewrite flat_map_app. apply in_or_app. right. left. reflexivity. }
  rewrite (m_tP _ _ M), in_seq in Hin. lia.
Qed.

Lemma final_exactly_once tr :
  c30_final_ok progs tr = true -> Permutation (donesC tr) (ticketsP tr).
Proof.
  unfold c30_final_ok. destruct (mons (mon_init progs) tr) as [m|] eqn:Hm; [|discriminate].
  intros [Hall Hlen%Nat.eqb_eq]%andb_true_iff. apply accepted_MI in Hm as M.
  assert (Hrem : forall t, rem m t = []).
  { intros t. destruct (Nat.lt_ge_cases t (length progs)) as [L|L].
    - rewrite forallb_forall in Hall. specialize (Hall t). rewrite in_seq in Hall.
      destruct (rem m t); [reflexivity|]. assert (false = true) by (apply Hall; lia). discriminate.
    - pose proof (m_rem _ _ M t) as E. rewrite (nth_overflow progs [] L) in E.
      apply app_eq_nil in E. apply E. }
  destruct (m_dispC _ _ M) as [ND Out _].
  rewrite (m_tP _ _ M), <- Hlen. apply NoDup_Permutation; [assumption | apply seq_NoDup|].
  intros k. rewrite in_seq, Nat.add_0_l, Out. split; [intros; split; [lia | auto]|].
  (* at the end nobody holds a pop ticket: a holder would still have its pop to finish *)
  intros [_ [Hin|(t & E)]]; [assumption|].
  destruct (m_heldC _ _ M _ _ E) as (_ & _ & Hhd). rewrite Hrem in Hhd. discriminate.
Qed.
End MI.
