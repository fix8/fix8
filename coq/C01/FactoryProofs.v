(* Message::factory of the codec model on the bytes of a message with a flat header, any tree as
   body and CheckSum alone in the trailer: header and trailer objects explicitly (fields filed in
   arrival order), and a body object that holds the body's nodes. *)
From Coq Require Import NArith ZArith List Bool Lia Arith.
From F8 Require Import Codec.Bytes Codec.Meta Codec.Extract Codec.Decode Codec.Encode Codec.Render Codec.Lemmas
                       C07.Chksum C07.Spec_C07
                       C02.Spec_C02 C02.WfC02 C02.MetaProofs C02.DigitsProofs C02.TokenProofs C02.TreeProofs C02.StructProofs
                       C02.AuxProofs C02.EncodeProofs
                       C01.WfC01 C01.WfGroups C01.ExtractProofs C01.DecodeProofs C01.GroupRoundtripObj C01.GroupRoundtripDecode.
Import ListNotations.
Local Open Scope N_scope.

Lemma itoa_8 : itoa_N 8 = [56]. Proof. reflexivity. Qed.
Lemma itoa_9 : itoa_N 9 = [57]. Proof. reflexivity. Qed.
Lemma itoa_35 : itoa_N 35 = [51; 53]. Proof. reflexivity. Qed.

Lemma extract_header_shape bg lt mt rest :
  no_soh bg -> lenN bg < 2048 -> no_soh lt -> lenN lt < 32 -> no_soh mt -> lenN mt < 32 ->
  extract_header (pbytes (8, bg) ++ pbytes (9, lt) ++ pbytes (35, mt) ++ rest) 32 2048 32 32 =
  Ok (lenN (pbytes (8, bg)) + lenN (pbytes (9, lt)) + lenN (pbytes (35, mt)), lt, mt).
Proof.
  intros Hb1 Hb2 Hl1 Hl2 Hm1 Hm2. unfold extract_header.
  set (from := pbytes (8, bg) ++ pbytes (9, lt) ++ pbytes (35, mt) ++ rest).
  assert (Hlen : lenN from = lenN (pbytes (8, bg)) + (lenN (pbytes (9, lt)) + (lenN (pbytes (35, mt)) + lenN rest))).
  { unfold from. rewrite !lenN_app. reflexivity. }
  unfold from at 1. rewrite extract_field; [|assumption|rewrite Hlen; lia|rewrite itoa_8; cbn; lia|assumption].
  rewrite itoa_8. cbn [hd_is N.eqb Pos.eqb negb].
  unfold from at 1. rewrite skipN_app.
  rewrite extract_field; [|assumption|rewrite Hlen; lia|rewrite itoa_9; cbn; lia|assumption].
  rewrite itoa_9. cbn [hd_is N.eqb Pos.eqb negb].
  rewrite <- lenN_app. unfold from at 1. rewrite app_assoc, skipN_app.
  rewrite extract_field; [|assumption|rewrite Hlen, lenN_app; lia|rewrite itoa_35; cbn; lia|assumption].
  rewrite itoa_35. cbn [hd_is tl N.eqb Pos.eqb negb andb]. rewrite lenN_app. reflexivity.
Qed.

Lemma mbase_decode_window c from m off ignore :
  lenN from < 4294967296 -> ignore <= lenN from ->
  mbase_decode c real_caps from m off ignore false =
  mb_decode c real_caps from (lenN from - ignore) false (dec_fuel from) (dec_fuel from) m off.
Proof.
  intros Hlen Hig. unfold mbase_decode.
  replace (lenN from + 4294967296 - ignore) with (lenN from - ignore + 1 * 4294967296) by lia.
  rewrite N.mod_add, N.mod_small by lia. reflexivity.
Qed.

Lemma pbytes_len3 p : (3 <= length (pbytes p))%nat.
Proof.
  destruct p as [f v]. unfold pbytes. cbn [fst snd]. rewrite app_length. cbn [length]. rewrite app_length. cbn [length].
  pose proof (itoa_nonempty f). destruct (itoa_N f); [congruence|cbn [length]; lia].
Qed.
Lemma pairs_len3 ps : (3 * length ps <= length (flat_map pbytes ps))%nat.
Proof.
  induction ps as [|p ps IH]; cbn [flat_map length]; [lia|]. rewrite app_length. pose proof (pbytes_len3 p). lia.
Qed.
Lemma nodes_len_le ns : (length ns <= length (P ns))%nat.
Proof.
  induction ns as [|[k f rv els] ns IH]; cbn [flat_map length]; [lia|]. rewrite app_length. cbn [npairs length]. lia.
Qed.

(* the fuel of mbase_decode covers the nodes of a part that lies inside from *)
Lemma dec_fuel_enough from fsize pre ns rp tail : stream from fsize pre (P ns ++ rp) tail ->
  (length ns < dec_fuel from)%nat /\ (3 * length (P ns) <= dec_fuel from)%nat.
Proof.
  intros [H _]. apply (f_equal (@length N)) in H. rewrite !app_length, flat_map_app, app_length in H.
  pose proof (pairs_len3 (P ns)). pose proof (nodes_len_le ns). unfold dec_fuel. lia.
Qed.

Lemma mbase_decode_flat c from m pre ns rp tail ignore :
  lenN from < 4294967296 -> ignore <= lenN from ->
  stream from (lenN from - ignore) pre (P ns ++ rp) tail -> Forall pok (P ns) -> head_pok rp ->
  NoDup (map n_tag ns) -> Forall (flat_ok c (mb_fp m)) ns -> stops (mb_fp m) rp ->
  lenN (mb_pos m) + lenN ns < 4294967296 ->
  find_missing (fp_after (mb_fp m) ns) = None ->
  mbase_decode c real_caps from m (lenN pre) ignore false =
  Ok (dec_flat m (lenN (mb_pos m)) ns, lenN pre + lenN (flat_map pbytes (P ns))).
Proof.
  intros Hlen Hig Hst Hpok Hrp Hnd Hok Hstop Hk Hmiss. rewrite mbase_decode_window by assumption. unfold mb_decode.
  rewrite (dec_loop_flat c from (lenN from - ignore) (dec_fuel from) ns m pre _ [] (dec_fuel from) rp tail
             Hst Hpok Hrp Hnd Hok Hstop Hk (proj1 (dec_fuel_enough _ _ _ _ _ _ Hst))).
  unfold dec_finish. rewrite mb_fp_dec_flat, Hmiss. reflexivity.
Qed.

Lemma mbase_decode_nodes c from md outer bn pre rp tail :
  lenN from < 4294967296 ->
  stream from (lenN from - 0) pre (P bn ++ rp) tail -> head_pok rp -> head_in outer rp ->
  lenN bn < 65536 -> NoDup (map n_tag bn) ->
  wf_meta outer (md_meta md) = true -> disj (tags (md_meta md)) outer ->
  Forall (fun x => wf_node (md_meta md) x = true) bn -> Forall (node_ok c true (md_meta md)) bn ->
  find_missing (fp_after (g_traits (md_meta md)) bn) = None ->
  exists B' Tb,
    mbase_decode c real_caps from (B0 md) (lenN pre) 0 false = Ok (B', lenN pre + lenN (flat_map pbytes (P bn))) /\
    Inv c (md_meta md) B' bn Tb.
Proof.
  intros Hlen Hst Hpok Hrp HkB Hnd Hwm Hdj Hwf Hd Hmiss. rewrite mbase_decode_window by lia. unfold mb_decode.
  destruct (dec_fuel_enough _ _ _ _ _ _ Hst) as [Hf1 Hf2].
  destruct (dec_loop_nodes c from (lenN from - 0) (md_meta md) outer (dec_fuel from) bn [] (B0 md) [] pre [] (dec_fuel from) rp tail
              Hwm Hdj Hwf Hd Hnd (Inv_init c (md_meta md)) Hst Hpok Hrp HkB Hf1 Hf2) as (B' & Tb & Hrun & IB).
  exists B', Tb. split; [|exact IB]. change (lenN (mb_pos (B0 md))) with (lenN (@nil tnode)).
  cbn [app] in Hrun, IB. rewrite Hrun. unfold dec_finish. rewrite (inv_fp _ _ _ _ _ IB), Hmiss. reflexivity.
Qed.

Lemma firstN_3 (a b d r : N) (l : list N) : firstN 3 (a :: b :: d :: l) = [a; b; d].
Proof. cbn. destruct l; reflexivity. Qed.

Lemma len3 (l : list N) : lenN l = 3 -> exists a b d, l = [a; b; d].
Proof.
  destruct l as [|a [|b [|d [|e l]]]]; cbn [lenN]; intros H; try lia. exists a, b, d. reflexivity.
Qed.

(* "10=ddd|" at the end of from, as factory looks at it *)
Lemma chk_field_at pre csv :
  lenN csv = 3 ->
  let from := pre ++ pbytes (10, csv) in
  lenN from = lenN pre + 7 /\ nthN from (lenN pre) = 49 /\ nthN from (lenN pre + 1) = 48 /\
  firstN 3 (skipN (lenN pre + 3) from) = csv.
Proof.
  intros Hcl from. destruct (len3 csv Hcl) as (a & b & d & ->). unfold from, nthN.
  rewrite lenN_app, !skipN_add, !skipN_app. repeat split; reflexivity.
Qed.

Lemma factory_msg c md bg L rv35 hn' bn csv outer :
  let from := pbytes (8, bg) ++ pbytes (9, itoa_N L) ++ pbytes (35, rv35) ++
              flat_map pbytes (P hn' ++ P bn) ++ pbytes (10, csv) in
  val_ok bg = true -> lenN bg < 1000 -> L < 10000000 ->
  val_ok rv35 = true -> no_nul rv35 -> lenN rv35 < 32 -> find_msg (c_msgs c) rv35 = Some md ->
  lenN (flat_map pbytes (P hn' ++ P bn)) < 10000000 ->
  all_digits csv -> lenN csv = 3 ->
  dec_val csv 0 = Some (bytesumN (pbytes (8, bg) ++ pbytes (9, itoa_N L) ++ pbytes (35, rv35) ++ flat_map pbytes (P hn' ++ P bn))) ->
  Forall pok (P hn') -> Forall pv (P hn' ++ P bn) ->
  (* header *)
  lenN (mb_pos (H0 c)) + lenN hn' < 65536 ->
  NoDup (map n_tag hn') -> Forall (flat_ok c (mb_fp (H0 c))) hn' -> stops (mb_fp (H0 c)) (P bn ++ [(10, csv)]) ->
  find_missing (fp_after (mb_fp (H0 c)) hn') = None ->
  (* body: any tree *)
  lenN bn < 65536 -> NoDup (map n_tag bn) ->
  wf_meta outer (md_meta md) = true -> disj (tags (md_meta md)) outer -> In 10 outer ->
  Forall (fun x => wf_node (md_meta md) x = true) bn -> Forall (node_ok c true (md_meta md)) bn ->
  find_missing (fp_after (g_traits (md_meta md)) bn) = None ->
  (* trailer *)
  find_missing (mb_fp (T0 c)) = None -> lenN (mb_pos (T0 c)) < 65536 ->
  exists B' Tb,
  factory c real_caps from false false =
  Ok (mkMsg (md_type md)
        (set_value (set_value (dec_flat (H0 c) (lenN (mb_pos (H0 c))) hn') Common_BodyLength (itoa_N L)) Common_MsgType rv35)
        B'
        (set_value (T0 c) Common_CheckSum csv)) /\
  Inv c (md_meta md) B' bn Tb.
Proof.
  intros from Hbg Hbgl HL Hm1 Hm2 Hm3 Hfm Hmid Hcd Hcl Hcv HpokH Hpv HkH HndH HokH HstH HmsH HkB HndB HwmB HdjB H10o HwfB HdB HmsB HmsT HkT.
  set (p8 := pbytes (8, bg)) in *. set (p9 := pbytes (9, itoa_N L)) in *. set (p35 := pbytes (35, rv35)) in *.
  set (mid := flat_map pbytes (P hn' ++ P bn)) in *.
  set (pre1 := p8 ++ p9 ++ p35). set (pre3 := pre1 ++ mid).
  assert (Hfrom : from = pre3 ++ pbytes (10, csv)) by (unfold from, pre3, pre1; rewrite <- !app_assoc; reflexivity).
  destruct (chk_field_at pre3 csv Hcl) as (Hflen & Hn0 & Hn1 & Hcs). rewrite <- Hfrom in *.
  assert (HLd : lenN (itoa_N L) < 32) by (rewrite len_digits_itoa by assumption; unfold len_digits; repeat destruct (_ <? _); lia).
  assert (Hpre1 : lenN pre1 = lenN p8 + lenN p9 + lenN p35) by (unfold pre1; rewrite !lenN_app; lia).
  assert (Hsz : lenN pre3 < 20000000).
  { unfold pre3. rewrite lenN_app, Hpre1. unfold p8, p9, p35. rewrite !pbytes_len, itoa_8, itoa_9, itoa_35. cbn [lenN]. lia. }
  assert (Hfsmall : lenN from < 4294967296) by lia.
  unfold factory. change (cap_htag real_caps) with 32. change (cap_hval real_caps) with 2048.
  change (cap_len real_caps) with 32. change (cap_mtype real_caps) with 32.
  unfold from at 1, p8, p9, p35.
  rewrite extract_header_shape; [|apply val_ok_no_soh; exact Hbg|lia|apply digits_no_soh, itoa_digits|exact HLd|apply val_ok_no_soh; exact Hm1|exact Hm3].
  fold p8 p9 p35. cbn [bind]. rewrite <- Hpre1.
  replace (lenN pre1 =? 0) with false by (symmetry; apply N.eqb_neq; unfold p8 in Hpre1; rewrite pbytes_len in Hpre1; lia).
  rewrite (cstr_no_nul rv35 Hm2), Hfm.
  change (mk_message c md false) with (mkMsg (md_type md) (H0 c) (B0 md) (T0 c)).
  unfold msg_decode. cbn [m_hdr m_body m_trl m_type].
  (* header, body: the window is the whole string *)
  assert (Hpk10 : pok (10, csv)) by (apply digits_pok; [lia|exact Hcd|lia]).
  assert (Hst1 : stream from (lenN from - 0) pre1 (P hn' ++ P bn ++ [(10, csv)]) []).
  { rewrite N.sub_0_r. assert (E : from = pre1 ++ flat_map pbytes (P hn' ++ P bn ++ [(10, csv)]) ++ []).
    { rewrite Hfrom. unfold pre3, mid. rewrite app_nil_r, app_assoc, (flat_map_app pbytes (P hn' ++ P bn)). cbn [flat_map].
      rewrite app_nil_r, <- !app_assoc. reflexivity. }
    split; [exact E|]. rewrite E at 1. rewrite app_nil_r, lenN_app. reflexivity. }
  rewrite (mbase_decode_flat c from (H0 c) pre1 hn' (P bn ++ [(10, csv)]) [] 0); try assumption; try lia.
  2:{ destruct bn as [|[k f rv els] bn']; [exact Hpk10|]. pose proof (Forall_inv HdB) as (tr & _ & _ & _ & _ & Hp & _). exact Hp. }
  cbn [bind]. rewrite <- lenN_app.
  pose proof (stream_app from _ pre1 _ _ [] Hst1) as Hst2.
  destruct (mbase_decode_nodes c from md outer bn _ [(10, csv)] [] Hfsmall Hst2 Hpk10 H10o HkB HndB HwmB HdjB HwfB HdB HmsB) as (B' & Tb & HB & IB).
  rewrite HB. cbn [bind]. rewrite <- lenN_app, <- app_assoc, <- flat_map_app. fold mid pre3.
  (* trailer: ignore = 7, nothing left in the window *)
  assert (Hst3 : stream from (lenN from - 7) pre3 (P [] ++ []) (pbytes (10, csv))).
  { split; [exact Hfrom|]. cbn [flat_map app lenN]. lia. }
  rewrite (mbase_decode_flat c from (T0 c) pre3 [] [] _ 7 Hfsmall ltac:(lia) Hst3 (Forall_nil _) I (NoDup_nil _)
             (Forall_nil _) I ltac:(cbn [lenN]; lia) HmsT).
  exists B', Tb. split; [|exact IB].
  cbn [bind dec_flat flat_map lenN m_type m_hdr m_body m_trl].
  replace (lenN from <? 7) with false by (symmetry; apply N.ltb_ge; lia).
  replace (lenN from - 7) with (lenN pre3) by lia. rewrite Hn0, Hn1, Hcs. cbn [N.eqb Pos.eqb negb orb].
  rewrite atoi_u32_itoa, itoa_Z_small by lia.
  (* the checksum over [0, size - 7) *)
  destruct (calc_chksum_prefix pre3 (pbytes (10, csv) ++ [0]) (Z.of_N (lenN from))) as (mchk & hull & Eck & Hmv); [|lia|].
  { rewrite app_assoc. apply Forall_app. split; [|constructor; [lia|constructor]].
    apply Forall_app. split; [|apply pbytes_small, digits_val_ok; exact Hcd].
    unfold pre3, pre1. rewrite !Forall_app. repeat split; try apply pbytes_small; try assumption; [apply digits_val_ok, itoa_digits|apply pairs_small; exact Hpv]. }
  replace (Z.of_N (lenN from) - 7)%Z with (Z.of_N (lenN pre3)) by lia.
  rewrite Hfrom at 1. rewrite <- app_assoc, Eck, Hmv.
  replace (p8 ++ p9 ++ p35 ++ mid) with pre3 in Hcv by (unfold pre3, pre1; rewrite <- !app_assoc; reflexivity).
  rewrite (atoi_u32_digits csv _ Hcd Hcv) by (pose proof (bytesumN_lt pre3); lia).
  rewrite N.eqb_refl. reflexivity.
Qed.
