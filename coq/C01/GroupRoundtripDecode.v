(* decode_group of the codec model inverts encode_group on the byte stream, for any number of
   elements nested to any depth (the argument of DESIGN Appendix A.4, at byte level), and
   MessageBase::decode inverts MessageBase::encode on a part whose fields carry such groups. *)
From Coq Require Import NArith ZArith List Bool Lia Arith.
From F8 Require Import Codec.Bytes Codec.Meta Codec.Extract Codec.Decode Codec.Encode Codec.Render Codec.Lemmas
                       C02.Spec_C02 C02.WfC02 C02.MetaProofs C02.DigitsProofs C02.TokenProofs C02.TreeProofs C02.StructProofs
                       C02.AuxProofs C02.EncodeProofs
                       C01.WfC01 C01.WfGroups C01.ExtractProofs C01.DecodeProofs C01.GroupRoundtripObj.
Import ListNotations.
Local Open Scope N_scope.

(* dnode_ok with its two inner fixpoints named: dnodes_ok for an element, delems_ok for the elements *)
Fixpoint delems_ok (c : ctx) (sg : gmeta) (es : list (list tnode)) : bool :=
  match es with
  | [] => true
  | e :: r => dnodes_ok c false sg e && mand_okb sg e && nodupN (map n_tag e) && (lenN e <? 65536) && delems_ok c sg r
  end.

Lemma dnodes_inner c sg : forall l,
  (fix nl (l : list tnode) : bool := match l with [] => true | x :: r' => dnode_ok c false sg x && nl r' end) l
  = dnodes_ok c false sg l.
Proof. induction l as [|x l IH]; cbn [dnodes_ok forallb]; [reflexivity|]. rewrite IH. reflexivity. Qed.

Lemma delems_inner c sg : forall es,
  (fix el (es : list (list tnode)) : bool :=
     match es with
     | [] => true
     | e :: r =>
       (fix nl (l : list tnode) : bool :=
          match l with [] => true | x :: r' => dnode_ok c false sg x && nl r' end) e &&
       mand_okb sg e && nodupN (map n_tag e) && (lenN e <? 65536) && el r
     end) es = delems_ok c sg es.
Proof. induction es as [|e es IH]; cbn [delems_ok]; [reflexivity|]. rewrite IH, dnodes_inner. reflexivity. Qed.

Lemma dnode_ok_unfold c top g k f rv els :
  dnode_ok c top g (TN k f rv els) =
  match find_trait (g_traits g) f with
  | None => false
  | Some tr =>
    negb (t_present tr) && negb (t_suppress tr) && t_haspos tr &&
    match find_be (c_fields c) f with Some _ => true | None => false end &&
    pokv f rv && list_eqb (c_render c (ftype_of c f (t_ftype tr)) rv) rv &&
    Bool.eqb (t_group tr && has_group_count_c c f rv) (nonempty els) &&
    (negb top || negb (t_ftype tr =? ft_Length) || (f =? Common_BodyLength)) &&
    match els with
    | [] => true
    | _ :: _ => match find_sub (g_subs g) f with None => false | Some sg => delems_ok c sg els end
    end
  end.
Proof.
  cbn [dnode_ok]. destruct (find_trait (g_traits g) f) as [tr|]; [|reflexivity]. f_equal.
  destruct els as [|e0 els0]; [reflexivity|]. destruct (find_sub (g_subs g) f) as [sg|]; [|reflexivity].
  exact (delems_inner c sg (e0 :: els0)).
Qed.

(* what decoding and re-encoding need of one node of a part or element of g; at message level
   (top) a Length-typed field would start the Length/data pass *)
Definition node_ok (c : ctx) (top : bool) (g : gmeta) (x : tnode) : Prop :=
  exists tr, find_trait (g_traits g) (n_tag x) = Some tr /\
    t_present tr = false /\ t_suppress tr = false /\ find_be (c_fields c) (n_tag x) <> None /\
    pok (n_tag x, n_val x) /\ c_render c (ftype_of c (n_tag x) (t_ftype tr)) (n_val x) = n_val x /\
    (t_group tr && has_group_count_c c (n_tag x) (n_val x)) = nonempty (n_els x) /\
    (top = true -> (negb (t_ftype tr =? ft_Length) || (n_tag x =? Common_BodyLength)) = true) /\
    (n_els x <> [] -> exists sg, find_sub (g_subs g) (n_tag x) = Some sg /\ delems_ok c sg (n_els x) = true).

Lemma pokv_sound f rv : pokv f rv = true -> pok (f, rv).
Proof.
  unfold pokv, pok. cbn [fst snd]. intros H. apply andb_prop in H. destruct H as [H H3]. apply andb_prop in H. destruct H as [H1 H2].
  apply N.ltb_lt in H2, H3. repeat split; try assumption;
    (eapply forallb_Forall; [|exact H1]; intros b Hb; apply andb_prop in Hb; destruct Hb as [Hb1 Hb2]; apply negb_true_iff; assumption).
Qed.

(* dnode_ok asks in addition that the trait carries its position: the decoder tests getPos on the
   first field of a group element *)
Lemma dnode_ok_sound c top g x : dnode_ok c top g x = true ->
  node_ok c top g x /\ forall tr, find_trait (g_traits g) (n_tag x) = Some tr -> t_haspos tr = true.
Proof.
  destruct x as [k f rv els]. rewrite dnode_ok_unfold. unfold node_ok. cbn [n_tag n_val n_els].
  destruct (find_trait (g_traits g) f) as [tr|]; [|discriminate]. intros H.
  apply andb_prop in H. destruct H as [H Dels]. apply andb_prop in H. destruct H as [H Dlen].
  apply andb_prop in H. destruct H as [H Dflag]. apply andb_prop in H. destruct H as [H Dren].
  apply andb_prop in H. destruct H as [H Dpok]. apply andb_prop in H. destruct H as [H Dbe].
  apply andb_prop in H. destruct H as [H Dhp]. apply andb_prop in H. destruct H as [Dpr Dsup].
  split; [|intros t E; injection E as <-; exact Dhp]. exists tr. split; [reflexivity|].
  apply negb_true_iff in Dpr, Dsup. apply list_eqb_eq in Dren. apply Bool.eqb_prop in Dflag.
  refine (conj Dpr (conj Dsup (conj _ (conj (pokv_sound f rv Dpok) (conj Dren (conj Dflag (conj _ _))))))).
  - destruct (find_be (c_fields c) f); discriminate.
  - intros ->. exact Dlen.
  - intros Hne. destruct els; [congruence|]. destruct (find_sub (g_subs g) f) as [sg|]; [|discriminate].
    exists sg. split; [reflexivity|exact Dels].
Qed.

Lemma fp_after_app fp a b : fp_after fp (a ++ b) = fp_after (fp_after fp a) b.
Proof. unfold fp_after. apply fold_left_app. Qed.

Lemma find_trait_after fp : forall done f,
  find_trait (fp_after fp done) f =
  if memN f (map n_tag done) then option_map (set_present true) (find_trait fp f) else find_trait fp f.
Proof.
  intros done. revert fp. induction done as [|n done IH]; intros fp f; [reflexivity|].
  cbn [fp_after fold_left map]. fold (fp_after (upd_trait (set_present true) fp (n_tag n)) done).
  unfold memN at 1. cbn [existsb]. fold (memN f (map n_tag done)).
  rewrite IH, find_trait_upd by reflexivity.
  destruct (N.eqb_spec f (n_tag n)) as [->|_], (memN _ (map n_tag done)), (find_trait fp _) as [[]|]; reflexivity.
Qed.

(* the object m of a part or element of g when the decoder has filed the nodes [done]; T is its content tree *)
Record Inv (c : ctx) (g : gmeta) (m : mbase) (done T : list tnode) : Prop := mkInv {
  inv_fp : mb_fp m = fp_after (g_traits g) done;
  inv_subs : mb_subs m = g_subs g;
  inv_keys : keys_le m (lenN done);
  inv_tree : tree_of c m = Some T;
  inv_P : P T = P done;
  inv_unk : mb_unknown m = [];
  inv_grp : forall f, ~ In f (map n_tag done) -> map_find f (mb_groups m) = None;
  inv_ent : forall q f w, In (q, (f, w)) (mb_pos m) -> In f (map n_tag done);
  inv_legal : forall f, In f (map n_tag done) -> find_trait (g_traits g) f <> None;
  inv_fields : forall f, In f (map n_tag done) -> map_find f (mb_fields m) <> None
}.

Lemma Inv_init c g : Inv c g (create_group g false) [] [].
Proof. constructor; try reflexivity; [intros q y []|intros q f w []|intros f []|intros f []]. Qed.

Lemma Inv_find c g m done T f : Inv c g m done T -> ~ In f (map n_tag done) ->
  find_trait (mb_fp m) f = find_trait (g_traits g) f.
Proof.
  intros I Hn. rewrite (inv_fp _ _ _ _ _ I), find_trait_after.
  replace (memN f (map n_tag done)) with false by (symmetry; apply memN_false; exact Hn). reflexivity.
Qed.
Lemma Inv_find_done c g m done T f : Inv c g m done T -> In f (map n_tag done) ->
  exists tr, find_trait (mb_fp m) f = Some tr /\ t_present tr = true.
Proof.
  intros I Hin. rewrite (inv_fp _ _ _ _ _ I), find_trait_after.
  replace (memN f (map n_tag done)) with true by (symmetry; apply memN_In; exact Hin).
  pose proof (inv_legal _ _ _ _ _ I f Hin) as Hl. destruct (find_trait (g_traits g) f) as [tr|]; [|congruence].
  exists (set_present true tr). split; reflexivity.
Qed.
Lemma Inv_tags c g m done T f : Inv c g m done T -> In f (map n_tag done) -> In f (tags g).
Proof.
  intros I Hin. pose proof (inv_legal _ _ _ _ _ I f Hin) as Hl.
  destruct (find_trait (g_traits g) f) as [tr|] eqn:E; [apply (find_trait_In _ _ _ E)|congruence].
Qed.

(* one more node x: its field filed as number |done| + 1; G' = the groups afterwards, ts = the
   trees of the elements decoded for x *)
Lemma Inv_step c g m done T x G' ts :
  Inv c g m done T -> ~ In (n_tag x) (map n_tag done) -> lenN done + 1 < 65536 ->
  find_trait (g_traits g) (n_tag x) <> None ->
  (forall f, f <> n_tag x -> map_find f G' = map_find f (mb_groups m)) ->
  tree_of c (with_groups (add_dec m (lenN done) (n_tag x) (n_val x)) G')
    = Some (T ++ [TN (lenN done + 1) (n_tag x) (n_val x) ts]) ->
  PE ts = PE (n_els x) ->
  Inv c g (with_groups (add_dec m (lenN done) (n_tag x) (n_val x)) G') (done ++ [x])
      (T ++ [TN (lenN done + 1) (n_tag x) (n_val x) ts]).
Proof.
  intros [Ifp Isubs Ikeys Itree IP Iunk Igrp Ient Ilegal Ifields] Hn Hl Htr Ho HT HP.
  destruct m as [fp subs fl pos groups unk]. unfold keys_le in Ikeys. cbn [mb_fp mb_subs mb_pos mb_unknown mb_groups mb_fields] in *.
  rewrite add_dec_shape in * by assumption. cbn [with_groups] in *.
  constructor; unfold keys_le; cbn [mb_fp mb_subs mb_pos mb_unknown mb_groups mb_fields]; try assumption.
  - rewrite Ifp, fp_after_app. reflexivity.
  - rewrite lenN_app. intros q y Hq. apply in_app_or in Hq.
    destruct Hq as [Hq|[Hq|[]]]; [specialize (Ikeys q y Hq); lia|injection Hq as <- _; reflexivity].
  - rewrite !flat_map_app, IP. destruct x as [k f v els]. cbn [flat_map npairs n_els] in *. fold (PE ts) (PE els). rewrite HP. reflexivity.
  - intros f Hf. rewrite map_app, in_app_iff in Hf. cbn [map In] in Hf. rewrite Ho, Igrp by intuition congruence. reflexivity.
  - intros q f w Hin. rewrite map_app, in_app_iff. apply in_app_or in Hin.
    destruct Hin as [Hin|[Hin|[]]]; [left; exact (Ient q f w Hin)|right; injection Hin as _ <- _; left; reflexivity].
  - intros f Hin. rewrite map_app in Hin. apply in_app_or in Hin. destruct Hin as [Hin|[<-|[]]]; [exact (Ilegal f Hin)|exact Htr].
  - intros f Hin. rewrite map_app in Hin. apply in_app_or in Hin.
    destruct (N.eq_dec f (n_tag x)) as [->|Hne]; [apply map_find_insert_some|].
    rewrite map_find_insert_other by exact Hne. destruct Hin as [Hin|[Hin|[]]]; [exact (Ifields f Hin)|congruence].
Qed.

Section Loops.
Variable c : ctx.
Variable from : list N.
Variable fsize : N.
Notation dgE := (dg_elem c real_caps from fsize).
Notation dgL := (dg_loop c real_caps from fsize).
Notation dgG := (decode_group c real_caps from fsize).
Notation og := (opt_group c real_caps from fsize).

Lemma dg_elem_end fuel grp pos pre tail :
  stream from fsize pre [] tail -> dgE (S fuel) grp pos (lenN pre) = Ok (grp, pos, lenN pre, SEnd).
Proof.
  intros [_ H]. cbn [dg_elem]. cbn [flat_map lenN] in H.
  replace (lenN pre <? fsize) with false by (symmetry; apply N.ltb_ge; lia). reflexivity.
Qed.

Lemma dg_elem_tok fuel grp pos pre f v l tail :
  stream from fsize pre ((f, v) :: l) tail -> pok (f, v) ->
  dgE (S fuel) grp pos (lenN pre) =
  match find_trait (mb_fp grp) f with
  | None => if pos =? 0 then Exc (EMissingGroupField f) else Ok (grp, pos, lenN pre, SForeign)
  | Some tr =>
    if t_present tr then Ok (grp, pos, lenN pre, SDup)
    else if (pos =? 0) && negb (getPos tr =? 1) then Exc (EMissingGroupField f)
    else match find_be (c_fields c) f with
    | None => Ok (grp, pos, lenN pre, SForeign)
    | Some _ =>
      match og fuel (add_dec grp pos f v) tr f v (lenN (pre ++ pbytes (f, v))) with
      | Ok (g2, off2) => dgE fuel g2 (pos + 1) off2
      | Exc e => Exc e | OOB s => OOB s | Diverge => Diverge | Fuel => Fuel
      end
    end
  end.
Proof.
  intros Hst Hp. cbn [dg_elem].
  replace (lenN pre <? fsize) with true by (symmetry; apply N.ltb_lt, (stream_lt from fsize _ _ _ _ Hst)).
  rewrite (tok_next from fsize pre _ _ tail Hst Hp). cbn [fst snd].
  destruct Hp as (_ & Hnul & _ & Hf). cbn [fst snd] in Hf, Hnul. cbv zeta.
  rewrite atoi_u32_itoa, N.mod_small, cstr_no_nul, <- lenN_app by (assumption || lia).
  destruct (find_trait (mb_fp grp) f) as [tr|]; [|reflexivity]. destruct (t_present tr); [reflexivity|].
  destruct ((pos =? 0) && negb (getPos tr =? 1)); [reflexivity|]. destruct (find_be (c_fields c) f); [|reflexivity].
  unfold opt_group. fold (add_dec grp pos f v). destruct (t_group tr && has_group_count_c c f v); reflexivity.
Qed.

(* cbn does not fold the mutual fixpoint back: the other two bodies as equations *)
Lemma dgL_S fuel' gm els off : dgL (S fuel') gm els off =
  if off <? fsize then
    match dgE fuel' (create_group gm false) 0 off with
    | Exc e => Exc e | OOB s => OOB s | Diverge => Diverge | Fuel => Fuel
    | Ok (grp, pos, off', why) =>
      match mb_fields grp with
      | [] => Ok (els, off')
      | _ :: _ =>
        match find_missing (mb_fp grp) with
        | Some f => Exc (EMissingMandatory f)
        | None =>
          match why with
          | SDup => dgL fuel' gm (els ++ [grp]) off'
          | _ => Ok (els ++ [grp], off')
          end
        end
      end
    end
  else Ok (els, off).
Proof. reflexivity. Qed.

Lemma dgG_S fuel' m f off : dgG (S fuel') m f off =
  match find_add_group m f with
  | Exc e => Exc e | OOB s => OOB s | Diverge => Diverge | Fuel => Fuel
  | Ok (m1, gm) =>
    match dgL fuel' gm (match map_find f (mb_groups m1) with Some l => l | None => [] end) off with
    | Ok (els, off') => Ok (with_groups m1 (map_set f els (mb_groups m1)), off')
    | Exc e => Exc e | OOB s => OOB s | Diverge => Diverge | Fuel => Fuel
    end
  end.
Proof. reflexivity. Qed.

Lemma decode_group_fresh fuel m f sg off els off' :
  find_sub (mb_subs m) f = Some sg -> map_find f (mb_groups m) = None ->
  dgL fuel sg [] off = Ok (els, off') -> dgG (S fuel) m f off = Ok (attach m f els, off').
Proof.
  intros Hsub Hnone Hrun. rewrite dgG_S. unfold find_add_group. rewrite Hsub.
  destruct m as [fp subs fl pos groups unk]. cbn [mb_groups with_groups] in *.
  rewrite map_find_insert_same by exact Hnone. rewrite Hrun. reflexivity.
Qed.

(* why dg_elem stops in front of rp, given the tags of the element so far *)
Definition stopw (seen : list N) (rp : list (N * list N)) : stop :=
  match rp with [] => SEnd | (f, _) :: _ => if memN f seen then SDup else SForeign end.
Definition rest_g (outer seen : list N) (rp : list (N * list N)) : Prop :=
  match rp with [] => True | (f, _) :: _ => In f seen \/ In f outer end.

(* what opt_group returns for node x, just filed as number |done| + 1 in an object m of g: the
   object with the decoded elements of x attached, after the bytes of x.  Fuel gf: dg_elem spends one
   unit per token, dg_loop one per element, decode_group one per group: at most three per token. *)
Definition node_dec (x : tnode) : Prop :=
  forall g outer top m done T tr pre rp tail gf,
    wf_meta outer g = true -> wf_node g x = true -> node_ok c top g x ->
    find_trait (g_traits g) (n_tag x) = Some tr ->
    Inv c g m done T -> ~ In (n_tag x) (map n_tag done) -> lenN done + 1 < 65536 ->
    stream from fsize pre (npairs x ++ rp) tail -> head_pok rp -> head_in (tags g ++ outer) rp ->
    (3 * length (npairs x) <= gf)%nat ->
    exists m' T',
      og gf (add_dec m (lenN done) (n_tag x) (n_val x)) tr (n_tag x) (n_val x) (lenN (pre ++ pbytes (n_tag x, n_val x)))
        = Ok (m', lenN (pre ++ flat_map pbytes (npairs x))) /\
      Inv c g m' (done ++ [x]) T'.

Lemma head_pok_nodes top g ns rp : Forall (node_ok c top g) ns -> head_pok rp -> head_pok (P ns ++ rp).
Proof.
  intros H Hrp. destruct H as [|[k f rv els] ns (tr & _ & _ & _ & _ & Hp & _) _]; [exact Hrp|exact Hp].
Qed.

Lemma dg_elem_nodes sg outer : forall ns done grp T pre rp tail fuel,
  Forall node_dec ns -> wf_meta outer sg = true -> disj (tags sg) outer ->
  Forall (fun x => wf_node sg x = true) ns -> Forall (node_ok c false sg) ns ->
  NoDup (map n_tag (done ++ ns)) ->
  (done = [] -> exists x ns' tr, ns = x :: ns' /\ find_trait (g_traits sg) (n_tag x) = Some tr /\ getPos tr = 1) ->
  Inv c sg grp done T -> stream from fsize pre (P ns ++ rp) tail -> head_pok rp ->
  rest_g outer (map n_tag (done ++ ns)) rp -> lenN (done ++ ns) < 65536 ->
  (3 * length (P ns) + 1 <= fuel)%nat ->
  exists grp' T',
    dgE fuel grp (lenN done) (lenN pre) =
      Ok (grp', lenN (done ++ ns), lenN pre + lenN (flat_map pbytes (P ns)), stopw (map n_tag (done ++ ns)) rp) /\
    Inv c sg grp' (done ++ ns) T'.
Proof.
  induction ns as [|x ns IH]; intros done grp T pre rp tail fuel Hacc Hwm Hdj Hwf Hok Hnd Hfirst I Hst Hrp Hrest Hlen Hfuel;
    (destruct fuel as [|fuel]; [lia|]).
  - (* no node left: the next token repeats a tag of the element or belongs to an enclosing level *)
    rewrite app_nil_r in *. cbn [flat_map app lenN] in *. rewrite N.add_0_r. exists grp, T. split; [|exact I].
    destruct rp as [|[f v] rp]; [exact (dg_elem_end fuel grp _ pre tail Hst)|].
    rewrite (dg_elem_tok fuel grp _ pre f v rp tail Hst Hrp). cbn [stopw].
    destruct (memN f (map n_tag done)) eqn:Em.
    + apply memN_In in Em. destruct (Inv_find_done c sg grp done T f I Em) as (tr & -> & ->). reflexivity.
    + apply memN_false in Em. rewrite (Inv_find c sg grp done T f I Em).
      destruct Hrest as [Hin|Hin]; [contradiction|]. rewrite find_trait_notin by (intros Hc; exact (Hdj f Hc Hin)).
      destruct done as [|d0 done]; [destruct (Hfirst eq_refl) as (? & ? & ? & [=] & _)|].
      cbn [lenN]. destruct (N.eqb_spec (N.succ (lenN done)) 0); [lia|reflexivity].
  - pose proof (Forall_inv Hok) as (tr & Etr & Hpr & _ & Hbe & Hp & _).
    assert (Hnin : ~ In (n_tag x) (map n_tag done)).
    { rewrite map_app in Hnd. apply NoDup_remove_2 in Hnd. intros Hc. apply Hnd, in_or_app. left. exact Hc. }
    assert (Hstep : done ++ x :: ns = (done ++ [x]) ++ ns) by (rewrite <- app_assoc; reflexivity).
    rewrite Hstep in *. rewrite lenN_app, lenN_snoc in Hlen. rewrite P_cons, app_length in Hfuel. rewrite P_cons, <- app_assoc in Hst.
    assert (Hx : npairs x = (n_tag x, n_val x) :: PE (n_els x)) by (destruct x; reflexivity).
    pose proof Hst as Hst0. rewrite Hx in Hst0. rewrite (dg_elem_tok fuel grp _ pre _ _ _ tail Hst0 Hp).
    rewrite (Inv_find c sg grp done T _ I Hnin), Etr, Hpr.
    replace ((lenN done =? 0) && negb (getPos tr =? 1)) with false.
    2:{ destruct done as [|d0 done]; [|cbn [lenN]; destruct (N.eqb_spec (N.succ (lenN done)) 0); [lia|reflexivity]].
        destruct (Hfirst eq_refl) as (x0 & ns0 & tr0 & [= <- _] & E0 & Hg). rewrite E0 in Etr. injection Etr as <-. rewrite Hg. reflexivity. }
    destruct (find_be (c_fields c) (n_tag x)); [|congruence].
    destruct (Forall_inv Hacc sg outer false grp done T tr pre (P ns ++ rp) tail fuel Hwm (Forall_inv Hwf) (Forall_inv Hok) Etr I Hnin
                ltac:(lia) Hst (head_pok_nodes _ _ _ _ (Forall_inv_tail Hok) Hrp)) as (g2 & T2 & -> & I2).
    { apply head_in_nodes; [exact (Forall_inv_tail Hwf)|]. intros ->. rewrite app_nil_r in Hrest.
      destruct rp as [|[f2 v2] rp2]; [exact Logic.I|]. cbn [head_in rest_g] in *. apply in_or_app.
      destruct Hrest as [Hin|Hin]; [left|right; exact Hin]. rewrite map_app in Hin. apply in_app_or in Hin.
      destruct Hin as [Hin|[<-|[]]]; [exact (Inv_tags c sg grp done T f2 I Hin)|apply (find_trait_In _ _ _ Etr)]. }
    { lia. }
    destruct (IH (done ++ [x]) g2 T2 (pre ++ flat_map pbytes (npairs x)) rp tail fuel (Forall_inv_tail Hacc) Hwm Hdj
                (Forall_inv_tail Hwf) (Forall_inv_tail Hok) Hnd) as (grp' & T' & Hrun & I'); try assumption.
    { intros E. apply app_eq_nil in E. destruct E; discriminate. }
    { apply stream_app. exact Hst. }
    { rewrite lenN_app, lenN_snoc. exact Hlen. }
    { rewrite Hx in Hfuel. cbn [length] in Hfuel. lia. }
    exists grp', T'. split; [|exact I']. rewrite lenN_snoc in Hrun. rewrite Hrun.
    cbn [flat_map]. rewrite !flat_map_app, !lenN_app. f_equal. f_equal. f_equal. lia.
Qed.

Lemma dg_loop_elems sg outer : forall els acc pre rp tail fuel,
  Forall (Forall node_dec) els -> wf_meta outer sg = true -> disj (tags sg) outer ->
  wf_elems sg els = true -> delems_ok c sg els = true -> els <> [] ->
  stream from fsize pre (PE els ++ rp) tail -> head_pok rp -> head_in outer rp ->
  (3 * length (PE els) + 2 <= fuel)%nat ->
  exists objs ts,
    dgL fuel sg acc (lenN pre) = Ok (acc ++ objs, lenN pre + lenN (flat_map pbytes (PE els))) /\
    elts_trees c objs = Some ts /\ PE ts = PE els.
Proof.
  induction els as [|e es IH]; intros acc pre rp tail fuel Hacc Hwm Hdj Hwf Hd Hne Hst Hpok Hrp Hfuel; [congruence|].
  destruct fuel as [|fuel]; [lia|].
  cbn [wf_elems] in Hwf. apply andb_prop in Hwf. destruct Hwf as [Hwf Hes]. apply andb_prop in Hwf. destruct Hwf as [Hk1 Hwe].
  cbn [delems_ok] in Hd. apply andb_prop in Hd. destruct Hd as [Hd Hdes]. apply andb_prop in Hd. destruct Hd as [Hd Hl].
  apply andb_prop in Hd. destruct Hd as [Hd Hnd]. apply andb_prop in Hd. destruct Hd as [Hde Hmand].
  destruct e as [|x e']; [discriminate|]. apply N.eqb_eq in Hk1. apply N.ltb_lt in Hl.
  rewrite PE_cons, <- app_assoc in Hst. rewrite PE_cons, app_length in Hfuel.
  pose proof (wf_nodes_each sg _ _ Hwe) as Hwall.
  assert (Hoks : Forall (fun y => node_ok c false sg y /\ forall tr, find_trait (g_traits sg) (n_tag y) = Some tr -> t_haspos tr = true) (x :: e'))
    by (eapply forallb_Forall; [apply dnode_ok_sound|exact Hde]).
  destruct (wf_node_trait sg x (Forall_inv Hwall)) as (trx & Etrx & Hpx). rewrite Hk1 in Hpx.
  destruct (wf_meta_parts _ _ Hwm) as (_ & Hndp & _).
  pose proof (first_tag_unique sg (n_tag x) trx Hndp Etrx Hpx) as F1.
  (* the token after this element: the first field of the next one, or the enclosing level *)
  assert (Hnext : match es with
                  | [] => True
                  | e2 :: _ => exists v2 l2, P e2 = (n_tag x, v2) :: l2 /\ pok (n_tag x, v2)
                  end).
  { destruct es as [|e2 es2]; [exact Logic.I|].
    cbn [wf_elems] in Hes. apply andb_prop in Hes. destruct Hes as [Hes _]. apply andb_prop in Hes. destruct Hes as [Hk2 He2].
    cbn [delems_ok] in Hdes. repeat (apply andb_prop in Hdes; destruct Hdes as [Hdes _]).
    destruct e2 as [|x2 e2']; [discriminate|]. apply N.eqb_eq in Hk2.
    destruct (wf_node_trait sg x2 (Forall_inv (wf_nodes_each sg _ _ He2))) as (tr2 & E2 & Hp2). rewrite Hk2 in Hp2.
    pose proof (first_tag_unique sg (n_tag x2) tr2 Hndp E2 Hp2) as F2. rewrite F1 in F2. injection F2 as ->.
    cbn [dnodes_ok forallb] in Hdes. apply andb_prop in Hdes. destruct Hdes as [Hdx2 _].
    destruct (dnode_ok_sound c false sg x2 Hdx2) as ((t & _ & _ & _ & _ & Hpk & _) & _).
    destruct x2 as [k2 f2 rv2 els2]. exists rv2, (PE els2 ++ P e2'). split; [reflexivity|exact Hpk]. }
  assert (Hrest : rest_g outer (map n_tag ([] ++ x :: e')) (PE es ++ rp)).
  { destruct es as [|e2 es2]; [destruct rp as [|[f2 v2] rp2]; [exact Logic.I|right; exact Hrp]|].
    destruct Hnext as (v2 & l2 & E2 & _). rewrite PE_cons, E2. left. left. reflexivity. }
  destruct (dg_elem_nodes sg outer (x :: e') [] (create_group sg false) [] pre (PE es ++ rp) tail fuel (Forall_inv Hacc) Hwm Hdj
              Hwall (Forall_impl _ (fun y Hy => proj1 Hy) Hoks) (nodupN_NoDup _ Hnd)) as (grp' & T' & Hrun & I'); try assumption.
  { intros _. exists x, e', trx. split; [reflexivity|]. split; [exact Etrx|].
    unfold getPos. rewrite (proj2 (Forall_inv Hoks) trx Etrx). exact Hpx. }
  { apply Inv_init. }
  { destruct es as [|e2 es2]; [exact Hpok|]. destruct Hnext as (v2 & l2 & E2 & Hp2). rewrite PE_cons, E2. exact Hp2. }
  { lia. }
  cbn [app lenN] in Hrun, I'.
  rewrite dgL_S. replace (lenN pre <? fsize) with true.
  2:{ symmetry. apply N.ltb_lt. rewrite P_cons in Hst. destruct x. exact (stream_lt from fsize _ _ _ _ Hst). }
  rewrite Hrun.
  (* the element is not empty: its first field was filed; its mandatory fields are there *)
  pose proof (inv_fields _ _ _ _ _ I' (n_tag x) (or_introl eq_refl)) as Hf.
  destruct (mb_fields grp') as [|fa fl]; [exfalso; apply Hf; reflexivity|].
  rewrite (inv_fp _ _ _ _ _ I'). unfold mand_okb in Hmand. destruct (find_missing (fp_after (g_traits sg) (x :: e'))); [discriminate|].
  assert (Hts : elts_trees c [grp'] = Some [T']) by (cbn [elts_trees]; rewrite (inv_unk _ _ _ _ _ I'), (inv_tree _ _ _ _ _ I'); reflexivity).
  destruct es as [|e2 es2].
  - (* last element *)
    cbn [PE flat_map app] in *. rewrite app_nil_r. exists [grp'], [T'].
    split; [|split; [exact Hts|cbn [PE flat_map]; rewrite !app_nil_r; apply (inv_P _ _ _ _ _ I')]].
    destruct rp as [|[f2 v2] rp2]; cbn [stopw]; [reflexivity|].
    replace (memN f2 (map n_tag (x :: e'))) with false; [reflexivity|].
    symmetry. apply memN_false. intros Hin. exact (Hdj f2 (Inv_tags c sg grp' _ T' f2 I' Hin) Hrp).
  - (* more elements: the next token repeats the first tag *)
    destruct Hnext as (v2 & l2 & E2 & _). rewrite (PE_cons e2), E2. cbn [app stopw map memN existsb]. rewrite N.eqb_refl. cbn [orb].
    rewrite <- lenN_app.
    destruct (IH (acc ++ [grp']) (pre ++ flat_map pbytes (P (x :: e'))) rp tail fuel (Forall_inv_tail Hacc) Hwm Hdj Hes Hdes)
      as (objs & ts & Hrun2 & Hts2 & HPE); try assumption.
    { discriminate. }
    { apply stream_app. exact Hst. }
    { destruct x. cbn [flat_map npairs app length] in Hfuel. lia. }
    exists (grp' :: objs), (T' :: ts). split; [|split].
    + rewrite Hrun2, <- app_assoc. cbn [app]. f_equal. f_equal.
      rewrite (PE_cons (x :: e') (e2 :: es2)), flat_map_app, !lenN_app. lia.
    + cbn [elts_trees] in *. destruct (mb_unknown grp'); [|discriminate]. destruct (tree_of c grp'); [|discriminate].
      injection Hts as <-. rewrite Hts2. reflexivity.
    + rewrite !PE_cons, HPE, (inv_P _ _ _ _ _ I'). reflexivity.
Qed.

Theorem node_dec_all : forall x, node_dec x.
Proof.
  induction x as [k f rv els IH] using tnode_ind'.
  intros g outer top m done T tr pre rp tail gf Hwm Hwx (tr' & Etr' & Hpr & Hsup & Hbe & Hp & Hren & Hflag & _ & Hels) Etr I Hnin Hl Hst Hrp Hhead Hgf.
  cbn [n_tag n_val n_els npairs] in *. rewrite Etr in Etr'. injection Etr' as <-.
  set (m1 := add_dec m (lenN done) f rv).
  assert (Hg1 : mb_groups m1 = mb_groups m) by apply mb_groups_add_dec.
  (* the tree and the invariant after the node, whatever groups G' it ends with *)
  assert (Hstep : forall G' ts, (forall f', f' <> f -> map_find f' G' = map_find f' (mb_groups m)) ->
            (if t_group tr && has_group_count_c c f rv then exists es, map_find f G' = Some es /\ elts_trees c es = Some ts else ts = []) ->
            PE ts = PE els -> exists T', Inv c g (with_groups m1 G') (done ++ [TN k f rv els]) T').
  { intros G' ts Ho Hts HPE. eexists. apply (Inv_step c g m done T (TN k f rv els) G' ts I Hnin Hl); cbn [n_tag n_val n_els]; try assumption; [congruence|].
    apply (tree_add_node c m (lenN done) f rv T tr G' ts (inv_keys _ _ _ _ _ I) Hl (inv_tree _ _ _ _ _ I)); try assumption.
    - rewrite (Inv_find c g m done T f I Hnin). exact Etr.
    - intros q f' w Hin ->. exact (Hnin (inv_ent _ _ _ _ _ I q f w Hin)). }
  unfold opt_group. rewrite Hflag in *. destruct els as [|e0 els0]; cbn [nonempty] in *.
  - (* plain field *)
    destruct (Hstep (mb_groups m) []) as [T' I1]; [reflexivity..|]. rewrite <- Hg1, with_groups_same in I1.
    exists m1, T'. split; [cbn [PE flat_map]; rewrite app_nil_r; reflexivity|exact I1].
  - (* group count field followed by its elements *)
    set (els := e0 :: els0) in *.
    destruct (Hels ltac:(discriminate)) as (sg & Esub & Dels).
    rewrite wf_node_unfold, Etr in Hwx. apply andb_prop in Hwx. destruct Hwx as [_ Hgrp].
    destruct (t_group tr); [|discriminate]. destruct (decimal rv); [|discriminate]. rewrite Esub in Hgrp.
    apply andb_prop in Hgrp. destruct Hgrp as [_ Hwels].
    destruct (wf_meta_parts _ _ Hwm) as (_ & _ & Hsubs). destruct (Hsubs f sg Esub) as [Hdsg Hwsg].
    destruct gf as [|gf]; [cbn [length] in Hgf; lia|].
    destruct (dg_loop_elems sg (tags g ++ outer) els [] (pre ++ pbytes (f, rv)) rp tail gf IH Hwsg (disjN_spec _ _ Hdsg) Hwels Dels
                ltac:(discriminate) (stream_step from fsize pre (f, rv) _ tail Hst) Hrp Hhead) as (objs & ts & Hrun & Hts & HPE).
    { cbn [length] in Hgf. fold (PE els) in Hgf. lia. }
    assert (Hsub1 : find_sub (mb_subs m1) f = Some sg) by (unfold m1; rewrite mb_subs_add_dec, (inv_subs _ _ _ _ _ I); exact Esub).
    assert (Hnone : map_find f (mb_groups m1) = None) by (rewrite Hg1; exact (inv_grp _ _ _ _ _ I f Hnin)).
    rewrite (decode_group_fresh gf m1 f sg _ objs _ Hsub1 Hnone Hrun).
    rewrite attach_groups, Hg1.
    destruct (Hstep (map_set f objs (map_insert f [] (mb_groups m))) ts) as [T' I1].
    + intros f' Hne. rewrite map_find_set_other, map_find_insert_other by exact Hne. reflexivity.
    + exists objs. split; [|exact Hts]. apply map_find_set_same. rewrite <- Hg1, map_find_insert_same by exact Hnone. discriminate.
    + exact HPE.
    + exists (with_groups m1 (map_set f objs (map_insert f [] (mb_groups m)))), T'. split; [|exact I1].
      f_equal. f_equal. cbn [flat_map]. fold (PE els). rewrite !lenN_app. lia.
Qed.

(* dg_loop_elems under a bound n on the size of an element *)
Definition DL (n : nat) : Prop :=
  forall sg outer els acc pre rp tail fuel,
    (forall e, In e els -> (length (P e) <= n)%nat) -> wf_meta outer sg = true -> disj (tags sg) outer ->
    wf_elems sg els = true -> delems_ok c sg els = true -> els <> [] ->
    stream from fsize pre (PE els ++ rp) tail -> Forall pok rp -> head_in outer rp ->
    (3 * length (PE els) + 2 <= fuel)%nat ->
    exists objs ts,
      dgL fuel sg acc (lenN pre) = Ok (acc ++ objs, lenN pre + lenN (flat_map pbytes (PE els))) /\
      elts_trees c objs = Some ts /\ PE ts = PE els.

Lemma DL_all n : DL n.
Proof.
  intros sg outer els acc pre rp tail fuel _ Hwm Hdj Hwf Hd Hne Hst Hpok Hrp Hfuel.
  apply (dg_loop_elems sg outer els acc pre rp tail fuel); try assumption.
  - apply Forall_all. intros e. apply Forall_all, node_dec_all.
  - destruct Hpok; [exact Logic.I|assumption].
Qed.

Lemma DG_of_DL n : DL n ->
  forall g m done T f sg outer els pre rp tail fuel,
    Inv c g m done T -> ~ In f (map n_tag done) -> find_sub (g_subs g) f = Some sg ->
    (forall e, In e els -> (length (P e) <= n)%nat) -> wf_meta outer sg = true -> disj (tags sg) outer ->
    wf_elems sg els = true -> delems_ok c sg els = true -> els <> [] ->
    stream from fsize pre (PE els ++ rp) tail -> Forall pok rp -> head_in outer rp ->
    (3 * length (PE els) + 3 <= fuel)%nat ->
    exists objs ts,
      dgG fuel m f (lenN pre) = Ok (attach m f objs, lenN pre + lenN (flat_map pbytes (PE els))) /\
      elts_trees c objs = Some ts /\ PE ts = PE els.
Proof.
  intros HDL g m done T f sg outer els pre rp tail fuel I Hn Hsub Hsz Hwm Hdj Hwf Hd Hne Hst Hpok Hrp Hfuel.
  destruct fuel as [|fuel]; [lia|].
  destruct (HDL sg outer els [] pre rp tail fuel Hsz Hwm Hdj Hwf Hd Hne Hst Hpok Hrp ltac:(lia)) as (objs & ts & Hrun & Hts & HPE).
  exists objs, ts. split; [|split; assumption].
  apply (decode_group_fresh fuel m f sg); [rewrite (inv_subs _ _ _ _ _ I); exact Hsub|exact (inv_grp _ _ _ _ _ I f Hn)|exact Hrun].
Qed.
End Loops.

Lemma dec_loop_nodes c from fsize g outer gfuel : forall ns done m T pre tb fuel rp tail,
  wf_meta outer g = true -> disj (tags g) outer ->
  Forall (fun x => wf_node g x = true) ns -> Forall (node_ok c true g) ns ->
  NoDup (map n_tag (done ++ ns)) -> Inv c g m done T ->
  stream from fsize pre (P ns ++ rp) tail -> head_pok rp -> head_in outer rp ->
  lenN (done ++ ns) < 65536 -> (length ns < fuel)%nat -> (3 * length (P ns) <= gfuel)%nat ->
  exists m' T',
    dec_loop c real_caps from fsize false gfuel fuel m (lenN pre) (lenN done) None 0 tb =
      dec_finish false m' (lenN pre + lenN (flat_map pbytes (P ns))) (lenN (done ++ ns)) None 0 /\
    Inv c g m' (done ++ ns) T'.
Proof.
  induction ns as [|x ns IH]; intros done m T pre tb fuel rp tail Hwm Hdj Hwf Hok Hnd I Hst Hrp Hhead Hlen Hfuel Hgf;
    (destruct fuel as [|fuel]; [lia|]).
  - rewrite app_nil_r in *. cbn [flat_map app lenN] in *. rewrite N.add_0_r. exists m, T. split; [|exact I].
    apply (dec_loop_stop c from fsize gfuel fuel m pre rp tail); try assumption.
    destruct rp as [|[f v] rp]; [exact Logic.I|]. cbn [stops head_in] in *.
    rewrite (Inv_find c g m done T f I); [apply find_trait_notin|]; intros Hc; [|apply (Inv_tags c g m done T f I) in Hc]; exact (Hdj f Hc Hhead).
  - pose proof (Forall_inv Hok) as (tr & Etr & Hpr & _ & Hbe & Hp & _ & _ & Hlength & _).
    assert (Hnin : ~ In (n_tag x) (map n_tag done)).
    { rewrite map_app in Hnd. apply NoDup_remove_2 in Hnd. intros Hc. apply Hnd, in_or_app. left. exact Hc. }
    assert (Hstep : done ++ x :: ns = (done ++ [x]) ++ ns) by (rewrite <- app_assoc; reflexivity).
    rewrite Hstep in *. rewrite lenN_app, lenN_snoc in Hlen. rewrite P_cons, app_length in Hgf. rewrite P_cons, <- app_assoc in Hst.
    assert (Hx : npairs x = (n_tag x, n_val x) :: PE (n_els x)) by (destruct x; reflexivity).
    destruct (node_dec_all c from fsize x g outer true m done T tr pre (P ns ++ rp) tail gfuel Hwm (Forall_inv Hwf) (Forall_inv Hok) Etr I Hnin
                ltac:(lia) Hst (head_pok_nodes _ _ _ _ _ (Forall_inv_tail Hok) Hrp)) as (m2 & T2 & Hog & I2).
    { apply head_in_nodes; [exact (Forall_inv_tail Hwf)|]. intros ->.
      destruct rp as [|[f2 v2] rp2]; [exact Logic.I|]. apply in_or_app. right. exact Hhead. }
    { lia. }
    rewrite Hx in Hst.
    pose proof (Inv_find c g m done T _ I Hnin) as Etrm. rewrite Etr in Etrm.
    assert (Hk32 : lenN done + 1 < 4294967296) by lia.
    rewrite (dec_loop_field c from fsize gfuel fuel m pre _ _ _ tail _ tb tr m2 _ Hst Hp Etrm Hpr Hbe (Hlength eq_refl) Hk32 Hog).
    rewrite <- Hx in Hst.
    destruct (IH (done ++ [x]) m2 T2 (pre ++ flat_map pbytes (npairs x)) (tagbuf_after (itoa_N (n_tag x)) tb) fuel rp tail Hwm Hdj
                (Forall_inv_tail Hwf) (Forall_inv_tail Hok) Hnd I2 (stream_app from fsize pre _ _ tail Hst) Hrp Hhead) as (m' & T' & Hrun & I').
    { rewrite lenN_app, lenN_snoc. exact Hlen. }
    { cbn [length] in Hfuel. lia. }
    { lia. }
    exists m', T'. split; [|exact I']. rewrite lenN_snoc in Hrun. rewrite Hrun.
    cbn [flat_map]. rewrite !flat_map_app, !lenN_app. f_equal. lia.
Qed.
