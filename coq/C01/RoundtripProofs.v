(* The round trip as one function, and the objects of the two refutations in Props/Properties_C01.v. *)
From Coq Require Import NArith ZArith List Bool Lia.
From F8 Require Import Codec.Bytes Codec.Meta Codec.Extract Codec.Decode Codec.Encode Codec.Render Codec.Example
                       C02.Spec_C02 C02.WfC02 C02.AuxProofs C02.RenderProofs C02.EncodeProofs C01.Spec_C01 C01.WfC01 C01.WfGroups.
Import ListNotations.
Local Open Scope N_scope.

(* encode, decode with Message::factory (strict, checksum verified), encode the decoded object *)
Definition roundtrip (c : ctx) (m : message) : res (list N * message * list N) :=
  bind (msg_encode c m) (fun '(b, _) =>
  bind (factory c real_caps b false false) (fun m' =>
  bind (msg_encode c m') (fun '(b2, _) => Ok (b, m', b2)))).

(* the value text of field f as the decoded object holds it *)
Definition body_val (m : message) (f : N) : option (list N) := map_find f (mb_fields (m_body m)).
Definition hdr_val (m : message) (f : N) : option (list N) := map_find f (mb_fields (m_hdr m)).

(* Heartbeat with MsgSeqNum (34, int) = "-5" *)
Definition ex_hb_neg : message :=
  mkMsg (m_type ex_hb) (addf (m_hdr ex_hb) 34 [45; 53]) (m_body ex_hb) (m_trl ex_hb).

(* the context with the rendering of the code BEFORE /repo a8219b1 *)
Definition ex_ctx_orig : ctx :=
  mkCtx (c_fields ex_ctx) (c_msgs ex_ctx) (c_header ex_ctx) (c_trailer ex_ctx) (c_hdr_init ex_ctx)
        (c_trl_init ex_ctx) (c_begin ex_ctx) render_default_orig.

Lemma c01_negative_int_orig_refuted_lemma :
  exists m b m' b2, render_ok ex_ctx_orig /\ c_render ex_ctx_orig = render_default_orig /\
    wf_msg ex_ctx_orig m = true /\ fresh m = true /\
    hdr_val m 34 = Some [45; 53] /\                       (* built with "-5" *)
    roundtrip ex_ctx_orig m = Ok (b, m', b2) /\
    hdr_val m' 34 = Some [45; 50; 53] /\                  (* decoded as "-25" *)
    list_eqb b b2 = false.                                (* and re-encoded differently ("-275") *)
Proof.
  exists ex_hb_neg. do 3 eexists. split; [apply render_default_orig_ok; reflexivity|]. split; [reflexivity|].
  split; [vm_compute; reflexivity|]. split; [vm_compute; reflexivity|]. split; [vm_compute; reflexivity|].
  split; [vm_compute; reflexivity|]. split; vm_compute; reflexivity.
Qed.

(* the observed behaviour of the real float conversion on a value >= 2^31 (fast_atof / modp_dtoa
   switch to sprintf("%e"): 2147483648.0 prints as 2.147484e+09, 7 significant digits), everything
   else as render_default.  (The tie-branch carry 0.995 -> 0.1 of DESIGN F02 was repaired in
   /repo a6c4c45.) *)
Definition big_txt : list N := [50; 49; 52; 55; 52; 56; 51; 54; 52; 56; 46; 48].          (* 2147483648.0 *)
Definition big_out : list N := [50; 46; 49; 52; 55; 52; 56; 52; 101; 43; 48; 57].          (* 2.147484e+09 *)
Definition render_obs (ty : N) (v : list N) : list N :=
  if is_float_type ty && list_eqb v big_txt then big_out else render_default ty v.
Definition ex_ctx_obs : ctx :=
  mkCtx (c_fields ex_ctx) (c_msgs ex_ctx) (c_header ex_ctx) (c_trailer ex_ctx) (c_hdr_init ex_ctx)
        (c_trl_init ex_ctx) (c_begin ex_ctx) render_obs.
(* an order with OrderQty (38, float) = 2147483648.0 *)
Definition ex_order_f : mbase := addf (addf (create_group ex_orders true) 38 big_txt) 11 [79; 49].
Definition ex_list_f : message :=
  let m := mk_message ex_ctx_obs (mkMD [69] false ex_body) true in
  let b := with_elems (addf (addf (m_body m) 73 [49]) 66 [76; 49]) 73 [ex_order_f] in
  mkMsg (m_type m) (ex_hdr_fields (m_hdr m)) b (m_trl m).
Definition first_elem_val (m : message) (g f : N) : option (list N) :=
  match map_find g (mb_groups (m_body m)) with
  | Some (e :: _) => map_find f (mb_fields e)
  | _ => None
  end.
