(* extract_element of the codec model inverts one printed field, given enough room in the caller's
   buffers and in the window. *)
From Coq Require Import NArith ZArith List Bool Lia.
From F8 Require Import Codec.Bytes Codec.Meta Codec.Extract Codec.Lemmas C02.Spec_C02 C02.DigitsProofs C02.TokenProofs.
Import ListNotations.
Local Open Scope N_scope.

Theorem extract_field f v rest sz tcap vcap :
  no_soh v -> lenN (pbytes (f, v)) <= sz -> lenN (itoa_N f) < tcap -> lenN v < vcap ->
  extract_element (pbytes (f, v) ++ rest) sz tcap vcap = XOk (itoa_N f) v (lenN (pbytes (f, v))).
Proof.
  intros Hv Hsz Ht Hvc. rewrite pbytes_len in *. unfold pbytes. cbn [fst snd].
  rewrite <- app_assoc. cbn [app]. rewrite <- app_assoc. cbn [app].
  apply xe_exact; try assumption. apply itoa_digits.
Qed.

Lemma extract_empty from tcap vcap : 0 < tcap -> 0 < vcap -> extract_element from 0 tcap vcap = XFail [] [].
Proof.
  intros Ht Hv. unfold extract_element. destruct from; cbn [xe_loop]; cbn [N.ltb N.compare]; unfold zero_write;
  replace (0 <? tcap) with true by (symmetry; apply N.ltb_lt; lia);
  replace (0 <? vcap) with true by (symmetry; apply N.ltb_lt; lia); reflexivity.
Qed.
