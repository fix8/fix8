(* dec_loop of the codec model (strict mode) on the byte stream of printed fields: one turn, the
   loop over a part without group elements, and the content tree of the object it leaves. *)
From Coq Require Import NArith ZArith List Bool Lia Arith.
From F8 Require Import Codec.Bytes Codec.Meta Codec.Extract Codec.Decode Codec.Encode Codec.Render Codec.Lemmas
                       C02.Spec_C02 C02.WfC02 C02.MetaProofs C02.DigitsProofs C02.TokenProofs C02.TreeProofs C02.StructProofs
                       C02.AuxProofs C01.WfC01 C01.ExtractProofs.
Import ListNotations.
Local Open Scope N_scope.

Definition no_nul (v : list N) : Prop := Forall (fun b => (b =? 0) = false) v.

(* a printed pair the decoder can take back: the value fits val[2048], the tag is an unsigned short *)
Definition pok (p : N * list N) : Prop :=
  no_soh (snd p) /\ no_nul (snd p) /\ lenN (snd p) < 2048 /\ fst p < 65536.

Lemma lenN_snoc {A} (l : list A) x : lenN (l ++ [x]) = lenN l + 1.
Proof. apply lenN_app. Qed.

Lemma tag_len_small f : f < 65536 -> lenN (itoa_N f) < 32.
Proof.
  intros H. rewrite len_digits_itoa by lia. unfold len_digits. repeat destruct (_ <? _); lia.
Qed.

Lemma digits_pok f ds : f < 65536 -> all_digits ds -> lenN ds < 2048 -> pok (f, ds).
Proof.
  intros Hf Hd Hl. repeat split; try assumption; [apply digits_no_soh|apply digits_no_nul]; exact Hd.
Qed.

Section Stream.
Variable from : list N.
Variable fsize : N.

(* from = pre ++ (printed pairs l) ++ tail, the window [0, fsize) ends after the pairs *)
Definition stream (pre : list N) (l : list (N * list N)) (tail : list N) : Prop :=
  from = pre ++ flat_map pbytes l ++ tail /\ fsize = lenN pre + lenN (flat_map pbytes l).

Lemma stream_app pre a b tail : stream pre (a ++ b) tail -> stream (pre ++ flat_map pbytes a) b tail.
Proof.
  intros [H1 H2]. rewrite flat_map_app in *. split.
  - rewrite H1, <- !app_assoc. reflexivity.
  - rewrite H2, !lenN_app. lia.
Qed.
Lemma stream_step pre p l tail : stream pre (p :: l) tail -> stream (pre ++ pbytes p) l tail.
Proof. intros H. apply (stream_app pre [p] l) in H. cbn [flat_map] in H. rewrite app_nil_r in H. exact H. Qed.

Lemma stream_lt pre p l tail : stream pre (p :: l) tail -> lenN pre < fsize.
Proof. intros [_ H]. cbn [flat_map] in H. rewrite lenN_app in H. pose proof (pbytes_pos p). lia. Qed.

Lemma tok_next pre p l tail : stream pre (p :: l) tail -> pok p ->
  tok_at real_caps from fsize (lenN pre) = XOk (itoa_N (fst p)) (snd p) (lenN (pbytes p)).
Proof.
  intros [H1 H2] (Hs & _ & Hl & Hf). unfold tok_at. rewrite H1, skipN_app. cbn [flat_map]. rewrite <- app_assoc.
  destruct p as [f v]. cbn [fst snd] in *. apply extract_field; [assumption| | |].
  - rewrite H2. cbn [flat_map]. rewrite lenN_app. lia.
  - pose proof (tag_len_small f Hf). change (cap_tag real_caps) with 2048. lia.
  - exact Hl.
Qed.

Lemma tok_end pre tail : stream pre [] tail -> tok_at real_caps from fsize (lenN pre) = XFail [] [].
Proof.
  intros [_ H2]. unfold tok_at. cbn [flat_map lenN] in H2. rewrite H2, N.add_0_r, N.sub_diag.
  apply extract_empty; reflexivity.
Qed.
End Stream.

(* MessageBase::add_field_decoder + _fp.set(present) for the field decoded as number k + 1 *)
Definition add_dec (m : mbase) (k f : N) (v : list N) : mbase :=
  mark_present (add_field_decoder m f (k + 1) v) f.

Lemma mb_fp_add_dec m k f v : mb_fp (add_dec m k f v) = upd_trait (set_present true) (mb_fp m) f.
Proof. destruct m. reflexivity. Qed.

Definition stops (fp : list trait) (rp : list (N * list N)) : Prop :=
  match rp with [] => True | (f, _) :: _ => find_trait fp f = None end.
Definition head_pok (rp : list (N * list N)) : Prop := match rp with [] => True | p :: _ => pok p end.

Section Turn.
Variables (c : ctx) (from : list N) (fsize : N) (gfuel : nat).
Notation loop := (dec_loop c real_caps from fsize false gfuel).

Lemma dec_loop_stop fuel m pre rp tail k tb :
  stream from fsize pre rp tail -> head_pok rp -> stops (mb_fp m) rp ->
  loop (S fuel) m (lenN pre) k None 0 tb = dec_finish false m (lenN pre) k None 0.
Proof.
  intros Hst Hp Hstop. cbn [dec_loop].
  replace (lenN pre <=? fsize) with true by (symmetry; apply N.leb_le; destruct Hst as [_ ->]; lia).
  destruct rp as [|[f v] rp].
  - rewrite (tok_end from fsize pre tail Hst). reflexivity.
  - rewrite (tok_next from fsize pre (f, v) rp tail Hst Hp). cbn [fst snd].
    destruct Hp as (_ & _ & _ & Hf). rewrite atoi_u16_itoa by exact Hf. cbn [stops] in Hstop. rewrite Hstop. reflexivity.
Qed.

Lemma dec_loop_field fuel m pre f v l tail k tb tr m2 off2 :
  stream from fsize pre ((f, v) :: l) tail -> pok (f, v) ->
  find_trait (mb_fp m) f = Some tr -> t_present tr = false -> find_be (c_fields c) f <> None ->
  (negb (t_ftype tr =? ft_Length) || (f =? Common_BodyLength)) = true -> k + 1 < 4294967296 ->
  opt_group c real_caps from fsize gfuel (add_dec m k f v) tr f v (lenN (pre ++ pbytes (f, v))) = Ok (m2, off2) ->
  loop (S fuel) m (lenN pre) k None 0 tb = loop fuel m2 off2 (k + 1) None 0 (tagbuf_after (itoa_N f) tb).
Proof.
  intros Hst Hp Htr Hpr Hbe Hlen Hk Hog. cbn [dec_loop].
  replace (lenN pre <=? fsize) with true by (symmetry; apply N.leb_le; pose proof (stream_lt from fsize _ _ _ _ Hst); lia).
  rewrite (tok_next from fsize pre _ _ tail Hst Hp). cbn [fst snd].
  destruct Hp as (_ & Hnul & _ & Hf). cbn [fst snd] in Hf, Hnul. rewrite atoi_u16_itoa, Htr, Hpr by assumption.
  destruct (find_be (c_fields c) f); [|congruence].
  rewrite cstr_no_nul, N.mod_small, <- lenN_app by assumption. fold (add_dec m k f v). rewrite Hog, Hlen. reflexivity.
Qed.
End Turn.

Lemma opt_group_plain c cp from fsize gfuel m tr f v off :
  (t_group tr && has_group_count_c c f v) = false -> opt_group c cp from fsize gfuel m tr f v off = Ok (m, off).
Proof. intros H. unfold opt_group. rewrite H. reflexivity. Qed.

Fixpoint dec_flat (m : mbase) (k : N) (ns : list tnode) : mbase :=
  match ns with [] => m | n :: r => dec_flat (add_dec m k (n_tag n) (n_val n)) (k + 1) r end.

(* a field without elements that the decoder reads and, decoded, the encoder prints again *)
Definition flat_ok (c : ctx) (fp : list trait) (n : tnode) : Prop :=
  exists tr, find_trait fp (n_tag n) = Some tr /\ t_present tr = false /\ t_suppress tr = false /\
    (t_group tr && has_group_count_c c (n_tag n) (n_val n)) = false /\
    (negb (t_ftype tr =? ft_Length) || (n_tag n =? Common_BodyLength)) = true /\
    find_be (c_fields c) (n_tag n) <> None /\ n_els n = [] /\
    c_render c (ftype_of c (n_tag n) (t_ftype tr)) (n_val n) = n_val n.

Lemma P_flat n r : n_els n = [] -> P (n :: r) = (n_tag n, n_val n) :: P r.
Proof. destruct n as [k f rv els]. cbn [n_els n_tag n_val]. intros ->. reflexivity. Qed.
Lemma flat_ok_P c fp ns : Forall (flat_ok c fp) ns -> P ns = map (fun n => (n_tag n, n_val n)) ns.
Proof.
  induction 1 as [|n ns (tr & _ & _ & _ & _ & _ & _ & Hn & _) _ IH]; [reflexivity|]. rewrite (P_flat n ns Hn), IH. reflexivity.
Qed.

Lemma flat_ok_upd c fp f n : n_tag n <> f -> flat_ok c fp n -> flat_ok c (upd_trait (set_present true) fp f) n.
Proof.
  intros Hne (tr & Htr & H). exists tr. split; [|exact H]. rewrite find_trait_upd by reflexivity.
  replace (n_tag n =? f) with false by (symmetry; apply N.eqb_neq; exact Hne). exact Htr.
Qed.

Lemma dec_loop_flat c from fsize gfuel : forall ns m pre k tb fuel rp tail,
  stream from fsize pre (P ns ++ rp) tail -> Forall pok (P ns) -> head_pok rp ->
  NoDup (map n_tag ns) -> Forall (flat_ok c (mb_fp m)) ns -> stops (mb_fp m) rp ->
  k + lenN ns < 4294967296 -> (length ns < fuel)%nat ->
  dec_loop c real_caps from fsize false gfuel fuel m (lenN pre) k None 0 tb =
  dec_finish false (dec_flat m k ns) (lenN pre + lenN (flat_map pbytes (P ns))) (k + lenN ns) None 0.
Proof.
  induction ns as [|n ns IH]; intros m pre k tb fuel rp tail Hst Hpok Hrp Hnd Hok Hstop Hk Hfuel; (destruct fuel as [|fuel]; [lia|]).
  - cbn [flat_map app lenN dec_flat] in *. rewrite !N.add_0_r. apply (dec_loop_stop c from fsize gfuel fuel m pre rp tail); assumption.
  - pose proof (Forall_inv Hok) as (tr & Htr & Hpr & _ & Hgrp & Hlen & Hbe & Hels & _).
    rewrite (P_flat n ns Hels) in *. cbn [app lenN length map] in *.
    apply NoDup_cons_iff in Hnd. destruct Hnd as [Hni Hnd].
    rewrite (dec_loop_field c from fsize gfuel fuel m pre _ _ _ tail k tb tr _ _ Hst (Forall_inv Hpok) Htr Hpr Hbe Hlen ltac:(lia)
               (opt_group_plain _ _ _ _ _ _ _ _ _ _ Hgrp)).
    rewrite (IH _ (pre ++ pbytes (n_tag n, n_val n)) (k + 1) _ fuel rp tail).
    + cbn [dec_flat flat_map]. rewrite !lenN_app. f_equal; lia.
    + apply stream_step. exact Hst.
    + exact (Forall_inv_tail Hpok).
    + exact Hrp.
    + exact Hnd.
    + rewrite mb_fp_add_dec. apply Forall_forall. intros x Hx. apply flat_ok_upd; [|exact (proj1 (Forall_forall _ _) (Forall_inv_tail Hok) x Hx)].
      intros Heq. apply Hni. rewrite <- Heq. apply in_map. exact Hx.
    + rewrite mb_fp_add_dec. destruct rp as [|[f v] rp]; [exact I|]. cbn [stops] in *.
      rewrite find_trait_upd by reflexivity. destruct (N.eqb_spec f (n_tag n)) as [<-|_]; rewrite Hstop; reflexivity.
    + lia.
    + lia.
Qed.

Fixpoint entries (k : N) (ns : list tnode) : list (N * (N * list N)) :=
  match ns with [] => [] | n :: r => (k + 1, (n_tag n, n_val n)) :: entries (k + 1) r end.
Fixpoint renum (k : N) (ns : list tnode) : list tnode :=
  match ns with [] => [] | n :: r => TN (k + 1) (n_tag n) (n_val n) [] :: renum (k + 1) r end.
Definition fields_after (fl : list (N * list N)) (ns : list tnode) : list (N * list N) :=
  fold_left (fun fl n => map_insert (n_tag n) (n_val n) fl) ns fl.

Lemma pos_insert_append {A} (x : A) : forall l p, (forall q y, In (q, y) l -> q <= p) ->
  pos_insert_k p x l = l ++ [(p, x)].
Proof.
  induction l as [|[q y] l IH]; intros p H; cbn [pos_insert_k app]; [reflexivity|].
  replace (p <? q) with false by (symmetry; apply N.ltb_ge; apply (H q y); left; reflexivity).
  rewrite IH; [reflexivity|]. intros q' y' Hin. apply (H q' y'). right. exact Hin.
Qed.

(* the decoder appends: every key so far is at most the number of fields so far *)
Lemma add_dec_shape fp subs fl pos groups unk j f v :
  (forall q y, In (q, y) pos -> q <= j) -> j + 1 < 65536 ->
  add_dec (MB fp subs fl pos groups unk) j f v =
  MB (upd_trait (set_present true) fp f) subs (map_insert f v fl) (pos ++ [(j + 1, (f, v))]) groups unk.
Proof.
  intros Hk Hj. unfold add_dec, mark_present, add_field_decoder. cbn [mb_fields mb_pos mb_fp with_fields with_pos with_fp].
  unfold pos_insert, pos_key. rewrite N.mod_small by lia.
  rewrite pos_insert_append by (intros q y Hq; specialize (Hk q y Hq); lia). reflexivity.
Qed.

Lemma entries_keys k ns : forall q y, In (q, y) (entries k ns) -> k < q <= k + lenN ns.
Proof.
  revert k. induction ns as [|n ns IH]; intros k q y H; cbn [entries lenN] in *; [destruct H|].
  destruct H as [H|H]; [injection H as <- _; lia|]. specialize (IH _ _ _ H). lia.
Qed.

Lemma dec_flat_shape : forall ns fp subs fl pos groups unk k,
  (forall q y, In (q, y) pos -> q <= k) -> k + lenN ns < 65536 ->
  dec_flat (MB fp subs fl pos groups unk) k ns =
  MB (fp_after fp ns) subs (fields_after fl ns) (pos ++ entries k ns) groups unk.
Proof.
  induction ns as [|n ns IH]; intros fp subs fl pos groups unk k Hk Hlen; cbn [dec_flat entries fp_after fields_after fold_left].
  - rewrite app_nil_r. reflexivity.
  - cbn [lenN] in Hlen. rewrite add_dec_shape by (assumption || lia). rewrite IH.
    + rewrite <- app_assoc. reflexivity.
    + intros q y Hq. apply in_app_or in Hq. destruct Hq as [Hq|[Hq|[]]]; [specialize (Hk q y Hq); lia|injection Hq as <- _; lia].
    + lia.
Qed.

(* nodes_of only looks at the suppress / group / ftype attributes of the traits *)
Definition same_static (fp fp' : list trait) : Prop :=
  forall f, match find_trait fp f, find_trait fp' f with
            | Some a, Some b => t_suppress a = t_suppress b /\ t_group a = t_group b /\ t_ftype a = t_ftype b
            | None, None => True
            | _, _ => False
            end.
Lemma same_static_upd fp f' : same_static fp (upd_trait (set_present true) fp f').
Proof.
  intros f. rewrite find_trait_upd by reflexivity.
  destruct (N.eqb_spec f f') as [->|_]; [destruct (find_trait fp f')|destruct (find_trait fp f)]; cbn [option_map]; try exact I; repeat split.
Qed.
Lemma same_static_after fp ns : same_static fp (fp_after fp ns).
Proof.
  revert fp. induction ns as [|n ns IH]; intros fp f; cbn [fp_after fold_left].
  - destruct (find_trait fp f); [repeat split|exact I].
  - pose proof (same_static_upd fp (n_tag n) f) as H1. pose proof (IH (upd_trait (set_present true) fp (n_tag n)) f) as H2.
    unfold fp_after in H2.
    destruct (find_trait fp f), (find_trait (upd_trait (set_present true) fp (n_tag n)) f), (find_trait (fold_left _ ns _) f); try tauto.
    destruct H1 as (A1 & A2 & A3), H2 as (B1 & B2 & B3). repeat split; congruence.
Qed.

Lemma nodes_of_static c fp fp' gts : same_static fp fp' -> forall pos, nodes_of c fp gts pos = nodes_of c fp' gts pos.
Proof.
  intros H. induction pos as [|[k [f v]] pos IH]; cbn [nodes_of]; [reflexivity|].
  specialize (H f). destruct (find_trait fp f) as [a|], (find_trait fp' f) as [b|]; try tauto.
  destruct H as (H1 & H2 & H3). rewrite H1, H2, H3, IH. reflexivity.
Qed.

Lemma nodes_of_app c fp gts : forall p1 p2 a b,
  nodes_of c fp gts p1 = Some a -> nodes_of c fp gts p2 = Some b -> nodes_of c fp gts (p1 ++ p2) = Some (a ++ b).
Proof.
  induction p1 as [|[k [f v]] p1 IH]; intros p2 a b H1 H2; cbn [app nodes_of] in *.
  - injection H1 as <-. exact H2.
  - destruct (find_trait fp f) as [tr|]; [|discriminate].
    destruct (t_suppress tr); [apply IH; assumption|].
    destruct (t_group tr && has_group_count_c c f v).
    + destruct (map_find f gts) as [[els|]|]; try discriminate.
      destruct (nodes_of c fp gts p1) as [ns|] eqn:E; [|discriminate]. injection H1 as <-.
      rewrite (IH p2 ns b eq_refl H2). reflexivity.
    + destruct (nodes_of c fp gts p1) as [ns|] eqn:E; [|discriminate]. injection H1 as <-.
      rewrite (IH p2 ns b eq_refl H2). reflexivity.
Qed.

Lemma nodes_of_entries c fp gts : forall ns k, Forall (flat_ok c fp) ns ->
  nodes_of c fp gts (entries k ns) = Some (renum k ns).
Proof.
  induction ns as [|n ns IH]; intros k H; cbn [entries renum nodes_of]; [reflexivity|].
  pose proof (Forall_inv H) as (tr & Htr & _ & Hs & Hg & _ & _ & _ & Hr). rewrite Htr, Hs, Hg, Hr.
  rewrite (IH (k + 1) (Forall_inv_tail H)). reflexivity.
Qed.
