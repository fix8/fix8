(* c01_roundtrip_partial and c01_roundtrip_groups_partial: the boolean hypotheses c01_flat and
   c01_groups (with wf_msg) imply the hypotheses of GroupRoundtrip.roundtrip_msg. *)
From Coq Require Import NArith ZArith List Bool Lia Arith.
From F8 Require Import Codec.Bytes Codec.Meta Codec.Extract Codec.Decode Codec.Encode Codec.Render Codec.Lemmas
                       C02.Spec_C02 C02.WfC02 C02.MetaProofs C02.DigitsProofs C02.TokenProofs C02.TreeProofs C02.StructProofs
                       C02.AuxProofs C02.EncodeProofs
                       C01.WfC01 C01.WfGroups C01.ExtractProofs C01.DecodeProofs C01.GroupRoundtripObj C01.GroupRoundtripDecode
                       C01.FactoryProofs C01.GroupRoundtrip.
Import ListNotations.
Local Open Scope N_scope.

(* the content of a message as the encoder sees it: printed (tag, value) sequences per part *)
Definition content (c : ctx) (m : message) : option (list (N * list N) * list (N * list N) * list (N * list N)) :=
  match tree_of c (set_value (m_hdr m) Common_MsgType (m_type m)), tree_of c (m_body m), tree_of c (m_trl m) with
  | Some h, Some b, Some t => Some (P h, P b, P t)
  | _, _, _ => None
  end.

Lemma content_encodable c m hn bn tn : encodable c m hn bn tn -> content c m = Some (P hn, P bn, P tn).
Proof. intros (Eh & Eb & Et & _). unfold content. rewrite Eh, Eb, Et. reflexivity. Qed.

Lemma roundtrip_content c m :
  render_ok c -> wf_msg c m = true ->
  (forall k f rv35 els hn' bn tn md,
     tree_of c (set_value (m_hdr m) Common_MsgType (m_type m)) = Some (TN k f rv35 els :: hn') ->
     tree_of c (m_body m) = Some bn -> tree_of c (m_trl m) = Some tn -> find_msg (c_msgs c) rv35 = Some md ->
     tn = [] /\ hdr_hyp c m rv35 hn' bn = true /\ lenN bn < 65536 /\ NoDup (map n_tag bn) /\
     Forall (node_ok c true (md_meta md)) bn /\ find_missing (fp_after (g_traits (md_meta md)) bn) = None) ->
  exists b m1 m' m2,
    msg_encode c m = Ok (b, m1) /\ factory c real_caps b false false = Ok m' /\
    msg_encode c m' = Ok (b, m2) /\
    content c m <> None /\ content c m' = content c m /\ m_type m' = m_type m.
Proof.
  intros HR Hwf Hbody.
  destruct (wf_msg_parts c m Hwf) as (hn & bn & tn & t10 & md & Henc & E10 & Emd & Hctx & HwH & HwB & HwT & Hlk & Hlen).
  destruct (msg_def_shape c hn md Emd) as (rv35 & hn' & -> & Hfm). pose proof Henc as (Eh & Eb & Et & _).
  destruct (Hbody 3 35 rv35 [] hn' bn tn md Eh Eb Et Hfm) as (-> & Hh & HkB & HndB & HokB & HmsB).
  destruct (roundtrip_msg c m rv35 hn' bn md t10 HR Henc E10 Hfm Hctx HwH HwB Hlen Hh HkB HndB HokB HmsB)
    as (b & m1 & m' & m2 & hn2 & bn2 & H1 & H2 & H3 & Henc' & Ph & Pb & Hty).
  exists b, m1, m', m2. rewrite (content_encodable c m _ _ _ Henc), (content_encodable c m' _ _ _ Henc'), Ph, Pb.
  repeat split; try assumption. discriminate.
Qed.

Lemma flat_node_ok c g n : flat_ok c (g_traits g) n -> pok (n_tag n, n_val n) -> node_ok c true g n.
Proof.
  intros (tr & Htr & Hpr & Hsup & Hgrp & Hlen & Hbe & Hels & Hren) Hp. exists tr.
  refine (conj Htr (conj Hpr (conj Hsup (conj Hbe (conj Hp (conj Hren (conj _ (conj (fun _ => Hlen) _)))))))).
  - rewrite Hels. exact Hgrp.
  - congruence.
Qed.

Theorem c01_roundtrip_partial_lemma c m :
  render_ok c -> wf_msg c m = true -> fresh m = true -> vals_canonical c m = true -> c01_flat c m = true ->
  exists b m1 m' m2,
    msg_encode c m = Ok (b, m1) /\ factory c real_caps b false false = Ok m' /\
    msg_encode c m' = Ok (b, m2) /\
    content c m <> None /\ content c m' = content c m /\ m_type m' = m_type m.
Proof.
  intros HR Hwf _ _ Hfl. apply (roundtrip_content c m HR Hwf). intros k f rv35 els hn' bn tn md Eh Eb Et Hfm.
  unfold c01_flat in Hfl. rewrite Eh, Eb, Et in Hfl. destruct tn; [|discriminate]. rewrite Hfm in Hfl.
  apply andb_prop in Hfl. destruct Hfl as [Hfl QmsB]. apply andb_prop in Hfl. destruct Hfl as [Hfl _].
  apply andb_prop in Hfl. destruct Hfl as [Hfl QpB]. apply andb_prop in Hfl. destruct Hfl as [Hfl QvB].
  apply andb_prop in Hfl. destruct Hfl as [Hfl QokB]. apply andb_prop in Hfl. destruct Hfl as [Hfl QndB].
  apply andb_prop in Hfl. destruct Hfl as [Hh QkB].
  split; [reflexivity|]. split; [exact Hh|]. split; [apply N.ltb_lt; exact QkB|]. split; [apply nodupN_NoDup; exact QndB|].
  split; [|destruct (find_missing (fp_after (g_traits (md_meta md)) bn)); [discriminate|reflexivity]].
  apply Forall_forall. intros n Hn. rewrite forallb_forall in QokB, QvB, QpB.
  apply flat_node_ok; [apply flat_okb_sound|apply pokb_sound]; auto.
Qed.

Theorem c01_roundtrip_groups_partial_lemma c m :
  render_ok c -> wf_msg c m = true -> fresh m = true -> vals_canonical c m = true -> c01_groups c m = true ->
  exists b m1 m' m2,
    msg_encode c m = Ok (b, m1) /\ factory c real_caps b false false = Ok m' /\
    msg_encode c m' = Ok (b, m2) /\
    content c m <> None /\ content c m' = content c m /\ m_type m' = m_type m.
Proof.
  intros HR Hwf _ _ Hfl. apply (roundtrip_content c m HR Hwf). intros k f rv35 els hn' bn tn md Eh Eb Et Hfm.
  unfold c01_groups in Hfl. rewrite Eh, Eb, Et in Hfl. destruct tn; [|discriminate]. rewrite Hfm in Hfl.
  apply andb_prop in Hfl. destruct Hfl as [Hfl QmsB]. apply andb_prop in Hfl. destruct Hfl as [Hfl QdB].
  apply andb_prop in Hfl. destruct Hfl as [Hfl QndB]. apply andb_prop in Hfl. destruct Hfl as [Hh QkB].
  split; [reflexivity|]. split; [exact Hh|]. split; [apply N.ltb_lt; exact QkB|]. split; [apply nodupN_NoDup; exact QndB|].
  split; [|destruct (find_missing (fp_after (g_traits (md_meta md)) bn)); [discriminate|reflexivity]].
  eapply forallb_Forall; [|exact QdB]. intros n Hn. apply (dnode_ok_sound c true (md_meta md) n Hn).
Qed.
