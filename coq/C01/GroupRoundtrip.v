(* The round trip encode / factory / encode for a message whose header has no group element,
   whose trailer carries only CheckSum and whose body is any decodable tree. *)
From Coq Require Import NArith ZArith List Bool Lia Arith.
From F8 Require Import Codec.Bytes Codec.Meta Codec.Extract Codec.Decode Codec.Encode Codec.Render Codec.Lemmas
                       C02.Spec_C02 C02.WfC02 C02.MetaProofs C02.DigitsProofs C02.TokenProofs C02.TreeProofs C02.StructProofs
                       C02.AuxProofs C02.EncodeProofs
                       C01.WfC01 C01.WfGroups C01.ExtractProofs C01.DecodeProofs C01.GroupRoundtripObj C01.GroupRoundtripDecode
                       C01.FactoryProofs.
Import ListNotations.
Local Open Scope N_scope.

Lemma hdr0_ok_spec c : hdr0_ok c = true ->
  exists a8 b9 d35 t8 t9 t35 f8v,
    mb_pos (H0 c) = [(1, (8, a8)); (2, (9, b9)); (3, (35, d35))] /\
    (find_trait (mb_fp (H0 c)) 8 = Some t8 /\ t_suppress t8 = true) /\
    (find_trait (mb_fp (H0 c)) 9 = Some t9 /\ t_suppress t9 = true) /\
    (find_trait (mb_fp (H0 c)) 35 = Some t35 /\ t_suppress t35 = false /\ t_group t35 = false) /\
    mb_unknown (H0 c) = [] /\
    (map_find 8 (mb_fields (H0 c)) = Some f8v /\ c_render c ft_string f8v = c_begin c) /\
    map_find 9 (mb_fields (H0 c)) <> None /\ map_find 35 (mb_fields (H0 c)) <> None.
Proof.
  unfold hdr0_ok, has_key. intros H.
  apply andb_prop in H. destruct H as [H H35]. apply andb_prop in H. destruct H as [H H9].
  apply andb_prop in H. destruct H as [H H8]. apply andb_prop in H. destruct H as [H Hu].
  apply andb_prop in H. destruct H as [Hp Ht].
  destruct (mb_pos (H0 c)) as [|[p1 [f1 a8]] [|[p2 [f2 b9]] [|[p3 [f3 d35]] [|? ?]]]]; try discriminate.
  destruct (find_trait (mb_fp (H0 c)) 8) as [t8|]; [|discriminate].
  destruct (find_trait (mb_fp (H0 c)) 9) as [t9|]; [|discriminate].
  destruct (find_trait (mb_fp (H0 c)) 35) as [t35|]; [|discriminate].
  destruct (mb_unknown (H0 c)); [|discriminate].
  destruct (map_find 8 (mb_fields (H0 c))) as [f8v|]; [|discriminate].
  destruct (map_find 9 (mb_fields (H0 c))); [|discriminate]. destruct (map_find 35 (mb_fields (H0 c))); [|discriminate].
  repeat (apply andb_prop in Hp; let K := fresh "K" in destruct Hp as [Hp K]).
  apply N.eqb_eq in Hp, K, K0, K1, K2, K3. subst.
  apply andb_prop in Ht. destruct Ht as [Ht G35]. apply andb_prop in Ht. destruct Ht as [Ht S35]. apply andb_prop in Ht. destruct Ht as [S8 S9].
  apply negb_true_iff in S35, G35. apply list_eqb_eq in H8.
  exists a8, b9, d35, t8, t9, t35, f8v. repeat split; try assumption; discriminate.
Qed.

Lemma trl0_ok_spec c : trl0_ok c = true ->
  exists p10 e10 t10,
    mb_pos (T0 c) = [(p10, (10, e10))] /\ find_trait (mb_fp (T0 c)) 10 = Some t10 /\ t_suppress t10 = true /\
    mb_unknown (T0 c) = [] /\ map_find 10 (mb_fields (T0 c)) <> None /\ find_missing (mb_fp (T0 c)) = None.
Proof.
  unfold trl0_ok, has_key. intros H.
  apply andb_prop in H. destruct H as [H Hm]. apply andb_prop in H. destruct H as [H H10].
  apply andb_prop in H. destruct H as [H Hu]. apply andb_prop in H. destruct H as [Hp Hs].
  destruct (mb_pos (T0 c)) as [|[p10 [f10 e10]] [|? ?]]; try discriminate. apply N.eqb_eq in Hp. subst f10.
  destruct (find_trait (mb_fp (T0 c)) 10) as [t10|]; [|discriminate].
  destruct (mb_unknown (T0 c)); [|discriminate]. destruct (map_find 10 (mb_fields (T0 c))); [|discriminate].
  destruct (find_missing (mb_fp (T0 c))); [discriminate|].
  exists p10, e10, t10. repeat split; try assumption; discriminate.
Qed.

(* what factory returns for flat header nodes hn', a body object B' with content tree Tb and the
   checksum text csv is encodable with the header renumbered in arrival order *)
Lemma decoded_encodable c ty rv35 hn' L csv B' Tb :
  hdr0_ok c = true -> trl0_ok c = true -> is_ty c 35 ft_string = true -> (forall v, c_render c ft_string v = v) ->
  3 + lenN hn' < 65536 -> Forall (flat_ok c (mb_fp (H0 c))) hn' ->
  ~ In 8 (map n_tag hn') -> ~ In 9 (map n_tag hn') ->
  tree_of c B' = Some Tb -> mb_unknown B' = [] ->
  encodable c (mkMsg ty (set_value (set_value (dec_flat (H0 c) 3 hn') Common_BodyLength L) Common_MsgType rv35) B'
                     (set_value (T0 c) Common_CheckSum csv))
            (TN 3 35 ty [] :: renum 3 hn') Tb [].
Proof.
  intros Hh Ht T35 Rstr HkH Hfl Hn8 Hn9 HTb HuB.
  destruct (hdr0_ok_spec c Hh) as (a8 & b9 & d35 & t8 & t9 & t35 & f8v & Hpos0 & (F8 & S8) & (F9 & S9) & (F35 & S35 & G35) & U0 & (Hf8 & Hf8r) & Hf9 & Hf35).
  destruct (trl0_ok_spec c Ht) as (p10 & e10 & t10 & HposT & FT & ST & UT & HfT & _).
  unfold encodable. cbn [m_hdr m_body m_trl m_type].
  change Common_BodyLength with 9. change Common_MsgType with 35. change Common_CheckSum with 10.
  repeat split; try assumption.
  - exact (hdr_tree c (H0 c) a8 b9 d35 hn' L rv35 ty t8 t9 t35 Hpos0 F8 S8 F9 S9 F35 S35 G35 T35 Rstr HkH Hfl).
  - exact (trl_tree c (T0 c) p10 e10 csv t10 HposT FT ST).
  - rewrite !mb_unknown_set_value, mb_unknown_dec_flat. exact U0.
  - rewrite mb_unknown_set_value. exact UT.
  - exists f8v. split; [|exact Hf8r]. rewrite !mb_fields_set_value, !map_find_set_other by discriminate.
    rewrite mb_fields_dec_flat, map_find_fields_after by exact Hn8. exact Hf8.
  - rewrite !mb_fields_set_value, 2!map_find_set_other by discriminate. rewrite map_find_set_same; [discriminate|].
    rewrite mb_fields_dec_flat, map_find_fields_after by exact Hn9. exact Hf9.
  - rewrite mb_fields_set_value, map_find_set_same by exact HfT. discriminate.
Qed.

(* the conjuncts that c01_flat and c01_groups begin with (message type, constructors, header nodes):
   either unfolds to [hdr_hyp ... && <its conjuncts on the body>] *)
Definition hdr_hyp (c : ctx) (m : message) (rv35 : list N) (hn' bn : list tnode) : bool :=
  list_eqb rv35 (m_type m) && forallb (fun b => negb (b =? 0)) rv35 && (lenN rv35 <? 32) &&
  hdr0_ok c && trl0_ok c &&
  (3 + lenN hn' <? 65536) && nodupN (map n_tag hn') &&
  forallb (flat_okb c (mb_fp (H0 c))) hn' && forallb (vis_okb c (mb_fp (H0 c))) hn' &&
  forallb pokb hn' && forallb not_auto_tag hn' &&
  no_trait (mb_fp (H0 c)) (match bn with n :: _ => n_tag n | [] => 10 end) &&
  match find_missing (fp_after (mb_fp (H0 c)) hn') with None => true | Some _ => false end.

Lemma flat_okb_sound c fp n : flat_okb c fp n = true -> vis_okb c fp n = true -> flat_ok c fp n.
Proof.
  unfold flat_okb, vis_okb, flat_ok. destruct (find_trait fp (n_tag n)) as [tr|]; [|discriminate]. intros H V.
  apply andb_prop in H. destruct H as [H H5]. apply andb_prop in H. destruct H as [H H4].
  apply andb_prop in H. destruct H as [H H3]. apply andb_prop in H. destruct H as [H1 H2].
  apply andb_prop in V. destruct V as [V V3]. apply andb_prop in V. destruct V as [V1 _].
  apply negb_true_iff in H1, H2, V1. apply list_eqb_eq in V3.
  exists tr. repeat split; try assumption; [destruct (find_be (c_fields c) (n_tag n)); discriminate|destruct (n_els n); [reflexivity|discriminate]].
Qed.
Lemma pokb_sound n : pokb n = true -> pok (n_tag n, n_val n).
Proof. apply pokv_sound. Qed.

Theorem roundtrip_msg c m rv35 hn' bn md t10 :
  render_ok c -> encodable c m (TN 3 35 rv35 [] :: hn') bn [] ->
  find_trait (g_traits (c_trailer c)) 10 = Some t10 -> find_msg (c_msgs c) rv35 = Some md -> wf_ctx c md = true ->
  wf_nodes (c_header c) 2 (TN 3 35 rv35 [] :: hn') = true -> wf_nodes (md_meta md) 0 bn = true ->
  encoded_len c (TN 3 35 rv35 [] :: hn') bn [] < 10000000 ->
  hdr_hyp c m rv35 hn' bn = true ->
  lenN bn < 65536 -> NoDup (map n_tag bn) -> Forall (node_ok c true (md_meta md)) bn ->
  find_missing (fp_after (g_traits (md_meta md)) bn) = None ->
  exists b m1 m' m2 hn2 bn2,
    msg_encode c m = Ok (b, m1) /\ factory c real_caps b false false = Ok m' /\ msg_encode c m' = Ok (b, m2) /\
    encodable c m' hn2 bn2 [] /\ P hn2 = P (TN 3 35 rv35 [] :: hn') /\ P bn2 = P bn /\ m_type m' = m_type m.
Proof.
  intros HR Henc E10 Hfm Hctx HwH HwB Hlen Hh HkB HndB HokB HmsB. pose proof HR as [_ Rstr].
  pose proof (wf_ctx_types c md Hctx) as Hty. pose proof Hty as (_ & _ & _ & T35 & Hbeg & Hbl).
  unfold hdr_hyp in Hh. repeat (apply andb_prop in Hh; let Q := fresh "Q" in destruct Hh as [Hh Q]).
  rename Q into QmsH, Q0 into QstH, Q1 into QtagH, Q2 into QpH, Q3 into QvH, Q4 into QokH, Q5 into QndH, Q6 into QkH,
         Q7 into Qtrl, Q8 into Qhdr, Q9 into Qm3, Q10 into Qnul.
  apply list_eqb_eq in Hh. apply N.ltb_lt in Qm3, QkH.
  assert (Hm2 : no_nul rv35) by (eapply forallb_Forall; [|exact Qnul]; intros b Hb; apply negb_true_iff; exact Hb).
  assert (HokH : Forall (flat_ok c (mb_fp (H0 c))) hn').
  { apply Forall_forall. intros n Hn. rewrite forallb_forall in QokH, QvH. apply flat_okb_sound; auto. }
  assert (HpokH : Forall pok (P hn')).
  { rewrite (flat_ok_P c _ hn' HokH). apply Forall_map. eapply forallb_Forall; [apply pokb_sound|exact QpH]. }
  assert (Hauto : forall f, In f [8; 9] -> ~ In f (map n_tag hn')).
  { intros f Hf Hin. apply in_map_iff in Hin. destruct Hin as (n & Hnf & Hn). rewrite forallb_forall in QtagH.
    specialize (QtagH n Hn). unfold not_auto_tag in QtagH. rewrite Hnf in QtagH. destruct Hf as [<-|[<-|[]]]; discriminate. }
  destruct (hdr0_ok_spec c Qhdr) as (a8 & b9 & d35 & _ & _ & _ & _ & Hpos0 & _).
  destruct (trl0_ok_spec c Qtrl) as (p10 & e10 & _ & HposT & _ & _ & _ & _ & HmsT).
  assert (H3 : lenN (mb_pos (H0 c)) = 3) by (rewrite Hpos0; reflexivity).
  set (mid := P (TN 3 35 rv35 [] :: hn') ++ P bn ++ P []).
  assert (HpvAll : Forall pv mid) by (unfold mid; rewrite !Forall_app; repeat split; try (eapply wf_pairs; eassumption); constructor).
  assert (Hmid : mid = (35, rv35) :: P hn' ++ P bn) by (unfold mid; cbn [flat_map npairs app]; rewrite app_nil_r; reflexivity).
  rewrite encoded_len_pairs in Hlen. fold mid in Hlen.
  destruct (wf_ctx_metas c md Hctx) as (_ & (HwmB & HdjB) & _).
  (* encode *)
  destruct (encode_wire c m _ bn [] HR Henc Hty HpvAll Hlen) as [m1 Henc1]. fold mid in Henc1.
  (* factory *)
  destruct (chk_text_spec c mid) as (Hcd & Hcl & Hcv).
  pose proof (wire_split c rv35 (P hn' ++ P bn)) as Hb. rewrite <- Hmid in Hb.
  rewrite Hmid in HpvAll. pose proof (Forall_inv HpvAll) as Hv35. apply Forall_inv_tail in HpvAll.
  destruct (factory_msg c md (c_begin c) (lenN (flat_map pbytes mid)) rv35 hn' bn (chk_text c mid) (tags (c_header c) ++ tags (c_trailer c))
              Hbeg Hbl Hlen Hv35 Hm2 Qm3 Hfm) as (B' & Tb & Hfac & IB); try assumption.
  - rewrite Hmid in Hlen. cbn [flat_map] in Hlen. rewrite lenN_app in Hlen. lia.
  - rewrite Hcv. unfold front. cbn [flat_map]. rewrite Hmid. cbn [flat_map]. reflexivity.
  - rewrite H3. exact QkH.
  - apply nodupN_NoDup. exact QndH.
  - unfold no_trait in QstH. destruct bn as [|[kb fb rvb elsb] bn']; cbn [flat_map npairs app stops n_tag] in *;
      [destruct (find_trait (mb_fp (H0 c)) 10)|destruct (find_trait (mb_fp (H0 c)) fb)]; (discriminate || reflexivity).
  - destruct (find_missing (fp_after (mb_fp (H0 c)) hn')); [discriminate|reflexivity].
  - apply in_or_app. right. apply (find_trait_In _ _ _ E10).
  - exact (wf_nodes_each _ _ _ HwB).
  - rewrite HposT. reflexivity.
  - cbv zeta in Hfac. rewrite <- Hb, H3 in Hfac.
    (* encode the decoded object *)
    pose proof (find_msg_type _ _ _ Hfm) as Hmty.
    pose proof (decoded_encodable c (md_type md) rv35 hn' (itoa_N (lenN (flat_map pbytes mid))) (chk_text c mid) B' Tb Qhdr Qtrl T35 Rstr QkH HokH
                  (Hauto 8 ltac:(left; reflexivity)) (Hauto 9 ltac:(right; left; reflexivity)) (inv_tree _ _ _ _ _ IB) (inv_unk _ _ _ _ _ IB)) as Henc'.
    rewrite Hmty in Henc' at 2.
    assert (Ph : P (TN 3 35 rv35 [] :: renum 3 hn') = P (TN 3 35 rv35 [] :: hn')).
    { rewrite !P_cons, P_renum; [reflexivity|]. eapply Forall_impl; [|exact HokH]. intros n (tr & _ & _ & _ & _ & _ & _ & Hn & _). exact Hn. }
    pose proof (inv_P _ _ _ _ _ IB) as Pb.
    destruct (encode_wire c _ _ Tb [] HR Henc' Hty) as [m2 Henc2]; rewrite ?Ph, ?Pb; fold mid; [rewrite Hmid; constructor; assumption|exact Hlen|].
    rewrite Ph, Pb in Henc2. fold mid in Henc2.
    do 6 eexists. split; [exact Henc1|]. split; [exact Hfac|]. split; [exact Henc2|]. split; [exact Henc'|].
    split; [exact Ph|]. split; [exact Pb|]. cbn [m_type]. congruence.
Qed.
