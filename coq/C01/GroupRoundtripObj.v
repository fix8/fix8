(* Objects under construction by the decoder: how one decoded field (and, for a group count
   field, its decoded elements) changes the content tree of the object; the content trees of the
   decoded header and trailer. *)
From Coq Require Import NArith ZArith List Bool Lia Arith.
From F8 Require Import Codec.Bytes Codec.Meta Codec.Extract Codec.Decode Codec.Encode Codec.Render Codec.Lemmas
                       C02.Spec_C02 C02.WfC02 C02.MetaProofs C02.DigitsProofs C02.TokenProofs C02.TreeProofs C02.StructProofs
                       C02.AuxProofs C02.EncodeProofs
                       C01.WfC01 C01.DecodeProofs.
Import ListNotations.
Local Open Scope N_scope.

Fixpoint elts_trees (c : ctx) (es : list mbase) : option (list (list tnode)) :=
  match es with
  | [] => Some []
  | e :: r => match mb_unknown e, tree_of c e, elts_trees c r with
              | [], Some a, Some b => Some (a :: b)
              | _, _, _ => None
              end
  end.

(* tree_of an object is nodes_of over its _pos with the trees of the elements of its _groups *)
Definition gts_of (c : ctx) (groups : list (N * list mbase)) : list (N * option (list (list tnode))) :=
  map (fun g => (fst g, elts_trees c (snd g))) groups.
Lemma tree_of_unfold c fp subs fl pos groups unk :
  tree_of c (MB fp subs fl pos groups unk) = nodes_of c fp (gts_of c groups) pos.
Proof.
  cbn [tree_of]. f_equal. induction groups as [|[g es] groups IH]; cbn [gts_of map fst snd]; [reflexivity|].
  fold (gts_of c groups). rewrite <- IH. f_equal. f_equal.
  induction es as [|e es IHe]; cbn [elts_trees]; [reflexivity|]. rewrite <- IHe. reflexivity.
Qed.
Lemma gts_find c : forall groups f,
  map_find f (gts_of c groups) = option_map (elts_trees c) (map_find f groups).
Proof.
  induction groups as [|[g es] groups IH]; intros f; cbn [gts_of map map_find fst snd]; [reflexivity|].
  destruct (f =? g); [reflexivity|apply IH].
Qed.

Lemma nodes_of_gts c fp g1 g2 : forall pos,
  (forall q f v, In (q, (f, v)) pos -> map_find f g1 = map_find f g2) ->
  nodes_of c fp g1 pos = nodes_of c fp g2 pos.
Proof.
  induction pos as [|[k [f v]] pos IH]; intros H; cbn [nodes_of]; [reflexivity|].
  rewrite (H k f v (or_introl eq_refl)). rewrite IH; [reflexivity|].
  intros q f' v' Hin. apply (H q f' v'). right. exact Hin.
Qed.

Definition keys_le (m : mbase) (j : N) : Prop := forall q y, In (q, y) (mb_pos m) -> q <= j.
Definition no_entry (m : mbase) (f : N) : Prop := forall q g w, In (q, (g, w)) (mb_pos m) -> g <> f.

Lemma add_dec_pos m j f v : keys_le m j -> j + 1 < 65536 ->
  mb_pos (add_dec m j f v) = mb_pos m ++ [(j + 1, (f, v))].
Proof. destruct m. intros Hk Hj. rewrite add_dec_shape by assumption. reflexivity. Qed.

Lemma mb_unknown_add_dec m j f v : mb_unknown (add_dec m j f v) = mb_unknown m.
Proof. destruct m. reflexivity. Qed.
Lemma mb_subs_add_dec m j f v : mb_subs (add_dec m j f v) = mb_subs m.
Proof. destruct m. reflexivity. Qed.
Lemma mb_groups_add_dec m j f v : mb_groups (add_dec m j f v) = mb_groups m.
Proof. destruct m. reflexivity. Qed.
Lemma mb_fields_add_dec m j f v : mb_fields (add_dec m j f v) = map_insert f v (mb_fields m).
Proof. destruct m. reflexivity. Qed.

(* what decode_group leaves: find_add_group inserted the (empty) group, the loop stored the elements *)
Definition attach (m : mbase) (f : N) (es : list mbase) : mbase :=
  let m1 := with_groups m (map_insert f [] (mb_groups m)) in
  with_groups m1 (map_set f es (mb_groups m1)).

Lemma with_groups_same m : with_groups m (mb_groups m) = m.
Proof. destruct m. reflexivity. Qed.
Lemma attach_groups m f es : attach m f es = with_groups m (map_set f es (map_insert f [] (mb_groups m))).
Proof. destruct m. reflexivity. Qed.

(* the field (f, v) decoded into m as number j + 1; G' = the groups afterwards: those of m, and
   for a group count field with count > 0 also the decoded elements of f *)
Lemma tree_add_node c m j f v T tr G' ts :
  keys_le m j -> j + 1 < 65536 -> tree_of c m = Some T ->
  find_trait (mb_fp m) f = Some tr -> t_suppress tr = false ->
  c_render c (ftype_of c f (t_ftype tr)) v = v -> no_entry m f ->
  (forall g, g <> f -> map_find g G' = map_find g (mb_groups m)) ->
  (if t_group tr && has_group_count_c c f v
   then exists es, map_find f G' = Some es /\ elts_trees c es = Some ts else ts = []) ->
  tree_of c (with_groups (add_dec m j f v) G') = Some (T ++ [TN (j + 1) f v ts]).
Proof.
  destruct m as [fp subs fl pos groups unk]. unfold keys_le, no_entry. cbn [mb_pos mb_fp mb_groups].
  intros Hk Hj HT Htr Hs Hr Hne Ho Hts.
  rewrite add_dec_shape by assumption. cbn [with_groups]. rewrite tree_of_unfold in *.
  rewrite <- (nodes_of_static c fp _ _ (same_static_upd fp f)). apply nodes_of_app.
  - rewrite <- HT. apply nodes_of_gts. intros q g w Hin. rewrite !gts_find, (Ho g (Hne q g w Hin)). reflexivity.
  - cbn [nodes_of]. rewrite Htr, Hs, Hr. destruct (t_group tr && has_group_count_c c f v).
    + destruct Hts as (es & Hf & Hes). rewrite gts_find, Hf. cbn [option_map]. rewrite Hes. reflexivity.
    + rewrite Hts. reflexivity.
Qed.

Lemma mb_fp_dec_flat : forall ns m k, mb_fp (dec_flat m k ns) = fp_after (mb_fp m) ns.
Proof.
  induction ns as [|n ns IH]; intros m k; cbn [dec_flat fp_after fold_left]; [reflexivity|].
  rewrite IH, mb_fp_add_dec. reflexivity.
Qed.
Lemma mb_unknown_dec_flat : forall ns m k, mb_unknown (dec_flat m k ns) = mb_unknown m.
Proof.
  induction ns as [|n ns IH]; intros m k; cbn [dec_flat]; [reflexivity|]. rewrite IH. apply mb_unknown_add_dec.
Qed.
Lemma mb_fields_dec_flat : forall ns m k, mb_fields (dec_flat m k ns) = fields_after (mb_fields m) ns.
Proof.
  induction ns as [|n ns IH]; intros m k; cbn [dec_flat fields_after fold_left]; [reflexivity|].
  rewrite IH, mb_fields_add_dec. reflexivity.
Qed.
Lemma map_find_fields_after k fl ns : ~ In k (map n_tag ns) -> map_find k (fields_after fl ns) = map_find k fl.
Proof.
  revert fl. induction ns as [|n ns IH]; intros fl H; cbn [fields_after fold_left]; [reflexivity|].
  fold (fields_after (map_insert (n_tag n) (n_val n) fl) ns). cbn [map In] in H.
  rewrite IH, map_find_insert_other by intuition congruence. reflexivity.
Qed.
Lemma mb_fields_set_value m f v : mb_fields (set_value m f v) = map_set f v (mb_fields m).
Proof. destruct m. reflexivity. Qed.
Lemma mb_unknown_set_value m f v : mb_unknown (set_value m f v) = mb_unknown m.
Proof. destruct m. reflexivity. Qed.

Lemma P_renum : forall ns k, Forall (fun n => n_els n = []) ns -> P (renum k ns) = P ns.
Proof.
  induction ns as [|n ns IH]; intros k H; cbn [renum]; [reflexivity|].
  rewrite (P_flat n ns (Forall_inv H)). cbn [flat_map npairs app]. rewrite (IH _ (Forall_inv_tail H)). reflexivity.
Qed.

(* the header after factory's and encode's set() calls: 8 and 9 are suppressed, 35 carries the type *)
Lemma hdr_tree c Hb a b9 d hn' x y z t8 t9 t35 :
  mb_pos Hb = [(1, (8, a)); (2, (9, b9)); (3, (35, d))] ->
  find_trait (mb_fp Hb) 8 = Some t8 -> t_suppress t8 = true ->
  find_trait (mb_fp Hb) 9 = Some t9 -> t_suppress t9 = true ->
  find_trait (mb_fp Hb) 35 = Some t35 -> t_suppress t35 = false -> t_group t35 = false ->
  is_ty c 35 ft_string = true -> (forall v, c_render c ft_string v = v) ->
  3 + lenN hn' < 65536 -> Forall (flat_ok c (mb_fp Hb)) hn' ->
  tree_of c (set_value (set_value (set_value (dec_flat Hb 3 hn') 9 x) 35 y) 35 z) = Some (TN 3 35 z [] :: renum 3 hn').
Proof.
  destruct Hb as [fp subs fl pos groups unk]. cbn [mb_pos mb_fp]. intros -> F8 S8 F9 S9 F35 S35 G35 T35 Rstr Hlen Hv.
  rewrite dec_flat_shape; [|intros q yy Hq; cbn [In] in Hq; destruct Hq as [Hq|[Hq|[Hq|[]]]]; injection Hq as <- _; lia|exact Hlen].
  unfold set_value. cbn [mb_fields mb_pos with_pos with_fields app pos_set N.eqb Pos.eqb].
  rewrite tree_of_unfold. rewrite <- (nodes_of_static c fp (fp_after fp hn') _ (same_static_after fp hn')).
  cbn [nodes_of]. rewrite F8, S8, F9, S9, F35, S35, G35. cbn [andb].
  rewrite (ftype_of_is_ty c 35 ft_string _ T35), Rstr.
  rewrite (nodes_of_entries c fp _ hn' 3 Hv). reflexivity.
Qed.

Lemma trl_tree c Tb p e v t10 :
  mb_pos Tb = [(p, (10, e))] -> find_trait (mb_fp Tb) 10 = Some t10 -> t_suppress t10 = true ->
  tree_of c (set_value Tb 10 v) = Some [].
Proof.
  destruct Tb as [fp subs fl pos groups unk]. cbn [mb_pos mb_fp]. intros -> F S.
  unfold set_value. cbn [mb_fields mb_pos with_pos with_fields pos_set N.eqb Pos.eqb].
  rewrite tree_of_unfold. cbn [nodes_of]. rewrite F, S. reflexivity.
Qed.
