(* What EncodeProofs.v needs besides the tree: the values of a well-formed tree are SOH-free bytes
   below 256, calc_chksum (C07) on such bytes is the byte sum of Spec_C02, fmt_chksum of it is three
   digits. *)
From Coq Require Import NArith ZArith List Bool Lia Arith.
From F8 Require Import Codec.Bytes Codec.Meta Codec.Extract Codec.Decode Codec.Encode Codec.Render Codec.Lemmas
                       C07.Chksum C07.Spec_C07 C07.ChksumProofs
                       C02.Spec_C02 C02.WfC02 C02.MetaProofs C02.DigitsProofs C02.TokenProofs C02.TreeProofs C02.StructProofs.
Import ListNotations.
Local Open Scope N_scope.

(* what the theorems need to know about the per-type rendering *)
Definition render_ok (c : ctx) : Prop :=
  (forall ty n, is_int_type ty = true -> n < 2147483648 -> c_render c ty (itoa_N n) = itoa_N n) /\
  (forall v, c_render c ft_string v = v).

Definition pv (p : N * list N) : Prop := val_ok (snd p) = true.
Definition small_bytes (l : list N) : Prop := Forall (fun b => b < 256) l.

Lemma wf_node_pairs : forall x g, wf_node g x = true -> Forall pv (npairs x).
Proof.
  induction x as [k f rv els IH] using tnode_ind'. intros g H. rewrite wf_node_unfold in H.
  destruct (find_trait (g_traits g) f) as [tr|]; [|discriminate].
  apply andb_prop in H. destruct H as [H Hg]. apply andb_prop in H. destruct H as [_ Hv].
  cbn [npairs]. constructor; [exact Hv|].
  destruct (t_group tr); [|destruct els; [constructor|discriminate]].
  destruct (decimal rv); [|discriminate]. destruct (find_sub (g_subs g) f) as [sg|]; [|discriminate].
  apply andb_prop in Hg. destruct Hg as [_ Hels].
  apply Forall_flat_map. apply (Forall_impl2 _ _ _ els) with (2 := IH) (3 := wf_elems_each sg els Hels).
  intros e He Hwe. apply Forall_flat_map. apply (Forall_impl2 _ _ _ e) with (2 := He) (3 := Hwe).
  intros x Hx Hwx. exact (Hx sg Hwx).
Qed.
Lemma wf_pairs g last ns : wf_nodes g last ns = true -> Forall pv (P ns).
Proof.
  intros H. apply Forall_flat_map. eapply Forall_impl; [|exact (wf_nodes_each g ns last H)].
  intros x. apply wf_node_pairs.
Qed.

Lemma val_ok_no_soh v : val_ok v = true -> no_soh v.
Proof.
  unfold val_ok, no_soh. rewrite forallb_forall, Forall_forall. intros H x Hx. specialize (H x Hx).
  apply andb_prop in H. destruct H as [H _]. destruct (x =? SOH); [discriminate|reflexivity].
Qed.
Lemma val_ok_small v : val_ok v = true -> small_bytes v.
Proof.
  unfold val_ok, small_bytes. rewrite forallb_forall, Forall_forall. intros H x Hx. specialize (H x Hx).
  apply andb_prop in H. destruct H as [_ H]. apply N.ltb_lt in H. assumption.
Qed.
Lemma digits_small l : all_digits l -> small_bytes l.
Proof. apply Forall_impl. intros a Ha. apply digit_range in Ha. lia. Qed.
Lemma digits_val_ok l : all_digits l -> val_ok l = true.
Proof.
  intros H. apply forallb_forall. intros x Hx. unfold all_digits in H. rewrite Forall_forall in H. apply H, digit_range in Hx.
  apply andb_true_intro. split; [|apply N.ltb_lt; lia].
  unfold SOH. destruct (N.eqb_spec x 1); [lia|reflexivity].
Qed.
Lemma pbytes_small p : pv p -> small_bytes (pbytes p).
Proof.
  intros H. unfold pbytes. apply Forall_app. split; [apply digits_small, itoa_digits|].
  constructor; [unfold EQC; lia|]. apply Forall_app. split; [apply val_ok_small; exact H|].
  constructor; [unfold SOH; lia|constructor].
Qed.
Lemma pairs_small ps : Forall pv ps -> small_bytes (flat_map pbytes ps).
Proof.
  induction ps as [|p ps IH]; intros H; cbn [flat_map]; [constructor|].
  inversion H; subst. apply Forall_app. split; [apply pbytes_small; assumption|apply IH; assumption].
Qed.
Lemma small_bytes_ok l : small_bytes l -> bytes_ok (map Z.of_N l) = true.
Proof.
  unfold small_bytes, bytes_ok. intros H. rewrite forallb_forall. intros z Hz.
  apply in_map_iff in Hz. destruct Hz as (x & <- & Hx). rewrite Forall_forall in H. specialize (H x Hx).
  apply andb_true_intro. split; [apply Z.leb_le|apply Z.ltb_lt]; lia.
Qed.

Lemma bytesumN_lt l : bytesumN l < 256.
Proof. unfold bytesumN. pose proof (Z.mod_pos_bound (bytesum (map Z.of_N l)) 256 ltac:(lia)). lia. Qed.

(* calc_chksum over a whole buffer, and over a prefix of it, is the byte sum of C07's specification *)
Lemma calc_chksum_all mem : small_bytes mem -> (Z.of_N (lenN mem) < W64)%Z ->
  exists ck hull, calc_chksum (map Z.of_N mem) (Z.of_N (lenN mem)) 0 (-1) = Some (ck, hull) /\ Z.to_N ck = bytesumN mem.
Proof.
  intros Hs H64. assert (Hlm : Z.of_N (lenN mem) = Z.of_nat (length (map Z.of_N mem))) by (rewrite map_length, lenN_length; lia).
  pose proof (c07_nolen_lemma (map Z.of_N mem) (Z.of_N (lenN mem)) 0 (small_bytes_ok _ Hs) ltac:(lia) ltac:(lia) H64) as Hck.
  destruct (calc_chksum (map Z.of_N mem) (Z.of_N (lenN mem)) 0 (-1)) as [[ck hull]|]; [|discriminate].
  exists ck, hull. split; [reflexivity|].
  cbn [c07_ok] in Hck. apply andb_prop in Hck. destruct Hck as [Hck _]. apply Z.eqb_eq in Hck.
  rewrite Hck. unfold c07_spec, bytesumN, range_len, sub. cbn [Z.eqb Pos.eqb Z.to_nat skipn].
  rewrite Z.sub_0_r, Hlm, Nat2Z.id, firstn_all. reflexivity.
Qed.
Lemma calc_chksum_prefix a b sz : small_bytes (a ++ b) -> lenN a < 2147483648 ->
  exists ck hull, calc_chksum (map Z.of_N (a ++ b)) sz 0 (Z.of_N (lenN a)) = Some (ck, hull) /\ Z.to_N ck = bytesumN a.
Proof.
  intros Hs Hl.
  assert (Hla : (0 + Z.of_N (lenN a) <= Z.of_nat (length (map Z.of_N (a ++ b))))%Z) by (rewrite map_length, app_length, lenN_length; lia).
  pose proof (c07_len_lemma (map Z.of_N (a ++ b)) sz 0 (Z.of_N (lenN a)) (small_bytes_ok _ Hs) ltac:(lia) ltac:(lia) Hla) as Hck.
  destruct (calc_chksum (map Z.of_N (a ++ b)) sz 0 (Z.of_N (lenN a))) as [[ck hull]|]; [|discriminate].
  exists ck, hull. split; [reflexivity|].
  cbn [c07_ok] in Hck. apply andb_prop in Hck. destruct Hck as [Hck _]. apply Z.eqb_eq in Hck.
  rewrite Hck. unfold c07_spec, bytesumN, range_len, sub.
  replace (Z.of_N (lenN a) =? -1)%Z with false by (symmetry; apply Z.eqb_neq; lia). cbn [Z.to_nat skipn].
  replace (Z.to_nat (Z.of_N (lenN a))) with (length (map Z.of_N a)) by (rewrite map_length, lenN_length; lia).
  rewrite map_app, firstn_app, Nat.sub_diag, firstn_all. cbn [firstn]. rewrite app_nil_r. reflexivity.
Qed.

Lemma fmt_chksum_spec v : v < 256 ->
  all_digits (fmt_chksum v) /\ lenN (fmt_chksum v) = 3 /\ dec_val (fmt_chksum v) 0 = Some v.
Proof.
  intros H. unfold fmt_chksum.
  assert (D0 : is_digit 48 = true) by reflexivity.
  destruct (99 <? v) eqn:E1.
  - apply N.ltb_lt in E1. split; [apply itoa_digits|]. split; [|apply dec_val_itoa].
    rewrite len_digits_itoa by lia. unfold len_digits.
    replace (v <? 10) with false by (symmetry; apply N.ltb_ge; lia).
    replace (v <? 100) with false by (symmetry; apply N.ltb_ge; lia).
    replace (v <? 1000) with true by (symmetry; apply N.ltb_lt; lia). reflexivity.
  - apply N.ltb_ge in E1. destruct (9 <? v) eqn:E2.
    + apply N.ltb_lt in E2. split; [constructor; [exact D0|apply itoa_digits]|]. split.
      * cbn [lenN]. rewrite len_digits_itoa by lia. unfold len_digits.
        replace (v <? 10) with false by (symmetry; apply N.ltb_ge; lia).
        replace (v <? 100) with true by (symmetry; apply N.ltb_lt; lia). reflexivity.
      * cbn [dec_val]. rewrite D0. apply dec_val_itoa.
    + apply N.ltb_ge in E2. split; [constructor; [exact D0|constructor; [exact D0|apply itoa_digits]]|]. split.
      * cbn [app lenN]. rewrite itoa_small by lia. reflexivity.
      * cbn [app dec_val]. rewrite D0. apply dec_val_itoa.
Qed.

Lemma last_tok_offs : forall a p off,
  last_tok (offs off (a ++ [p])) =
  Some (mkTok (fst p) (snd p) (off + lenN (flat_map pbytes a)) (off + lenN (flat_map pbytes a) + lenN (pbytes p))).
Proof.
  induction a as [|q a IH]; intros p off.
  - cbn [app offs last_tok flat_map lenN]. rewrite N.add_0_r. reflexivity.
  - cbn [app]. rewrite offs_cons. cbn [flat_map]. rewrite lenN_app.
    specialize (IH p (off + lenN (pbytes q))). rewrite <- !N.add_assoc in *. 
    destruct (offs (off + lenN (pbytes q)) (a ++ [p])) eqn:E.
    + destruct a; discriminate.
    + cbn [last_tok]. exact IH.
Qed.
