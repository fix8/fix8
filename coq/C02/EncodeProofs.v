(* The bytes msg_encode produces for an object with content trees, as a function [wire] of the
   printed pairs, and the validator of Spec_C02 on [wire]. *)
From Coq Require Import NArith ZArith List Bool Lia Arith.
From F8 Require Import Codec.Bytes Codec.Meta Codec.Extract Codec.Decode Codec.Encode Codec.Render Codec.Example Codec.Lemmas
                       C07.Chksum C07.Spec_C07
                       C02.Spec_C02 C02.WfC02 C02.MetaProofs C02.DigitsProofs C02.TokenProofs C02.TreeProofs C02.StructProofs
                       C02.AuxProofs C02.RenderProofs.
Import ListNotations.
Local Open Scope N_scope.

(* the bytes of a successful encode, [] otherwise (so that wire_ok is false) *)
Definition enc_bytes (c : ctx) (m : message) : list N :=
  match msg_encode c m with Ok (b, _) => b | _ => [] end.
Definition enc_twice (c : ctx) (m : message) : list N :=
  match msg_encode c m with Ok (_, m') => enc_bytes c m' | _ => [] end.

Ltac split_ands :=
  repeat match goal with H : _ && _ = true |- _ => apply andb_prop in H; destruct H end.

Definition ctx_types (c : ctx) : Prop :=
  is_ty c 8 ft_string = true /\ is_int_field c 9 = true /\ is_ty c 10 ft_string = true /\ is_ty c 35 ft_string = true /\
  val_ok (c_begin c) = true /\ lenN (c_begin c) < 1000.

Lemma wf_ctx_types c md : wf_ctx c md = true -> ctx_types c.
Proof.
  unfold wf_ctx. intros H. split_ands. repeat split; try assumption; [|apply N.ltb_lt; assumption].
  apply forallb_forall. intros x Hx.
  match goal with H : forallb (fun b => b <? 256) (c_begin c) = true |- _ => rewrite forallb_forall in H; rewrite (H x Hx) end.
  match goal with H : forallb (fun b => negb (b =? SOH)) (c_begin c) = true |- _ => rewrite forallb_forall in H; rewrite (H x Hx) end.
  reflexivity.
Qed.

Lemma wf_ctx_metas c md : wf_ctx c md = true ->
  let H := c_header c in let B := md_meta md in let T := c_trailer c in
  (wf_meta (tags B ++ tags T) H = true /\ disj (tags H) (tags B ++ tags T)) /\
  (wf_meta (tags H ++ tags T) B = true /\ disj (tags B) (tags H ++ tags T)) /\
  (wf_meta (tags H ++ tags B) T = true /\ disj (tags T) (tags H ++ tags B)).
Proof.
  unfold wf_ctx. intros H. split_ands.
  assert (DHB : disj (tags (c_header c)) (tags (md_meta md))) by (intros x; apply disjN_spec; assumption).
  assert (DHT : disj (tags (c_header c)) (tags (c_trailer c))) by (intros x; apply disjN_spec; assumption).
  assert (DBT : disj (tags (md_meta md)) (tags (c_trailer c))) by (intros x; apply disjN_spec; assumption).
  repeat split; try assumption; intros x Ha Hb; apply in_app_or in Hb; destruct Hb as [Hb|Hb];
    [exact (DHB x Ha Hb)|exact (DHT x Ha Hb)|exact (DHB x Hb Ha)|exact (DBT x Ha Hb)|exact (DHT x Hb Ha)|exact (DBT x Hb Ha)].
Qed.

Lemma wf_ctx_plain c md : wf_ctx c md = true ->
  plain_at (c_header c) 8 1 = true /\ plain_at (c_header c) 9 2 = true /\ plain_at (c_header c) 35 3 = true /\
  forall t10, find_trait (g_traits (c_trailer c)) 10 = Some t10 -> t_group t10 = false.
Proof.
  unfold wf_ctx. intros H. split_ands. repeat split; try assumption. intros t10 E.
  match goal with H : match find_trait (g_traits (c_trailer c)) 10 with _ => _ end = true |- _ => rewrite E in H; apply andb_prop in H; destruct H as [Hng _] end.
  destruct (t_group t10); [discriminate|reflexivity].
Qed.

Definition encodable (c : ctx) (m : message) (hn bn tn : list tnode) : Prop :=
  let h0 := set_value (m_hdr m) Common_MsgType (m_type m) in
  tree_of c h0 = Some hn /\ tree_of c (m_body m) = Some bn /\ tree_of c (m_trl m) = Some tn /\
  mb_unknown h0 = [] /\ mb_unknown (m_body m) = [] /\ mb_unknown (m_trl m) = [] /\
  (exists bsv, map_find 8 (mb_fields h0) = Some bsv /\ c_render c ft_string bsv = c_begin c) /\
  map_find 9 (mb_fields h0) <> None /\ map_find 10 (mb_fields (m_trl m)) <> None.

Lemma wf_msg_parts c m : wf_msg c m = true ->
  exists hn bn tn t10 md,
    encodable c m hn bn tn /\ find_trait (g_traits (c_trailer c)) 10 = Some t10 /\ msg_def c hn = Some md /\
    wf_ctx c md = true /\
    wf_nodes (c_header c) 2 hn = true /\ wf_nodes (md_meta md) 0 bn = true /\ wf_nodes (c_trailer c) 0 tn = true /\
    last_key 0 tn < t_pos t10 /\ encoded_len c hn bn tn < 10000000.
Proof.
  unfold wf_msg, encodable, has_field. cbv zeta. intros H.
  destruct (tree_of c (set_value (m_hdr m) Common_MsgType (m_type m))) as [hn|]; [|discriminate].
  destruct (tree_of c (m_body m)) as [bn|]; [|discriminate].
  destruct (tree_of c (m_trl m)) as [tn|]; [|discriminate].
  destruct (find_trait (g_traits (c_trailer c)) 10) as [t10|]; [|discriminate].
  destruct (msg_def c hn) as [md|] eqn:Emd; [|discriminate].
  apply andb_prop in H. destruct H as [H Hlen]. apply andb_prop in H. destruct H as [H Hunk].
  apply andb_prop in H. destruct H as [H H89]. apply andb_prop in H. destruct H as [H Hh10].
  apply andb_prop in H. destruct H as [H Hlk]. apply andb_prop in H. destruct H as [H HwT].
  apply andb_prop in H. destruct H as [H HwB]. apply andb_prop in H. destruct H as [Hctx HwH].
  apply N.ltb_lt in Hlen, Hlk.
  destruct (mb_unknown (set_value (m_hdr m) Common_MsgType (m_type m))); [|discriminate].
  destruct (mb_unknown (m_body m)); [|discriminate]. destruct (mb_unknown (m_trl m)); [|discriminate].
  destruct (map_find 8 _) as [bsv|]; [|discriminate]. destruct (map_find 9 _); [|discriminate].
  destruct (map_find 10 _); [|discriminate]. apply list_eqb_eq in H89.
  exists hn, bn, tn, t10, md. repeat split; try assumption; try reflexivity; try discriminate. exists bsv. split; [reflexivity|exact H89].
Qed.

Lemma msg_def_shape c hn md : msg_def c hn = Some md ->
  exists rv35 hn', hn = TN 3 35 rv35 [] :: hn' /\ find_msg (c_msgs c) rv35 = Some md.
Proof.
  unfold msg_def. destruct hn as [|[k f rv els] hn']; [discriminate|].
  destruct ((k =? 3) && (f =? 35) && match els with [] => true | _ => false end) eqn:E; [|discriminate].
  apply andb_prop in E. destruct E as [E E3]. apply andb_prop in E. destruct E as [E1 E2].
  apply N.eqb_eq in E1, E2. subst. destruct els; [|discriminate].
  intros H. exists rv, hn'. split; [reflexivity|assumption].
Qed.

Lemma ftype_of_is_ty c f ty d : is_ty c f ty = true -> ftype_of c f d = ty.
Proof. unfold is_ty, ftype_of. destruct (find_be (c_fields c) f); [|discriminate]. intros H. apply N.eqb_eq in H. assumption. Qed.
Lemma part_type_is_ty c m f ty : is_ty c f ty = true -> part_type c m f = ty.
Proof. unfold part_type. apply ftype_of_is_ty. Qed.
Lemma part_type_int c m f : is_int_field c f = true -> is_int_type (part_type c m f) = true.
Proof. unfold is_int_field, part_type, ftype_of. destruct (find_be (c_fields c) f); [|discriminate]. trivial. Qed.
Lemma fields_clear m f : mb_fields (clear_suppress m f) = mb_fields m.
Proof. destruct m. reflexivity. Qed.

Lemma encoded_len_pairs c h b t : encoded_len c h b t = lenN (flat_map pbytes (P h ++ P b ++ P t)).
Proof. unfold encoded_len. rewrite !flat_map_app, !lenN_app, !nodes_bytes_pairs. lia. Qed.

(* BeginString, BodyLength, the printed pairs [mid] of header (from MsgType on), body and trailer,
   CheckSum: a function of the context and of [mid] alone *)
Definition front (c : ctx) (mid : list (N * list N)) : list (N * list N) :=
  (8, c_begin c) :: (9, itoa_N (lenN (flat_map pbytes mid))) :: mid.
Definition chk_text (c : ctx) (mid : list (N * list N)) : list N :=
  fmt_chksum (bytesumN (flat_map pbytes (front c mid))).
Definition wire_pairs (c : ctx) (mid : list (N * list N)) : list (N * list N) := front c mid ++ [(10, chk_text c mid)].
Definition wire (c : ctx) (mid : list (N * list N)) : list N := flat_map pbytes (wire_pairs c mid).

Lemma chk_text_spec c mid :
  all_digits (chk_text c mid) /\ lenN (chk_text c mid) = 3 /\
  dec_val (chk_text c mid) 0 = Some (bytesumN (flat_map pbytes (front c mid))).
Proof. apply fmt_chksum_spec, bytesumN_lt. Qed.

Lemma wire_split c v35 rest :
  wire c ((35, v35) :: rest) =
  pbytes (8, c_begin c) ++ pbytes (9, itoa_N (lenN (flat_map pbytes ((35, v35) :: rest)))) ++ pbytes (35, v35) ++
  flat_map pbytes rest ++ pbytes (10, chk_text c ((35, v35) :: rest)).
Proof.
  unfold wire, wire_pairs, front. cbn [app flat_map]. rewrite flat_map_app. cbn [flat_map]. rewrite app_nil_r. reflexivity.
Qed.

Lemma front_pv c mid : val_ok (c_begin c) = true -> Forall pv mid -> Forall pv (front c mid).
Proof. intros Hb Hm. constructor; [exact Hb|]. constructor; [apply digits_val_ok, itoa_digits|exact Hm]. Qed.

Lemma front_len c mid : lenN (flat_map pbytes mid) < 10000000 ->
  lenN (flat_map pbytes (front c mid)) = preamble_sz c + len_digits (lenN (flat_map pbytes mid)) + lenN (flat_map pbytes mid).
Proof.
  intros H. unfold front, preamble_sz. cbn [flat_map]. rewrite !lenN_app, !pbytes_len, (itoa_small 8), (itoa_small 9) by lia.
  cbn [lenN]. rewrite len_digits_itoa by assumption. lia.
Qed.

Lemma encode_wire c m hn bn tn :
  render_ok c -> encodable c m hn bn tn -> ctx_types c ->
  Forall pv (P hn ++ P bn ++ P tn) -> lenN (flat_map pbytes (P hn ++ P bn ++ P tn)) < 10000000 ->
  exists m', msg_encode c m = Ok (wire c (P hn ++ P bn ++ P tn), m').
Proof.
  intros [Rint Rstr] (Eh & Eb & Et & Uh & Ub & Ut & (bsv & E8 & H8) & E9 & E10) (T8 & T9 & T10 & _ & Hbeg & Hbl) Hpv Hlen.
  set (h0 := set_value (m_hdr m) Common_MsgType (m_type m)) in *.
  set (mid := P hn ++ P bn ++ P tn) in *. set (L := lenN (flat_map pbytes mid)) in *.
  assert (Hbody : flat_map nbytes hn ++ flat_map nbytes bn ++ flat_map nbytes tn = flat_map pbytes mid).
  { unfold mid. rewrite !flat_map_app, !nodes_bytes_pairs. reflexivity. }
  pose proof (front_len c mid Hlen) as Hflen. fold L in Hflen.
  set (mem := flat_map pbytes (front c mid)) in *.
  destruct (calc_chksum_all mem) as (ck & hull & Eck & Hckv).
  { apply pairs_small, front_pv; assumption. }
  { rewrite Hflen. unfold preamble_sz, len_digits, W64. repeat destruct (_ <? _); lia. }
  unfold msg_encode, msg_encode_parts. fold h0.
  rewrite (mb_encode_tree c h0 hn Eh), (mb_encode_tree c _ bn Eb), (mb_encode_tree c _ tn Et).
  rewrite Uh, Ub, Ut, !app_nil_r. cbn [bind].
  change Common_BeginString with 8. change Common_BodyLength with 9. change Common_CheckSum with 10.
  rewrite E8, fields_clear. destruct (map_find 9 (mb_fields h0)); [|congruence].
  destruct (map_find 10 (mb_fields (m_trl m))); [|congruence].
  rewrite Hbody. fold L. rewrite (part_type_is_ty c _ 8 ft_string T8).
  rewrite itoa_Z_small by lia. unfold field_bytes. rewrite H8, (Rint _ L (part_type_int c _ 9 T9)) by lia.
  change ((itoa_N 8 ++ EQC :: c_begin c ++ [SOH]) ++ itoa_N 9 ++ EQC :: itoa_N L ++ [SOH])
    with (pbytes (8, c_begin c) ++ pbytes (9, itoa_N L)).
  replace ((pbytes (8, c_begin c) ++ pbytes (9, itoa_N L)) ++ flat_map pbytes mid) with mem
    by (unfold mem, front; cbn [flat_map]; rewrite app_assoc; reflexivity).
  replace (lenN (pbytes (8, c_begin c) ++ pbytes (9, itoa_N L))) with (preamble_sz c + len_digits L)
    by (unfold mem, front in Hflen; cbn [flat_map] in Hflen; rewrite app_assoc, lenN_app in Hflen; fold L in Hflen; lia).
  rewrite N.eqb_refl, Eck. cbn [negb bind].
  rewrite (part_type_is_ty c _ 10 ft_string T10), Rstr, Hckv.
  eexists. f_equal. f_equal. unfold wire, wire_pairs, chk_text. fold mem.
  rewrite flat_map_app. cbn [flat_map]. rewrite app_nil_r.
  unfold mem at 1, front. cbn [flat_map]. rewrite <- !app_assoc. reflexivity.
Qed.

Lemma wf_nodes_snoc g : forall a last x,
  wf_nodes g last a = true -> (last_key last a <? n_key x) = true -> wf_node g x = true ->
  wf_nodes g last (a ++ [x]) = true.
Proof.
  induction a as [|y a IH]; intros last x Ha Hk Hx; cbn [app wf_nodes last_key] in *.
  - rewrite Hk, Hx. reflexivity.
  - apply andb_prop in Ha. destruct Ha as [Ha Hr]. rewrite Ha. cbn [andb]. apply IH; assumption.
Qed.

Lemma last_key_snoc : forall a last x, last_key last (a ++ [x]) = n_key x.
Proof. induction a as [|y a IH]; intros last x; cbn [app last_key]; [reflexivity|apply IH]. Qed.

Lemma plain_node g f p v : plain_at g f p = true -> val_ok v = true -> wf_node g (TN p f v []) = true.
Proof.
  unfold plain_at. intros H Hv. rewrite wf_node_unfold. destruct (find_trait (g_traits g) f) as [tr|]; [|discriminate].
  apply andb_prop in H. destruct H as [Hp Hg]. rewrite Hp, Hv. cbn [andb].
  destruct (t_group tr); [discriminate|reflexivity].
Qed.

Lemma head_in_app_l (a b : list (N * list N)) outer : a <> [] -> head_in outer a -> head_in outer (a ++ b).
Proof. destruct a as [|[f v] a]; [congruence|]. trivial. Qed.

Lemma head_in_P g last ns outer : wf_nodes g last ns = true -> ns <> [] ->
  (forall x, In x (tags g) -> In x outer) -> head_in outer (P ns).
Proof.
  destruct ns as [|x ns]; [congruence|]. intros H _ Hsub. pose proof (node_tag_in g x (Forall_inv (wf_nodes_each g _ _ H))) as Hin.
  destruct x as [k f rv els]. rewrite P_cons. cbn [npairs app head_in]. apply Hsub. exact Hin.
Qed.

Lemma rest_ok_of_head g outer lastf rp : head_in outer rp -> rest_ok g outer lastf rp.
Proof. destruct rp as [|[f v] rp]; [trivial|]. intros H. left. exact H. Qed.

(* (b) (c) (d): the framing of [wire], whatever follows MsgType *)
Lemma frame_ok_wire c v35 mid :
  frame_ok c (wire c ((35, v35) :: mid)) (offs 0 (wire_pairs c ((35, v35) :: mid))) = true.
Proof.
  set (mid0 := (35, v35) :: mid). set (L := lenN (flat_map pbytes mid0)).
  destruct (chk_text_spec c mid0) as (_ & Hcl & Hcv).
  set (p8 := pbytes (8, c_begin c)). set (p9 := pbytes (9, itoa_N L)).
  assert (Hfront : lenN (flat_map pbytes (front c mid0)) = lenN p8 + lenN p9 + L).
  { unfold front. cbn [flat_map]. rewrite !lenN_app. apply N.add_assoc. }
  assert (Hbytes : firstN (lenN (flat_map pbytes (front c mid0))) (wire c mid0) = flat_map pbytes (front c mid0)).
  { unfold wire, wire_pairs. rewrite flat_map_app. apply firstN_app. }
  pose proof (last_tok_offs (front c mid0) (10, chk_text c mid0) 0) as Hlast. fold (wire_pairs c mid0) in Hlast.
  assert (Hts : exists t35 rest,
            offs 0 (wire_pairs c mid0) = mkTok 8 (c_begin c) 0 (lenN p8) :: mkTok 9 (itoa_N L) (lenN p8) (lenN p8 + lenN p9) :: t35 :: rest /\
            k_tag t35 = 35)
    by (do 2 eexists; split; reflexivity).
  destruct Hts as (t35 & rest & Hts & Ht35). unfold frame_ok. rewrite Hts in Hlast |- *. rewrite Hlast.
  cbn [k_tag k_val k_start k_end fst snd]. rewrite Ht35, list_eqb_refl, decimal_itoa, Hcl, Hcv, N.add_0_l, Hbytes.
  rewrite (proj2 (N.leb_le _ _)), (proj2 (N.eqb_eq L _)), (N.eqb_refl (bytesumN _)) by lia. reflexivity.
Qed.

(* (e): header, body and trailer in turn *)
Lemma struct_ok_wire c rv35 hn' bn tn md t10 :
  find_trait (g_traits (c_trailer c)) 10 = Some t10 -> find_msg (c_msgs c) rv35 = Some md -> wf_ctx c md = true ->
  wf_nodes (c_header c) 2 (TN 3 35 rv35 [] :: hn') = true -> wf_nodes (md_meta md) 0 bn = true ->
  wf_nodes (c_trailer c) 0 tn = true -> last_key 0 tn < t_pos t10 ->
  struct_ok c (offs 0 (wire_pairs c (P (TN 3 35 rv35 [] :: hn') ++ P bn ++ P tn))) = true.
Proof.
  intros E10 Hfm Hctx HwH HwB HwT Hlk.
  set (mid := P (TN 3 35 rv35 [] :: hn') ++ P bn ++ P tn). set (L := lenN (flat_map pbytes mid)).
  destruct (chk_text_spec c mid) as (Hcd & _ & _). set (csv := chk_text c mid) in *.
  destruct (wf_ctx_types c md Hctx) as (_ & _ & _ & _ & Hbeg & _).
  destruct (wf_ctx_plain c md Hctx) as (P8 & P9 & _ & Hng).
  destruct (wf_ctx_metas c md Hctx) as ((WmH & DH) & (WmB & DB) & (WmT & DT)).
  (* the full header and trailer trees *)
  set (hfull := TN 1 8 (c_begin c) [] :: TN 2 9 (itoa_N L) [] :: TN 3 35 rv35 [] :: hn').
  set (tfull := tn ++ [TN (t_pos t10) 10 csv []]).
  assert (Hsplit : wire_pairs c mid = P hfull ++ P bn ++ P tfull).
  { unfold wire_pairs, front, hfull, tfull, mid. fold mid L csv. rewrite (flat_map_app npairs tn). cbn [flat_map npairs app].
    unfold mid. cbn [flat_map npairs app]. rewrite <- !app_assoc. reflexivity. }
  assert (HwHf : wf_nodes (c_header c) 0 hfull = true).
  { unfold hfull. cbn [wf_nodes n_key]. rewrite (plain_node _ 8 1 _ P8 Hbeg).
    rewrite (plain_node _ 9 2 (itoa_N L) P9 (digits_val_ok _ (itoa_digits L))).
    cbn [N.ltb N.compare Pos.compare Pos.compare_cont andb]. exact HwH. }
  assert (HwTf : wf_nodes (c_trailer c) 0 tfull = true).
  { apply wf_nodes_snoc; [exact HwT|apply N.ltb_lt; exact Hlk|].
    rewrite wf_node_unfold, E10, N.eqb_refl, (digits_val_ok _ Hcd), (Hng t10 E10). reflexivity. }
  assert (HheadT : forall outer, (forall x, In x (tags (c_trailer c)) -> In x outer) -> head_in outer (P tfull)).
  { intros outer Hsub. apply (head_in_P (c_trailer c) 0 tfull); [exact HwTf| |exact Hsub].
    unfold tfull. intros Hc. apply app_eq_nil in Hc. destruct Hc; discriminate. }
  assert (RH : rest_ok (c_header c) (tags (md_meta md) ++ tags (c_trailer c)) (last_key 0 hfull) (P bn ++ P tfull)).
  { apply rest_ok_of_head. destruct bn as [|xb bn'].
    - apply HheadT. intros x Hx. apply in_or_app. right. exact Hx.
    - apply head_in_app_l; [destruct xb; discriminate|].
      apply (head_in_P (md_meta md) 0 (xb :: bn')); [exact HwB|discriminate|]. intros x Hx. apply in_or_app. left. exact Hx. }
  assert (RB : rest_ok (md_meta md) (tags (c_header c) ++ tags (c_trailer c)) (last_key 0 bn) (P tfull)).
  { apply rest_ok_of_head. apply HheadT. intros x Hx. apply in_or_app. right. exact Hx. }
  unfold struct_ok. rewrite Hsplit.
  remember (offs 0 (P hfull ++ P bn ++ P tfull)) as ts eqn:Ets.
  assert (Hlen_ts : length ts = (length (P hfull) + length (P bn) + length (P tfull))%nat).
  { rewrite Ets, offs_length, !app_length. lia. }
  assert (Hts3 : exists t8 t9 t35 l1, ts = t8 :: t9 :: t35 :: l1 /\ k_val t35 = rv35).
  { rewrite Ets. unfold hfull. do 4 eexists. split; reflexivity. }
  destruct Hts3 as (t8 & t9 & t35 & l1 & Hts3 & Hv35). rewrite Hts3, Hv35, Hfm, <- Hts3.
  set (fuel := S (S (S (length ts + length ts + length ts)))).
  destruct (part_ok_nodes (c_header c) _ hfull 0 (P bn ++ P tfull) 0 fuel WmH DH HwHf RH) as [off1 Hp1]; [unfold fuel; lia|].
  rewrite Ets, Hp1.
  destruct (part_ok_nodes (md_meta md) _ bn 0 (P tfull) off1 fuel WmB DB HwB RB) as [off2 Hp2]; [unfold fuel; lia|].
  rewrite Hp2.
  destruct (part_ok_nodes (c_trailer c) _ tfull 0 [] off2 fuel WmT DT HwTf I) as [off3 Hp3]; [unfold fuel; lia|].
  rewrite app_nil_r in Hp3. rewrite Hp3. reflexivity.
Qed.

Lemma wire_ok_wire c hn bn tn md t10 :
  find_trait (g_traits (c_trailer c)) 10 = Some t10 -> msg_def c hn = Some md -> wf_ctx c md = true ->
  wf_nodes (c_header c) 2 hn = true -> wf_nodes (md_meta md) 0 bn = true -> wf_nodes (c_trailer c) 0 tn = true ->
  last_key 0 tn < t_pos t10 ->
  wire_ok c (wire c (P hn ++ P bn ++ P tn)) = true.
Proof.
  intros E10 Emd Hctx HwH HwB HwT Hlk.
  destruct (msg_def_shape c hn md Emd) as (rv35 & hn' & -> & Hfm).
  destruct (wf_ctx_types c md Hctx) as (_ & _ & _ & _ & Hbeg & _).
  set (mid := P (TN 3 35 rv35 [] :: hn') ++ P bn ++ P tn).
  assert (Hall : Forall pv (wire_pairs c mid)).
  { apply Forall_app. split; [|constructor; [apply digits_val_ok, chk_text_spec|constructor]].
    apply front_pv; [exact Hbeg|]. unfold mid. rewrite !Forall_app. repeat split; eapply wf_pairs; eassumption. }
  unfold wire_ok, tokenize, wire. rewrite tokenize_flat by (eapply Forall_impl; [|exact Hall]; intros p; apply val_ok_no_soh).
  apply andb_true_intro. split.
  - apply (frame_ok_wire c rv35 (P hn' ++ P bn ++ P tn)).
  - apply (struct_ok_wire c rv35 hn' bn tn md t10); assumption.
Qed.

Theorem c02_wellformed_lemma c m :
  render_ok c -> wf_msg c m = true -> fresh m = true ->
  exists b m', msg_encode c m = Ok (b, m') /\ wire_ok c b = true.
Proof.
  intros HR Hwf _.
  destruct (wf_msg_parts c m Hwf) as (hn & bn & tn & t10 & md & Henc & E10 & Emd & Hctx & HwH & HwB & HwT & Hlk & Hlen).
  rewrite encoded_len_pairs in Hlen.
  destruct (encode_wire c m hn bn tn HR Henc (wf_ctx_types c md Hctx)) as [m' Hm']; [|exact Hlen|].
  { rewrite !Forall_app. repeat split; eapply wf_pairs; eassumption. }
  exists (wire c (P hn ++ P bn ++ P tn)), m'. split; [exact Hm'|].
  apply (wire_ok_wire c hn bn tn md t10); assumption.
Qed.
