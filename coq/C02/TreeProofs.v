(* The encoder on an object whose content tree exists:
     tree_of c m = Some ns  ->  mb_encode c m = Ok (flat_map nbytes ns ++ mb_unknown m)
   and the bytes of a tree are the concatenation of its printed (tag, value) pairs. *)
From Coq Require Import NArith ZArith List Bool Lia.
From F8 Require Import Codec.Bytes Codec.Meta Codec.Extract Codec.Decode Codec.Encode
                       C02.Spec_C02 C02.WfC02 C02.DigitsProofs C02.TokenProofs.
Import ListNotations.
Local Open Scope N_scope.

Fixpoint npairs (n : tnode) : list (N * list N) :=
  match n with
  | TN _ f rv els => (f, rv) :: flat_map (fun e => flat_map npairs e) els
  end.

Notation P := (flat_map npairs).

Lemma tnode_ind' (Q : tnode -> Prop) :
  (forall k f rv els, Forall (Forall Q) els -> Q (TN k f rv els)) -> forall n, Q n.
Proof.
  intros H. fix IH 1. intros [k f rv els]. apply H.
  induction els as [|e els IHe]; constructor; [|exact IHe].
  induction e as [|x e IHx]; constructor; [apply IH|exact IHx].
Qed.

Lemma nbytes_pairs : forall n, nbytes n = flat_map pbytes (npairs n).
Proof.
  induction n as [k f rv els IH] using tnode_ind'. cbn [nbytes npairs flat_map]. unfold pbytes at 1. cbn [fst snd].
  rewrite <- !app_assoc. cbn [app]. f_equal. f_equal. rewrite <- app_assoc. cbn [app]. f_equal. f_equal.
  induction IH as [|e els He _ IHe]; cbn [flat_map]; [reflexivity|].
  rewrite flat_map_app, <- IHe. f_equal.
  induction He as [|x e Hx _ IHx]; cbn [flat_map]; [reflexivity|].
  rewrite flat_map_app, <- IHx, Hx. reflexivity.
Qed.

Lemma nodes_bytes_pairs ns : flat_map nbytes ns = flat_map pbytes (flat_map npairs ns).
Proof.
  induction ns as [|n ns IH]; cbn [flat_map]; [reflexivity|].
  rewrite flat_map_app, <- IH, nbytes_pairs. reflexivity.
Qed.

(* the loop over _pos, given that the group tables correspond *)
Lemma enc_pos_nodes c fp gts genc :
  (forall f els, map_find f gts = Some (Some els) ->
                 map_find f genc = Some (Ok (flat_map (fun e => flat_map nbytes e) els))) ->
  forall pos ns, nodes_of c fp gts pos = Some ns -> enc_pos c fp genc pos = Ok (flat_map nbytes ns).
Proof.
  intros Hg. induction pos as [|[k [f v]] pos IH]; intros ns H; cbn [nodes_of enc_pos] in *.
  - injection H as <-. reflexivity.
  - destruct (find_trait fp f) as [tr|]; [|discriminate].
    destruct (t_suppress tr); [apply IH; assumption|].
    unfold field_bytes. destruct (t_group tr && has_group_count_c c f v).
    + destruct (map_find f gts) as [[els|]|] eqn:Eg; try discriminate.
      destruct (nodes_of c fp gts pos) as [ns'|]; [|discriminate]. injection H as <-.
      rewrite (Hg f els Eg). cbn [bind]. rewrite (IH ns' eq_refl). cbn [bind flat_map nbytes].
      repeat (rewrite <- app_assoc; cbn [app]). reflexivity.
    + destruct (nodes_of c fp gts pos) as [ns'|]; [|discriminate]. injection H as <-.
      rewrite (IH ns' eq_refl). cbn [bind flat_map nbytes].
      repeat (rewrite <- app_assoc; cbn [app]). reflexivity.
Qed.

Lemma mb_encode_tree c : forall m ns, tree_of c m = Some ns ->
  mb_encode c m = Ok (flat_map nbytes ns ++ mb_unknown m).
Proof.
  fix IH 1. intros [fp subs fields pos groups unknown] ns H. cbn [tree_of mb_encode mb_unknown] in *.
  erewrite enc_pos_nodes; [reflexivity| |exact H].
  clear H ns pos. induction groups as [|[g gels] groups IHg]; intros f els Hf; cbn [map_find] in *; [discriminate|].
  destruct (f =? g); [|apply IHg; assumption].
  injection Hf as Hf. f_equal. revert els Hf.
  induction gels as [|e gels IHe]; intros els Hf.
  - injection Hf as <-. reflexivity.
  - destruct (mb_unknown e) as [|u0 ul] eqn:Eu; [|discriminate].
    destruct (tree_of c e) as [a|] eqn:Ea; [|discriminate].
    match type of Hf with match ?X with _ => _ end = _ => destruct X as [b|] eqn:Eb; [|discriminate] end.
    injection Hf as <-. rewrite (IH e a Ea). cbn [bind]. rewrite (IHe b eq_refl). cbn [bind flat_map].
    rewrite Eu, app_nil_r. reflexivity.
Qed.
