(* Decimal texts beyond Codec/Lemmas.v: decimal / dec_val of Spec_C02 and the fast_atoi family read
   digit texts back, itoa_N has no leading zero, the BodyLength digit ladder. *)
From Coq Require Import NArith ZArith List Bool Lia.
From F8 Require Import Codec.Bytes Codec.Meta Codec.Encode Codec.Lemmas C02.Spec_C02.
Import ListNotations.
Local Open Scope N_scope.

Lemma dec_val_app a b acc :
  all_digits a ->
  dec_val (a ++ b) acc = match dec_val a acc with Some v => dec_val b v | None => None end.
Proof.
  revert acc. induction a as [|x a IH]; intros acc Ha; cbn [app dec_val]; [reflexivity|].
  inversion Ha as [|? ? Hx Ha']; subst. rewrite Hx. apply IH. assumption.
Qed.

Lemma dec_val_itoa n : dec_val (itoa_N n) 0 = Some n.
Proof.
  induction n as [n H|n H IH] using N_div10_ind.
  - rewrite itoa_small by assumption. cbn [dec_val]. rewrite is_digit_48 by assumption. f_equal. lia.
  - rewrite itoa_step by assumption. rewrite dec_val_app by apply itoa_digits. rewrite IH.
    cbn [dec_val]. rewrite is_digit_48 by (apply N.mod_lt; lia). f_equal.
    rewrite (N.add_comm 48), N.add_sub, N.mul_comm, <- N.div_mod by lia. reflexivity.
Qed.

Lemma itoa_hd n : hd 0 (itoa_N n) = 48 -> n = 0.
Proof.
  induction n as [n H|n H IH] using N_div10_ind.
  - rewrite itoa_small by assumption. cbn [hd]. lia.
  - rewrite itoa_step by assumption. pose proof (itoa_nonempty (n / 10)) as Hne.
    destruct (itoa_N (n / 10)) as [|d ds] eqn:E; [congruence|]. cbn [app hd]. intros Hd.
    cbn [hd] in IH. specialize (IH Hd). apply N.div_small_iff in IH; lia.
Qed.

Lemma decimal_itoa n : decimal (itoa_N n) = Some n.
Proof.
  unfold decimal. pose proof (itoa_hd n) as Hh. pose proof (dec_val_itoa n) as Hv.
  pose proof (itoa_nonempty n) as Hne.
  destruct (itoa_N n) as [|c [|c2 r]] eqn:E; [congruence|assumption|].
  cbn [hd] in Hh. destruct (c =? 48) eqn:Ec; [|assumption].
  apply N.eqb_eq in Ec. specialize (Hh Ec). subst n. rewrite itoa_small in E by lia. discriminate.
Qed.

Lemma itoa_len_step n : 10 <= n -> lenN (itoa_N n) = lenN (itoa_N (n / 10)) + 1.
Proof. intros H. rewrite itoa_step by assumption. rewrite lenN_app. reflexivity. Qed.

(* the ladder of Message::encode is the digit count below 10^7 *)
Lemma len_digits_itoa n : n < 10000000 -> lenN (itoa_N n) = len_digits n.
Proof.
  intros H. unfold len_digits.
  destruct (n <? 10) eqn:E1; [apply N.ltb_lt in E1; rewrite itoa_small by assumption; reflexivity|].
  apply N.ltb_ge in E1. rewrite itoa_len_step by assumption.
  destruct (n <? 100) eqn:E2.
  { apply N.ltb_lt in E2. rewrite itoa_small by (apply N.div_lt_upper_bound; lia). reflexivity. }
  apply N.ltb_ge in E2. rewrite itoa_len_step by (apply N.div_le_lower_bound; lia).
  destruct (n <? 1000) eqn:E3.
  { apply N.ltb_lt in E3. rewrite itoa_small by (repeat apply N.div_lt_upper_bound; lia). reflexivity. }
  apply N.ltb_ge in E3. rewrite itoa_len_step by (repeat apply N.div_le_lower_bound; lia).
  destruct (n <? 10000) eqn:E4.
  { apply N.ltb_lt in E4. rewrite itoa_small by (repeat apply N.div_lt_upper_bound; lia). reflexivity. }
  apply N.ltb_ge in E4. rewrite itoa_len_step by (repeat apply N.div_le_lower_bound; lia).
  destruct (n <? 100000) eqn:E5.
  { apply N.ltb_lt in E5. rewrite itoa_small by (repeat apply N.div_lt_upper_bound; lia). reflexivity. }
  apply N.ltb_ge in E5. rewrite itoa_len_step by (repeat apply N.div_le_lower_bound; lia).
  destruct (n <? 1000000) eqn:E6.
  { apply N.ltb_lt in E6. rewrite itoa_small by (repeat apply N.div_lt_upper_bound; lia). reflexivity. }
  apply N.ltb_ge in E6. rewrite itoa_len_step by (repeat apply N.div_le_lower_bound; lia).
  rewrite itoa_small by (repeat apply N.div_lt_upper_bound; lia). reflexivity.
Qed.

Lemma fold_atoi m : (0 < m)%Z -> forall l a v, all_digits l -> dec_val l a = Some v ->
  fold_left (atoi_step m) l (Z.of_N a mod m)%Z = (Z.of_N v mod m)%Z.
Proof.
  intros Hm. induction l as [|x l IH]; intros a v Hd Hv; cbn [fold_left dec_val] in *.
  - injection Hv as <-. reflexivity.
  - inversion Hd as [|? ? Hx Hl]; subst. rewrite Hx in Hv.
    rewrite atoi_step_digit by assumption. exact (IH _ v Hl Hv).
Qed.

Lemma atoi_mod_digits m ds v : (0 < m)%Z -> all_digits ds -> dec_val ds 0 = Some v ->
  fast_atoi_mod m ds = (Z.of_N v mod m)%Z.
Proof.
  intros Hm Hd Hv. unfold fast_atoi_mod. rewrite cstr_no_nul by (apply digits_no_nul; assumption).
  rewrite <- (fold_atoi m Hm ds 0 v Hd Hv). reflexivity.
Qed.
Lemma atoi_u32_digits ds v : all_digits ds -> dec_val ds 0 = Some v -> v < 4294967296 -> fast_atoi_u32 ds = v.
Proof.
  intros Hd Hv Hb. unfold fast_atoi_u32. rewrite (atoi_mod_digits two32 ds v) by (reflexivity || assumption).
  unfold two32. rewrite Z.mod_small by lia. apply N2Z.id.
Qed.
Lemma atoi_i32_orig_itoa n : n < 2147483648 -> fast_atoi_i32_orig (itoa_N n) = Z.of_N n.
Proof.
  intros H. unfold fast_atoi_i32_orig. rewrite (atoi_mod_digits two32 _ n) by (reflexivity || apply itoa_digits || apply dec_val_itoa).
  unfold to_i32, two32, two31. rewrite Z.mod_mod by lia. rewrite Z.mod_small by lia.
  replace (Z.of_N n <? 2147483648)%Z with true by (symmetry; apply Z.ltb_lt; lia). reflexivity.
Qed.

(* a digit text does not start with '-': the sign-aware fast_atoi<int> agrees with the original *)
Lemma atoi_i32_itoa n : n < 2147483648 -> fast_atoi_i32 (itoa_N n) = Z.of_N n.
Proof.
  intros H. rewrite <- (atoi_i32_orig_itoa n H). unfold fast_atoi_i32, fast_atoi_i32_orig, fast_atoi_mod.
  rewrite cstr_no_nul by apply digits_no_nul, itoa_digits. pose proof (itoa_digits n) as Hd.
  destruct (itoa_N n) as [|d ds]; [reflexivity|]. pose proof (Forall_inv Hd) as Hx. cbn beta in Hx.
  unfold is_digit in Hx. apply andb_prop in Hx. destruct Hx as [Hx _]. apply N.leb_le in Hx.
  replace (d =? 45) with false by (symmetry; apply N.eqb_neq; lia). reflexivity.
Qed.

(* BodyLength as Message::encode and Message::factory write it: static_cast<int> of a small length *)
Lemma itoa_Z_small L : L < 2147483648 -> itoa_Z (to_i32 (Z.of_N L)) = itoa_N L.
Proof.
  intros H. unfold to_i32, two32, two31. rewrite Z.mod_small by lia.
  replace (Z.of_N L <? 2147483648)%Z with true by (symmetry; apply Z.ltb_lt; lia).
  unfold itoa_Z. replace (Z.of_N L <? 0)%Z with false by (symmetry; apply Z.ltb_ge; lia). rewrite N2Z.id. reflexivity.
Qed.
