(* The boolean list predicates of WfC02.v (memN, disjN, nodupN) as propositions; forallb / Forall glue. *)
From Coq Require Import NArith List Bool Lia.
From F8 Require Import Codec.Bytes Codec.Meta C02.WfC02.
Import ListNotations.
Local Open Scope N_scope.

Lemma forallb_Forall {A} (f : A -> bool) (Q : A -> Prop) l :
  (forall x, f x = true -> Q x) -> forallb f l = true -> Forall Q l.
Proof. intros H Hf. rewrite forallb_forall in Hf. apply Forall_forall. intros x Hx. apply H, Hf, Hx. Qed.

Lemma Forall_all {A} (Q : A -> Prop) l : (forall x, Q x) -> Forall Q l.
Proof. intros H. apply Forall_forall. intros x _. apply H. Qed.
Lemma Forall_impl2 {A} (Q R S : A -> Prop) l :
  (forall x, Q x -> R x -> S x) -> Forall Q l -> Forall R l -> Forall S l.
Proof. intros H HQ. induction HQ; intros HR; inversion HR; subst; constructor; auto. Qed.

Lemma memN_In x l : memN x l = true <-> In x l.
Proof.
  unfold memN. rewrite existsb_exists. split.
  - intros (y & Hy & He). apply N.eqb_eq in He. subst. assumption.
  - intros H. exists x. split; [assumption|apply N.eqb_refl].
Qed.
Lemma memN_false x l : memN x l = false <-> ~ In x l.
Proof. rewrite <- memN_In. destruct (memN x l); split; congruence. Qed.
Lemma disjN_spec a b : disjN a b = true -> forall x, In x a -> ~ In x b.
Proof.
  unfold disjN. rewrite forallb_forall. intros H x Hx Hb. specialize (H x Hx).
  apply memN_In in Hb. rewrite Hb in H. discriminate.
Qed.
Lemma nodupN_notin x l : nodupN (x :: l) = true -> ~ In x l /\ nodupN l = true.
Proof.
  cbn [nodupN]. intros H. apply andb_prop in H. destruct H as [A B]. split; [|assumption].
  apply memN_false. destruct (memN x l); [discriminate|reflexivity].
Qed.
Lemma nodupN_NoDup l : nodupN l = true -> NoDup l.
Proof.
  induction l as [|x l IH]; intros H; [constructor|]. apply nodupN_notin in H. destruct H as [H1 H2].
  constructor; [exact H1|apply IH; exact H2].
Qed.
