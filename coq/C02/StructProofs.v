(* part_ok / elems_ok of Spec_C02 accept the token sequence of a well-formed content tree. *)
From Coq Require Import NArith ZArith List Bool Lia Arith.
From F8 Require Import Codec.Bytes Codec.Meta Codec.Extract Codec.Decode Codec.Encode Codec.Lemmas
                       C02.Spec_C02 C02.WfC02 C02.MetaProofs C02.DigitsProofs C02.TokenProofs C02.TreeProofs.
Import ListNotations.
Local Open Scope N_scope.

Definition PE (els : list (list tnode)) : list (N * list N) := flat_map (fun e => flat_map npairs e) els.

Lemma P_cons x ns : P (x :: ns) = npairs x ++ P ns.
Proof. reflexivity. Qed.
Lemma PE_cons e es : PE (e :: es) = P e ++ PE es.
Proof. reflexivity. Qed.

Lemma find_trait_In ts f tr : find_trait ts f = Some tr -> In f (map t_fnum ts) /\ t_fnum tr = f /\ In tr ts.
Proof.
  intros H. destruct (Codec.Lemmas.find_trait_In ts f tr H) as [Hin <-]. repeat split; [apply in_map|]; exact Hin.
Qed.

Lemma first_tag_unique g f tr :
  nodupN (map t_pos (g_traits g)) = true -> find_trait (g_traits g) f = Some tr -> t_pos tr = 1 ->
  first_tag g = Some f.
Proof.
  unfold first_tag. generalize (g_traits g). intros ts. induction ts as [|x r IH]; intros Hnd Hf Hp.
  - discriminate.
  - cbn [find_trait] in Hf. cbn [filter]. cbn [map] in Hnd. apply nodupN_notin in Hnd. destruct Hnd as [Hni Hnd].
    destruct (t_fnum x =? f) eqn:E.
    + injection Hf as <-. rewrite Hp. cbn [N.eqb Pos.eqb]. apply N.eqb_eq in E. rewrite E. reflexivity.
    + destruct (t_pos x =? 1) eqn:Ex.
      * exfalso. apply N.eqb_eq in Ex. apply Hni. rewrite Ex, <- Hp.
        apply in_map. apply (find_trait_In _ _ _ Hf).
      * apply IH; assumption.
Qed.

Lemma wf_meta_parts outer g : wf_meta outer g = true ->
  nodupN (tags g) = true /\ nodupN (map t_pos (g_traits g)) = true /\
  (forall f sg, find_sub (g_subs g) f = Some sg ->
                disjN (tags sg) (tags g ++ outer) = true /\ wf_meta (tags g ++ outer) sg = true).
Proof.
  destruct g as [ts subs dp]. cbn [wf_meta g_traits g_subs tags]. intros H.
  apply andb_prop in H; destruct H as [H Hs]. apply andb_prop in H; destruct H as [H _].
  apply andb_prop in H; destruct H as [H _]. apply andb_prop in H; destruct H as [Ha Hb].
  unfold tags. cbn [g_traits]. split; [assumption|]. split; [assumption|].
  clear -Hs. revert Hs. generalize (map t_fnum ts ++ outer) as o. intros o.
  induction subs as [|[k sg0] subs IH]; intros H f sg Hf; cbn [find_sub] in Hf; [discriminate|].
  apply andb_prop in H; destruct H as [H Hr]. apply andb_prop in H; destruct H as [Hd Hw].
  destruct (k =? f).
  - injection Hf as <-. split; assumption.
  - apply (IH Hr f sg Hf).
Qed.

(* wf_node with its two inner fixpoints named: wf_nodes for an element, wf_elems for the elements *)
Fixpoint wf_elems (sg : gmeta) (es : list (list tnode)) : bool :=
  match es with
  | [] => true
  | e :: r => match e with x :: _ => n_key x =? 1 | [] => false end && wf_nodes sg 0 e && wf_elems sg r
  end.

Lemma wf_nodes_inner sg : forall l last,
  (fix nl (last : N) (l : list tnode) : bool :=
     match l with
     | [] => true
     | x :: r' => (last <? n_key x) && wf_node sg x && nl (n_key x) r'
     end) last l = wf_nodes sg last l.
Proof. induction l as [|x l IH]; intros last; cbn [wf_nodes]; [reflexivity|rewrite IH; reflexivity]. Qed.

Lemma wf_node_unfold g k f rv els :
  wf_node g (TN k f rv els) =
  match find_trait (g_traits g) f with
  | None => false
  | Some tr =>
    (t_pos tr =? k) && val_ok rv &&
    (if t_group tr then
       match decimal rv, find_sub (g_subs g) f with
       | Some cnt, Some sg => (cnt =? lenN els) && wf_elems sg els
       | _, _ => false
       end
     else match els with [] => true | _ => false end)
  end.
Proof.
  cbn [wf_node]. destruct (find_trait (g_traits g) f) as [tr|]; [|reflexivity].
  destruct (t_group tr); [|reflexivity]. destruct (decimal rv) as [cnt|]; [|reflexivity].
  destruct (find_sub (g_subs g) f) as [sg|]; [|reflexivity]. f_equal. f_equal.
  induction els as [|e els IH]; cbn [wf_elems]; [reflexivity|].
  rewrite IH. rewrite wf_nodes_inner. reflexivity.
Qed.

Lemma wf_nodes_each g : forall ns last, wf_nodes g last ns = true -> Forall (fun x => wf_node g x = true) ns.
Proof.
  induction ns as [|x ns IH]; intros last H; [constructor|]. cbn [wf_nodes] in H.
  apply andb_prop in H. destruct H as [H Hr]. apply andb_prop in H. destruct H as [_ Hx].
  constructor; [exact Hx|apply (IH _ Hr)].
Qed.
Lemma wf_elems_each sg : forall els, wf_elems sg els = true -> Forall (Forall (fun x => wf_node sg x = true)) els.
Proof.
  induction els as [|e els IH]; intros H; [constructor|]. cbn [wf_elems] in H.
  apply andb_prop in H. destruct H as [H Hr]. apply andb_prop in H. destruct H as [_ He].
  constructor; [apply (wf_nodes_each sg e 0 He)|apply (IH Hr)].
Qed.

Lemma wf_node_trait g x : wf_node g x = true ->
  exists tr, find_trait (g_traits g) (n_tag x) = Some tr /\ t_pos tr = n_key x.
Proof.
  destruct x as [k f rv els]. rewrite wf_node_unfold. cbn [n_tag n_key].
  destruct (find_trait (g_traits g) f) as [tr|]; [|discriminate]. intros H.
  apply andb_prop in H. destruct H as [H _]. apply andb_prop in H. destruct H as [H _].
  exists tr. split; [reflexivity|apply N.eqb_eq; exact H].
Qed.
Lemma node_tag_in g x : wf_node g x = true -> In (n_tag x) (tags g).
Proof. intros H. destruct (wf_node_trait g x H) as (tr & E & _). apply (find_trait_In _ _ _ E). Qed.

Lemma last_key_ge g : forall ns last, wf_nodes g last ns = true -> last <= last_key last ns.
Proof.
  induction ns as [|x ns IH]; intros last H; cbn [last_key wf_nodes] in *; [lia|].
  apply andb_prop in H. destruct H as [H Hr]. apply andb_prop in H. destruct H as [Hk _].
  apply N.ltb_lt in Hk. specialize (IH _ Hr). lia.
Qed.

(* Where a part (or element) of g ends: part_ok stops at a token whose tag belongs to an enclosing
   level (outer), or to g itself at a position not above the last one (the next element). *)
Definition disj (a b : list N) : Prop := forall x, In x a -> ~ In x b.
Definition rest_ok (g : gmeta) (outer : list N) (lastf : N) (rp : list (N * list N)) : Prop :=
  match rp with
  | [] => True
  | (f, _) :: _ => In f outer \/ exists tr, find_trait (g_traits g) f = Some tr /\ t_pos tr <= lastf
  end.
Definition head_in (outer : list N) (rp : list (N * list N)) : Prop :=
  match rp with [] => True | (f, _) :: _ => In f outer end.

Lemma rest_ok_head g outer lastf rp : rest_ok g outer lastf rp -> head_in (tags g ++ outer) rp.
Proof.
  destruct rp as [|[f v] rp]; [trivial|]. cbn [rest_ok head_in]. intros H. apply in_or_app.
  destruct H as [Hin|(tr & Htr & _)]; [right; exact Hin|left; apply (find_trait_In _ _ _ Htr)].
Qed.
Lemma head_in_nodes g outer ns rp : Forall (fun x => wf_node g x = true) ns ->
  (ns = [] -> head_in (tags g ++ outer) rp) -> head_in (tags g ++ outer) (P ns ++ rp).
Proof.
  intros Hw Hrp. destruct Hw as [|[k f rv els] ns Hx _]; [exact (Hrp eq_refl)|].
  cbn [flat_map npairs app head_in]. apply in_or_app. left. exact (node_tag_in g _ Hx).
Qed.

(* part_ok on the token of node x followed by its elements: one turn, then the tokens after x.
   Fuel: two units per token, one for part_ok's turn and one for the elems_ok turn of an element. *)
Definition node_acc (x : tnode) : Prop :=
  forall g outer last rp off fuel,
    wf_meta outer g = true -> disj (tags g) outer -> last < n_key x -> wf_node g x = true ->
    head_in (tags g ++ outer) rp -> (2 * length (npairs x) <= fuel)%nat ->
    exists off', part_ok (S fuel) g last (offs off (npairs x ++ rp)) = part_ok fuel g (n_key x) (offs off' rp).

Lemma part_ok_acc g outer : forall ns last rp off fuel,
  Forall node_acc ns -> wf_meta outer g = true -> disj (tags g) outer ->
  wf_nodes g last ns = true -> rest_ok g outer (last_key last ns) rp ->
  (2 * length (P ns) + 1 <= fuel)%nat ->
  exists off', part_ok fuel g last (offs off (P ns ++ rp)) = Some (offs off' rp).
Proof.
  induction ns as [|x ns IH]; intros last rp off fuel Hacc Hwm Hdj Hwf Hrest Hfuel; (destruct fuel as [|fuel]; [lia|]).
  - (* no node left: the part ends at the next token *)
    cbn [flat_map app]. exists off.
    destruct rp as [|[f v] rp]; [reflexivity|]. rewrite offs_cons. cbn [part_ok fst snd k_tag].
    cbn [rest_ok last_key] in Hrest. destruct Hrest as [Hin|(tr & Htr & Hle)].
    + rewrite find_trait_notin; [reflexivity|]. intros Hc. exact (Hdj f Hc Hin).
    + rewrite Htr. replace (t_pos tr <=? last) with true by (symmetry; apply N.leb_le; assumption). reflexivity.
  - pose proof (wf_nodes_each g _ _ Hwf) as Hall.
    cbn [wf_nodes] in Hwf. apply andb_prop in Hwf. destruct Hwf as [Hwf Hns]. apply andb_prop in Hwf. destruct Hwf as [Hk Hx].
    apply N.ltb_lt in Hk. rewrite P_cons, app_length in Hfuel. rewrite P_cons, <- app_assoc.
    assert (Hhead : head_in (tags g ++ outer) (P ns ++ rp)).
    { apply head_in_nodes; [exact (Forall_inv_tail Hall)|]. intros ->. exact (rest_ok_head _ _ _ _ Hrest). }
    destruct (Forall_inv Hacc g outer last (P ns ++ rp) off fuel Hwm Hdj Hk Hx Hhead) as [off1 ->]; [lia|].
    apply IH; try assumption; [exact (Forall_inv_tail Hacc)|destruct x; cbn [npairs length] in Hfuel; lia].
Qed.

Lemma elems_ok_acc sg outer : forall els rp off fuel,
  Forall (Forall node_acc) els -> wf_meta outer sg = true -> disj (tags sg) outer ->
  wf_elems sg els = true -> head_in outer rp ->
  (2 * length (PE els) + 2 <= fuel)%nat ->
  exists off', elems_ok fuel sg (lenN els) (offs off (PE els ++ rp)) = Some (offs off' rp).
Proof.
  induction els as [|e es IH]; intros rp off fuel Hacc Hwm Hdj Hwf Hrp Hfuel; (destruct fuel as [|fuel]; [lia|]).
  - cbn [elems_ok lenN PE flat_map app N.eqb]. eexists. reflexivity.
  - cbn [wf_elems] in Hwf. apply andb_prop in Hwf. destruct Hwf as [Hwf Hes].
    apply andb_prop in Hwf. destruct Hwf as [Hk1 He].
    destruct e as [|x e']; [discriminate|]. apply N.eqb_eq in Hk1.
    destruct (wf_node_trait sg x (Forall_inv (wf_nodes_each sg _ _ He))) as (tr & Etr & Hpos).
    destruct (wf_meta_parts _ _ Hwm) as (_ & Hndp & _).
    pose proof (first_tag_unique sg (n_tag x) tr Hndp Etr ltac:(congruence)) as Hft.
    rewrite PE_cons, app_length in Hfuel. rewrite PE_cons, <- app_assoc.
    (* what follows the element: the next element's first field (position 1), or the enclosing level *)
    assert (Hrest : rest_ok sg outer (last_key 0 (x :: e')) (PE es ++ rp)).
    { destruct es as [|e2 es2].
      - cbn [PE flat_map app]. destruct rp as [|[f2 v2] rp2]; [exact I|]. left. exact Hrp.
      - cbn [wf_elems] in Hes. apply andb_prop in Hes. destruct Hes as [Hes _]. apply andb_prop in Hes. destruct Hes as [Hk2 He2].
        destruct e2 as [|x2 e2']; [discriminate|]. apply N.eqb_eq in Hk2.
        destruct (wf_node_trait sg x2 (Forall_inv (wf_nodes_each sg _ _ He2))) as (tr2 & Etr2 & Hpos2).
        destruct x2 as [k2 f2 rv2 els2]. rewrite PE_cons, P_cons. cbn [npairs app rest_ok]. right.
        exists tr2. split; [exact Etr2|].
        cbn [wf_nodes] in He. apply andb_prop in He. destruct He as [_ He'].
        pose proof (last_key_ge sg _ _ He'). cbn [last_key n_key] in *. lia. }
    destruct (part_ok_acc sg outer (x :: e') 0 (PE es ++ rp) off fuel (Forall_inv Hacc) Hwm Hdj He Hrest) as [off1 H1]; [lia|].
    (* progress: the element consumed at least its first token *)
    assert (Hprog : (lenN (offs off1 (PE es ++ rp)) <? lenN (offs off (P (x :: e') ++ PE es ++ rp))) = true).
    { apply N.ltb_lt. rewrite !lenN_length, !offs_length, !app_length. destruct x. cbn [flat_map npairs app length]. lia. }
    remember (offs off (P (x :: e') ++ PE es ++ rp)) as ts eqn:Ets.
    assert (Hts : exists t rest, ts = t :: rest /\ k_tag t = n_tag x).
    { rewrite Ets. destruct x. do 2 eexists. split; reflexivity. }
    destruct Hts as (t & rest & -> & Ht).
    cbn [elems_ok lenN] in *.
    replace (N.succ (lenN es) =? 0) with false by (symmetry; apply N.eqb_neq; lia).
    rewrite Hft, Ht, N.eqb_refl, H1, Hprog. replace (N.succ (lenN es) - 1) with (lenN es) by lia.
    apply IH; try assumption; [exact (Forall_inv_tail Hacc)|destruct x; cbn [flat_map npairs app length] in Hfuel; lia].
Qed.

Lemma node_acc_all : forall x, node_acc x.
Proof.
  induction x as [k f rv els IH] using tnode_ind'. intros g outer last rp off fuel Hwm Hdj Hk Hx Hhead Hfuel.
  cbn [n_key] in *. rewrite wf_node_unfold in Hx. destruct (find_trait (g_traits g) f) as [tr|] eqn:Etr; [|discriminate].
  apply andb_prop in Hx. destruct Hx as [Hx Hg]. apply andb_prop in Hx. destruct Hx as [Hpos _]. apply N.eqb_eq in Hpos.
  cbn [npairs app] in *. rewrite offs_cons. cbn [part_ok fst snd k_tag k_val]. rewrite Etr.
  replace (t_pos tr <=? last) with false by (symmetry; apply N.leb_gt; lia). rewrite Hpos.
  destruct (t_group tr).
  - destruct (decimal rv) as [cnt|]; [|discriminate].
    destruct (find_sub (g_subs g) f) as [sg|] eqn:Esub; [|discriminate].
    apply andb_prop in Hg. destruct Hg as [Hcnt Hels]. apply N.eqb_eq in Hcnt. subst cnt.
    destruct (wf_meta_parts _ _ Hwm) as (_ & _ & Hsub). destruct (Hsub f sg Esub) as [Hdsg Hwsg].
    change (flat_map (fun e => P e) els) with (PE els) in *.
    destruct (elems_ok_acc sg (tags g ++ outer) els rp (off + lenN (pbytes (f, rv))) fuel IH Hwsg (disjN_spec _ _ Hdsg) Hels Hhead)
      as [off1 ->]; [cbn [length] in Hfuel; lia|].
    exists off1. reflexivity.
  - destruct els; [|discriminate]. eexists. reflexivity.
Qed.

Theorem part_ok_nodes g outer ns last rp off fuel :
  wf_meta outer g = true -> disj (tags g) outer -> wf_nodes g last ns = true ->
  rest_ok g outer (last_key last ns) rp -> (2 * length (P ns) + 1 <= fuel)%nat ->
  exists off', part_ok fuel g last (offs off (P ns ++ rp)) = Some (offs off' rp).
Proof. apply part_ok_acc, Forall_all, node_acc_all. Qed.
