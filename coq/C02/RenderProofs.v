(* render_default satisfies render_ok: int classes re-render canonical non-negative decimal texts
   below 2^31 unchanged, string classes are verbatim. *)
From Coq Require Import NArith ZArith List Bool Lia.
From F8 Require Import Codec.Bytes Codec.Meta Codec.Render Codec.Lemmas C02.Spec_C02 C02.DigitsProofs C02.AuxProofs.
Import ListNotations.
Local Open Scope N_scope.

Lemma render_default_orig_ok c : c_render c = render_default_orig -> render_ok c.
Proof.
  intros E. split.
  - intros ty n Hty Hn. rewrite E. unfold render_default_orig. rewrite Hty. rewrite atoi_i32_orig_itoa by assumption.
    unfold itoa_Z. replace (Z.of_N n <? 0)%Z with false by (symmetry; apply Z.ltb_ge; lia).
    rewrite N2Z.id. reflexivity.
  - intros v. rewrite E. reflexivity.
Qed.

Lemma render_default_ok c : c_render c = render_default -> render_ok c.
Proof.
  intros E. split.
  - intros ty n Hty Hn. rewrite E. unfold render_default. rewrite Hty. rewrite atoi_i32_itoa by assumption.
    unfold itoa_Z. replace (Z.of_N n <? 0)%Z with false by (symmetry; apply Z.ltb_ge; lia).
    rewrite N2Z.id. reflexivity.
  - intros v. rewrite E. reflexivity.
Qed.
