(* The tokenizer of Spec_C02 on a concatenation of printed fields:
   tokenize (flat_map pbytes ps) = Some (offs 0 ps). *)
From Coq Require Import NArith ZArith List Bool Lia.
From F8 Require Import Codec.Bytes Codec.Meta Codec.Encode Codec.Lemmas C02.Spec_C02 C02.DigitsProofs.
Import ListNotations.
Local Open Scope N_scope.

Definition pbytes (p : N * list N) : list N := itoa_N (fst p) ++ EQC :: snd p ++ [SOH].
Fixpoint offs (off : N) (ps : list (N * list N)) : list tok :=
  match ps with
  | [] => []
  | p :: r => let e := off + lenN (pbytes p) in mkTok (fst p) (snd p) off e :: offs e r
  end.
Lemma offs_cons off p r : offs off (p :: r) = mkTok (fst p) (snd p) off (off + lenN (pbytes p)) :: offs (off + lenN (pbytes p)) r.
Proof. reflexivity. Qed.
Definition no_soh (v : list N) : Prop := Forall (fun b => (b =? SOH) = false) v.

Lemma pbytes_len f v : lenN (pbytes (f, v)) = lenN (itoa_N f) + 1 + lenN v + 1.
Proof. unfold pbytes. cbn [fst snd]. rewrite lenN_app. cbn [lenN]. rewrite lenN_app. cbn [lenN]. lia. Qed.
Lemma pbytes_pos p : 0 < lenN (pbytes p).
Proof. destruct p as [f v]. rewrite pbytes_len. lia. Qed.

Lemma scan_digits : forall ds rest off start tag ndig lead0 val tv,
  all_digits ds -> dec_val ds tag = Some tv ->
  scan (ds ++ rest) true off start tag ndig lead0 val =
  scan rest true (off + lenN ds) start tv (ndig + lenN ds)
       (match ds with [] => lead0 | c :: _ => if ndig =? 0 then c =? 48 else lead0 end) val.
Proof.
  induction ds as [|c ds IH]; intros rest off start tag ndig lead0 val tv Hd Hv.
  - cbn [app lenN dec_val] in *. injection Hv as <-. rewrite !N.add_0_r. reflexivity.
  - inversion Hd as [|? ? Hc Hd']; subst. cbn [app scan dec_val lenN] in *. rewrite Hc in *.
    rewrite (IH rest (off + 1) start _ (ndig + 1) _ val tv Hd' Hv).
    replace (off + 1 + lenN ds) with (off + N.succ (lenN ds)) by lia.
    replace (ndig + 1 + lenN ds) with (ndig + N.succ (lenN ds)) by lia.
    f_equal. destruct ds as [|c2 ds2]; [reflexivity|].
    replace (ndig + 1 =? 0) with false by (symmetry; apply N.eqb_neq; lia). reflexivity.
Qed.

Lemma scan_val : forall v rest off start tag ndig lead0 acc,
  no_soh v ->
  scan (v ++ SOH :: rest) false off start tag ndig lead0 acc =
  match scan rest true (off + lenN v + 1) (off + lenN v + 1) 0 0 false [] with
  | Some ts => Some (mkTok tag (rev acc ++ v) start (off + lenN v + 1) :: ts)
  | None => None
  end.
Proof.
  induction v as [|c v IH]; intros rest off start tag ndig lead0 acc Hv.
  - cbn [app scan lenN]. rewrite N.eqb_refl, N.add_0_r, app_nil_r. reflexivity.
  - inversion Hv as [|? ? Hc Hv']; subst. cbn [app scan lenN]. rewrite Hc.
    rewrite (IH rest (off + 1) start tag ndig lead0 (c :: acc) Hv').
    replace (off + 1 + lenN v + 1) with (off + N.succ (lenN v) + 1) by lia.
    cbn [rev]. rewrite <- app_assoc. reflexivity.
Qed.

Lemma scan_field f v rest off :
  no_soh v ->
  scan (pbytes (f, v) ++ rest) true off off 0 0 false [] =
  match scan rest true (off + lenN (pbytes (f, v))) (off + lenN (pbytes (f, v))) 0 0 false [] with
  | Some ts => Some (mkTok f v off (off + lenN (pbytes (f, v))) :: ts)
  | None => None
  end.
Proof.
  intros Hv. unfold pbytes. cbn [fst snd]. rewrite <- app_assoc.
  rewrite (scan_digits (itoa_N f) _ off off 0 0 false [] f (itoa_digits f) (dec_val_itoa f)).
  cbn [app]. pose proof (itoa_nonempty f) as Hne. pose proof (itoa_hd f) as Hhd.
  destruct (itoa_N f) as [|c ds] eqn:E; [congruence|].
  cbn [scan]. change (is_digit EQC) with false. cbn iota. rewrite N.eqb_refl.
  cbn [N.eqb]. 
  assert (Hnd : (0 + lenN (c :: ds) =? 0) = false) by (apply N.eqb_neq; cbn [lenN]; lia).
  rewrite Hnd. cbn [negb andb].
  assert (Hl0 : ((c =? 48) && negb (0 + lenN (c :: ds) =? 1)) = false).
  { destruct (c =? 48) eqn:Ec; [|reflexivity]. apply N.eqb_eq in Ec. cbn [hd] in Hhd. specialize (Hhd Ec). subst f.
    rewrite itoa_small in E by lia. injection E as <- <-. reflexivity. }
  rewrite Hl0. cbn [negb].
  rewrite <- app_assoc. cbn [app]. rewrite scan_val by assumption. cbn [rev app].
  assert (Hlen : lenN (c :: ds ++ EQC :: v ++ [SOH]) = lenN (c :: ds) + 1 + lenN v + 1).
  { change (c :: ds ++ EQC :: v ++ [SOH]) with ((c :: ds) ++ EQC :: v ++ [SOH]).
    rewrite lenN_app. cbn [lenN]. rewrite lenN_app. cbn [lenN]. lia. }
  rewrite Hlen. rewrite !N.add_assoc. reflexivity.
Qed.

Lemma tokenize_flat : forall ps off, Forall (fun p => no_soh (snd p)) ps ->
  scan (flat_map pbytes ps) true off off 0 0 false [] = Some (offs off ps).
Proof.
  induction ps as [|[f v] ps IH]; intros off H; cbn [flat_map offs]; [reflexivity|].
  inversion H as [|? ? Hv H']; subst. cbn [snd] in Hv. rewrite scan_field by assumption.
  rewrite IH by assumption. reflexivity.
Qed.

Lemma offs_app a b off :
  offs off (a ++ b) = offs off a ++ offs (off + lenN (flat_map pbytes a)) b.
Proof.
  revert off. induction a as [|p a IH]; intros off; cbn [app offs flat_map lenN].
  - rewrite N.add_0_r. reflexivity.
  - rewrite IH. rewrite lenN_app. rewrite N.add_assoc. reflexivity.
Qed.

Lemma offs_length off ps : length (offs off ps) = length ps.
Proof. revert off. induction ps as [|p ps IH]; intros off; cbn [offs length]; [reflexivity|rewrite IH; reflexivity]. Qed.
