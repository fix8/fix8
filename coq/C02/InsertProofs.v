(* Whatever the insertion order: MessageBase::add_field keeps _pos sorted by key, and every entry
   sits under the schema position of its field (getPos of its trait). *)
From Coq Require Import NArith ZArith List Bool Lia.
From F8 Require Import Codec.Bytes Codec.Meta Codec.Lemmas.
Import ListNotations.
Local Open Scope N_scope.

Fixpoint sortedb (l : list N) : bool :=
  match l with
  | a :: ((b :: _) as r) => (a <=? b) && sortedb r
  | _ => true
  end.
Definition keys {A} (l : list (N * A)) : list N := map fst l.

(* every _pos entry is filed under getPos of its field's trait (as an unsigned short) *)
Definition filed_ok (fp : list trait) (pos : list (N * (N * list N))) : Prop :=
  forall k f v, In (k, (f, v)) pos -> exists tr, find_trait fp f = Some tr /\ k = pos_key (getPos tr).
Definition pos_inv (m : mbase) : Prop := sortedb (keys (mb_pos m)) = true /\ filed_ok (mb_fp m) (mb_pos m).

Lemma sortedb_cons a l : sortedb (a :: l) = true <-> (match l with b :: _ => a <= b | [] => True end) /\ sortedb l = true.
Proof.
  destruct l as [|b r]; cbn [sortedb]; [tauto|]. rewrite andb_true_iff, N.leb_le. tauto.
Qed.

Lemma insert_sorted {A} (x : A) p : forall l, sortedb (keys l) = true -> sortedb (keys (pos_insert_k p x l)) = true.
Proof.
  induction l as [|[q y] l IH]; intros H; cbn [pos_insert_k]; [reflexivity|].
  destruct (p <? q) eqn:E.
  - cbn [keys map fst]. apply sortedb_cons. split; [apply N.ltb_lt in E; lia|exact H].
  - apply N.ltb_ge in E. cbn [keys map fst] in *. apply sortedb_cons in H. destruct H as [Hh Ht].
    apply sortedb_cons. split; [|apply IH; exact Ht].
    destruct l as [|[q2 y2] l2]; cbn [pos_insert_k map fst]; [exact E|].
    destruct (p <? q2); cbn [map fst]; [exact E|exact Hh].
Qed.

Lemma insert_in {A} (x : A) p : forall l e, In e (pos_insert_k p x l) -> e = (p, x) \/ In e l.
Proof.
  induction l as [|[q y] l IH]; intros e H; cbn [pos_insert_k] in H.
  - destruct H as [H|[]]; left; symmetry; exact H.
  - destruct (p <? q).
    + destruct H as [H|H]; [left; symmetry; exact H|right; exact H].
    + destruct H as [H|H]; [right; left; exact H|]. destruct (IH e H) as [H1|H1]; [left; exact H1|right; right; exact H1].
Qed.

Lemma sorted_head_le : forall (l : list N) a, sortedb (a :: l) = true -> forall b, In b l -> a <= b.
Proof.
  induction l as [|x l IH]; intros a H b Hb; [destruct Hb|]. apply sortedb_cons in H. destruct H as [Hh Ht].
  destruct Hb as [<-|Hb]; [exact Hh|]. specialize (IH x Ht b Hb). lia.
Qed.
Lemma sorted_delete : forall (l1 : list N) x l2, sortedb (l1 ++ x :: l2) = true -> sortedb (l1 ++ l2) = true.
Proof.
  induction l1 as [|a l1 IH]; intros x l2 H; cbn [app] in *.
  - apply sortedb_cons in H. apply H.
  - pose proof (sorted_head_le _ _ H) as Hle. apply sortedb_cons in H. destruct H as [_ Ht].
    apply sortedb_cons. split; [|apply (IH x l2 Ht)].
    destruct (l1 ++ l2) as [|b r] eqn:E; [exact I|]. apply Hle.
    assert (Hin : In b (l1 ++ l2)) by (rewrite E; left; reflexivity).
    apply in_app_or in Hin. apply in_or_app. destruct Hin as [Hin|Hin]; [left; exact Hin|right; right; exact Hin].
Qed.
Lemma remove_split f : forall l k l', pos_remove f l = (k, l') ->
  l' = l \/ exists l1 x l2, l = l1 ++ x :: l2 /\ l' = l1 ++ l2.
Proof.
  induction l as [|[q [g v]] l IH]; intros k l' H; cbn [pos_remove] in H.
  - injection H as _ <-. left. reflexivity.
  - destruct (g =? f).
    + injection H as _ <-. right. exists [], (q, (g, v)), l. split; reflexivity.
    + destruct (pos_remove f l) as [k0 r'] eqn:E. injection H as _ <-.
      destruct (IH k0 r' eq_refl) as [->|(l1 & x & l2 & -> & ->)]; [left; reflexivity|].
      right. exists ((q, (g, v)) :: l1), x, l2. split; reflexivity.
Qed.
Lemma remove_sorted f l k l' : pos_remove f l = (k, l') -> sortedb (keys l) = true -> sortedb (keys l') = true.
Proof.
  intros H Hs. destruct (remove_split f l k l' H) as [->|(l1 & x & l2 & -> & ->)]; [exact Hs|].
  unfold keys in *. rewrite map_app in *. cbn [map] in Hs. apply (sorted_delete _ _ _ Hs).
Qed.

Lemma remove_in f : forall l k l' e, pos_remove f l = (k, l') -> In e l' -> In e l.
Proof.
  induction l as [|[q [g v]] l IH]; intros k l' e H He; cbn [pos_remove] in H.
  - injection H as _ <-. destruct He.
  - destruct (g =? f).
    + injection H as _ <-. right. exact He.
    + destruct (pos_remove f l) as [k0 r'] eqn:E. injection H as _ <-.
      destruct He as [He|He]; [left; exact He|right; apply (IH k0 r' e eq_refl He)].
Qed.
Lemma remove_key f : forall l k l', pos_remove f l = (Some k, l') -> exists v, In (k, (f, v)) l.
Proof.
  induction l as [|[q [g v]] l IH]; intros k l' H; cbn [pos_remove] in H; [discriminate|].
  destruct (g =? f) eqn:E.
  - injection H as <- _. apply N.eqb_eq in E. subst g. exists v. left. reflexivity.
  - destruct (pos_remove f l) as [k0 r'] eqn:E1. injection H as -> _. destruct (IH k r' eq_refl) as [v0 Hv]. exists v0. right. exact Hv.
Qed.

Lemma find_trait_upd_present fp f' f tr : find_trait fp f = Some tr ->
  exists tr', find_trait (upd_trait (set_present true) fp f') f = Some tr' /\ getPos tr' = getPos tr.
Proof.
  intros H. rewrite find_trait_upd by reflexivity. destruct (N.eqb_spec f f') as [<-|_]; rewrite H; eexists; split; reflexivity.
Qed.

Theorem add_field_keeps_order m f v m' : pos_inv m -> add_field m f v = Ok m' -> pos_inv m'.
Proof.
  intros [Hs Hf]. unfold add_field. destruct (find_trait (mb_fp m) f) as [tr|] eqn:Etr; [|discriminate].
  destruct m as [fp subs fl pos groups unk]. cbn [mb_fp mb_pos] in *.
  assert (Hfiled : forall pos', (forall e, In e pos' -> e = (pos_key (getPos tr), (f, v)) \/ In e pos) ->
                   filed_ok (upd_trait (set_present true) fp f) pos').
  { intros pos' Hin k g w Hk. destruct (Hin _ Hk) as [He|He].
    - injection He as -> -> _. destruct (find_trait_upd_present fp f f tr Etr) as (tr' & H1 & H2). exists tr'. split; [exact H1|rewrite H2; reflexivity].
    - destruct (Hf k g w He) as (tg & Hg1 & Hg2). destruct (find_trait_upd_present fp f g tg Hg1) as (tr' & H1 & H2).
      exists tr'. split; [exact H1|rewrite H2; exact Hg2]. }
  destruct (t_present tr).
  - (* replace *)
    intros H. injection H as <-. unfold replace_field. cbn [mb_fields mb_pos mb_fp].
    destruct (map_find (t_fnum tr) fl); [|split; assumption].
    destruct (pos_remove (t_fnum tr) pos) as [k lr] eqn:Er.
    destruct (find_trait_In _ _ _ Etr) as [_ Hfn].
    rewrite Hfn in *.
    unfold mark_present, pos_insert. cbn [mb_fp mb_pos with_fp with_pos with_fields]. split.
    + apply insert_sorted. apply (remove_sorted f pos k lr Er Hs).
    + assert (Hkey : pos_key (match k with Some q => q | None => getPos tr end) = pos_key (getPos tr)).
      { destruct k as [q|]; [|reflexivity]. destruct (remove_key f pos q lr Er) as [v0 Hv0].
        destruct (Hf q f v0 Hv0) as (t2 & Ht2 & Hq). rewrite Etr in Ht2. injection Ht2 as <-. rewrite Hq.
        unfold pos_key. rewrite N.mod_mod by lia. reflexivity. }
      rewrite Hkey. apply Hfiled. intros e He. destruct (insert_in _ _ _ _ He) as [H1|H1]; [left; exact H1|right; exact (remove_in f pos k lr e Er H1)].
  - intros H. injection H as <-. unfold mark_present, add_field_decoder, pos_insert. cbn [mb_fp mb_pos with_fp with_pos with_fields mb_fields]. split.
    + apply insert_sorted. exact Hs.
    + apply Hfiled. intros e He. apply (insert_in _ _ _ _ He).
Qed.

Lemma create_group_inv g d : pos_inv (create_group g d).
Proof. split; [reflexivity|]. intros k f v H. destruct H. Qed.

(* any sequence of insertions through the API *)
Fixpoint add_all (m : mbase) (l : list (N * list N)) : res mbase :=
  match l with
  | [] => Ok m
  | (f, v) :: r => bind (add_field m f v) (fun m' => add_all m' r)
  end.
Theorem insertion_order_lemma : forall l g d m', add_all (create_group g d) l = Ok m' -> pos_inv m'.
Proof.
  intros l g d. generalize (create_group_inv g d). generalize (create_group g d).
  induction l as [|[f v] l IH]; intros m Hm m' H; cbn [add_all] in H.
  - injection H as <-. exact Hm.
  - destruct (add_field m f v) as [m1| | | |] eqn:E; cbn [bind] in H; try discriminate.
    apply (IH m1 (add_field_keeps_order m f v m1 Hm E) m' H).
Qed.
