(* Proofs about the model of Message::calc_chksum (C07).
   The routine adds the buffer as 32-bit words, so the four byte lanes of the accumulator hold
   the byte sums except for what lane-to-lane carries do to them: a carry out of a lane takes
   256 from its sum, which the result mod 256 does not see, and a carry into a lane adds 1,
   which the routine recovers from ret xor next xor (ret + next) and subtracts at the end. *)
From Coq Require Import ZArith Lia Bool List.
From F8 Require Import C07.Chksum C07.Spec_C07.
Import ListNotations.
Local Open Scope Z_scope.

(* the carry into bit k of a + b *)
Definition carry (a b k : Z) : Z := (a mod 2^k + b mod 2^k) / 2^k.

Lemma carry_01 a b k : 0 <= k -> carry a b k = 0 \/ carry a b k = 1.
Proof.
  intros Hk. unfold carry.
  assert (H : 0 < 2^k) by (apply Z.pow_pos_nonneg; lia).
  pose proof (Z.mod_pos_bound a (2^k) H). pose proof (Z.mod_pos_bound b (2^k) H).
  assert (0 <= (a mod 2^k + b mod 2^k) / 2^k < 2).
  { split. apply Z.div_pos; lia. apply Z.div_lt_upper_bound; lia. }
  lia.
Qed.

Lemma add_div_pow a b k : 0 <= k ->
  (a + b) / 2^k = a / 2^k + b / 2^k + carry a b k.
Proof.
  intros Hk. unfold carry.
  assert (H : 0 < 2^k) by (apply Z.pow_pos_nonneg; lia).
  rewrite (Z.div_mod a (2^k)) at 1 by lia.
  rewrite (Z.div_mod b (2^k)) at 1 by lia.
  replace (2^k * (a / 2^k) + a mod 2^k + (2^k * (b / 2^k) + b mod 2^k))
     with ((a / 2^k + b / 2^k) * 2^k + (a mod 2^k + b mod 2^k)) by ring.
  rewrite Z.div_add_l by lia. ring.
Qed.

Lemma testbit_b2z a k : 0 <= k -> Z.b2z (Z.testbit a k) = (a / 2^k) mod 2.
Proof. intros; apply Z.testbit_spec'; assumption. Qed.

Lemma carry_bit a b k : 0 <= k ->
  Z.b2z (Z.testbit (Z.lxor (Z.lxor a b) (a + b)) k) = carry a b k.
Proof.
  intros Hk. rewrite !Z.lxor_spec.
  pose proof (testbit_b2z a k Hk) as Ha. pose proof (testbit_b2z b k Hk) as Hb.
  pose proof (testbit_b2z (a+b) k Hk) as Hs. rewrite add_div_pow in Hs by assumption.
  destruct (carry_01 a b k Hk) as [Hc|Hc]; rewrite Hc in *;
  destruct (Z.testbit a k), (Z.testbit b k), (Z.testbit (a+b) k); cbn [Z.b2z xorb] in *;
  Z.div_mod_to_equations; lia.
Qed.

Lemma land_pow2 x k : 0 <= k -> Z.land x (2^k) = Z.b2z (Z.testbit x k) * 2^k.
Proof.
  intros Hk. apply Z.bits_inj'. intros n Hn.
  rewrite Z.land_spec, Z.pow2_bits_eqb by assumption.
  destruct (Z.eqb_spec k n) as [->|Hne].
  - rewrite andb_true_r. rewrite Z.mul_pow2_bits by assumption.
    rewrite Z.sub_diag. symmetry. apply Z.b2z_bit0.
  - rewrite andb_false_r. symmetry.
    destruct (Z.lt_ge_cases n k) as [Hlt|Hge].
    + apply Z.mul_pow2_bits_low. assumption.
    + rewrite Z.mul_pow2_bits by assumption.
      destruct (Z.testbit x k); cbn [Z.b2z].
      * replace 1 with (2^0) by reflexivity. apply Z.pow2_bits_false. lia.
      * apply Z.bits_0.
Qed.

Lemma mask_split : OVERFLOW_MASK = Z.lor (Z.lor (2^8) (2^16)) (2^24).
Proof. reflexivity. Qed.

Lemma land_mask x :
  Z.land x OVERFLOW_MASK =
  Z.b2z (Z.testbit x 8) * 2^8 + Z.b2z (Z.testbit x 16) * 2^16 + Z.b2z (Z.testbit x 24) * 2^24.
Proof.
  rewrite mask_split, !Z.land_lor_distr_r, !land_pow2 by lia.
  destruct (Z.testbit x 8), (Z.testbit x 16), (Z.testbit x 24); reflexivity.
Qed.

Lemma mask_bits k : k = 8 \/ k = 16 \/ k = 24 -> Z.testbit OVERFLOW_MASK k = true.
Proof. intros [->|[->| ->]]; reflexivity. Qed.

Lemma mask_step_bit r n k : k = 8 \/ k = 16 \/ k = 24 ->
  Z.b2z (Z.testbit (Z.lxor (Z.lxor (Z.land r OVERFLOW_MASK) (Z.land OVERFLOW_MASK n)) (wrap32 (r + n))) k)
  = carry r n k.
Proof.
  intros Hk. assert (0 <= k < 32) by lia.
  rewrite <- carry_bit by lia.
  rewrite !Z.lxor_spec, !Z.land_spec, (mask_bits k Hk), andb_true_r, andb_true_l.
  unfold wrap32, W32. change 4294967296 with (2^32).
  rewrite Z.mod_pow2_bits_low by lia. reflexivity.
Qed.

Lemma mask_step r n :
  Z.land (Z.lxor (Z.lxor (Z.land r OVERFLOW_MASK) (Z.land OVERFLOW_MASK n)) (wrap32 (r + n))) OVERFLOW_MASK
  = carry r n 8 * 2^8 + carry r n 16 * 2^16 + carry r n 24 * 2^24.
Proof.
  rewrite land_mask, !mask_step_bit by lia. reflexivity.
Qed.

(* the sum of the four byte lanes of a 32-bit word *)
Definition bs32 (y : Z) : Z :=
  y mod 256 + (y / 256) mod 256 + (y / 65536) mod 256 + (y / 16777216) mod 256.

(* A lane is the difference of two successive quotients, so bs32 is linear in the y / 2^8j;
   what those do on a sum is add_div_pow. *)
Lemma bs32_quot y :
  bs32 y = y - 255 * (y / 2^8 + y / 2^16 + y / 2^24) - 256 * (y / 2^32).
Proof.
  unfold bs32. rewrite !Z.mod_eq by lia. rewrite !Z.div_div by lia.
  change (256 * 256) with (2^16). change (65536 * 256) with (2^24). change (16777216 * 256) with (2^32).
  change 65536 with (2^16). change 16777216 with (2^24). change (y / 256) with (y / 2^8).
  ring.
Qed.

Lemma div_add_pow y m e k : 0 <= k <= e -> (y + m * 2^e) / 2^k = y / 2^k + m * 2^(e - k).
Proof.
  intros H. replace e with (e - k + k) at 1 by ring. rewrite Z.pow_add_r, Z.mul_assoc by lia.
  apply Z.div_add. apply Z.pow_nonzero; lia.
Qed.

Lemma bs32_wrap y : bs32 (wrap32 y) = bs32 y.
Proof.
  unfold wrap32. change W32 with (2^32). rewrite Z.mod_eq by lia.
  replace (y - 2^32 * (y / 2^32)) with (y + - (y / 2^32) * 2^32) by ring.
  rewrite !bs32_quot, !div_add_pow by lia. lia.
Qed.

Lemma bs32_lanes b0 b1 b2 b3 :
  0 <= b0 < 256 -> 0 <= b1 < 256 -> 0 <= b2 < 256 -> 0 <= b3 < 256 ->
  bs32 (b0 + 256 * b1 + 65536 * b2 + 16777216 * b3) = b0 + b1 + b2 + b3.
Proof.
  intros H0 H1 H2 H3. set (y := b0 + 256 * b1 + 65536 * b2 + 16777216 * b3). rewrite bs32_quot.
  rewrite <- (Z.div_unique_pos y (2^8) (b1 + 256 * b2 + 65536 * b3) b0) by (subst y; lia).
  rewrite <- (Z.div_unique_pos y (2^16) (b2 + 256 * b3) (b0 + 256 * b1)) by (subst y; lia).
  rewrite <- (Z.div_unique_pos y (2^24) b3 (b0 + 256 * b1 + 65536 * b2)) by (subst y; lia).
  rewrite <- (Z.div_unique_pos y (2^32) 0 y) by (subst y; lia).
  subst y. ring.
Qed.

Lemma bs32_lanes123 x1 x2 x3 : 0 <= x1 < 256 -> 0 <= x2 < 256 -> 0 <= x3 < 256 ->
  bs32 (x1 * 2^8 + x2 * 2^16 + x3 * 2^24) = x1 + x2 + x3.
Proof.
  intros H1 H2 H3.
  replace (x1 * 2^8 + x2 * 2^16 + x3 * 2^24) with (0 + 256 * x1 + 65536 * x2 + 16777216 * x3) by ring.
  rewrite bs32_lanes by lia. ring.
Qed.

(* Congruence mod 256 is [eqm 256] of the standard library.  Its instances for rewriting under
   + and - were declared inside a section there and did not outlive it, hence the declaration
   here.  A congruence is entered with its quotient given. *)
#[local] Existing Instances eqm_setoid Zplus_eqm Zminus_eqm.

Lemma eqm256_intro a b q : a = b + q * 256 -> eqm 256 a b.
Proof. intros ->. apply Z.mod_add. lia. Qed.

Lemma bs32_add r n :
  eqm 256 (bs32 (wrap32 (r + n)))
          (bs32 r + bs32 n + (carry r n 8 + carry r n 16 + carry r n 24)).
Proof.
  apply (eqm256_intro _ _ (- (carry r n 8 + carry r n 16 + carry r n 24 + carry r n 32))).
  rewrite bs32_wrap, !bs32_quot, !add_div_pow by lia. ring.
Qed.

Lemma wrap32_eqm x : eqm 256 (wrap32 x) x.
Proof.
  apply (eqm256_intro _ _ (- (x / W32) * 16777216)).
  unfold wrap32. rewrite Z.mod_eq by (unfold W32; lia). unfold W32. ring.
Qed.

Lemma collapse_bs32 y : eqm 256 (collapse32 y) (bs32 y).
Proof.
  unfold collapse32. rewrite wrap32_eqm, !Z.shiftr_div_pow2 by lia.
  apply (eqm256_intro _ _ (y / 2^8 + y / 2^16 + y / 2^24 + y / 2^32)).
  rewrite bs32_quot. ring.
Qed.

Lemma schar_eqm b : eqm 256 (schar b) b.
Proof.
  unfold schar. destruct (b <? 128); [reflexivity|].
  apply (eqm256_intro _ _ (-1)). ring.
Qed.

Lemma bytesum_app a b : bytesum (a ++ b) = bytesum a + bytesum b.
Proof. unfold bytesum. induction a as [|x a IH]; cbn [app fold_right]; [lia | rewrite IH; lia]. Qed.

Lemma firstn_S_nth {A} (d : A) (l : list A) (n : nat) : (n < length l)%nat ->
  firstn (S n) l = firstn n l ++ [nth n l d].
Proof.
  revert n. induction l as [|x l IH]; intros n Hn; cbn [length] in Hn; [lia|].
  destruct n as [|n]; [reflexivity|].
  change (x :: firstn (S n) l = x :: (firstn n l ++ [nth n l d])).
  rewrite IH by lia. reflexivity.
Qed.

Lemma nth_skipn {A} (d : A) (l : list A) (k n : nat) : nth n (skipn k l) d = nth (k + n) l d.
Proof.
  revert l. induction k as [|k IH]; intros l; [reflexivity|].
  destruct l as [|x l]; cbn [skipn plus nth]; [destruct n; reflexivity | apply IH].
Qed.

Lemma rd_nth mem i : 0 <= i < Z.of_nat (length mem) -> rd mem i = Some (nth (Z.to_nat i) mem 0).
Proof.
  intros Hi. unfold rd. destruct (Z.ltb_spec i 0); [lia|].
  apply nth_error_nth'. lia.
Qed.

Lemma byte_range mem k : bytes_ok mem = true -> (k < length mem)%nat -> 0 <= nth k mem 0 < 256.
Proof.
  unfold bytes_ok. rewrite forallb_forall. intros H Hk.
  specialize (H (nth k mem 0) (nth_In _ _ Hk)). lia.
Qed.

Definition psum (mem : list Z) (off i : Z) : Z := bytesum (sub mem off i).

Lemma psum_0 mem off : psum mem off 0 = 0.
Proof. reflexivity. Qed.

Lemma psum_step mem off i : 0 <= off -> 0 <= i -> off + i < Z.of_nat (length mem) ->
  psum mem off (i + 1) = psum mem off i + nth (Z.to_nat (off + i)) mem 0.
Proof.
  intros Ho Hi Hlt. unfold psum, sub.
  replace (Z.to_nat (i + 1)) with (S (Z.to_nat i)) by lia.
  rewrite (firstn_S_nth 0) by (rewrite skipn_length; lia).
  rewrite bytesum_app, nth_skipn. cbn [bytesum fold_right].
  replace (Z.to_nat off + Z.to_nat i)%nat with (Z.to_nat (off + i)) by lia. lia.
Qed.

Lemma load32_ok mem off ii : bytes_ok mem = true -> 0 <= off -> 0 <= ii ->
  off + ii + 4 <= Z.of_nat (length mem) ->
  exists next, load32 mem (off + ii) = Some next /\
               psum mem off (ii + 4) = psum mem off ii + bs32 next.
Proof.
  intros Hb Ho Hi Hlen. unfold load32.
  rewrite !rd_nth by lia.
  eexists. split; [reflexivity|].
  rewrite bs32_lanes by (apply byte_range; [assumption | lia]).
  replace (ii + 4) with (ii + 1 + 1 + 1 + 1) by ring.
  rewrite !psum_step by lia.
  replace (off + (ii + 1)) with (off + ii + 1) by ring.
  replace (off + (ii + 1 + 1)) with (off + ii + 2) by ring.
  replace (off + (ii + 1 + 1 + 1)) with (off + ii + 3) by ring.
  ring.
Qed.

(* bound on the per-lane carry counters at the loop head with next index ii *)
Definition NB (ii : Z) : Z := if ii =? 0 then 0 else ((ii - 4) mod 256) / 4 + 1.

(* The lane sums of ret count every byte read so far, plus 1 for every carry into a lane
   (bs32_add).  Those carries are what word_step reads off ret xor next xor (ret + next)
   (mask_step) and counts in the lanes x1, x2, x3 of tmp; the flush every 256 bytes moves the
   counts to overflow long before a lane of tmp can itself carry (NB). *)
Definition winv (mem : list Z) (off ii : Z) (st : wstate) : Prop :=
  exists x1 x2 x3,
    w_tmp st = x1 * 2^8 + x2 * 2^16 + x3 * 2^24 /\
    0 <= x1 <= NB ii /\ 0 <= x2 <= NB ii /\ 0 <= x3 <= NB ii /\
    eqm 256 (bs32 (w_ret st)) (psum mem off ii + (w_overflow st + (x1 + x2 + x3))).

Lemma NB_bound ii : 0 <= NB ii <= 64.
Proof. unfold NB. destruct (Z.eqb_spec ii 0); Z.div_mod_to_equations; lia. Qed.

Lemma NB_next k : 0 <= k -> (4 * k) mod 256 <> 0 \/ k = 0 -> NB (4 * k + 4) = NB (4 * k) + 1.
Proof.
  intros Hk H. unfold NB. destruct (Z.eqb_spec (4 * k + 4) 0); [lia|].
  destruct (Z.eqb_spec (4 * k) 0) as [E|E].
  - replace k with 0 by lia. reflexivity.
  - destruct H as [H|H]; [|lia]. replace (4 * k + 4 - 4) with (4 * k) by lia.
    Z.div_mod_to_equations. lia.
Qed.

Lemma winv_init mem off : winv mem off 0 {| w_ret := 0; w_overflow := 0; w_tmp := 0 |}.
Proof.
  exists 0, 0, 0. cbn [w_ret w_overflow w_tmp]. unfold NB. rewrite psum_0.
  repeat split; try lia; reflexivity.
Qed.

Lemma winv_step mem off k st next :
  0 <= k ->
  psum mem off (4 * k + 4) = psum mem off (4 * k) + bs32 next ->
  winv mem off (4 * k) st -> winv mem off (4 * k + 4) (word_step st next (4 * k)).
Proof.
  intros Hk Hps (x1 & x2 & x3 & Htmp & Hx1 & Hx2 & Hx3 & Hsum).
  unfold word_step. rewrite mask_step.
  pose proof (NB_bound (4 * k)) as HNB.
  pose proof (bs32_add (w_ret st) next) as Hadd.
  pose proof (carry_01 (w_ret st) next 8 ltac:(lia)) as Hc1.
  pose proof (carry_01 (w_ret st) next 16 ltac:(lia)) as Hc2.
  pose proof (carry_01 (w_ret st) next 24 ltac:(lia)) as Hc3.
  set (c1 := carry (w_ret st) next 8) in *. set (c2 := carry (w_ret st) next 16) in *.
  set (c3 := carry (w_ret st) next 24) in *.
  assert (Hsum' : eqm 256 (bs32 (wrap32 (w_ret st + next)))
                    (psum mem off (4 * k + 4)
                     + (w_overflow st + (x1 + c1 + (x2 + c2) + (x3 + c3))))).
  { rewrite Hadd, Hsum, Hps. apply (eqm256_intro _ _ 0). ring. }
  assert (Htmp' : wrap32 (w_tmp st + (c1 * 2^8 + c2 * 2^16 + c3 * 2^24))
                  = (x1 + c1) * 2^8 + (x2 + c2) * 2^16 + (x3 + c3) * 2^24).
  { rewrite Htmp. unfold wrap32, W32. rewrite Z.mod_small; lia. }
  rewrite Htmp'.
  destruct (negb (4 * k =? 0) && ((4 * k) mod 256 =? 0)) eqn:Hflush.
  - exists 0, 0, 0. cbn [w_ret w_overflow w_tmp].
    pose proof (NB_bound (4 * k + 4)).
    split; [reflexivity|]. split; [lia|]. split; [lia|]. split; [lia|].
    rewrite Hsum', wrap32_eqm, collapse_bs32, bs32_lanes123 by lia.
    apply (eqm256_intro _ _ 0). ring.
  - assert (HNB' : NB (4 * k + 4) = NB (4 * k) + 1).
    { apply NB_next; [lia|].
      apply andb_false_iff in Hflush. destruct Hflush as [Hf|Hf].
      - right. apply negb_false_iff in Hf. apply Z.eqb_eq in Hf. lia.
      - left. apply Z.eqb_neq in Hf. exact Hf. }
    exists (x1 + c1), (x2 + c2), (x3 + c3). cbn [w_ret w_overflow w_tmp].
    split; [reflexivity|]. split; [lia|]. split; [lia|]. split; [lia|]. exact Hsum'.
Qed.

Lemma hull_within_add h lo hi a b :
  hull_within h lo hi = true -> lo <= a -> a <= b -> b < hi ->
  hull_within (hull_add h a b) lo hi = true.
Proof.
  destruct h as [[x y]|]; cbn [hull_within hull_add]; intros H Ha Hab Hb.
  - apply andb_true_iff in H. destruct H as [H1 H2].
    apply Z.leb_le in H1. apply Z.ltb_lt in H2.
    apply andb_true_iff. split; [apply Z.leb_le | apply Z.ltb_lt]; lia.
  - apply andb_true_iff. split; [apply Z.leb_le | apply Z.ltb_lt]; lia.
Qed.

Lemma word_loop_ok mem off eeii lo hi :
  bytes_ok mem = true -> 0 <= off -> off + eeii <= Z.of_nat (length mem) ->
  lo <= off -> off + eeii <= hi ->
  forall (n fuel : nat) k st h,
    0 <= k -> 4 * k + 4 * Z.of_nat n = eeii -> (n <= fuel)%nat ->
    winv mem off (4 * k) st -> hull_within h lo hi = true ->
    exists st' h', word_loop fuel mem off eeii (4 * k) st h = Some (st', eeii, h')
                   /\ winv mem off eeii st' /\ hull_within h' lo hi = true.
Proof.
  intros Hb Ho Hlen Hlo Hhi. induction n as [|n IH]; intros fuel k st h Hk Heq Hfuel Hinv Hh.
  - assert (E : 4 * k = eeii) by lia. rewrite E in *.
    exists st, h. split; [|split; assumption].
    destruct fuel; cbn [word_loop]; rewrite Z.ltb_irrefl; reflexivity.
  - destruct fuel as [|fuel]; [lia|]. cbn [word_loop].
    destruct (Z.ltb_spec (4 * k) eeii) as [Hlt|Hge]; [|lia].
    destruct (load32_ok mem off (4 * k) Hb Ho ltac:(lia) ltac:(lia)) as (next & Hld & Hps).
    rewrite Hld.
    replace (4 * k + 4) with (4 * (k + 1)) by lia.
    apply IH; try lia.
    + replace (4 * (k + 1)) with (4 * k + 4) by lia. apply winv_step; assumption.
    + apply hull_within_add; [assumption | lia | lia | lia].
Qed.

Lemma tail_loop_ok mem off elen lo hi T :
  bytes_ok mem = true -> 0 <= off -> off + elen <= Z.of_nat (length mem) ->
  lo <= off -> off + elen <= hi ->
  forall (n fuel : nat) i ret h,
    0 <= i -> i + Z.of_nat n = elen -> (n <= fuel)%nat ->
    eqm 256 ret (T + psum mem off i) -> hull_within h lo hi = true ->
    exists ret' h', tail_loop fuel mem off elen i ret h = Some (ret', h')
                    /\ eqm 256 ret' (T + psum mem off elen)
                    /\ hull_within h' lo hi = true.
Proof.
  intros Hb Ho Hlen Hlo Hhi. induction n as [|n IH]; intros fuel i ret h Hi Heq Hfuel Hinv Hh.
  - assert (E : i = elen) by lia. subst i.
    exists ret, h. split; [|split; assumption].
    destruct fuel; cbn [tail_loop]; rewrite Z.ltb_irrefl; reflexivity.
  - destruct fuel as [|fuel]; [lia|]. cbn [tail_loop].
    destruct (Z.ltb_spec i elen) as [Hlt|Hge]; [|lia].
    rewrite rd_nth by lia.
    apply IH; try lia.
    + rewrite wrap32_eqm, schar_eqm, Hinv, psum_step by lia.
      apply (eqm256_intro _ _ 0). ring.
    + apply hull_within_add; [assumption | lia | lia | lia].
Qed.

Lemma chk_run fixed mem sz off len elen :
  elen_of fixed sz off len = elen ->
  bytes_ok mem = true -> 0 <= off -> 0 <= elen -> off + elen <= Z.of_nat (length mem) ->
  exists h, calc_chksum_gen fixed mem sz off len = Some (psum mem off elen mod 256, h)
            /\ hull_within h off (off + elen) = true.
Proof.
  intros He Hb Ho Hel Hlen. unfold calc_chksum_gen. rewrite He.
  set (eeii := elen - elen mod 8).
  assert (Hee : 0 <= eeii <= elen) by (subst eeii; Z.div_mod_to_equations; lia).
  (* the word loop: eeii / 4 iterations from index 0, inside the buffer and inside the window *)
  assert (Hwords : 4 * 0 + 4 * Z.of_nat (Z.to_nat (eeii / 4)) = eeii)
    by (subst eeii; Z.div_mod_to_equations; lia).
  assert (Hwfuel : (Z.to_nat (eeii / 4) <= S (length mem))%nat) by lia.
  assert (Hwlen : off + eeii <= Z.of_nat (length mem)) by lia.
  assert (Hwhi : off + eeii <= off + elen) by lia.
  destruct (word_loop_ok mem off eeii off (off + elen) Hb Ho Hwlen (Z.le_refl off) Hwhi
              (Z.to_nat (eeii / 4)) (S (length mem)) 0 {| w_ret := 0; w_overflow := 0; w_tmp := 0 |} None
              (Z.le_refl 0) Hwords Hwfuel (winv_init mem off) eq_refl)
    as (st' & h1 & Hwl & Hinv & Hh1).
  change (4 * 0) with 0 in Hwl. rewrite Hwl.
  destruct Hinv as (x1 & x2 & x3 & Htmp & Hx1 & Hx2 & Hx3 & Hsum).
  pose proof (NB_bound eeii) as HNB.
  (* the byte loop: the elen - eeii < 8 bytes that are left, from index eeii *)
  assert (Hbytes : eeii + Z.of_nat (Z.to_nat (elen - eeii)) = elen) by lia.
  assert (Htfuel : (Z.to_nat (elen - eeii) <= S (length mem))%nat) by lia.
  destruct (tail_loop_ok mem off elen off (off + elen) (w_overflow st' + (x1 + x2 + x3))
              Hb Ho Hlen (Z.le_refl off) (Z.le_refl (off + elen))
              (Z.to_nat (elen - eeii)) (S (length mem)) eeii (collapse32 (w_ret st')) h1
              (proj1 Hee) Hbytes Htfuel) as (ret' & h2 & Htl & Hfin & Hh2).
  { rewrite collapse_bs32, Hsum. apply (eqm256_intro _ _ 0). ring. }
  { exact Hh1. }
  rewrite Htl. exists h2. split; [|exact Hh2].
  f_equal. f_equal.
  change 255 with (Z.ones 8). rewrite Z.land_ones by lia.
  change (eqm 256 (wrap32 (ret' - wrap32 (w_overflow st' + collapse32 (w_tmp st')))) (psum mem off elen)).
  rewrite !wrap32_eqm, Hfin, collapse_bs32, Htmp, bs32_lanes123 by lia.
  apply (eqm256_intro _ _ 0). ring.
Qed.

Lemma chk_run_ok mem sz off len :
  elen_of true sz off len = range_len sz off len ->
  bytes_ok mem = true -> 0 <= off -> 0 <= range_len sz off len ->
  off + range_len sz off len <= Z.of_nat (length mem) ->
  c07_ok mem sz off len (calc_chksum mem sz off len) = true.
Proof.
  intros He Hb Ho Hel Hlen.
  destruct (chk_run true mem sz off len (range_len sz off len) He Hb Ho Hel Hlen) as (h & Hrun & Hh).
  unfold calc_chksum. rewrite Hrun. unfold c07_ok, c07_spec.
  rewrite Hh. unfold psum. rewrite Z.eqb_refl. reflexivity.
Qed.

Lemma c07_len_lemma mem sz off len :
  bytes_ok mem = true -> 0 <= off -> 0 <= len < 2147483648 ->
  off + len <= Z.of_nat (length mem) ->
  c07_ok mem sz off len (calc_chksum mem sz off len) = true.
Proof.
  intros Hb Ho Hl Hlen.
  assert (Hne : (len =? -1) = false) by (apply Z.eqb_neq; lia).
  assert (Hr : range_len sz off len = len) by (unfold range_len; rewrite Hne; reflexivity).
  apply chk_run_ok; rewrite ?Hr; try assumption; try lia.
  unfold elen_of, W64. rewrite Hne. apply Z.mod_small. lia.
Qed.

Lemma c07_nolen_lemma mem sz off :
  bytes_ok mem = true -> 0 <= off <= sz -> sz <= Z.of_nat (length mem) -> sz < W64 ->
  c07_ok mem sz off (-1) (calc_chksum mem sz off (-1)) = true.
Proof.
  intros Hb Ho Hsz H64.
  assert (Hr : range_len sz off (-1) = sz - off) by reflexivity.
  apply chk_run_ok; rewrite ?Hr; try assumption; try lia.
  unfold elen_of. rewrite Z.eqb_refl. apply Z.mod_small. lia.
Qed.
