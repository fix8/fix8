(* Link between the model (all schedules) and the extracted oracle of Spec_C28, clause by clause:
   when the texts of the calls at enabled levels are pairwise distinct (as in the correspondence
   runs, where each text carries producer and call number), [strike_all] follows the written
   elements producer by producer, so the soundness half of the oracle holds in every state that
   satisfies [Inv], and the completeness half under the hypotheses of [Inv_all_written_done]. *)
From Coq Require Import ZArith List Bool Arith Lia.
From F8 Require Import C28.Spec_C28 C28.LoggerQ C28.LoggerQProofs.
Import ListNotations.

Lemma text_eqb_refl : forall a, text_eqb a a = true.
Proof. induction a as [|x a IH]; cbn; [reflexivity|]. rewrite Z.eqb_refl, IH. reflexivity. Qed.

Lemma text_eqb_eq : forall a b, text_eqb a b = true -> a = b.
Proof.
  induction a as [|x a IH]; intros [|y b] H; cbn in H; try discriminate; [reflexivity|].
  apply andb_prop in H. destruct H as [H1 H2]. apply Z.eqb_eq in H1. subst. f_equal. apply IH. exact H2.
Qed.

Lemma text_eqb_neq : forall a b, a <> b -> text_eqb a b = false.
Proof. intros a b H. destruct (text_eqb a b) eqn:E; [|reflexivity]. exfalso. apply H. apply text_eqb_eq. exact E. Qed.

Lemma strike_head : forall t r a b, ~ In t (concat a) -> strike t (a ++ (t :: r) :: b) = Some (a ++ r :: b).
Proof.
  induction a as [|[|x xs] a IH]; intros b H; cbn [app strike].
  - rewrite text_eqb_refl. reflexivity.
  - rewrite IH by exact H. reflexivity.
  - rewrite text_eqb_neq by (intro E; apply H; left; exact E).
    rewrite IH; [reflexivity|]. intro Hi. apply H. right. apply in_or_app. right. exact Hi.
Qed.

(* with pairwise distinct texts the list with t at its head is the only one that has t at all *)
Lemma strike_upd : forall Ls i t r, nth_error Ls i = Some (t :: r) -> NoDup (concat Ls) ->
  strike t Ls = Some (upd Ls i r) /\ NoDup (concat (upd Ls i r)).
Proof.
  intros Ls i t r Hn Hd. destruct (upd_split _ Ls i _ r Hn) as [a [b [-> ->]]].
  rewrite concat_app in *. cbn [concat app] in *. split; [|exact (NoDup_remove_1 _ _ _ Hd)].
  apply strike_head. intro H. apply (NoDup_remove_2 _ _ _ Hd). apply in_or_app. left. exact H.
Qed.

(* W: what is written, each element belonging (by [sel]) to one of the lists of Ls, those of list i
   being, in order, the first of it: [strike_all] takes them off, whatever the numbers of the lines *)
Lemma strike_all_spec : forall A (sel : nat -> A -> bool) (txt : A -> text) (W : list A) (f : list (nat * text)) Ls,
  NoDup (concat Ls) -> map snd f = map txt W ->
  (forall i l, nth_error Ls i = Some l -> prefix (map txt (filter (sel i) W)) l) ->
  (forall w, In w W -> exists i, i < length Ls /\ forall j, sel j w = Nat.eqb i j) ->
  exists R, strike_all f Ls = Some R /\ length R = length Ls /\
            forall i l, nth_error Ls i = Some l -> nth_error R i = Some (skipn (length (filter (sel i) W)) l).
Proof.
  induction W as [|w W IH]; intros [|[n t] f] Ls Hd Hf Hp Hb; try discriminate.
  - exists Ls. split; [reflexivity|]. split; [reflexivity|]. intros i l E. exact E.
  - injection Hf as -> Hf. cbn [strike_all].
    destruct (Hb w (or_introl eq_refl)) as [i [Hi Hsel]].
    destruct (nth_error Ls i) as [l|] eqn:El; [|apply nth_error_None in El; lia].
    (* w is the first of list i: l = txt w :: written ++ tl *)
    destruct (Hp i l El) as [tl ->]. cbn [filter] in El. rewrite Hsel, Nat.eqb_refl in El. cbn [map app] in El.
    destruct (strike_upd _ _ _ _ El Hd) as [S1 S2]. rewrite S1.
    destruct (IH f _ S2 Hf) as [R [R1 [R2 R3]]].
    + intros j l' Ej. destruct (Nat.eq_dec i j) as [<-|Hij].
      * rewrite (upd_same _ _ _ _ _ El) in Ej. injection Ej as <-. exists tl. reflexivity.
      * rewrite (upd_other _ _ _ _ _ Hij) in Ej. specialize (Hp j l' Ej). cbn [filter] in Hp.
        rewrite Hsel, (proj2 (Nat.eqb_neq i j) Hij) in Hp. exact Hp.
    + intros w' Hw'. rewrite upd_length. apply Hb. right. exact Hw'.
    + exists R. split; [exact R1|]. split; [rewrite R2; apply upd_length|].
      intros j l' Ej. cbn [filter]. rewrite Hsel. destruct (Nat.eq_dec i j) as [<-|Hij].
      * (* one more of list i is written, and l' has that one at its head: both sides skip it *)
        rewrite Nat.eqb_refl. rewrite El in Ej. injection Ej as <-. apply R3, (upd_same _ _ _ _ _ El).
      * rewrite (proj2 (Nat.eqb_neq i j) Hij). apply R3. rewrite (upd_other _ _ _ _ _ Hij). exact Ej.
Qed.

Lemma must_write_elems : forall d m vf i p k, must_write d m vf i k p = map (line_of d) (elems m vf i k p).
Proof.
  induction p as [|[lev t] p IH]; intros k; cbn [must_write map elems]; [reflexivity|].
  destruct (enabled m lev); cbn [map]; [f_equal|]; apply IH.
Qed.

Lemma nth_must_all : forall d m vf ps j i, nth_error (must_all d m vf j ps) i =
  option_map (must_write d m vf (j + i) 0) (nth_error ps i).
Proof.
  induction ps as [|p ps IH]; intros j [|i]; cbn [must_all nth_error option_map]; try reflexivity.
  - rewrite Nat.add_0_r. reflexivity.
  - rewrite IH, Nat.add_succ_r. reflexivity.
Qed.

Lemma must_all_length : forall d m vf ps j, length (must_all d m vf j ps) = length ps.
Proof. induction ps as [|p ps IH]; intros j; cbn; [reflexivity|]. rewrite IH. reflexivity. Qed.

Lemma seq_ok_seq : forall (l : list (nat * text)) k, map fst l = seq k (length l) -> seq_ok k l = true.
Proof.
  induction l as [|[s t] l IH]; intros k H; cbn; [reflexivity|]. cbn in H. injection H as -> H.
  rewrite Nat.eqb_refl. cbn. apply IH. exact H.
Qed.

Lemma starts_in_line : forall x, starts_in (line_of true x) = uses_seq true x.
Proof.
  intros x. unfold line_of, rest, tag, uses_seq. destruct (Z.eqb (q_val x) 0); reflexivity.
Qed.

Lemma seq_ok_dir_nums : forall W (f : list (nat * text)) s o,
  map fst f = nums true s o W -> map snd f = map (line_of true) W -> seq_ok_dir s o f = true.
Proof.
  induction W as [|x W IH]; intros [|[n r] f] s o H1 H2; cbn [map nums fst snd] in *; try discriminate; [reflexivity|].
  injection H2 as -> H2. cbn [seq_ok_dir]. change (tag (q_val x) ++ 32%Z :: q_text x) with (line_of true x). rewrite starts_in_line.
  destruct (uses_seq true x); injection H1 as -> H1; rewrite Nat.eqb_refl; cbn [andb]; apply IH; assumption.
Qed.

Section Reached.
Context {m : Z} {d : bool} {vf : valfn} {ps : list prog} {c : config} (HI : Inv m d vf ps c).

Lemma numbers_ok_file : numbers_ok d (file c) = true.
Proof.
  destruct (i_file HI) as [_ [F1 [F2 _]]]. unfold numbers_ok. revert HI F1 F2. destruct d; intros HI F1 F2.
  - exact (seq_ok_dir_nums _ _ _ _ F2 F1).
  - apply seq_ok_seq. exact (Inv_numbering_plain _ _ _ _ HI).
Qed.

Lemma strike_file : NoDup (concat (must_all d m vf 0 ps)) ->
  exists R, strike_all (file c) (must_all d m vf 0 ps) = Some R /\ length R = length ps /\
            forall i p, nth_error ps i = Some p ->
              nth_error R i = Some (skipn (length (filter (from i) (wrote c))) (must_write d m vf i 0 p)).
Proof.
  intros Hd. destruct (i_file HI) as [_ [F1 _]].
  destruct (strike_all_spec _ from (line_of d) (wrote c) (file c) _ Hd F1) as [R [R1 [R2 R3]]].
  - intros i l E. rewrite nth_must_all in E. destruct (nth_error ps i) as [p|] eqn:Ep; [|discriminate].
    injection E as <-. rewrite must_write_elems. apply prefix_map. exact (proj1 (Inv_order HI i p Ep)).
  - intros x Hx. destruct (Inv_levels HI x Hx) as [i [k [p [lev [A [B _]]]]]]. exists i.
    split; [rewrite must_all_length; apply nth_error_Some; congruence|].
    intros j. unfold from. rewrite A. reflexivity.
  - exists R. split; [exact R1|]. split; [rewrite R2; apply must_all_length|].
    intros i p Ep. apply R3. rewrite nth_must_all, Ep. reflexivity.
Qed.

Lemma oracle_sound : NoDup (concat (must_all d m vf 0 ps)) -> file_sound d m vf ps (observe c) = true.
Proof.
  intros Hd. unfold file_sound. cbn [observe o_file]. destruct (strike_file Hd) as [R [-> _]].
  rewrite numbers_ok_file. reflexivity.
Qed.

Lemma oracle_complete : NoDup (concat (must_all d m vf 0 ps)) -> stopper c = SDone ->
  (forall i p, nth_error ps i = Some p -> filter (from i) (wrote c) = elems m vf i 0 p) ->
  file_complete d m vf ps (observe c) = true.
Proof.
  intros Hd Hs Hall. unfold file_complete. cbn [observe o_file o_stopped]. rewrite Hs.
  destruct (strike_file Hd) as [R [-> [R2 R3]]]. apply forallb_forall. intros l Hl.
  apply In_nth_error in Hl. destruct Hl as [i Hl].
  destruct (nth_error ps i) as [p|] eqn:Ep.
  - rewrite (R3 i p Ep), (Hall i p Ep), must_write_elems, <- (map_length (line_of d)), skipn_all in Hl.
    injection Hl as <-. reflexivity.
  - apply nth_error_None in Ep. assert (i < length R) by (apply nth_error_Some; congruence). lia.
Qed.
End Reached.

Lemma oracle_ok : forall m d vf ps c1 s2, Inv m d vf ps c1 ->
  NoDup (concat (must_all d m vf 0 ps)) -> no_marker m ps = true ->
  stopper c1 = SIdle -> all_done c1 = true -> stopper (run s2 (step c1 Stop)) = SDone ->
  c28_ok d m vf ps (observe (run s2 (step c1 Stop))) = true.
Proof.
  intros m d vf ps c1 s2 HI1 Hd NM Hidle Hdone Hs.
  assert (HI2 : Inv m d vf ps (run s2 (step c1 Stop))) by (apply Inv_run, Inv_step; exact HI1).
  unfold c28_ok. rewrite (oracle_sound HI2 Hd), (oracle_complete HI2 Hd Hs).
  - apply (Inv_return_ok HI2). apply (all_done_run (Stop :: s2)). exact Hdone.
  - exact (Inv_all_written_done _ _ _ _ _ _ HI1 NM Hidle Hdone Hs).
Qed.
