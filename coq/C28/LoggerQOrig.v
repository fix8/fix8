(* THE CODE AS IT WAS BEFORE THE REPAIRS c53d854 (enqueue's return value) and 4b85524 (consumer
   loop).  Kept only for the witness theorems c28_lost_lines_orig_refuted and
   c28_return_orig_refuted (Props/Properties_C28.v); the model of the current code is C28/LoggerQ.v.

   Model of the asynchronous logger: Logger::send / enqueue / stop (include/fix8/logger.hpp:
   296-312), the consumer loop Logger::operator()() and the "sequence" field of
   process_logline (runtime/logger.cpp:60-134), FIX8_MPMC_SYSTEM == FIX8_MPMC_FF branch,
   as an interleaving model in the convention of DESIGN.md section 4 "Concurrency group":
   [step c t] executes the next atomic action of thread t, a schedule is a list of thread ids,
   [run sched c = fold_left step sched c].  No proofs in this file.

   The queue (ff_unbounded_queue<LogElement> over ff::uMPMC_Ptr_Queue) is abstracted as a FIFO
   list with atomic push and pop; that the real multi-producer queue is linearizable to this
   is the subject of property C30 (coq/C30, c30_ticket_order / c30_exactly_once), cited here as
   the licence for the abstraction, not re-proved.  try_push on the unbounded queue always
   succeeds (allocation failure is not modelled).

   Ghost state: [q_src] of a queue element (which submit call it stems from; None for the
   empty string pushed by stop()), [pushed] (all pushes in order), [wrote] (the elements
   written), [dropped] (the element whose
   empty text made the consumer leave its loop). *)
From Coq Require Import ZArith List Bool Arith.
From F8 Require Import C28.Spec_C28.
Import ListNotations.

Record qelem := { q_src : option (nat * nat); q_text : text }.

Inductive tid := P (i : nat) | Cons | Stop.

(* a producer thread: the submit calls still to make, the number already made, their results *)
Record pstate := { todo : prog; pidx : nat; rets : list bool }.

(* consumer: at the loop test, at try_pop, holding a popped element to write, or exited *)
Inductive cpc := CTest | CPop | CWrite (x : qelem) | CExit.
(* the thread calling stop(): before, after _stopping.request_stop(), after enqueue(""), after join *)
Inductive spc := SIdle | SReq | SPushed | SDone.

Record config := {
  mask : Z;                      (* _levels *)
  prods : list pstate;
  queue : list qelem;            (* _msg_queue *)
  stopping : bool;               (* _stopping *)
  cons : cpc;
  seqno : nat;                   (* _sequence *)
  file : list (nat * text);      (* the log file: sequence field and text of each line *)
  stopper : spc;
  pushed : list qelem;           (* ghost *)
  wrote : list qelem;            (* ghost: the elements written, in order *)
  dropped : list qelem }.        (* ghost *)

Definition init (m : Z) (ps : list prog) : config :=
  {| mask := m; prods := map (fun p => {| todo := p; pidx := O; rets := [] |}) ps;
     queue := []; stopping := false; cons := CTest; seqno := O; file := []; stopper := SIdle;
     pushed := []; wrote := []; dropped := [] |}.

(* _msg_queue.try_push(le): always succeeds *)
Definition try_push (q : list qelem) (x : qelem) : list qelem * bool := (q ++ [x], true).

(* bool enqueue(what, ...) { const LogElement le(...); return _msg_queue.try_push(le) == 0; } *)
Definition enqueue (q : list qelem) (x : qelem) : list qelem * bool :=
  let (q', r) := try_push q x in (q', negb r).          (* "== 0" on a bool *)

Fixpoint upd {A} (l : list A) (i : nat) (x : A) : list A :=
  match l, i with
  | [], _ => []
  | _ :: t, O => x :: t
  | a :: t, S j => a :: upd t j x
  end.

(* producer i makes its next call: send(what, lev) { return is_loggable(lev) ? enqueue(what, lev) : true; } *)
Definition step_prod (c : config) (i : nat) : config :=
  match nth_error (prods c) i with
  | None => c
  | Some ps =>
      match todo ps with
      | [] => c
      | (lev, txt) :: rest =>
          if enabled (mask c) lev then
            let x := {| q_src := Some (i, pidx ps); q_text := txt |} in
            let (q', r) := enqueue (queue c) x in
            {| mask := mask c; prods := upd (prods c) i {| todo := rest; pidx := S (pidx ps); rets := rets ps ++ [r] |};
               queue := q'; stopping := stopping c; cons := cons c; seqno := seqno c; file := file c;
               stopper := stopper c; pushed := pushed c ++ [x]; wrote := wrote c; dropped := dropped c |}
          else
            {| mask := mask c; prods := upd (prods c) i {| todo := rest; pidx := S (pidx ps); rets := rets ps ++ [true] |};
               queue := queue c; stopping := stopping c; cons := cons c; seqno := seqno c; file := file c;
               stopper := stopper c; pushed := pushed c; wrote := wrote c; dropped := dropped c |}
      end
  end.

Definition set_cons (c : config) (k : cpc) : config :=
  {| mask := mask c; prods := prods c; queue := queue c; stopping := stopping c; cons := k; seqno := seqno c;
     file := file c; stopper := stopper c; pushed := pushed c; wrote := wrote c; dropped := dropped c |}.

(* the consumer thread:
     while (!_stopping) {                                  CTest
        if (!_msg_queue.try_pop(msg_ptr)) { hypersleep<h_microseconds>(200); continue; }     CPop
        if (msg_ptr->_str.empty()) break;                  (still CPop: thread-local)
        process_logline(msg_ptr);   // "sequence": ++_sequence, then the text, then endl       CWrite
     }                                                                                          *)
Definition step_cons (c : config) : config :=
  match cons c with
  | CTest => if stopping c then set_cons c CExit else set_cons c CPop
  | CPop =>
      match queue c with
      | [] => set_cons c CTest
      | x :: q' =>
          match q_text x with
          | [] => {| mask := mask c; prods := prods c; queue := q'; stopping := stopping c; cons := CExit;
                     seqno := seqno c; file := file c; stopper := stopper c; pushed := pushed c; wrote := wrote c;
                     dropped := dropped c ++ [x] |}
          | _ :: _ => {| mask := mask c; prods := prods c; queue := q'; stopping := stopping c; cons := CWrite x;
                         seqno := seqno c; file := file c; stopper := stopper c; pushed := pushed c; wrote := wrote c;
                         dropped := dropped c |}
          end
      end
  | CWrite x =>
      {| mask := mask c; prods := prods c; queue := queue c; stopping := stopping c; cons := CTest;
         seqno := S (seqno c); file := file c ++ [(S (seqno c), q_text x)]; stopper := stopper c;
         pushed := pushed c; wrote := wrote c ++ [x]; dropped := dropped c |}
  | CExit => c
  end.

(* void stop() { _stopping.request_stop(); enqueue(std::string()); _thread.join(); } *)
Definition step_stop (c : config) : config :=
  match stopper c with
  | SIdle => {| mask := mask c; prods := prods c; queue := queue c; stopping := true; cons := cons c;
                seqno := seqno c; file := file c; stopper := SReq; pushed := pushed c; wrote := wrote c; dropped := dropped c |}
  | SReq => let x := {| q_src := None; q_text := [] |} in
            let (q', _) := enqueue (queue c) x in
            {| mask := mask c; prods := prods c; queue := q'; stopping := stopping c; cons := cons c;
               seqno := seqno c; file := file c; stopper := SPushed; pushed := pushed c ++ [x]; wrote := wrote c; dropped := dropped c |}
  | SPushed => match cons c with
               | CExit => {| mask := mask c; prods := prods c; queue := queue c; stopping := stopping c; cons := cons c;
                             seqno := seqno c; file := file c; stopper := SDone; pushed := pushed c; wrote := wrote c; dropped := dropped c |}
               | _ => c                                   (* join blocks *)
               end
  | SDone => c
  end.

Definition step (c : config) (t : tid) : config :=
  match t with
  | P i => step_prod c i
  | Cons => step_cons c
  | Stop => step_stop c
  end.

Definition run (sched : list tid) (c : config) : config := fold_left step sched c.

(* what a run shows to the outside (Spec_C28.obs) *)
Definition observe (c : config) : obs :=
  {| o_rets := map rets (prods c); o_file := file c;
     o_stopped := match stopper c with SDone => true | _ => false end |}.

(* ---- schedules used by the correspondence check ------------------------------------------
   The harness lets all producers finish, then calls stop() at once / after a short delay
   (the consumer has then written some number [k] of lines: taken from the observed file) or
   after it has seen the file complete ([drain]).  The order in which the producers' lines
   entered the queue is taken from the observed file ([order]: producer numbers); whatever the
   file does not determine is appended producer by producer. *)

(* P i repeated until producer i has pushed one more line (calls at disabled levels push nothing) *)
Fixpoint until_push (m : Z) (i : nat) (p : prog) : list tid * prog :=
  match p with
  | [] => ([], [])
  | (lev, _) :: rest =>
      if enabled m lev then ([P i], rest)
      else let (s, r) := until_push m i rest in (P i :: s, r)
  end.

Fixpoint sched_pushes (m : Z) (order : list nat) (ps : list prog) : list tid * list prog :=
  match order with
  | [] => ([], ps)
  | i :: more =>
      match nth_error ps i with
      | None => sched_pushes m more ps
      | Some p => let (s, r) := until_push m i p in
                  let (s', ps') := sched_pushes m more (upd ps i r) in (s ++ s', ps')
      end
  end.

Fixpoint sched_rest (i : nat) (ps : list prog) : list tid :=
  match ps with
  | [] => []
  | p :: more => repeat (P i) (length p) ++ sched_rest (S i) more
  end.

Definition total_calls (ps : list prog) : nat := fold_right (fun p n => (length p + n)%nat) O ps.

Definition sched_for (drain : bool) (k : nat) (m : Z) (order : list nat) (ps : list prog) : list tid :=
  let (s1, ps1) := sched_pushes m order ps in
  let producers := s1 ++ sched_rest O ps1 in
  let consumer := if drain then repeat Cons (3 * S (total_calls ps)) else repeat Cons (3 * k) in
  producers ++ consumer ++ [Stop; Cons; Cons; Cons; Stop; Cons; Cons; Cons; Stop].

Definition run_case (drain : bool) (k : nat) (m : Z) (order : list nat) (ps : list prog) : obs :=
  observe (run (sched_for drain k m order ps) (init m ps)).
