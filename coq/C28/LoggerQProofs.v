(* Proofs about the logger model, for ALL schedules, any number of producers, any programs.
   One invariant of the step relation, [Inv], says how the history [pushed] is made up (per
   producer the elements of its calls so far, in call order), where every pushed element is now
   (written, being written, dropped, still queued: in this order), what the file holds, and what
   the stop protocol has established.  The theorems of Props/Properties_C28.v are read off it. *)
From Coq Require Import ZArith List Bool Arith Lia.
From F8 Require Import C28.Spec_C28 C28.LoggerQ.
Import ListNotations.

Definition from (i : nat) (x : qelem) : bool :=
  match q_src x with Some (j, _) => Nat.eqb j i | None => false end.

Fixpoint elems (m : Z) (vf : valfn) (i k : nat) (p : prog) : list qelem :=
  match p with
  | [] => []
  | (lev, t) :: r =>
      if enabled m lev then {| q_src := Some (i, k); q_text := t; q_val := vf i k |} :: elems m vf i (S k) r
      else elems m vf i (S k) r
  end.

(* whether _sequence numbers a written element (otherwise _osequence), and the numbers a sequence
   of written elements gets when the two counters stand at s and o *)
Definition uses_seq (d : bool) (x : qelem) : bool := if d then negb (Z.eqb (q_val x) 0) else true.
Fixpoint nums (d : bool) (s o : nat) (W : list qelem) : list nat :=
  match W with
  | [] => []
  | x :: W' => if uses_seq d x then S s :: nums d (S s) o W' else S o :: nums d s (S o) W'
  end.
Definition cnt (d : bool) (b : bool) (W : list qelem) : nat :=
  length (filter (fun y => Bool.eqb (uses_seq d y) b) W).
Definition line_of (d : bool) (x : qelem) : text := rest d (q_val x) (q_text x).

Definition stream (d b : bool) (W : list qelem) (N : list nat) : list nat :=
  map snd (filter (fun e => Bool.eqb (uses_seq d (fst e)) b) (combine W N)).

Definition prefix {A} (a b : list A) : Prop := exists t, b = a ++ t.

Definition all_done (c : config) : bool :=
  forallb (fun st => match todo st with [] => true | _ => false end) (prods c).

Definition no_marker (m : Z) (ps : list prog) : bool :=
  forallb (fun p => forallb (fun l => negb (enabled m (fst l)) || match snd l with [] => false | _ => true end) p) ps.

Lemma upd_length : forall A (l : list A) i x, length (upd l i x) = length l.
Proof. induction l as [|a l IH]; intros [|i] x; cbn; auto. Qed.

Lemma upd_same : forall A (l : list A) i x y, nth_error l i = Some y -> nth_error (upd l i x) i = Some x.
Proof. induction l as [|a l IH]; intros [|i] x y H; cbn in *; try discriminate; eauto. Qed.

Lemma upd_other : forall A (l : list A) i j x, i <> j -> nth_error (upd l i x) j = nth_error l j.
Proof.
  induction l as [|a l IH]; intros [|i] [|j] x H; cbn; auto; try congruence.
Qed.

Lemma upd_split : forall A (l : list A) i y x, nth_error l i = Some y ->
  exists a b, l = a ++ y :: b /\ upd l i x = a ++ x :: b.
Proof.
  induction l as [|z l IH]; intros [|i] y x H; cbn in H; try discriminate.
  - injection H as ->. exists [], l. split; reflexivity.
  - destruct (IH i y x H) as [a [b [-> E]]]. exists (z :: a), b. cbn. rewrite E. split; reflexivity.
Qed.

Lemma NoDup_app_l : forall A (a b : list A), NoDup (a ++ b) -> NoDup a.
Proof.
  induction a as [|x a IH]; intros b H; [constructor|]. inversion H; subst. constructor.
  - intro Hx. apply H2. apply in_or_app. left. exact Hx.
  - eapply IH; eassumption.
Qed.

Lemma prefix_app_r : forall A (a b t : list A), prefix a b -> prefix a (b ++ t).
Proof. intros A a b t [u ->]. exists (u ++ t). rewrite app_assoc. reflexivity. Qed.

Lemma prefix_filter : forall A (f : A -> bool) a b, prefix a b -> prefix (filter f a) (filter f b).
Proof. intros A f a b [t ->]. exists (filter f t). apply filter_app. Qed.

Lemma prefix_map : forall A B (f : A -> B) a b, prefix a b -> prefix (map f a) (map f b).
Proof. intros A B f a b [t ->]. exists (map f t). apply map_app. Qed.

Lemma prefix_antisym : forall A (a b : list A), prefix a b -> prefix b a -> a = b.
Proof.
  intros A a b [t ->] [u E]. rewrite <- app_assoc, <- (app_nil_r a) in E at 1.
  apply app_inv_head in E. destruct t; [symmetry; apply app_nil_r|discriminate].
Qed.

Lemma prefix_cut : forall A (a w q : list A) x, prefix a (w ++ x :: q) -> ~ In x a -> prefix a w.
Proof.
  induction a as [|y a IH]; intros w q x [t E] Hx; [exists w; reflexivity|].
  destruct w as [|z w]; injection E as <- E.
  - contradiction Hx. left. reflexivity.
  - destruct (IH w q x) as [u ->]; [exists t; exact E|intro H; apply Hx; right; exact H|].
    exists u. reflexivity.
Qed.

Lemma elems_app : forall m vf i a k b, elems m vf i k (a ++ b) = elems m vf i k a ++ elems m vf i (k + length a) b.
Proof.
  induction a as [|[lev t] a IH]; intros k b; cbn [elems app length].
  - rewrite Nat.add_0_r. reflexivity.
  - rewrite IH. replace (S k + length a) with (k + S (length a)) by lia.
    destruct (enabled m lev); reflexivity.
Qed.

Lemma elems_in : forall m vf i p k x, In x (elems m vf i k p) ->
  exists j lev, q_src x = Some (i, k + j) /\ nth_error p j = Some (lev, q_text x) /\ enabled m lev = true.
Proof.
  induction p as [|[lev t] p IH]; intros k x H; cbn [elems] in H; [inversion H|].
  assert (Hp : In x (elems m vf i (S k) p) ->
          exists j l, q_src x = Some (i, k + j) /\ nth_error ((lev, t) :: p) j = Some (l, q_text x) /\ enabled m l = true).
  { intros Hx. destruct (IH _ _ Hx) as [j [l [A B]]]. exists (S j), l. rewrite Nat.add_succ_r. exact (conj A B). }
  destruct (enabled m lev) eqn:E; [|exact (Hp H)].
  destruct H as [<-|H]; [|exact (Hp H)]. exists 0, lev. rewrite Nat.add_0_r. auto.
Qed.

Lemma elems_src_NoDup : forall m vf i p k, NoDup (map q_src (elems m vf i k p)).
Proof.
  induction p as [|[lev t] p IH]; intros k; cbn [elems]; [constructor|].
  destruct (enabled m lev); [|apply IH]. constructor; [|apply IH].
  intro H. apply in_map_iff in H. destruct H as [y [E Hy]].
  destruct (elems_in _ _ _ _ _ _ Hy) as [j [l [A _]]]. rewrite A in E. injection E as E. lia.
Qed.

Lemma NoDup_by_producer : forall l : list qelem,
  (forall x, In x l -> exists i, from i x = true /\ NoDup (map q_src (filter (from i) l))) ->
  NoDup (map q_src l).
Proof.
  induction l as [|x l IH]; intros H; cbn [map]; constructor.
  - intro Hx. apply in_map_iff in Hx. destruct Hx as [y [E Hy]].
    destruct (H x (or_introl eq_refl)) as [i [Fx N]]. cbn [filter] in N. rewrite Fx in N. inversion N; subst.
    apply H2. rewrite <- E. apply in_map. apply filter_In. split; [exact Hy|].
    unfold from in *. rewrite E. exact Fx.
  - apply IH. intros y Hy. destruct (H y (or_intror Hy)) as [i [Fy N]]. exists i. split; [exact Fy|].
    cbn [filter] in N. destruct (from i x); [inversion N; assumption|exact N].
Qed.

Lemma cnt_snoc : forall d b W x, cnt d b (W ++ [x]) = cnt d b W + (if Bool.eqb (uses_seq d x) b then 1 else 0).
Proof.
  intros. unfold cnt. rewrite filter_app, app_length. cbn [filter].
  destruct (Bool.eqb (uses_seq d x) b); reflexivity.
Qed.

Lemma nums_snoc : forall d W s o x,
  nums d s o (W ++ [x]) =
  nums d s o W ++ [S (if uses_seq d x then s + cnt d true W else o + cnt d false W)].
Proof.
  induction W as [|y W IH]; intros s o x; cbn [app nums].
  - unfold cnt. cbn. rewrite !Nat.add_0_r. destruct (uses_seq d x); reflexivity.
  - destruct (uses_seq d y) eqn:Ey; rewrite IH; cbn [app]; do 3 f_equal; unfold cnt; cbn [filter]; rewrite Ey; cbn [Bool.eqb length];
      destruct (uses_seq d x); lia.
Qed.

Lemma nums_plain : forall W s o, nums false s o W = seq (S s) (length W).
Proof. induction W as [|x W IH]; intros s o; cbn; [reflexivity|]. rewrite IH. reflexivity. Qed.

Lemma nums_stream : forall d W s o,
  stream d true W (nums d s o W) = seq (S s) (cnt d true W) /\
  stream d false W (nums d s o W) = seq (S o) (cnt d false W).
Proof.
  unfold stream, cnt. induction W as [|x W IH]; intros s o; cbn [nums combine filter map length fst snd]; [split; reflexivity|].
  destruct (uses_seq d x) eqn:E; cbn [combine filter fst]; rewrite E; cbn [Bool.eqb map snd length seq].
  - destruct (IH (S s) o) as [A B]. rewrite A, B. split; reflexivity.
  - destruct (IH s (S o)) as [A B]. rewrite A, B. split; reflexivity.
Qed.

Lemma rets_ok1_true : forall m p, rets_ok1 m p (map (fun _ => true) p) = true.
Proof. induction p as [|[lev t] p IH]; cbn; [reflexivity|]. rewrite IH. destruct (enabled m lev); reflexivity. Qed.

Definition inflight (k : cpc) : list qelem := match k with CWrite x => [x] | _ => [] end.

(* a queue element is what a submit call at an enabled level pushed, or the marker of stop() *)
Definition origin (m : Z) (ps : list prog) (x : qelem) : Prop :=
  match q_src x with
  | Some (i, k) => exists p lev, nth_error ps i = Some p /\ nth_error p k = Some (lev, q_text x) /\ enabled m lev = true
  | None => q_text x = []
  end.

(* producer i with program p: the calls made, all answered true (by try_push at an enabled level,
   by the constant otherwise), and what it has in the history pu *)
Definition PInv (m : Z) (vf : valfn) (pu : list qelem) (i : nat) (p : prog) (st : pstate) : Prop :=
  exists done, p = done ++ todo st /\ length done = pidx st /\
               rets st = map (fun _ => true) done /\ filter (from i) pu = elems m vf i 0 done.

Definition orel {A B} (R : A -> B -> Prop) (a : option A) (b : option B) : Prop :=
  match a, b with
  | Some x, Some y => R x y
  | None, None => True
  | _, _ => False
  end.

Set Implicit Arguments.
Record Inv (m : Z) (d : bool) (vf : valfn) (ps : list prog) (c : config) : Prop := {
  i_cfg : mask c = m /\ dirflag c = d /\ valf c = vf;
  i_prods : forall i, orel (PInv m vf (pushed c) i) (nth_error ps i) (nth_error (prods c) i);
  i_src : forall x, In x (pushed c) -> origin m ps x;
  i_fifo : pushed c = wrote c ++ inflight (cons c) ++ dropped c ++ queue c;
  i_file : obuf c = [] /\ map snd (file c) = map (line_of d) (wrote c) /\ map fst (file c) = nums d 0 0 (wrote c)
           /\ seqno c = cnt d true (wrote c) /\ oseqno c = cnt d false (wrote c);
  i_text : forall x, In x (wrote c ++ inflight (cons c)) -> q_text x <> [];
  i_drop : forall x, In x (dropped c) -> cons c = CExit /\ q_text x = [];
  i_done : stopper c = SDone -> cons c = CExit;
  (* the stop protocol: a sample of _stopping that is true was taken after the request; the marker
     is pushed after it; [at_stop] is the history at the request; and a consumer that has left its
     loop, not on a producer's element, has written all of [at_stop] *)
  s_flag : stopping c = true -> stopper c <> SIdle;
  s_pop : cons c = CPop true -> stopper c <> SIdle;
  s_idle : stopper c = SIdle -> forall x, In x (pushed c) -> q_src x <> None;
  s_at : prefix (at_stop c) (pushed c) /\ forall x, In x (at_stop c) -> q_src x <> None;
  s_exit : cons c = CExit -> (forall x, In x (dropped c) -> q_src x = None) ->
           stopper c <> SIdle /\ prefix (at_stop c) (wrote c) }.
Unset Implicit Arguments.

Lemma Inv_init : forall m d vf ps, Inv m d vf ps (init m d vf ps).
Proof.
  intros m d vf ps. constructor; cbn; auto; try discriminate; try (intros ? []).
  - intros i. rewrite nth_error_map. destruct (nth_error ps i) as [p|]; cbn; [|exact I].
    exists []. cbn. auto.
  - split; [exists []; reflexivity|intros ? []].
Qed.

Lemma PInv_push_other : forall m vf pu x i a b, from i x = false ->
  orel (PInv m vf pu i) a b -> orel (PInv m vf (pu ++ [x]) i) a b.
Proof.
  intros m vf pu x i [p|] [st|] Hx; cbn; auto. intros [done [A [B [C D]]]]. exists done.
  rewrite filter_app. cbn [filter]. rewrite Hx, app_nil_r. auto.
Qed.

Lemma prods_call : forall m vf ps pu sts i st lev txt rest,
  (forall j, orel (PInv m vf pu j) (nth_error ps j) (nth_error sts j)) ->
  nth_error sts i = Some st -> todo st = (lev, txt) :: rest ->
  let x := {| q_src := Some (i, pidx st); q_text := txt; q_val := vf i (pidx st) |} in
  let pu' := if enabled m lev then pu ++ [x] else pu in
  forall j, orel (PInv m vf pu' j) (nth_error ps j)
                 (nth_error (upd sts i {| todo := rest; pidx := S (pidx st); rets := rets st ++ [true] |}) j).
Proof.
  intros m vf ps pu sts i st lev txt rest H Est Etodo x pu' j. destruct (Nat.eq_dec i j) as [<-|Hij].
  - rewrite (upd_same _ _ _ _ _ Est). specialize (H i). rewrite Est in H.
    destruct (nth_error ps i) as [p|]; [|exact H]. destruct H as [done [Hp [Hlen [Hrets Hfil]]]].
    exists (done ++ [(lev, txt)]). cbn [todo pidx rets].
    split; [rewrite Hp, Etodo, <- app_assoc; reflexivity|].
    split; [rewrite app_length, Hlen; apply Nat.add_1_r|].
    split; [rewrite map_app, Hrets; reflexivity|].
    rewrite elems_app, <- Hfil, Hlen. cbn [elems Nat.add]. subst pu'. destruct (enabled m lev).
    + rewrite filter_app. cbn [filter]. unfold from at 2. cbn [q_src x]. rewrite Nat.eqb_refl. reflexivity.
    + symmetry. apply app_nil_r.
  - rewrite (upd_other _ _ _ _ _ Hij). subst pu'. destruct (enabled m lev); [|apply H].
    apply PInv_push_other; [|apply H]. unfold from. cbn [q_src x]. apply Nat.eqb_neq. exact Hij.
Qed.

(* [fields] computes the fields of the record a step builds *)
Ltac fields := cbn [mask dirflag valf prods queue stopping cons seqno oseqno file obuf stopper
                    pushed wrote dropped at_stop inflight].

Lemma Inv_step_prod : forall m d vf ps c i, Inv m d vf ps c -> Inv m d vf ps (step_prod c i).
Proof.
  intros m d vf ps c i HI. unfold step_prod.
  destruct (nth_error (prods c) i) as [st|] eqn:Est; [|exact HI].
  destruct (todo st) as [|[lev txt] rest] eqn:Etodo; [exact HI|].
  destruct HI as [Hcfg Hpr Hsrc Hfifo Hfile Htext Hdrop Hdn Sflag Spop Sidle [Sat1 Sat2] Sexit].
  (* the producers' part of the invariant after the call, for both cases of the level *)
  pose proof (prods_call _ _ _ _ _ _ _ _ _ _ Hpr Est Etodo) as Hpr'. cbn zeta in Hpr'.
  destruct Hcfg as [Hm [Hd Hv]]. rewrite Hm, Hv. destruct (enabled m lev) eqn:Een.
  - cbn [enqueue try_push]. set (x := {| q_src := Some (i, pidx st); q_text := txt |}) in *.
    constructor; fields; auto.
    + intros y Hy. apply in_app_or in Hy. destruct Hy as [Hy|[<-|[]]]; [exact (Hsrc y Hy)|].
      specialize (Hpr i). rewrite Est in Hpr. destruct (nth_error ps i) as [p|] eqn:Ep; [|contradiction].
      destruct Hpr as [done [Hp [Hlen _]]]. exists p, lev. split; [exact Ep|]. split; [|exact Een].
      rewrite Hp, nth_error_app2, <- Hlen, Nat.sub_diag, Etodo by lia. reflexivity.
    + rewrite Hfifo, <- !app_assoc. reflexivity.
    + intros E y Hy. apply in_app_or in Hy. destruct Hy as [Hy|[<-|[]]]; [exact (Sidle E y Hy)|discriminate].
    + split; [apply prefix_app_r; exact Sat1|exact Sat2].
  - constructor; fields; auto.
Qed.

Lemma in_loop : forall m d vf ps c, Inv m d vf ps c -> cons c <> CExit -> dropped c = [] /\ stopper c <> SDone.
Proof.
  intros m d vf ps c HI H. split; [|intro E; exact (H (i_done HI E))].
  destruct (dropped c) as [|y l] eqn:E; [reflexivity|]. destruct H.
  refine (proj1 (i_drop HI y _)). rewrite E. left. reflexivity.
Qed.

Lemma Inv_step_cons : forall m d vf ps c, Inv m d vf ps c -> Inv m d vf ps (step_cons c).
Proof.
  intros m d vf ps c HI. unfold step_cons, set_cons.
  destruct (cons c) as [|s|x|] eqn:Ec; [| | |exact HI];
    (destruct (in_loop _ _ _ _ _ HI) as [Hd Hns]; [rewrite Ec; discriminate|]);
    destruct HI as [Hcfg Hpr Hsrc Hfifo Hfile Htext Hdrop Hdn Sflag Spop Sidle [Sat1 Sat2] Sexit];
    rewrite Ec, Hd in *; cbn [inflight app] in *.
  - constructor; fields; auto; try (intros; contradiction); try discriminate.
    intros E. injection E as E. exact (Sflag E).
  - destruct (queue c) as [|x q'] eqn:Eq.
    + destruct s; constructor; fields; auto; try (intros; contradiction); try discriminate.
      (* nothing to pop and the sample was true: everything pushed before the request is written *)
      intros _ _. split; [apply Spop; reflexivity|]. rewrite Hfifo, app_nil_r in Sat1. exact Sat1.
    + destruct (q_text x) as [|b bs] eqn:Ex.
      * constructor; fields; auto; try discriminate.
        -- intros y [<-|[]]. auto.
        -- (* if it is the marker, it was pushed after the request and is not part of [at_stop] *)
           intros _ Hx. specialize (Hx x (or_introl eq_refl)).
           assert (Hxp : In x (pushed c)) by (rewrite Hfifo; apply in_or_app; right; left; reflexivity).
           split; [intro E; exact (Sidle E x Hxp Hx)|].
           rewrite Hfifo in Sat1. apply (prefix_cut _ _ _ _ _ Sat1). intro H. exact (Sat2 x H Hx).
      * constructor; fields; auto; try (intros; contradiction); try discriminate.
        intros y Hy. apply in_app_or in Hy. destruct Hy as [Hy|[<-|[]]].
        -- apply Htext. rewrite app_nil_r. exact Hy.
        -- rewrite Ex. discriminate.
  - destruct Hfile as [Hob [Hf1 [Hf2 [Hf3 Hf4]]]]. destruct Hcfg as [Hm [Hcd Hv]].
    rewrite Hcd, Hob. cbn [app]. change (if d then negb (Z.eqb (q_val x) 0) else true) with (uses_seq d x).
    constructor; fields; auto; try (intros; contradiction); try discriminate.
    + rewrite Hfifo, <- app_assoc. reflexivity.
    + rewrite !map_app, Hf1, Hf2, nums_snoc, !cnt_snoc, Hf3, Hf4. cbn [map snd fst Nat.add].
      destruct (uses_seq d x); cbn [Bool.eqb]; repeat split; try reflexivity; lia.
    + rewrite app_nil_r. exact Htext.
Qed.

Lemma Inv_step_stop : forall m d vf ps c, Inv m d vf ps c -> Inv m d vf ps (step_stop c).
Proof.
  intros m d vf ps c HI. unfold step_stop.
  destruct (stopper c) eqn:Es; [| |destruct (cons c) eqn:Ec|]; try exact HI;
    destruct HI as [Hcfg Hpr Hsrc Hfifo Hfile Htext Hdrop Hdn Sflag Spop Sidle [Sat1 Sat2] Sexit].
  - (* request_stop: [at_stop] becomes the history *)
    constructor; fields; auto; try (intros; discriminate).
    + split; [exists []; symmetry; apply app_nil_r|exact (Sidle Es)].
    + intros E Hx. destruct (Sexit E Hx) as [A _]. contradiction.
  - cbn [enqueue try_push]. constructor; fields; auto; try (intros; discriminate).
    + intros j. apply PInv_push_other; [reflexivity|apply Hpr].
    + intros y Hy. apply in_app_or in Hy. destruct Hy as [Hy|[<-|[]]]; [exact (Hsrc y Hy)|reflexivity].
    + rewrite Hfifo, <- !app_assoc. reflexivity.
    + split; [apply prefix_app_r; exact Sat1|exact Sat2].
    + intros E Hx. split; [discriminate|exact (proj2 (Sexit E Hx))].
  - rewrite Ec in *. constructor; fields; auto; try (intros; discriminate).
    intros E Hx. split; [discriminate|exact (proj2 (Sexit E Hx))].
Qed.

Lemma Inv_step : forall m d vf ps c t, Inv m d vf ps c -> Inv m d vf ps (step c t).
Proof.
  intros m d vf ps c [i| |] HI; cbn [step];
    [apply Inv_step_prod|apply Inv_step_cons|apply Inv_step_stop]; exact HI.
Qed.

Lemma Inv_run : forall m d vf ps sched c, Inv m d vf ps c -> Inv m d vf ps (run sched c).
Proof.
  induction sched as [|t sched IH]; intros c HI; cbn; [exact HI|]. apply IH. apply Inv_step. exact HI.
Qed.

Lemma Inv_reach : forall m d vf ps sched, Inv m d vf ps (run sched (init m d vf ps)).
Proof. intros. apply Inv_run. apply Inv_init. Qed.

Lemma all_done_todo : forall c i st, all_done c = true -> nth_error (prods c) i = Some st -> todo st = [].
Proof.
  intros c i st H Hst. unfold all_done in H. rewrite forallb_forall in H.
  specialize (H st (nth_error_In _ _ Hst)). destruct (todo st); [reflexivity|discriminate].
Qed.

Lemma step_frame : forall c t,
  (all_done c = true -> prods (step c t) = prods c) /\
  (stopper c <> SIdle -> at_stop (step c t) = at_stop c /\ stopper (step c t) <> SIdle).
Proof.
  intros c [i| |]; cbn [step].
  - unfold step_prod. destruct (nth_error (prods c) i) as [st|] eqn:Est; [|auto].
    destruct (todo st) as [|[lev txt] rest] eqn:Et; [auto|]. split.
    + intros Hd. rewrite (all_done_todo _ _ _ Hd Est) in Et. discriminate.
    + destruct (enabled (mask c) lev); cbn; auto.
  - unfold step_cons. destruct (cons c) as [|s|x|]; [|destruct (queue c) as [|x q']; [destruct s|destruct (q_text x)]| |];
      cbn; auto.
  - unfold step_stop. destruct (stopper c) eqn:E; [| |destruct (cons c)|]; cbn; rewrite ?E; split; auto;
      try (intros _; split; [reflexivity|discriminate]).
    intros H. contradiction H. reflexivity.
Qed.

Lemma all_done_run : forall s c, all_done c = true -> all_done (run s c) = true.
Proof.
  induction s as [|t s IH]; intros c H; cbn; [exact H|]. apply IH. unfold all_done.
  rewrite (proj1 (step_frame c t) H). exact H.
Qed.

Lemma at_stop_request : forall c1 s2, stopper c1 = SIdle -> at_stop (run s2 (step c1 Stop)) = pushed c1.
Proof.
  intros c1 s2 H.
  assert (G : forall s c, stopper c <> SIdle -> at_stop (run s c) = at_stop c).
  { induction s as [|t s IH]; intros c Hc; cbn; [reflexivity|].
    destruct (proj2 (step_frame c t) Hc) as [A B]. rewrite IH by exact B. exact A. }
  cbn [step]. unfold step_stop. rewrite H, G; [reflexivity|discriminate].
Qed.

Lemma rets_ok_all : forall m ps sts,
  (forall i, orel (fun (p : prog) st => rets st = map (fun _ => true) p) (nth_error ps i) (nth_error sts i)) ->
  rets_ok m ps (map rets sts) = true.
Proof.
  induction ps as [|p ps IH]; intros [|st sts] H; cbn [map rets_ok].
  - reflexivity.
  - destruct (H 0).
  - destruct (H 0).
  - pose proof (H 0) as H0. cbn in H0. rewrite H0, rets_ok1_true. apply IH. intros i. exact (H (S i)).
Qed.

Lemma no_marker_origin : forall m ps x, no_marker m ps = true -> origin m ps x -> q_text x = [] -> q_src x = None.
Proof.
  intros m ps x NM Ho Ht. unfold origin in Ho. destruct (q_src x) as [[i k]|]; [|reflexivity].
  destruct Ho as [p [lev [A [B C]]]]. rewrite Ht in B. unfold no_marker in NM. rewrite forallb_forall in NM.
  specialize (NM p (nth_error_In _ _ A)). rewrite forallb_forall in NM. specialize (NM _ (nth_error_In _ _ B)).
  cbn in NM. rewrite C in NM. discriminate.
Qed.

Section Reached.
Context {m : Z} {d : bool} {vf : valfn} {ps : list prog} {c : config} (HI : Inv m d vf ps c).

Lemma prod_state : forall i p, nth_error ps i = Some p ->
  exists st, nth_error (prods c) i = Some st /\ PInv m vf (pushed c) i p st.
Proof.
  intros i p Hp. pose proof (i_prods HI i) as H. rewrite Hp in H.
  destruct (nth_error (prods c) i) as [st|]; [|contradiction]. exists st. split; [reflexivity|exact H].
Qed.

Lemma Inv_levels : forall x, In x (wrote c) ->
  exists i k p lev, q_src x = Some (i, k) /\ nth_error ps i = Some p /\
                    nth_error p k = Some (lev, q_text x) /\ enabled m lev = true.
Proof.
  intros x Hx.
  assert (Hne : q_text x <> []) by (apply (i_text HI), in_or_app; left; exact Hx).
  assert (Ho : origin m ps x) by (apply (i_src HI); rewrite (i_fifo HI); apply in_or_app; left; exact Hx).
  unfold origin in Ho. destruct (q_src x) as [[i k]|]; [|contradiction].
  destruct Ho as [p [lev H]]. exists i, k, p, lev. split; [reflexivity|exact H].
Qed.

(* order: the written part of a producer's elements is a prefix of the pushed part, which is one of all *)
Lemma Inv_order : forall i p, nth_error ps i = Some p ->
  prefix (filter (from i) (wrote c)) (elems m vf i 0 p) /\
  map snd (file c) = map (line_of d) (wrote c) /\
  map fst (file c) = nums d 0 0 (wrote c).
Proof.
  intros i p Hp. destruct (i_file HI) as [_ [A [B _]]]. split; [|exact (conj A B)].
  destruct (prod_state i p Hp) as [st [_ [done [-> [_ [_ Hfil]]]]]].
  rewrite elems_app, <- Hfil. apply prefix_app_r, prefix_filter. eexists. exact (i_fifo HI).
Qed.

Lemma file_length : length (file c) = length (wrote c).
Proof. destruct (i_file HI) as [_ [A _]]. rewrite <- (map_length snd), A. apply map_length. Qed.

Lemma Inv_numbering_direction :
  stream d true (wrote c) (map fst (file c)) = seq 1 (cnt d true (wrote c)) /\
  stream d false (wrote c) (map fst (file c)) = seq 1 (cnt d false (wrote c)) /\
  length (file c) = length (wrote c).
Proof.
  destruct (i_file HI) as [_ [_ [B _]]]. rewrite B. destruct (nums_stream d (wrote c) 0 0) as [C D].
  exact (conj C (conj D file_length)).
Qed.

(* at most once, from order and levels *)
Lemma Inv_once : NoDup (map q_src (wrote c)).
Proof.
  apply NoDup_by_producer. intros x Hx. destruct (Inv_levels x Hx) as [i [k [p [lev [A [B _]]]]]].
  exists i. split; [unfold from; rewrite A; apply Nat.eqb_refl|].
  destruct (Inv_order i p B) as [[t Ht] _]. pose proof (elems_src_NoDup m vf i p 0) as N.
  rewrite Ht, map_app in N. exact (NoDup_app_l _ _ _ N).
Qed.

Lemma Inv_return : forall i p, nth_error ps i = Some p ->
  exists st done, nth_error (prods c) i = Some st /\ p = done ++ todo st /\ rets st = map (fun _ => true) done.
Proof.
  intros i p Hp. destruct (prod_state i p Hp) as [st [Hst [done [A [_ [B _]]]]]]. exists st, done. auto.
Qed.

Lemma Inv_return_ok : all_done c = true -> rets_ok m ps (map rets (prods c)) = true.
Proof.
  intros Hd. apply rets_ok_all. intros i. pose proof (i_prods HI i) as H.
  destruct (nth_error ps i) as [p|], (nth_error (prods c) i) as [st|] eqn:Est; cbn in *; auto.
  destruct H as [done [A [_ [B _]]]]. rewrite (all_done_todo _ _ _ Hd Est), app_nil_r in A. subst done. exact B.
Qed.

(* stop() drains the queue: when it has returned, what had been pushed when it requested the stop
   is written, in that order.  The consumer has left its loop on the marker or on an empty queue
   with a true sample ([s_exit]): a dropped element is the marker because of [no_marker]. *)
Lemma Inv_drains : no_marker m ps = true -> stopper c = SDone -> prefix (at_stop c) (wrote c).
Proof.
  intros NM Hs. refine (proj2 (s_exit HI (i_done HI Hs) _)). intros x Hx.
  apply (no_marker_origin m ps x NM); [|exact (proj2 (i_drop HI x Hx))].
  apply (i_src HI). rewrite (i_fifo HI), !in_app_iff. auto.
Qed.

Lemma Inv_all_written : no_marker m ps = true -> stopper c = SDone ->
  (forall x, In x (at_stop c) -> In x (wrote c)) /\ NoDup (map q_src (wrote c)).
Proof.
  intros NM Hs. split; [|exact Inv_once]. destruct (Inv_drains NM Hs) as [t E]. intros x Hx.
  rewrite E. apply in_or_app. left. exact Hx.
Qed.
End Reached.

Lemma Inv_numbering_plain : forall m vf ps c, Inv m false vf ps c -> map fst (file c) = seq 1 (length (file c)).
Proof.
  intros m vf ps c HI. rewrite (file_length HI). destruct (i_file HI) as [_ [_ [B _]]]. rewrite B. apply nums_plain.
Qed.

(* stop() called when every producer has made all its calls: what is written of a producer is
   between all its elements (pushed before the request, hence written) and all its elements *)
Lemma Inv_all_written_done : forall m d vf ps c1 s2, Inv m d vf ps c1 -> no_marker m ps = true ->
  stopper c1 = SIdle -> all_done c1 = true ->
  let c2 := run s2 (step c1 Stop) in stopper c2 = SDone ->
  forall i p, nth_error ps i = Some p -> filter (from i) (wrote c2) = elems m vf i 0 p.
Proof.
  intros m d vf ps c1 s2 HI1 NM Hidle Hdone c2 Hs i p Hp.
  assert (HI2 : Inv m d vf ps c2) by (apply Inv_run, Inv_step; exact HI1).
  apply prefix_antisym; [exact (proj1 (Inv_order HI2 i p Hp))|].
  destruct (prod_state HI1 i p Hp) as [st [Hst [done [Hsplit [_ [_ Hfil]]]]]].
  rewrite (all_done_todo _ _ _ Hdone Hst), app_nil_r in Hsplit. subst done.
  rewrite <- Hfil, <- (at_stop_request c1 s2 Hidle). apply prefix_filter. exact (Inv_drains HI2 NM Hs).
Qed.

Local Open Scope Z_scope.

Definition nv_ps : list prog := [[(1, [65]); (0, [66]); (1, [67])]; [(1, [68]); (4, [69])]].

Definition nv_vf (i k : nat) : Z := Z.of_nat ((i + 2 * k) mod 3).
