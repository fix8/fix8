(* THE INTERMEDIATE CODE: after the repairs c53d854 and 4b85524, before aa7ec53 (the loop loaded
   _stopping only AFTER an unsuccessful try_pop).  Kept only for the witness theorem
   c28_stop_window_intermediate_refuted (Props/Properties_C28.v); the current code is C28/LoggerQ.v.

   Model of the asynchronous logger: Logger::send / enqueue / stop (include/fix8/logger.hpp:
   296-312), the consumer loop Logger::operator()() and the "sequence" field of
   process_logline (runtime/logger.cpp:60-140), FIX8_MPMC_SYSTEM == FIX8_MPMC_FF branch,
   as an interleaving model in the convention of DESIGN.md section 4 "Concurrency group":
   [step c t] executes the next atomic action of thread t (one load, one store, one queue
   operation), a schedule is a list of thread ids, [run sched c = fold_left step sched c].
   No proofs in this file.  This is the code after the repairs c53d854 and 4b85524; the code
   before them is C28/LoggerQOrig.v.

   The queue (ff_unbounded_queue<LogElement> over ff::uMPMC_Ptr_Queue) is abstracted as a FIFO
   list with atomic push and pop; that the real multi-producer queue is linearizable to this
   is the subject of property C30 (coq/C30, c30_ticket_order / c30_exactly_once), cited here as
   the licence for the abstraction, not re-proved.  try_push on the unbounded queue always
   succeeds (allocation failure is not modelled).

   Ghost state (never read by the modelled code): [q_src] of a queue element (which submit call
   it stems from; None for the empty string pushed by stop()), [pushed] (all pushes in order),
   [wrote] (the elements written), [dropped] (the element whose empty text made the consumer
   leave its loop), [at_stop] (= [pushed] at the moment stop() executed
   _stopping.request_stop(): the lines "accepted before stop"), [after_stop] (the pushes since
   then) and [win] (the pushes made while the consumer was between a try_pop that found the
   queue empty and the test of _stopping that follows it). *)
From Coq Require Import ZArith List Bool Arith.
From F8 Require Import C28.Spec_C28.
Import ListNotations.

Record qelem := { q_src : option (nat * nat); q_text : text }.

Inductive tid := P (i : nat) | Cons | Stop.

(* a producer thread: the submit calls still to make, the number already made, their results *)
Record pstate := { todo : prog; pidx : nat; rets : list bool }.

(* consumer: at try_pop, after a try_pop that found nothing (about to test _stopping), holding
   a popped element to write, or exited *)
Inductive cpc := CPop | CChk | CWrite (x : qelem) | CExit.
(* the thread calling stop(): before, after _stopping.request_stop(), after enqueue(""), after join *)
Inductive spc := SIdle | SReq | SPushed | SDone.

Record config := {
  mask : Z;                      (* _levels *)
  prods : list pstate;
  queue : list qelem;            (* _msg_queue *)
  stopping : bool;               (* _stopping *)
  cons : cpc;
  seqno : nat;                   (* _sequence *)
  file : list (nat * text);      (* the log file: sequence field and text of each line *)
  stopper : spc;
  pushed : list qelem;           (* ghost *)
  wrote : list qelem;            (* ghost *)
  dropped : list qelem;          (* ghost *)
  at_stop : list qelem;          (* ghost *)
  after_stop : list qelem;       (* ghost *)
  win : list qelem }.            (* ghost *)

Definition init (m : Z) (ps : list prog) : config :=
  {| mask := m; prods := map (fun p => {| todo := p; pidx := O; rets := [] |}) ps;
     queue := []; stopping := false; cons := CPop; seqno := O; file := []; stopper := SIdle;
     pushed := []; wrote := []; dropped := []; at_stop := []; after_stop := []; win := [] |}.

(* _msg_queue.try_push(le): always succeeds *)
Definition try_push (q : list qelem) (x : qelem) : list qelem * bool := (q ++ [x], true).

(* bool enqueue(what, ...) { const LogElement le(...); return _msg_queue.try_push (le); } *)
Definition enqueue (q : list qelem) (x : qelem) : list qelem * bool := try_push q x.

Fixpoint upd {A} (l : list A) (i : nat) (x : A) : list A :=
  match l, i with
  | [], _ => []
  | _ :: t, O => x :: t
  | a :: t, S j => a :: upd t j x
  end.

(* ghost bookkeeping of one push *)
Definition g_after (c : config) (x : qelem) : list qelem :=
  match stopper c with SIdle => after_stop c | _ => after_stop c ++ [x] end.
Definition g_win (c : config) (x : qelem) : list qelem :=
  match cons c with CChk => win c ++ [x] | _ => win c end.

(* producer i makes its next call: send(what, lev) { return is_loggable(lev) ? enqueue(what, lev) : true; } *)
Definition step_prod (c : config) (i : nat) : config :=
  match nth_error (prods c) i with
  | None => c
  | Some ps =>
      match todo ps with
      | [] => c
      | (lev, txt) :: rest =>
          if enabled (mask c) lev then
            let x := {| q_src := Some (i, pidx ps); q_text := txt |} in
            let (q', r) := enqueue (queue c) x in
            {| mask := mask c; prods := upd (prods c) i {| todo := rest; pidx := S (pidx ps); rets := rets ps ++ [r] |};
               queue := q'; stopping := stopping c; cons := cons c; seqno := seqno c; file := file c;
               stopper := stopper c; pushed := pushed c ++ [x]; wrote := wrote c; dropped := dropped c;
               at_stop := at_stop c; after_stop := g_after c x; win := g_win c x |}
          else
            {| mask := mask c; prods := upd (prods c) i {| todo := rest; pidx := S (pidx ps); rets := rets ps ++ [true] |};
               queue := queue c; stopping := stopping c; cons := cons c; seqno := seqno c; file := file c;
               stopper := stopper c; pushed := pushed c; wrote := wrote c; dropped := dropped c;
               at_stop := at_stop c; after_stop := after_stop c; win := win c |}
      end
  end.

Definition set_cons (c : config) (k : cpc) (w : list qelem) : config :=
  {| mask := mask c; prods := prods c; queue := queue c; stopping := stopping c; cons := k; seqno := seqno c;
     file := file c; stopper := stopper c; pushed := pushed c; wrote := wrote c; dropped := dropped c;
     at_stop := at_stop c; after_stop := after_stop c; win := w |}.

(* the consumer thread:
     for (;;) {
        if (!_msg_queue.try_pop(msg_ptr))                  CPop
        {
           if (_stopping) break;    // queue drained        CChk   (a separate load: other threads can run in between)
           hypersleep<h_microseconds>(200); continue;
        }
        if (msg_ptr->_str.empty()) break;                  (still CPop: thread-local)
        process_logline(msg_ptr);   // "sequence": ++_sequence, then the text, then endl       CWrite
     }                                                                                          *)
Definition step_cons (c : config) : config :=
  match cons c with
  | CPop =>
      match queue c with
      | [] => set_cons c CChk []
      | x :: q' =>
          match q_text x with
          | [] => {| mask := mask c; prods := prods c; queue := q'; stopping := stopping c; cons := CExit;
                     seqno := seqno c; file := file c; stopper := stopper c; pushed := pushed c; wrote := wrote c;
                     dropped := dropped c ++ [x]; at_stop := at_stop c; after_stop := after_stop c; win := [] |}
          | _ :: _ => {| mask := mask c; prods := prods c; queue := q'; stopping := stopping c; cons := CWrite x;
                         seqno := seqno c; file := file c; stopper := stopper c; pushed := pushed c; wrote := wrote c;
                         dropped := dropped c; at_stop := at_stop c; after_stop := after_stop c; win := [] |}
          end
      end
  | CChk => if stopping c then set_cons c CExit (win c) else set_cons c CPop []
  | CWrite x =>
      {| mask := mask c; prods := prods c; queue := queue c; stopping := stopping c; cons := CPop;
         seqno := S (seqno c); file := file c ++ [(S (seqno c), q_text x)]; stopper := stopper c;
         pushed := pushed c; wrote := wrote c ++ [x]; dropped := dropped c;
         at_stop := at_stop c; after_stop := after_stop c; win := [] |}
  | CExit => c
  end.

(* void stop() { _stopping.request_stop(); enqueue(std::string()); _thread.join(); } *)
Definition step_stop (c : config) : config :=
  match stopper c with
  | SIdle => {| mask := mask c; prods := prods c; queue := queue c; stopping := true; cons := cons c;
                seqno := seqno c; file := file c; stopper := SReq; pushed := pushed c; wrote := wrote c;
                dropped := dropped c; at_stop := pushed c; after_stop := []; win := win c |}
  | SReq => let x := {| q_src := None; q_text := [] |} in
            let (q', _) := enqueue (queue c) x in
            {| mask := mask c; prods := prods c; queue := q'; stopping := stopping c; cons := cons c;
               seqno := seqno c; file := file c; stopper := SPushed; pushed := pushed c ++ [x]; wrote := wrote c;
               dropped := dropped c; at_stop := at_stop c; after_stop := after_stop c ++ [x]; win := g_win c x |}
  | SPushed => match cons c with
               | CExit => {| mask := mask c; prods := prods c; queue := queue c; stopping := stopping c; cons := cons c;
                             seqno := seqno c; file := file c; stopper := SDone; pushed := pushed c; wrote := wrote c;
                             dropped := dropped c; at_stop := at_stop c; after_stop := after_stop c; win := win c |}
               | _ => c                                   (* join blocks *)
               end
  | SDone => c
  end.

Definition step (c : config) (t : tid) : config :=
  match t with
  | P i => step_prod c i
  | Cons => step_cons c
  | Stop => step_stop c
  end.

Definition run (sched : list tid) (c : config) : config := fold_left step sched c.

(* what a run shows to the outside (Spec_C28.obs) *)
Definition observe (c : config) : obs :=
  {| o_rets := map rets (prods c); o_file := file c;
     o_stopped := match stopper c with SDone => true | _ => false end |}.

(* ---- schedules used by the correspondence check ------------------------------------------
   The harness lets all producers finish and then calls stop() (at once, after a delay, or
   after it has seen the file complete: with the repaired loop that makes no difference to what
   must be in the file).  The order in which the producers' lines entered the queue is taken
   from the observed file ([order]: producer numbers); what the file does not determine is
   appended: first a producer whose next line is an empty text (if the file stops short, that
   is what the logger thread met next), then producer by producer. *)

(* P i repeated until producer i has pushed one more line (calls at disabled levels push nothing) *)
Fixpoint until_push (m : Z) (i : nat) (p : prog) : list tid * prog :=
  match p with
  | [] => ([], [])
  | (lev, _) :: rest =>
      if enabled m lev then ([P i], rest)
      else let (s, r) := until_push m i rest in (P i :: s, r)
  end.

Fixpoint sched_pushes (m : Z) (order : list nat) (ps : list prog) : list tid * list prog :=
  match order with
  | [] => ([], ps)
  | i :: more =>
      match nth_error ps i with
      | None => sched_pushes m more ps
      | Some p => let (s, r) := until_push m i p in
                  let (s', ps') := sched_pushes m more (upd ps i r) in (s ++ s', ps')
      end
  end.

(* is the next line producer p would push an empty text? *)
Fixpoint next_is_marker (m : Z) (p : prog) : bool :=
  match p with
  | [] => false
  | (lev, t) :: rest => if enabled m lev then match t with [] => true | _ => false end
                        else next_is_marker m rest
  end.

Fixpoint first_marker (m : Z) (i : nat) (ps : list prog) : option nat :=
  match ps with
  | [] => None
  | p :: more => if next_is_marker m p then Some i else first_marker m (S i) more
  end.

Fixpoint sched_rest (i : nat) (ps : list prog) : list tid :=
  match ps with
  | [] => []
  | p :: more => repeat (P i) (length p) ++ sched_rest (S i) more
  end.

Definition total_calls (ps : list prog) : nat := fold_right (fun p n => (length p + n)%nat) O ps.

Definition sched_for (m : Z) (order : list nat) (ps : list prog) : list tid :=
  let (s1, ps1) := sched_pushes m order ps in
  let (s2, ps2) := match first_marker m O ps1 with
                   | Some i => sched_pushes m [i] ps1
                   | None => ([], ps1)
                   end in
  let producers := s1 ++ s2 ++ sched_rest O ps2 in
  producers ++ repeat Cons (3 * S (total_calls ps)) ++ [Stop; Cons; Cons; Cons; Stop; Cons; Cons; Cons; Stop].

Definition run_case (m : Z) (order : list nat) (ps : list prog) : obs :=
  observe (run (sched_for m order ps) (init m ps)).
