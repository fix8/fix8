(* C17.  Over a run of plain, NUL-free messages (C16's `after_sends`) the store grows by exactly the application
   messages, each under its own number with exactly its wire bytes (`stored`); hence c17_ok on every history
   START; plain SEND / BATCH / CLOCK.  The code before d862447 stored the flushing message of a batch as the
   empty string (F21). *)
From Coq Require Import NArith ZArith List Bool Lia.
From F8 Require Import Sess.Bytes Sess.Msg Sess.Persist Sess.Session Sess.SimpleCodec Sess.Wire
  Sess.SessLemmas Sess.SendLemmas C16.Spec_C16 C16.C16Proofs C17.Spec_C17.
Import ListNotations.
Local Open Scope N_scope.

Definition keys_below (b : N) (l : list (N * bytes)) : Prop := Forall (fun kv => fst kv < b) l.

Inductive ssorted : list (N * bytes) -> Prop :=
| ss_nil : ssorted []
| ss_cons : forall k v l, ssorted l -> Forall (fun kv => k < fst kv) l -> ssorted ((k, v) :: l).

Lemma store_get_below : forall k l, keys_below k l -> store_get k l = None.
Proof.
  induction l as [|[a v] l IH]; intro H; cbn [store_get]; [reflexivity|].
  inversion H; subst. cbn [fst] in *. destruct (a =? k) eqn:E; [apply N.eqb_eq in E; lia|]. apply IH. assumption.
Qed.

Lemma store_insert_end : forall k v l, keys_below k l -> store_insert k v l = (l ++ [(k, v)])%list.
Proof.
  induction l as [|[a w] l IH]; intro H; cbn [store_insert app]; [reflexivity|].
  inversion H; subst. cbn [fst] in *.
  destruct (k <? a) eqn:E1; [apply N.ltb_lt in E1; lia|].
  destruct (a =? k) eqn:E2; [apply N.eqb_eq in E2; lia|]. rewrite IH by assumption. reflexivity.
Qed.

Lemma keys_below_mono : forall a b l, keys_below a l -> a <= b -> keys_below b l.
Proof. intros a b l H L. unfold keys_below in *. eapply Forall_impl; [|exact H]. cbn. intros; lia. Qed.

Lemma keys_below_app : forall b l k v, keys_below k l -> k < b -> keys_below b (l ++ [(k, v)]).
Proof.
  intros b l k v H L. apply Forall_app. split; [apply (keys_below_mono k); [exact H|lia]|].
  constructor; [exact L|constructor].
Qed.

Lemma ssorted_app : forall l k v, ssorted l -> keys_below k l -> ssorted (l ++ [(k, v)]).
Proof.
  induction l as [|[a w] l IH]; intros k v S H; cbn [app].
  - constructor; constructor.
  - inversion S; subst. inversion H; subst. cbn [fst] in *. constructor.
    + apply IH; assumption.
    + apply Forall_app. split; [assumption|]. constructor; [cbn; lia|constructor].
Qed.

Lemma store_get_app_l : forall k l ext v, store_get k l = Some v -> store_get k (l ++ ext) = Some v.
Proof.
  induction l as [|[a w] l IH]; intros ext v H; cbn [store_get app] in *; [discriminate|].
  destruct (a =? k); [exact H|apply IH; exact H].
Qed.

Lemma store_get_app_r : forall k l ext, store_get k l = None -> store_get k (l ++ ext) = store_get k ext.
Proof.
  induction l as [|[a w] l IH]; intros ext H; cbn [store_get app] in *; [reflexivity|].
  destruct (a =? k); [discriminate|apply IH; exact H].
Qed.

Lemma ssorted_get : forall l k v, ssorted l -> In (k, v) l -> store_get k l = Some v.
Proof.
  induction l as [|[a w] l IH]; intros k v S I; [destruct I|].
  inversion S as [|? ? ? S' B]; subst. cbn [store_get]. destruct I as [I|I].
  - inversion I; subst. rewrite N.eqb_refl. reflexivity.
  - rewrite Forall_forall in B. specialize (B _ I). cbn [fst] in B.
    destruct (a =? k) eqn:E; [apply N.eqb_eq in E; lia|]. apply IH; assumption.
Qed.

Lemma delta_new_prefix : forall pre ext old,
  (forall k v, In (k, v) pre -> store_get k old = Some v) ->
  store_delta_new (pre ++ ext) old = store_delta_new ext old.
Proof.
  induction pre as [|[k v] pre IH]; intros ext old H; cbn [app store_delta_new]; [reflexivity|].
  rewrite (H k v (or_introl eq_refl)). rewrite beq_refl. apply IH. intros; apply H; right; assumption.
Qed.

Lemma delta_new_fresh : forall ext old,
  (forall k v, In (k, v) ext -> store_get k old = None) ->
  store_delta_new ext old = map (fun kv => (fst kv, Some (snd kv))) ext.
Proof.
  induction ext as [|[k v] ext IH]; intros old H; cbn [store_delta_new map]; [reflexivity|].
  rewrite (H k v (or_introl eq_refl)). cbn [fst snd]. f_equal. apply IH. intros; eapply H; right; eassumption.
Qed.

Lemma delta_gone_sub : forall old now,
  (forall k v, In (k, v) old -> exists w, store_get k now = Some w) -> store_delta_gone now old = [].
Proof.
  induction old as [|[k v] old IH]; intros now H; cbn [store_delta_gone]; [reflexivity|].
  destruct (H k v (or_introl eq_refl)) as [w E]. rewrite E. apply IH. intros; eapply H; right; eassumption.
Qed.

Lemma stored_now_map : forall ext, stored_now (map (fun kv : N * bytes => (fst kv, Some (snd kv))) ext) = ext.
Proof. induction ext as [|[k v] ext IH]; cbn; [reflexivity|]. rewrite IH. reflexivity. Qed.

Lemma delta_append : forall l ext,
  ssorted l -> (forall k v, In (k, v) ext -> store_get k l = None) ->
  stored_now (store_delta_new (l ++ ext) l ++ store_delta_gone (l ++ ext) l) = ext.
Proof.
  intros l ext S F.
  rewrite delta_new_prefix by (intros; apply ssorted_get; assumption).
  rewrite delta_new_fresh by exact F.
  rewrite delta_gone_sub.
  - rewrite app_nil_r. apply stored_now_map.
  - intros k v I. exists v. apply store_get_app_l. apply ssorted_get; assumption.
Qed.

(* NUL-free wire bytes: what Persister::put receives as a C string is the whole message *)
Definition nonul (l : bytes) : bool := forallb (fun b => negb (b =? 0)) l.

Lemma cstr_nonul : forall l, nonul l = true -> cstr l = l.
Proof.
  induction l as [|b l IH]; intro H; cbn [cstr]; [reflexivity|].
  cbn [nonul forallb] in H. apply andb_true_iff in H. destruct H as [H1 H2].
  apply negb_true_iff in H1. rewrite H1. f_equal. apply IH. exact H2.
Qed.

Lemma nonul_app : forall a b, nonul (a ++ b) = nonul a && nonul b.
Proof. intros; unfold nonul; apply forallb_app. Qed.

Lemma clean_nonul : forall l, forallb clean l = true -> nonul l = true.
Proof. intros l. apply forallb_impl. intros x H. apply (clean_parts x H). Qed.

Definition vals_nz (l : list field) : bool := forallb (fun f => nonul (f_val f)) l.

Lemma vals_nz_add : forall p t v l, nonul v = true -> vals_nz l = true -> vals_nz (add_field p t v l) = true.
Proof. intros p t v l H. apply forallb_add. intro q. exact H. Qed.

Lemma nonul_pad : forall w n, nonul (pad w n) = true.
Proof. intros. apply clean_nonul, pad_clean. Qed.
Lemma nonul_dec : forall n, nonul (dec n) = true.
Proof. intros. apply clean_nonul, dec_clean. Qed.

Lemma fmt_time_nonul : forall t, nonul (fmt_time t) = true.
Proof.
  intros. unfold fmt_time. destruct (civil_of_days (t / NS / 86400)) as [[y mo] d].
  rewrite !nonul_app. rewrite !nonul_pad. reflexivity.
Qed.

Lemma enc_fields_nonul : forall l, vals_nz l = true -> nonul (enc_fields l) = true.
Proof.
  induction l as [|f l IH]; intro H; cbn [enc_fields flat_map]; [reflexivity|].
  cbn [vals_nz forallb] in H. apply andb_true_iff in H. destruct H as [H1 H2].
  fold (enc_fields l). unfold enc_field. rewrite !nonul_app. rewrite nonul_dec, H1, (IH H2). reflexivity.
Qed.

Definition nz_msg (sc : schema) (m : msg) : bool :=
  nonul (sc_begin sc) && nonul (m_type m) && vals_nz (m_hdr m) && vals_nz (m_body m).

Lemma nz_msg_fields : forall sc m, nz_msg sc m = true ->
  nonul (sc_begin sc) = true /\ nonul (m_type m) = true /\ vals_nz (m_hdr m) = true /\ vals_nz (m_body m) = true.
Proof. intros sc m H. unfold nz_msg in H. repeat (apply andb_true_iff in H; destruct H as [H ?]). auto. Qed.

Lemma encode_nonul : forall sc m, nz_msg sc m = true -> nonul (encode sc m) = true.
Proof.
  intros sc m H. destruct (nz_msg_fields sc m H) as (Nb & Nt & Vh & Vb).
  rewrite encode_eq. unfold preamble, payload, enc_field. rewrite !nonul_app.
  rewrite !nonul_dec, nonul_pad, Nb, Nt, (enc_fields_nonul _ Vh), (enc_fields_nonul _ Vb). reflexivity.
Qed.

Definition nz_sess (s : sess) : bool := nonul (s_snd s) && nonul (s_tgt s).

Lemma stamped_nz : forall sc now s n m, nz_sess s = true -> nz_msg sc m = true -> nz_msg sc (stamped sc now s n m) = true.
Proof.
  intros sc now s n m NS H. apply andb_true_iff in NS. destruct NS as [Ns Nt].
  apply stamped_ind; [exact H|]. intros t v x I Hx. destruct (nz_msg_fields sc x Hx) as (Nb & Ny & Vh & Vb).
  unfold nz_msg. rewrite add_hdr'_type, add_hdr'_body, Nb, Ny, Vb. cbn [andb]. rewrite andb_true_r.
  apply add_hdr'_forallb; [intro q; cbn [f_val]|exact Vh].
  destruct I as [E|[E|[E|[E|[]]]]]; inversion E; subst; try assumption; [apply nonul_dec|apply fmt_time_nonul].
Qed.

Lemma find_def_some : forall t l d, find_def t l = Some d -> In d l /\ d_type d = t.
Proof.
  induction l as [|x l IH]; intros d H; cbn [find_def] in H; [discriminate|].
  destruct (beq (d_type x) t) eqn:E.
  - inversion H; subst. split; [left; reflexivity|apply beq_eq; exact E].
  - destruct (IH d H) as [I T]. split; [right; exact I|exact T].
Qed.

Section P17.
Variable sc : schema.
Hypothesis WS : wf_schema sc = true.
Hypothesis NB : nonul (sc_begin sc) = true.

(* the last conjunct: the schema's admin flag is the session-level classification of the type *)
Definition plain17 (m : msg) : bool :=
  plain_msg m && nonul (m_type m) && vals_nz (m_hdr m) && vals_nz (m_body m) &&
  Bool.eqb (is_admin sc (m_type m)) (session_type (m_type m)).

Lemma plain17_fields : forall m, plain17 m = true ->
  plain_msg m = true /\ nonul (m_type m) = true /\ vals_nz (m_hdr m) = true /\ vals_nz (m_body m) = true /\
  is_admin sc (m_type m) = session_type (m_type m).
Proof.
  intros m H. unfold plain17 in H. do 4 (apply andb_true_iff in H; destruct H as [H ?]).
  repeat split; try assumption. apply Bool.eqb_prop. assumption.
Qed.

Lemma plain17_nz : forall m, plain17 m = true -> nz_msg sc m = true.
Proof. intros m P. destruct (plain17_fields m P) as (_ & Nt & Vh & Vb & _). unfold nz_msg. rewrite NB, Nt, Vh, Vb. reflexivity. Qed.

Lemma plain17_intro : forall m,
  plain_msg m = true -> nz_msg sc m = true -> is_admin sc (m_type m) = session_type (m_type m) -> plain17 m = true.
Proof.
  intros m P Z D. destruct (nz_msg_fields sc m Z) as (_ & A & B & C). unfold plain17. rewrite P, A, B, C, D. apply Bool.eqb_reflx.
Qed.

Lemma wire_nz : forall now s0 n m, nz_sess s0 = true -> plain17 m = true -> nonul (wire_n sc now s0 n m) = true.
Proof. intros now s0 n m NS P. apply encode_nonul, stamped_nz; [exact NS|apply plain17_nz; exact P]. Qed.

Lemma new_msg_of_wire : forall now s0 n m,
  wf_sess s0 = true -> plain_msg m = true ->
  new_msg_of (wire_n sc now s0 n m) = Some (session_type (m_type m), n, wire_n sc now s0 n m).
Proof.
  intros now s0 n m W P. destruct (wire_n_read sc WS now s0 n m W P) as (R43 & R35 & R34).
  unfold new_msg_of. rewrite R43, R35, R34, undec_dec. reflexivity.
Qed.

Definition info := (bool * N * bytes)%type.
Definition i_num (x : info) : N := snd (fst x).

(* infos: classification of the wire messages numbered n, n+1, ...; adds: the application ones *)
Inductive sentrel : N -> list info -> list (N * bytes) -> Prop :=
| sr_nil : forall n, sentrel n [] []
| sr_adm : forall n w infos adds,
    new_msg_of w = Some (true, n, w) -> sentrel (n + 1) infos adds -> sentrel n ((true, n, w) :: infos) adds
| sr_app : forall n w infos adds,
    new_msg_of w = Some (false, n, w) -> sentrel (n + 1) infos adds -> sentrel n ((false, n, w) :: infos) ((n, w) :: adds).

Lemma sentrel_ok : forall n infos adds, sentrel n infos adds ->
  Forall (fun x : info => n <= i_num x /\ new_msg_of (snd x) = Some x) infos /\
  Forall (fun kv => n <= fst kv /\ new_msg_of (snd kv) = Some (false, fst kv, snd kv)) adds /\
  forallb (msg_ok adds) infos = true.
Proof.
  induction 1 as [n|n w infos adds E H (FI & FA & OK)|n w infos adds E H (FI & FA & OK)]; [repeat split; constructor| |];
    assert (FI' : Forall (fun x : info => n <= i_num x /\ new_msg_of (snd x) = Some x) infos)
      by (eapply Forall_impl; [|exact FI]; cbn; intros x [L Q]; split; [lia|exact Q]);
    assert (FA' : Forall (fun kv => n <= fst kv /\ new_msg_of (snd kv) = Some (false, fst kv, snd kv)) adds)
      by (eapply Forall_impl; [|exact FA]; cbn; intros x [L Q]; split; [lia|exact Q]).
  - (* administrative: nothing under its number, nowhere its bytes *)
    split; [constructor; [split; [cbn; lia|exact E]|exact FI']|]. split; [exact FA'|].
    cbn [forallb]. rewrite OK, andb_true_r. unfold msg_ok. apply negb_true_iff, not_true_is_false.
    rewrite existsb_exists. intros ([k' w'] & I & Q). rewrite Forall_forall in FA. destruct (FA _ I) as [L Q'].
    cbn [fst snd] in *. apply orb_true_iff in Q. destruct Q as [Q|Q]; [apply N.eqb_eq in Q; lia|].
    apply beq_eq in Q. subst w'. congruence.
  - (* application: stored; the new entry disturbs the check of no later message *)
    split; [constructor; [split; [cbn; lia|exact E]|exact FI']|]. split; [constructor; [split; [cbn; lia|exact E]|exact FA']|].
    cbn [forallb]. unfold msg_ok at 1. cbn [existsb fst snd]. rewrite N.eqb_refl, beq_refl. cbn [andb orb].
    rewrite forallb_forall in OK |- *. intros [[adm k] w'] I. specialize (OK _ I).
    rewrite Forall_forall in FI. destruct (FI _ I) as [L Q]. unfold i_num in L. cbn [fst snd] in L, Q.
    unfold msg_ok in *. cbn [existsb fst snd]. destruct adm; [|rewrite OK; apply orb_true_r].
    replace (n =? k) with false by (symmetry; apply N.eqb_neq; lia).
    replace (beq w w') with false by (symmetry; apply beq_neq; intro Z; subst w'; congruence). exact OK.
Qed.

Lemma new_msgs_app : forall infos adds n tl, sentrel n infos adds ->
  new_msgs (map EOut (map (fun x : info => snd x) infos) ++ tl) = (infos ++ new_msgs tl)%list.
Proof.
  intros infos adds n tl H. induction H as [n|n w infos adds E H IH|n w infos adds E H IH];
    cbn [map app new_msgs snd]; [reflexivity| |]; rewrite E, IH; reflexivity.
Qed.

Definition info_n (now : Z) (s0 : sess) (n : N) (m : msg) : info := (session_type (m_type m), n, wire_n sc now s0 n m).
Definition adds_n (now : Z) (s0 : sess) (n : N) (m : msg) : list (N * bytes) :=
  if session_type (m_type m) then [] else [(n, wire_n sc now s0 n m)].

Lemma sentrel_run : forall now s0 ms n, wf_sess s0 = true -> Forall (fun m => plain_msg m = true) ms ->
  sentrel n (imap (info_n now s0) n ms) (concat (imap (adds_n now s0) n ms)).
Proof.
  intros now s0 ms n W F. revert n. induction F as [|m r P _ IH]; intro n; cbn [imap concat]; [constructor|].
  pose proof (new_msg_of_wire now s0 n m W P) as Q. unfold info_n at 1, adds_n at 1.
  destruct (session_type (m_type m)); cbn [app]; [apply sr_adm|apply sr_app]; auto.
Qed.

Lemma p_put_append : forall p k v, p_attached p = true -> k <> 0 -> keys_below k (p_store p) ->
  p_store (p_put p k v) = (p_store p ++ [(k, cstr v)])%list.
Proof.
  intros p k v A K B. unfold p_put. unfold p_attached in A.
  apply N.eqb_neq in K. destruct (p_kind p); try discriminate; rewrite K;
    rewrite (store_get_below _ _ B); cbn [p_store]; apply store_insert_end; exact B.
Qed.

Lemma persisted_store : forall m enc s1,
  s_next_send s1 <> 0 -> keys_below (s_next_send s1) (p_store (s_per s1)) ->
  p_store (s_per (persisted sc m enc s1)) =
  (p_store (s_per s1) ++
   if p_attached (s_per s1) then if is_admin sc (m_type m) then [] else [(s_next_send s1, cstr enc)] else [])%list.
Proof.
  intros m enc s1 K B. unfold persisted. cbn [w_next_send w_per s_per].
  destruct (p_attached (s_per s1)) eqn:A; [|rewrite app_nil_r; reflexivity].
  rewrite p_put_ctrl_store. destruct (is_admin sc (m_type m)); [rewrite app_nil_r; reflexivity|].
  apply p_put_append; assumption.
Qed.

Lemma p_attached_kind : forall p q, p_kind p = p_kind q -> p_attached p = p_attached q.
Proof. intros p q H. unfold p_attached. rewrite H. reflexivity. Qed.

Record good (s : sess) : Prop := {
  g_closed : s_closed s = false;
  g_wf : wf_sess s = true;
  g_nz : nz_sess s = true;
  g_sorted : ssorted (p_store (s_per s));
  g_below : keys_below (s_next_send s) (p_store (s_per s));
  g_pos : s_next_send s <> 0
}.

Lemma send_store : forall now s m, plain17 m = true -> good s ->
  p_store (s_per (snd (fst (send_process sc now s m)))) =
  (p_store (s_per s) ++ if p_attached (s_per s) then adds_n now s (s_next_send s) m else [])%list.
Proof.
  intros now s m P [C W NZ SO BE PO]. destruct (plain17_fields m P) as (Pm & _ & _ & _ & AD).
  rewrite (send_process_plain sc now s m Pm C), plain_result_eq by exact (plain_increments m Pm). cbn [fst snd].
  set (s1 := if m_eob m then _ else _).
  assert (E1 : s_per s1 = s_per s /\ s_next_send s1 = s_next_send s) by (subst s1; destruct (m_eob m); split; reflexivity).
  destruct E1 as [E1 E2]. rewrite persisted_store, E1, E2, AD by (rewrite ?E1, E2; assumption). unfold adds_n.
  destruct (p_attached (s_per s)); [|reflexivity]. destruct (session_type (m_type m)); [reflexivity|].
  change (wire sc now s m) with (wire_n sc now s (s_next_send s) m). rewrite cstr_nonul; [reflexivity|].
  apply wire_nz; assumption.
Qed.

(* over a run from s0 (C16's `after_sends`) the store grows by the application messages *)
Record stored (now : Z) (s0 s : sess) (done : list msg) : Prop := {
  st_good : good s;
  st_store : p_store (s_per s) =
             (p_store (s_per s0) ++
              if p_attached (s_per s0) then concat (imap (adds_n now s0) (s_next_send s0) done) else [])%list
}.

Lemma stored_init : forall now s, good s -> stored now s s [].
Proof. intros now s G. split; [exact G|]. destruct (p_attached (s_per s)); rewrite app_nil_r; reflexivity. Qed.

Lemma stored_state : forall now s0 s done st, stored now s0 s done -> stored now s0 (w_state st s) done.
Proof. intros now s0 s done st [[] S]. split; [constructor; assumption|exact S]. Qed.

Lemma stored_step : forall now s0 s done pend out m,
  after_sends sc now s0 s done pend out /\ stored now s0 s done -> plain17 m = true ->
  exists s' pend' o, send_process sc now s m = (true, s', map EOut o) /\
                     (after_sends sc now s0 s' (done ++ [m]) pend' (out ++ o) /\ stored now s0 s' (done ++ [m])).
Proof.
  intros now s0 s done pend out m [I [G ST]] P. destruct (plain17_fields m P) as (Pm & _).
  destruct (sent_step sc WS now s0 s done pend out m I Pm) as (s' & pend' & o & E & I').
  exists s', pend', o. split; [exact E|]. split; [exact I'|].
  pose proof (send_store now s m P G) as NS. rewrite E in NS. cbn [fst snd] in NS.
  pose proof (se_frame _ _ _ _ _ _ _ I) as FR. pose proof (se_next _ _ _ _ _ _ _ I) as NX.
  pose proof (frame_trans _ _ _ (frame_sym _ _ FR) (se_frame _ _ _ _ _ _ _ I')) as FR'.
  assert (NX' : s_next_send s' = s_next_send s + 1).
  { rewrite (se_next _ _ _ _ _ _ _ I'), NX, app_length. cbn [length]. lia. }
  (* the new entry, if any, in terms of s0 *)
  assert (AE : (if p_attached (s_per s) then adds_n now s (s_next_send s) m else []) =
               if p_attached (s_per s0) then adds_n now s0 (s_next_send s0 + N.of_nat (length done)) m else []).
  { destruct FR as (_ & _ & _ & F4 & _). rewrite (p_attached_kind _ _ F4), <- NX. unfold adds_n.
    change (wire_n sc now s (s_next_send s) m) with (wire sc now s m). rewrite (wire_frame sc now s0 s m); [reflexivity|].
    exact (se_frame _ _ _ _ _ _ _ I). }
  destruct G as [C W NZ SO BE PO]. split.
  - destruct FR' as (F1 & F2 & F3 & F4 & F5). constructor.
    + congruence.
    + unfold wf_sess. rewrite F2, F3. exact W.
    + unfold nz_sess. rewrite F2, F3. exact NZ.
    + rewrite NS. unfold adds_n. destruct (p_attached (s_per s)); [|rewrite app_nil_r; exact SO].
      destruct (session_type (m_type m)); [rewrite app_nil_r; exact SO|apply ssorted_app; assumption].
    + rewrite NS, NX'. unfold adds_n.
      destruct (p_attached (s_per s)); [destruct (session_type (m_type m))|]; rewrite ?app_nil_r;
        try (apply (keys_below_mono (s_next_send s)); [exact BE|lia]). apply keys_below_app; [exact BE|lia].
    + rewrite NX'. lia.
  - rewrite NS, ST, AE, imap_app, concat_app. cbn [imap concat]. rewrite app_nil_r.
    destruct (p_attached (s_per s0)); rewrite <- app_assoc; reflexivity.
Qed.

Lemma stored_run : forall now s0 ms s done pend out,
  after_sends sc now s0 s done pend out /\ stored now s0 s done -> Forall (fun m => plain17 m = true) ms ->
  exists s' pend' o, send_seq sc now s ms = (N.of_nat (length ms), s', map EOut o) /\
    (after_sends sc now s0 s' (done ++ ms) pend' (out ++ o) /\ stored now s0 s' (done ++ ms)) /\ (ms = [] -> pend' = pend /\ o = []).
Proof.
  intros now s0.
  apply (send_seq_ind sc now _ (fun s done pend out => after_sends sc now s0 s done pend out /\ stored now s0 s done)).
  intros. eapply stored_step; eassumption.
Qed.

(* a critical section: nothing buffered before, the last message flushes *)
Lemma stored_cs : forall now s0 ms s done out,
  after_sends sc now s0 s done [] out -> stored now s0 s done -> Forall (fun m => plain17 m = true) ms ->
  (ms <> [] -> m_eob (last ms (new_msg [])) = true) ->
  let ws := wires sc now s0 (s_next_send s0 + N.of_nat (length done)) ms in
  exists s', send_seq sc now s ms = (N.of_nat (length ms), s', map EOut ws) /\
             after_sends sc now s0 s' (done ++ ms) [] (out ++ ws) /\ stored now s0 s' (done ++ ms).
Proof.
  intros now s0 ms s done out I J F L ws.
  destruct (stored_run now s0 ms s done [] out (conj I J) F) as (s' & pend' & o & E & [I' J'] & NI).
  destruct (sent_flushed sc now s0 s s' done ms pend' out o I I' NI L) as [-> ->]. exists s'. split; [exact E|split; assumption].
Qed.

Lemma stored_from : forall now s ms, good s -> s_batch s = [] ->
  Forall (fun m => plain17 m = true) ms -> (ms <> [] -> m_eob (last ms (new_msg [])) = true) ->
  let ws := wires sc now s (s_next_send s) ms in
  exists s', send_seq sc now s ms = (N.of_nat (length ms), s', map EOut ws) /\ after_sends sc now s s' ms [] ws /\ stored now s s' ms.
Proof.
  intros now s ms G B F L.
  destruct (stored_cs now s ms s [] [] (sent_init sc now s (g_closed s G) (g_wf s G) B) (stored_init now s G) F L) as (s' & E & I & J).
  cbn [length N.of_nat app] in E, I, J. rewrite N.add_0_r in E, I. exists s'. split; [exact E|split; assumption].
Qed.

Definition wf_admin (s : schema) : bool :=
  forallb (fun d => Bool.eqb (d_admin d) (session_type (d_type d))) (sc_msgs s) && is_admin s mt_logon.
Hypothesis WA : wf_admin sc = true.

Lemma admin_consistent : forall t d, find_def t (sc_msgs sc) = Some d -> is_admin sc t = session_type t.
Proof.
  intros t d H. unfold is_admin. rewrite H. destruct (find_def_some _ _ _ H) as [I T].
  unfold wf_admin in WA. apply andb_true_iff in WA. destruct WA as [WA1 _].
  rewrite forallb_forall in WA1. specialize (WA1 d I). apply Bool.eqb_prop in WA1. rewrite WA1, T. reflexivity.
Qed.

Definition nz_tv (tv : N * bytes) : bool := nonul (snd tv).
Definition plain_spec17 (sp : msgspec) : bool :=
  plain_spec sp && nonul (ms_type sp) && forallb nz_tv (ms_hdr sp) && forallb nz_tv (ms_body sp).

Lemma plain_spec17_fields : forall sp, plain_spec17 sp = true ->
  plain_spec sp = true /\ nonul (ms_type sp) = true /\
  (forall tv, In tv (ms_hdr sp) -> nz_tv tv = true) /\ (forall tv, In tv (ms_body sp) -> nz_tv tv = true).
Proof.
  intros sp P. unfold plain_spec17 in P. do 3 (apply andb_true_iff in P; destruct P as [P ?]).
  rewrite <- !forallb_forall. auto.
Qed.

Lemma nz_with_hdr : forall p t v x, nz_msg sc x = true -> nonul v = true ->
  nz_msg sc (with_hdr (add_field p t v (m_hdr x)) x) = true.
Proof.
  intros p t v x Z Nv. destruct (nz_msg_fields sc x Z) as (Nb & A & B & C). unfold nz_msg. cbn [with_hdr m_type m_hdr m_body].
  rewrite Nb, A, C, (vals_nz_add p t v _ Nv B). reflexivity.
Qed.

Lemma nz_with_body : forall p t v x, nz_msg sc x = true -> nonul v = true ->
  nz_msg sc (with_body (add_field p t v (m_body x)) x) = true.
Proof.
  intros p t v x Z Nv. destruct (nz_msg_fields sc x Z) as (Nb & A & B & C). unfold nz_msg. cbn [with_body m_type m_hdr m_body].
  rewrite Nb, A, B, (vals_nz_add p t v _ Nv C). reflexivity.
Qed.

Lemma build_plain17 : forall sp m, plain_spec17 sp = true -> build_msg sc sp = Some m ->
  plain17 m = true /\ m_eob m = true.
Proof.
  intros sp m P E. destruct (plain_spec17_fields sp P) as (Ps & Nt & Nh & Nb).
  destruct (build_plain sc sp m Ps E) as [Pm EB]. split; [|exact EB].
  assert (Z : nz_msg sc m = true /\ m_type m = ms_type sp).
  { apply (build_msg_ind sc (fun x => nz_msg sc x = true /\ m_type x = ms_type sp) sp m E).
    - split; [|reflexivity]. unfold nz_msg. cbn [new_msg m_type m_hdr m_body]. rewrite NB, Nt. reflexivity.
    - intros t v p x I [Z T]. split; [apply nz_with_hdr; [exact Z|exact (Nh _ I)]|exact T].
    - intros t v p x I [Z T]. split; [apply nz_with_body; [exact Z|exact (Nb _ I)]|exact T]. }
  destruct Z as [Z T]. apply plain17_intro; [exact Pm|exact Z|]. rewrite T.
  unfold build_msg in E. destruct (find_def (ms_type sp) (sc_msgs sc)) as [d|] eqn:FD; [|discriminate].
  exact (admin_consistent _ _ FD).
Qed.

Lemma plain17_wrap : forall m, plain17 m = true -> plain17 (set_noinc false (set_custom 0 m)) = true.
Proof.
  intros m P. destruct (plain17_fields m P) as (Pm & Nt & Vh & Vb & AD).
  apply plain17_intro; [apply plain_wrap; exact Pm|exact (plain17_nz m P)|exact AD].
Qed.

Lemma build_all17 : forall l ms, forallb plain_spec17 l = true -> build_all sc l = Some ms ->
  Forall (fun m => plain17 m = true /\ m_eob m = true) ms.
Proof.
  apply (build_all_Forall sc plain_spec17). intros sp m P B.
  destruct (build_plain17 sp m P B) as [Pm EB]. destruct (plain_spec17_fields sp P) as (Ps & _).
  destruct (plain_spec_fields sp Ps) as (Hc & Hn & _). rewrite Hc, Hn. split; [apply plain17_wrap; exact Pm|exact EB].
Qed.

Lemma last_types : forall (ms : list msg) (l : list msgspec) m0 d,
  map m_type ms = map ms_type l -> ms <> [] -> m_type (last ms m0) = ms_type (last l d).
Proof.
  induction ms as [|m ms IH]; intros l m0 d M NE; [contradiction|].
  destruct l as [|sp l]; [discriminate|]. cbn [map] in M. inversion M as [[T M']].
  destruct ms as [|m' ms'].
  - destruct l; [|discriminate]. cbn. exact T.
  - destruct l as [|sp' l']; [discriminate|].
    change (last (m :: m' :: ms') m0) with (last (m' :: ms') m0).
    change (last (sp :: sp' :: l') d) with (last (sp' :: l') d).
    apply IH; [exact M'|discriminate].
Qed.

Lemma logon17 : forall hb rsn, plain17 (generate_logon sc hb rsn) = true.
Proof.
  intros hb rsn. destruct (logon_plain sc hb rsn) as [PL _].
  assert (B : forall t v x, nonul v = true -> nz_msg sc x = true /\ m_type x = mt_logon ->
                            nz_msg sc (add_body' sc t v x) = true /\ m_type (add_body' sc t v x) = mt_logon).
  { intros t v x Nv [Z T]. apply add_body'_ind; [split; assumption|]. intro p. split; [apply nz_with_body; assumption|exact T]. }
  assert (Z : nz_msg sc (generate_logon sc hb rsn) = true /\ m_type (generate_logon sc hb rsn) = mt_logon).
  { unfold generate_logon. destruct rsn; repeat (apply B; [try reflexivity; apply nonul_dec|]);
      (split; [|reflexivity]); unfold nz_msg; rewrite NB; reflexivity. }
  destruct Z as [Z T]. apply plain17_intro; [exact PL|exact Z|]. rewrite T.
  unfold wf_admin in WA. apply andb_true_iff in WA. destruct WA as [_ WA2]. rewrite WA2. reflexivity.
Qed.

Definition plain_op17 (o : op) : bool :=
  match o with
  | OSend sp => plain_spec17 sp
  | OBatch l => forallb plain_spec17 l
  | OClock _ => true
  | _ => false
  end.

Definition wf_start17 (p : startp) : bool := wf_start p && nonul (sp_snd p) && nonul (sp_tgt p).

Definition CI (w : world) (pk : pkind) : Prop :=
  exists s, w_sess w = Some s /\ good s /\ s_batch s = [] /\ p_kind (s_per s) = pk /\
            (p_attached (s_per s) = true -> w_snap w = p_store (s_per s)).

Lemma snapshot_attached : forall w s, w_sess w = Some s -> p_attached (s_per s) = true ->
  snapshot w = (mkWorld (w_sess w) (w_now w) (w_sp w) (w_disk w) (p_store (s_per s)),
                Some (mkSnap (s_state s) (s_next_send s) (s_next_recv s) (ctrl_of s)
                             (store_delta_new (p_store (s_per s)) (w_snap w) ++ store_delta_gone (p_store (s_per s)) (w_snap w)))).
Proof.
  intros w s E A. unfold snapshot, ctrl_of. rewrite E. unfold p_attached in A. destruct (p_kind (s_per s)); [discriminate| |]; reflexivity.
Qed.

Lemma snapshot_detached : forall w s, w_sess w = Some s -> p_attached (s_per s) = false -> fst (snapshot w) = w.
Proof.
  intros w s E A. unfold snapshot. rewrite E. unfold p_attached in A. destruct (p_kind (s_per s)); [reflexivity| |]; discriminate.
Qed.

(* after an operation during which the messages ms went out, s becoming s', and nothing else new *)
Lemma after_op : forall w pk now s s' ms tl,
  w_sess w = Some s -> (p_attached (s_per s) = true -> w_snap w = p_store (s_per s)) -> p_kind (s_per s) = pk ->
  good s -> after_sends sc now s s' ms [] (wires sc now s (s_next_send s) ms) -> stored now s s' ms -> new_msgs tl = [] ->
  c17_step pk (mkStep (map EOut (wires sc now s (s_next_send s) ms) ++ tl) (snd (snapshot (with_sess w s')))) = true /\
  CI (fst (snapshot (with_sess w s'))) pk.
Proof.
  intros w pk now s s' ms tl E SN K G I [G' ST] TL.
  pose proof (se_frame _ _ _ _ _ _ _ I) as (F1 & F2 & F3 & F4 & F5).
  pose proof (sentrel_run now s ms (s_next_send s) (g_wf s G) (se_plain _ _ _ _ _ _ _ I)) as SR.
  assert (B' : s_batch s' = []) by (rewrite (se_batch _ _ _ _ _ _ _ I); reflexivity).
  assert (E' : w_sess (with_sess w s') = Some s') by reflexivity.
  assert (A' : p_attached (s_per s') = p_attached (s_per s)) by (apply p_attached_kind; exact F4).
  destruct (p_attached (s_per s)) eqn:A.
  - rewrite (snapshot_attached _ s' E' A'). cbn [fst snd]. split.
    + unfold c17_step. rewrite <- K. unfold p_attached in A. destruct (p_kind (s_per s)); [discriminate| |];
        cbn [st_snap st_events sn_store with_sess w_snap];
        replace (wires sc now s (s_next_send s) ms) with (map (fun x : info => snd x) (imap (info_n now s) (s_next_send s) ms))
          by (rewrite map_imap; reflexivity);
        rewrite (new_msgs_app _ _ _ tl SR), TL, app_nil_r, (SN eq_refl), ST;
        (rewrite delta_append;
          [apply (sentrel_ok _ _ _ SR)
          |apply G
          |intros k v IA; destruct (sentrel_ok _ _ _ SR) as (_ & FA & _); rewrite Forall_forall in FA;
           destruct (FA _ IA) as [L _]; apply store_get_below; apply (keys_below_mono (s_next_send s)); [apply G|exact L]]).
    + exists s'. cbn [w_sess w_snap]. split; [reflexivity|]. split; [exact G'|]. split; [exact B'|].
      split; [congruence|intros _; reflexivity].
  - assert (PK : pk = PNone).
    { rewrite <- K. unfold p_attached in A. destruct (p_kind (s_per s)); [reflexivity| |]; discriminate. }
    split; [rewrite PK; reflexivity|].
    rewrite (snapshot_detached _ s' E' A'). exists s'. cbn [with_sess w_sess w_snap].
    split; [reflexivity|]. split; [exact G'|]. split; [exact B'|]. split; [congruence|intro Z; congruence].
Qed.

Lemma with_sess_same : forall w s, w_sess w = Some s -> with_sess w s = w.
Proof. intros w s E. destruct w; cbn in *; subst; reflexivity. Qed.

Lemma quiet17 : forall w pk evs,
  CI w pk -> new_msgs evs = [] ->
  c17_step pk (mkStep evs (snd (snapshot w))) = true /\ CI (fst (snapshot w)) pk.
Proof.
  intros w pk evs (s & E & G & B & K & SN) NM.
  rewrite <- (with_sess_same w s E).
  apply (after_op w pk 0%Z s s [] evs E SN K G); [|apply stored_init; exact G|exact NM].
  apply sent_init; [apply G|apply G|exact B].
Qed.

Lemma op17 : forall w pk oper,
  CI w pk -> plain_op17 oper = true ->
  c17_step pk (mkStep (snd (run_op sc w oper)) (snd (snapshot (fst (run_op sc w oper))))) = true /\
  CI (fst (snapshot (fst (run_op sc w oper)))) pk.
Proof.
  intros w pk oper I P. pose proof I as (s & E & G & B & K & SN).
  destruct oper; try discriminate; cbn [plain_op17] in P; cbn [run_op]; rewrite ?E.
  - (* SEND *)
    destruct (ms_ok m); cbn [negb fst snd]; [|apply quiet17; [exact I|reflexivity]].
    destruct (build_msg sc m) as [msg|] eqn:BM; [|apply quiet17; [exact I|reflexivity]].
    destruct (build_plain17 m msg P BM) as (Pm & EB).
    destruct (plain_spec17_fields m P) as (Ps & _). destruct (plain_spec_fields m Ps) as (Hc & Hn & _).
    destruct (stored_from (w_now w) s [msg] G B) as (s' & ES & I' & J'); [constructor; [exact Pm|constructor]|intros _; exact EB|].
    unfold send. rewrite Hc, Hn. cbn [N.eqb]. rewrite (send_seq_single sc _ _ _ _ _ ES). cbn [fst snd].
    apply (after_op w pk (w_now w) s s' [msg] [ERet 1%Z]); assumption || reflexivity.
  - (* BATCH *)
    destruct (specs_ok l); cbn [negb fst snd]; [|apply quiet17; [exact I|reflexivity]].
    destruct (build_all sc l) as [ms|] eqn:BA; [|apply quiet17; [exact I|reflexivity]].
    destruct (batched_Forall (fun m => plain17 m = true) (fun _ _ H => H) ms (build_all17 l ms P BA)) as [FP LE].
    destruct (stored_from (w_now w) s (batched ms) G B FP LE) as (s' & ES & I' & J').
    rewrite send_batch_seq, ES. cbn [fst snd].
    apply (after_op w pk (w_now w) s s' (batched ms) [ERet _]); assumption || reflexivity.
  - (* CLOCK *)
    cbn [fst snd]. apply (quiet17 (with_now w t)); [|reflexivity]. exists s. split; [exact E|]. split; [exact G|]. split; [exact B|]. split; assumption.
Qed.

Lemma start_send_nonzero : forall p per, start_send p per <> 0 \/ p_get_ctrl per <> None.
Proof.
  intros p per. unfold start_send. destruct (sp_role p); [|left; discriminate].
  destruct (pr_rsn (sp_par p)); [left; discriminate|].
  destruct (sp_ss p =? 0) eqn:E; [|left; apply N.eqb_neq; exact E].
  destruct (p_get_ctrl per) as [[a b]|]; [right; discriminate|left; discriminate].
Qed.

Lemma start17 : forall p t,
  wf_start17 p = true ->
  c17_step (sp_pk p) (mkStep (snd (run_op sc world0 (OStart p t))) (snd (snapshot (fst (run_op sc world0 (OStart p t)))))) = true /\
  CI (fst (snapshot (fst (run_op sc world0 (OStart p t))))) (sp_pk p).
Proof.
  intros p t WP. unfold wf_start17, wf_start in WP.
  apply andb_true_iff in WP. destruct WP as [WP Zt]. apply andb_true_iff in WP. destruct WP as [WP Zs].
  apply andb_true_iff in WP. destruct WP as [Ws Wt].
  rewrite (run_start sc). cbv zeta. set (now := match t with Some t' => t' | None => T0 end).
  destruct (start_new sc now p (p_empty (sp_pk p))) as (s2 & st & ES & C2 & B2 & P2 & N2 & S2 & T2). rewrite ES.
  (* a good session on the new, empty persister *)
  assert (G2 : good s2).
  { constructor; try assumption; try (rewrite P2; constructor).
    - unfold wf_sess. rewrite S2, T2. destruct (sp_role p); rewrite ?Ws, ?Wt; reflexivity.
    - unfold nz_sess. rewrite S2, T2. destruct (sp_role p); rewrite ?Zs, ?Zt; reflexivity.
    - rewrite N2. destruct (start_send_nonzero p (p_empty (sp_pk p))) as [Z|Z]; [exact Z|].
      rewrite p_empty_ctrl in Z. contradiction. }
  destruct (stored_from now s2 (start_msgs sc p (s_hb s2)) G2 B2) as (s3 & E3 & I3 & J3).
  { apply start_msgs_Forall. apply logon17. }
  { intro NE. rewrite (start_msgs_last sc _ _ _ NE). apply (logon_plain sc). }
  rewrite E3. cbn [fst snd].
  apply (after_op (mkWorld (Some s2) now p (p_empty PFile) []) (sp_pk p) now s2 (w_state st s3)
                  (start_msgs sc p (s_hb s2)) [ERet 0%Z]); try assumption; try reflexivity.
  - intros _. rewrite P2. reflexivity.
  - rewrite P2. reflexivity.
  - apply sent_state. exact I3.
  - apply stored_state. exact J3.
Qed.

Lemma steps17 : forall ops w pk,
  CI w pk -> forallb plain_op17 ops = true -> c17_steps pk ops (run_ops sc w ops) = true.
Proof.
  induction ops as [|oper ops IH]; intros w pk I P; [reflexivity|].
  cbn [forallb] in P. apply andb_true_iff in P. destruct P as [P1 P2].
  destruct (op17 w pk oper I P1) as (ST & I').
  rewrite run_ops_cons. cbn [c17_steps].
  replace (match oper with OStart p0 _ => sp_pk p0 | _ => pk end) with pk by (destruct oper; try discriminate; reflexivity).
  rewrite ST. apply IH; assumption.
Qed.

End P17.

Lemma c17_store_lemma : forall (sc : schema) (p : startp) (t : option Z) (ops : list op),
  wf_schema sc = true -> nonul (sc_begin sc) = true -> wf_admin sc = true ->
  wf_start17 p = true -> forallb plain_op17 ops = true ->
  c17_ok (OStart p t :: ops) (run_history sc (OStart p t :: ops)) = true.
Proof.
  intros sc p t ops WS NB WA WP P. destruct (start17 sc WS NB WA p t WP) as (ST & I).
  unfold c17_ok, run_history. rewrite run_ops_cons. cbn [c17_steps]. rewrite ST. apply (steps17 sc WS NB WA); assumption.
Qed.

(* witnesses on the demo schema, evaluated in Props/Properties_C17.v *)
From F8 Require Import Sess.Demo.

Definition store_lengths (tr : trace) : list (N * option nat) :=
  match last_snap tr with
  | Some sn => map (fun kv => (fst kv, match snd kv with Some v => Some (length v) | None => None end)) (sn_store sn)
  | None => []
  end.

(* F21 (repaired in /repo by d862447): the ORIGINAL send_process handed `ptr` to the persister, which
   points into the batch buffer -- already cleared -- for the message that flushes a non-empty buffer:
   the last message of a batch was stored as the EMPTY string.  The code as it is stores the wire bytes. *)
Definition sb1 : sess := snd (fst (send_process demo_schema T0 st0 (set_eob false m_order))).
Definition last_stored (r : bool * sess * list event) : option nat :=
  match p_get (s_per (snd (fst r))) 3 with Some v => Some (length v) | None => None end.

(* a batch of two application messages: the case of F21 *)
Definition h_batch2 : list op := [OStart (demo_init PFile) None; OBatch [demo_order [65]; demo_order [66]]].

(* a custom sequence number: the message is stored under next_send, not under its own MsgSeqNum *)
Definition h_custom17 : list op :=
  [OStart (demo_init PMem) None; OSend (mkSpec [68] [] [(11, [65]); (55, [66])] 7 false true)].

(* singles, a batch with an application message last, a batch of one, a batch of two application messages *)
Definition h_plain17 : list op :=
  [OSend (demo_order [65]); OBatch [demo_order [66]; demo_admin [48]; demo_order [67]];
   OSend (demo_admin [49]); OBatch [demo_order [68]]; OBatch [demo_order [69]; demo_order [70]]].

Definition stored_keys (tr : trace) : list N := flat_map (fun st => match st_snap st with Some sn => map fst (sn_store sn) | None => [] end) tr.
