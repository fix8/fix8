(* Fields whose tag or value does not fit extract_element's arrays: what the reader does with them
   at the four places where FIXReader::read looks for a field, what extract_element did with them
   before d48d8ce, and the concrete inputs that show both. *)
From Coq Require Import String Ascii NArith List Bool Arith Lia.
From F8 Require Import C15.Reader C15.Spec_C15 C15.ReaderProofs.
Import ListNotations.

Lemma ee_tag_overlong : forall u p x ii rtag,
  Forall (fun b => isdigit b = true) u -> p_tagcap p <= length rtag + length u ->
  length rtag < p_tagcap p -> 1 <= p_valcap p ->
  exists t v, ee_tag p (u ++ x) ii rtag = EERet 0 t v.
Proof.
  induction u as [|d u IH]; intros p x ii rtag Hu L Lt Lv; [cbn [length] in L; lia|].
  inversion Hu as [|? ? Hd Hu']; subst. cbn [app ee_tag]. rewrite Hd.
  destruct (length rtag =? p_tagcap p - 1) eqn:E0; [rewrite ee_term_fits by (cbn [length]; lia); eauto|].
  apply Nat.eqb_neq in E0.
  destruct (p_tagcap p <=? length rtag) eqn:E1; [apply Nat.leb_le in E1; lia|].
  apply IH; [assumption | cbn [length] in *; lia | cbn [length]; lia | assumption].
Qed.

Lemma ee_val_overlong : forall u p x ii rtag rval,
  Forall (fun b => nosoh b = true) u -> p_valcap p <= length rval + length u ->
  length rval < p_valcap p -> length rtag < p_tagcap p ->
  exists t v, ee_val p (u ++ x) ii rtag rval = EERet 0 t v.
Proof.
  induction u as [|b u IH]; intros p x ii rtag rval Hu L Lv Lt; [cbn [length] in L; lia|].
  inversion Hu as [|? ? Hb Hu']; subst. cbn [app ee_val]. unfold nosoh in Hb.
  destruct (b =? SOH)%N; [discriminate|].
  destruct (length rval =? p_valcap p - 1) eqn:E0; [rewrite ee_term_fits by assumption; eauto|].
  apply Nat.eqb_neq in E0.
  destruct (p_valcap p <=? length rval) eqn:E1; [apply Nat.leb_le in E1; lia|].
  apply IH; [assumption | cbn [length] in *; lia | cbn [length]; lia | assumption].
Qed.

Lemma no_field_long_tag : forall p c0 t,
  1 <= p_tagcap p -> 1 <= p_valcap p ->
  Forall (fun b => isdigit b = true) t -> p_tagcap p <= length t -> no_field p c0 t.
Proof.
  intros p c0 t Tc Vc Ht Lt more. unfold extract_element.
  destruct (ee_tag_overlong t p more 0 [] Ht ltac:(cbn [length]; lia) ltac:(cbn [length]; lia) Vc)
    as (tg & vl & E).
  rewrite E. eauto 6.
Qed.

Lemma no_field_long_val : forall p c0 t v,
  Forall (fun b => isdigit b = true) t -> length t < p_tagcap p -> 1 <= p_valcap p ->
  Forall (fun b => nosoh b = true) v -> p_valcap p <= length v -> no_field p c0 (t ++ EQS :: v).
Proof.
  intros p c0 t v Ht Lt Vc Hv Lv more. unfold extract_element.
  rewrite <- app_assoc. cbn [app]. rewrite ee_tag_run by (cbn [length]; (assumption || lia)).
  destruct (ee_val_overlong v p more (S (0 + length t)) (rev t ++ []) [] Hv) as (tg & vl & E);
    [cbn [length]; lia | cbn [length]; lia | rewrite app_nil_r, rev_length; exact Lt|].
  rewrite E. eauto 6.
Qed.

Lemma Forall_skipn_app : forall (P : N -> Prop) n a b,
  length a <= n -> Forall P b -> Forall P (skipn n (a ++ b)).
Proof.
  intros P n a b L H. rewrite skipn_app, skipn_all2 by exact L. cbn [app].
  rewrite <- (firstn_skipn (n - length a) b) in H. apply Forall_app in H. apply H.
Qed.

Lemma overlong_bodylength_spec : forall p ds c x,
  Forall (fun b => isdigit b = true) ds -> isdigit c = false -> max_width p < length ds ->
  spec_frame (p_begin p) (len_limit p) (max_width p) (header (p_begin p) ++ ds ++ c :: x) = FBad.
Proof.
  intros p ds c x Hd Hc L. unfold spec_frame. rewrite strip_app.
  destruct (take_drop_app ds c x Hd Hc) as [E1 _]. rewrite E1.
  apply Nat.ltb_lt in L. rewrite L. reflexivity.
Qed.

(* when the part v of a refused pre ++ v that lies beyond the first read consists of digits and SOH
   follows within msg_buf, the digit loop ends at that SOH: the text of the exception is known *)
Lemma refused_soh_ok : forall p msgs chunks pre v tail closed,
  wf_params p = true -> Forall (fun m => frame_ok p m = true) msgs ->
  concat chunks = concat msgs ++ (pre ++ v) ++ SOH :: tail ->
  refused p (pre ++ v) -> length pre <= bg_sz p <= length pre + length v ->
  length pre + length v < p_max p ->
  Forall (fun b => nonul b = true) pre -> Forall (fun b => isdigit b = true) v ->
  spec_frame (p_begin p) (len_limit p) (max_width p) ((pre ++ v) ++ SOH :: tail) = FBad ->
  run p chunks closed = (msgs, EIllegal ((pre ++ v) ++ [SOH])) /\ model_ok p chunks closed = true.
Proof.
  intros p msgs chunks pre v tail closed W Hv C HR Lb Lm Hn Hd Hb.
  pose proof (app_length pre v) as LZ. set (Z := pre ++ v) in *.
  destruct (read_msg_digits p [Z ++ SOH :: tail] (firstn (bg_sz p) Z) (skipn (bg_sz p) Z) SOH tail)
    as [s2 [_ E]].
  - cbn [concat]. rewrite app_nil_r, app_assoc, firstn_skipn. reflexivity.
  - apply firstn_length_le. lia.
  - apply Forall_skipn_app; [lia | exact Hd].
  - reflexivity.
  - rewrite skipn_length. lia.
  - change (SOH =? SOH)%N with true in E. cbv iota in E. rewrite app_assoc, firstn_skipn, HR in E.
    destruct (bad_after_valid_ok p msgs chunks _ closed W Hv C Hb) as [R1 R2]; [rewrite E; reflexivity|].
    rewrite E in R1. cbn [fst ending_of] in R1. rewrite cstr_nonul in R1; [split; assumption|].
    repeat (apply Forall_app; split); [exact Hn | exact (Forall_impl _ digit_nonul Hd) | repeat constructor].
Qed.

Lemma long_field_lemma : forall p msgs chunks rest closed,
  wf_params p = true -> Forall (fun m => frame_ok p m = true) msgs ->
  concat chunks = concat msgs ++ rest -> long_field_rest p rest ->
  exists e, run p chunks closed = (msgs, e) /\
            match e with EWait | EPeerReset | EIllegal _ => True | _ => False end.
Proof.
  intros p msgs chunks rest closed W Hv C HL.
  pose proof (wf_safe p W) as Sf. destruct (safe_inv p Sf) as (Tc1 & Vc & _).
  destruct (wf_inv p W) as (_ & _ & Tc & _).
  assert (R : illegal_or_eos (fst (read_msg p [rest]))).
  { destruct HL as [(t & tail & -> & H1 & H2 & H3 & H4)|[(v & tail & -> & H1 & H2 & H3 & H4)|
                   [(t & tail & -> & H1 & H2 & H3 & H4)|(w & tail & -> & H1 & H2 & H3 & H4)]]].
    - apply (refused_read p [t ++ tail] t tail Sf (app_nil_r _) H4).
      + apply (Forall_skipn_app _ _ [] t); [cbn [length]; lia | exact (Forall_impl _ digit_nosoh H1)].
      + apply refused_first, no_field_long_tag; assumption.
    - apply (refused_read p _ ([56%N] ++ EQS :: v) tail Sf).
      + cbn [concat]. rewrite app_nil_r, <- !app_assoc. reflexivity.
      + cbn [length app]. lia.
      + apply (Forall_skipn_app _ _ [56; 61]%N v); [cbn [length]; unfold bg_sz; lia | exact H1].
      + apply refused_first, no_field_long_val; [repeat constructor | exact Tc | exact Vc | exact H1 | exact H2].
    - apply (refused_read p _ ([56; 61]%N ++ p_begin p ++ [SOH] ++ t) tail Sf).
      + cbn [concat]. rewrite app_nil_r, <- !app_assoc. reflexivity.
      + rewrite !app_length. cbn [length]. lia.
      + rewrite 2!app_assoc. apply Forall_skipn_app; [|exact (Forall_impl _ digit_nosoh H1)].
        rewrite !app_length. cbn [length]. unfold bg_sz. lia.
      + apply refused_second, no_field_long_tag; assumption.
    - apply (refused_read p _ (header (p_begin p) ++ w) tail Sf).
      + cbn [concat]. rewrite app_nil_r, app_assoc. reflexivity.
      + rewrite app_length, header_length. lia.
      + apply Forall_skipn_app; [rewrite bg_header; lia | exact H1].
      + rewrite header_app.
        apply refused_second, no_field_long_val; [exact W | repeat constructor | exact Tc | exact Vc | exact H1 | exact H2]. }
  exists (ending_of (fst (read_msg p [rest])) closed). split.
  - apply run_after_valid; try assumption. apply (refusal_err _ _ _ R).
  - apply (refusal_ending _ _ _ closed R).
Qed.

(* extract_element before d48d8ce: neither loop has a bound, every write is instrumented.  A run of
   digits or value bytes goes through as long as it stays within the array (hence <=); when it fills
   the array, the NUL that ends it is the first write out of bounds ([ee_term]). *)
Lemma ee_val_orig_run : forall v p more ii rtag rval,
  Forall (fun b => nosoh b = true) v -> length rval + length v <= p_valcap p ->
  ee_val_orig p (v ++ SOH :: more) ii rtag rval = ee_term p (S (ii + length v)) rtag (rev v ++ rval).
Proof.
  induction v as [|b v IH]; intros p more ii rtag rval Hv L.
  - cbn [app ee_val_orig length rev]. rewrite N.eqb_refl, Nat.add_0_r. reflexivity.
  - inversion Hv as [|? ? Hb Hv']; subst.
    cbn [app ee_val_orig length] in *. unfold nosoh in Hb.
    destruct (b =? SOH)%N; [discriminate|].
    destruct (p_valcap p <=? length rval) eqn:E; [apply Nat.leb_le in E; lia|].
    rewrite IH; [|assumption|cbn [length]; lia].
    cbn [rev]. rewrite <- app_assoc. cbn [app]. f_equal. lia.
Qed.

Lemma ee_tag_orig_run : forall t p r ii rtag,
  Forall (fun b => isdigit b = true) t -> length rtag + length t <= p_tagcap p ->
  ee_tag_orig p (t ++ r) ii rtag = ee_tag_orig p r (ii + length t) (rev t ++ rtag).
Proof.
  induction t as [|b t IH]; intros p r ii rtag Ht L.
  - cbn [app length rev]. rewrite Nat.add_0_r. reflexivity.
  - inversion Ht as [|? ? Hb Ht']; subst.
    cbn [app ee_tag_orig length] in *. rewrite Hb.
    destruct (p_tagcap p <=? length rtag) eqn:E; [apply Nat.leb_le in E; lia|].
    rewrite IH; [|assumption|cbn [length]; lia].
    cbn [rev]. rewrite <- app_assoc. cbn [app]. f_equal. lia.
Qed.

Lemma ee_orig_digits : forall p t,
  Forall (fun b => isdigit b = true) t -> length t <= p_tagcap p ->
  extract_element_orig p (t ++ [SOH]) = ee_term p 0 (rev t) [].
Proof.
  intros p t Ht L. unfold extract_element_orig.
  rewrite ee_tag_orig_run, app_nil_r by (cbn [length]; (assumption || lia)). reflexivity.
Qed.

Lemma ee_orig_field : forall p t v more,
  Forall (fun b => isdigit b = true) t -> length t <= p_tagcap p ->
  Forall (fun b => nosoh b = true) v -> length v <= p_valcap p ->
  extract_element_orig p (t ++ EQS :: v ++ SOH :: more) =
  ee_term p (length t + 1 + length v + 1) (rev t) (rev v).
Proof.
  intros p t v more Ht Lt Hv Lv. unfold extract_element_orig.
  rewrite ee_tag_orig_run by (cbn [length]; (assumption || lia)).
  cbn [ee_tag_orig]. change (isdigit EQS) with false. rewrite N.eqb_refl. cbv iota.
  rewrite ee_val_orig_run by (cbn [length]; (assumption || lia)).
  rewrite !app_nil_r. f_equal. lia.
Qed.

Lemma Forall_repeat : forall (P : N -> Prop) c n, P c -> Forall P (repeat c n).
Proof. intros P c n H. apply Forall_forall. intros y Hy. rewrite (repeat_spec _ _ _ Hy). exact H. Qed.

Lemma P42_consts :
  p_tagcap P42 = 32 /\ p_valcap P42 = N.to_nat 2048 /\ p_max P42 = N.to_nat 8192 /\ bg_sz P42 = 13.
Proof. repeat split. Qed.

Lemma overflow_orig_witness :
  extract_element_orig P42 w_tag32 = EEOob SiteTag /\
  extract_element_orig P42 w_tag31 = EERet 0 (repeat 55%N 31) [] /\
  extract_element_orig P42 (w_val1 2048) = EEOob SiteVal /\
  extract_element_orig P42 (w_val1 2047) = EERet (N.to_nat 2050) [56%N] (repeat 49%N (N.to_nat 2047)).
Proof.
  destruct P42_consts as (Et & Ev & _ & _).
  assert (V : forall n, N.to_nat n <= p_valcap P42 ->
            extract_element_orig P42 (w_val1 n) =
            ee_term P42 (N.to_nat n + 3) [56%N] (rev (repeat 49%N (N.to_nat n)))).
  { intros n L. change (w_val1 n) with ([56%N] ++ EQS :: repeat 49%N (N.to_nat n) ++ SOH :: []).
    rewrite ee_orig_field, repeat_length;
      [f_equal; cbn [length]; lia | repeat constructor | rewrite Et; cbn [length]; lia
      | apply Forall_repeat; reflexivity | rewrite repeat_length; exact L]. }
  split; [|split; [|split]].
  - unfold w_tag32. rewrite ee_orig_digits by (rewrite ?repeat_length, ?Et; (apply Forall_repeat; reflexivity) || lia).
    unfold ee_term. rewrite rev_length, repeat_length, Et. reflexivity.
  - unfold w_tag31. rewrite ee_orig_digits by (rewrite ?repeat_length, ?Et; (apply Forall_repeat; reflexivity) || lia).
    rewrite ee_term_fits, rev_involutive by (rewrite ?rev_length, ?repeat_length, ?Et, ?Ev; cbn [length]; lia).
    reflexivity.
  - rewrite V by lia. unfold ee_term. rewrite rev_length, repeat_length, Et, Ev, Nat.leb_refl. reflexivity.
  - rewrite V by lia.
    rewrite ee_term_fits, rev_involutive by (rewrite ?rev_length, ?repeat_length, ?Et, ?Ev; cbn [length]; lia).
    replace (N.to_nat 2047 + 3) with (N.to_nat 2050) by lia. reflexivity.
Qed.

Lemma tag32_refused :
  run P42 [w_tag32] true = ([], EIllegal w_tag32) /\ model_ok P42 [w_tag32] true = true.
Proof.
  destruct P42_consts as (Et & Ev & Em & Eg).
  assert (Hd : Forall (fun b => isdigit b = true) (repeat 55%N 32)) by (apply Forall_repeat; reflexivity).
  apply (refused_soh_ok P42 [] [w_tag32] [] (repeat 55%N 32) [] true wf_std_params (Forall_nil _) (app_nil_r _)).
  - apply (refused_first P42 (repeat 55%N 32)), no_field_long_tag; rewrite ?repeat_length; (exact Hd || lia).
  - rewrite repeat_length. cbn [length]. lia.
  - rewrite repeat_length. cbn [length]. lia.
  - constructor.
  - exact Hd.
  - reflexivity. (* the first byte is not '8' *)
Qed.

Lemma val1_refused : forall n, (2048 <= n)%N -> (n + 2 < 8192)%N ->
  run P42 [w_val1 n] true = ([], EIllegal (w_val1 n)) /\ model_ok P42 [w_val1 n] true = true.
Proof.
  intros n L1 L2. destruct P42_consts as (Et & Ev & Em & Eg).
  set (v := repeat 49%N (N.to_nat n)).
  assert (Lv : length v = N.to_nat n) by apply repeat_length.
  assert (Hd : Forall (fun b => isdigit b = true) v) by (apply Forall_repeat; reflexivity).
  change (w_val1 n) with (([56; 61]%N ++ v) ++ [SOH]).
  apply (refused_soh_ok P42 [] [_] [56; 61]%N v [] true wf_std_params (Forall_nil _) (app_nil_r _)).
  - apply (refused_first P42 ([56%N] ++ EQS :: v)), no_field_long_val;
      [repeat constructor | cbn [length]; lia | lia | exact (Forall_impl _ digit_nosoh Hd) | lia].
  - cbn [length]. lia.
  - cbn [length]. lia.
  - repeat constructor.
  - exact Hd.
  - apply (bad_beginstring_spec P42 v [] wf_std_params (Forall_impl _ digit_nosoh Hd)).
    intros E. apply (f_equal (@length N)) in E. rewrite Lv in E. cbn in E. lia.
Qed.

Lemma val2_refused : forall n, (2048 <= n)%N -> (n + 12 < 8192)%N ->
  run P42 [w_val2 n] true = ([], EIllegal (w_val2 n)) /\ model_ok P42 [w_val2 n] true = true.
Proof.
  intros n L1 L2. destruct P42_consts as (Et & Ev & Em & Eg).
  set (v := repeat 49%N (N.to_nat n)).
  assert (Lv : length v = N.to_nat n) by apply repeat_length.
  assert (Hd : Forall (fun b => isdigit b = true) v) by (apply Forall_repeat; reflexivity).
  assert (Lh : length (header fix42) = 12) by reflexivity.
  change (w_val2 n) with ((header fix42 ++ v) ++ [SOH]).
  apply (refused_soh_ok P42 [] [_] (header fix42) v [] true wf_std_params (Forall_nil _) (app_nil_r _)).
  - apply (refused_second P42 ([57%N] ++ EQS :: v) wf_std_params), no_field_long_val;
      [repeat constructor | cbn [length]; lia | lia | exact (Forall_impl _ digit_nosoh Hd) | lia].
  - lia.
  - lia.
  - repeat constructor.
  - exact Hd.
  - apply (overlong_bodylength_spec P42 v SOH [] Hd eq_refl). unfold max_width. lia.
Qed.
