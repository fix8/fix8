(* C15 — model of the socket reader's framing:
     include/fix8/connection.hpp   FIXReader::sockRead           (the non-buffered variant, which is
                                                                  the one compiled: FIX8_EXPERIMENTAL_BUFFERED_SOCKET_READ is off)
     runtime/connection.cpp        FIXReader::read, FIXReader::execute (threaded model, pm_thread)
     include/fix8/message.hpp      MessageBase::extract_element (the char-buffer overload)
     include/fix8/f8utils.hpp      fast_atoi<unsigned>
   transcribed statement by statement, defects included.  The stack buffers are INSTRUMENTED:
   a write at an index >= the capacity of msg_buf / tag / val yields [OOob site] (this is what
   ASan reports on the real code); nothing else about memory is modelled.
   No proofs in this file. *)
From Coq Require Import NArith List Bool Arith.
Import ListNotations.

Notation byte := N (only parsing).

Definition SOH : byte := 1%N.        (* default_field_separator *)
Definition EQS : byte := 61%N.       (* default_assignment_separator '=' *)
Definition isdigit (b : byte) : bool := (48 <=? b)%N && (b <=? 57)%N.

(* the constants of the reader: BeginString of the session's context, _max_msg_len (=
   FIX8_MAX_MSG_LENGTH, also the size of msg_buf), MAX_MSGTYPE_FIELD_LEN (char tag[..]) and
   FIX8_MAX_FLD_LENGTH (char val[..]) *)
Record params := mk_params {
  p_begin : list byte;
  p_max : nat;
  p_tagcap : nat;
  p_valcap : nat
}.

(* FIXReader::set_preamble_sz: _bg_sz = 2 + beginStr.size() + 1 + 3     "8=FIXx.x^A9=x" *)
Definition bg_sz (p : params) : nat := 2 + length (p_begin p) + 1 + 3.
Definition chksum_sz : nat := 7.

(* ------------------------------------------------------------------------------------------ *)
(* The socket: the inbound byte stream as the list of chunks still to come.  One receiveBytes(buf, n)
   call returns min(n, |head chunk|) bytes of the head chunk (harness/vsock.hpp; a TCP socket may
   return any non-empty prefix of what has arrived).  An empty chunk list = nothing more will
   arrive: receiveBytes blocks for ever (peer still connected) or returns 0 (peer closed), which
   of the two is decided by the caller ([ending_of]). *)
Definition sock := list (list byte).

(* FIXReader::sockRead(where, sz):
     remaining = sz; rddone = 0;
     while (remaining > 0) { rdSz = receiveBytes(where + rddone, remaining);
                             if (rdSz <= 0) ... throw PeerResetConnection; rddone += rdSz; remaining -= rdSz; }
     return rddone;
   Some bytes = the sz bytes read; None = the stream ended first (everything left was consumed). *)
Fixpoint sock_read (n : nat) (s : sock) {struct s} : option (list byte) * sock :=
  match n with
  | O => (Some [], s)
  | _ =>
    match s with
    | [] => (None, [])
    | c :: rest =>
      if n <? length c then (Some (firstn n c), skipn n c :: rest)
      else
        let (r, s') := sock_read (n - length c) rest in
        (match r with Some bs => Some (c ++ bs) | None => None end, s')
    end
  end.

(* ------------------------------------------------------------------------------------------ *)
Inductive site := SiteMsgBuf | SiteTag | SiteVal.

(* const char* semantics: the bytes before the first NUL *)
Fixpoint cstr (l : list byte) : list byte :=
  match l with
  | [] => []
  | b :: r => if (b =? 0)%N then [] else b :: cstr r
  end.

Fixpoint list_eqb (a b : list byte) : bool :=
  match a, b with
  | [], [] => true
  | x :: a', y :: b' => (x =? y)%N && list_eqb a' b'
  | _, _ => false
  end.

Definition head_is (l : list byte) (c : byte) : bool :=
  match l with b :: _ => (b =? c)%N | [] => false end.

(* ------------------------------------------------------------------------------------------ *)
(* MessageBase::extract_element(from, sz, tag, val) with tag and val the caller's char arrays
   (template over their sizes TagSz / ValSz = p_tagcap / p_valcap).
   rtag / rval: the bytes written so far into tag[] / val[], in reverse; a write at index
   [length r..] >= capacity is an out-of-bounds write.  Result: bytes consumed (0 = failure) and
   the contents of tag[] and val[] before their terminating NUL. *)
Inductive ee_res :=
| EEOob (s : site)
| EERet (consumed : nat) (tag val : list byte).

(* "*val = *tag = 0" : the store to *tag is sequenced first *)
Definition ee_term (p : params) (ret : nat) (rtag rval : list byte) : ee_res :=
  if p_tagcap p <=? length rtag then EEOob SiteTag
  else if p_valcap p <=? length rval then EEOob SiteVal
  else EERet ret (rev rtag) (rev rval).

(* state get_value.  Since commit d48d8ce ("extract_element never writes past the caller's tag and
   value buffers") a value byte arriving with ValSz-1 characters written ends the extraction:
   "if (vptr == vend) return *vptr = *tptr = 0;".  The writes stay instrumented. *)
Fixpoint ee_val (p : params) (from : list byte) (ii : nat) (rtag rval : list byte) : ee_res :=
  match from with
  | [] => ee_term p 0 rtag rval                         (* loop ends: return *vptr = *tptr = 0 *)
  | b :: r =>
    if (b =? SOH)%N then ee_term p (S ii) rtag rval     (* *vptr = *tptr = 0; return ++ii *)
    else if length rval =? p_valcap p - 1 then ee_term p 0 rtag rval   (* value does not fit *)
    else if p_valcap p <=? length rval then EEOob SiteVal   (* *vptr++ = from[ii] *)
    else ee_val p r (S ii) rtag (b :: rval)
  end.

(* state get_tag; "else if (tptr == tend) return *vptr = *tptr = 0;" for a tag that does not fit *)
Fixpoint ee_tag (p : params) (from : list byte) (ii : nat) (rtag : list byte) : ee_res :=
  match from with
  | [] => ee_term p 0 rtag []
  | b :: r =>
    if isdigit b then
      if length rtag =? p_tagcap p - 1 then ee_term p 0 rtag []
      else if p_tagcap p <=? length rtag then EEOob SiteTag      (* *tptr++ = from[ii] *)
      else ee_tag p r (S ii) (b :: rtag)
    else if (b =? EQS)%N then ee_val p r (S ii) rtag []
    else ee_term p 0 rtag []                                (* return *vptr = *tptr = 0 *)
  end.

(* extract_element as it was before d48d8ce (no bound on either buffer): kept only for the
   witness c15_overflow_orig_refuted *)
Fixpoint ee_val_orig (p : params) (from : list byte) (ii : nat) (rtag rval : list byte) : ee_res :=
  match from with
  | [] => ee_term p 0 rtag rval
  | b :: r =>
    if (b =? SOH)%N then ee_term p (S ii) rtag rval
    else if p_valcap p <=? length rval then EEOob SiteVal
    else ee_val_orig p r (S ii) rtag (b :: rval)
  end.

Fixpoint ee_tag_orig (p : params) (from : list byte) (ii : nat) (rtag : list byte) : ee_res :=
  match from with
  | [] => ee_term p 0 rtag []
  | b :: r =>
    if isdigit b then
      if p_tagcap p <=? length rtag then EEOob SiteTag
      else ee_tag_orig p r (S ii) (b :: rtag)
    else if (b =? EQS)%N then ee_val_orig p r (S ii) rtag []
    else ee_term p 0 rtag []
  end.

Definition extract_element_orig (p : params) (from : list byte) : ee_res := ee_tag_orig p from 0 [].

Definition extract_element (p : params) (from : list byte) : ee_res := ee_tag p from 0 [].

(* ------------------------------------------------------------------------------------------ *)
(* fast_atoi<unsigned>(str):  retval = (retval << 3) + (retval << 1) + *str - '0'   in 32-bit
   unsigned arithmetic; *str is a (signed) char converted to unsigned.  No check that the
   characters are digits, no overflow check. *)
Definition W32 : N := 4294967296%N.
Definition atoi_step (acc : N) (b : byte) : N :=
  ((acc * 10 + b + (if (b <? 128)%N then 4294967248 else 4294966992)) mod W32)%N.
     (* 2^32 - 48                      2^32 - 48 - 256 (negative char) *)
Definition atoi_u32 (l : list byte) : N := fold_left atoi_step l 0%N.

(* ------------------------------------------------------------------------------------------ *)
(* the do { } while loop of FIXReader::read after the first _bg_sz bytes:
     do { if (sockRead(&bt, 1) != 1) return false;
          if (!isdigit(bt) && bt != SOH) throw IllegalMessage(msg_buf, FILE_LINE);
          msg_buf[offs++] = bt; }
     while (bt != SOH && offs < _max_msg_len);
   racc = msg_buf[0..offs) reversed. *)
Inductive pre_res :=
| PDone (buf : list byte)
| PEos
| PIllegal (buf : list byte)
| POob
| PFuel.

Fixpoint pre_loop (fuel : nat) (p : params) (racc : list byte) (offs : nat) (s : sock) : pre_res * sock :=
  match fuel with
  | O => (PFuel, s)
  | S f =>
    match sock_read 1 s with
    | (Some [bt], s') =>
      if negb (isdigit bt) && negb (bt =? SOH)%N then (PIllegal (rev racc), s')
      else if p_max p <=? offs then (POob, s')                 (* msg_buf[offs++] = bt *)
      else
        if negb (bt =? SOH)%N && (S offs <? p_max p) then pre_loop f p (bt :: racc) (S offs) s'
        else (PDone (rev (bt :: racc)), s')
    | (_, s') => (PEos, s')
    end
  end.

(* what one call of FIXReader::read does *)
Inductive outcome :=
| OMsg (m : list byte)            (* returns true: [m] is handed to Session::process *)
| OEos                            (* sockRead met the end of the stream: blocks / PeerResetConnection *)
| OIllegal (text : list byte)     (* IllegalMessage; the text given to the exception *)
| OBadVersion (text : list byte)  (* InvalidVersion(string(val)) *)
| OBadLen (n : N)                 (* InvalidBodyLength(mlen) *)
| OOob (s : site)                 (* out-of-bounds write (ASan: stack-buffer-overflow) *)
| OFuel.                          (* never: see c15_fuel_enough *)

(* mlen > _max_msg_len - _bg_sz - _chksum_sz : the right-hand side is size_t arithmetic *)
Definition W64 : N := 18446744073709551616%N.
Definition len_limit (p : params) : N :=
  ((N.of_nat (p_max p) + W64 - N.of_nat (bg_sz p) - N.of_nat chksum_sz) mod W64)%N.

(* the rest of FIXReader::read once BodyLength has been converted: bound test, body, trailer *)
Definition read_body (p : params) (to : list byte) (mlen : N) (s2 : sock) : outcome * sock :=
  if (mlen =? 0)%N || (len_limit p <? mlen)%N then (OBadLen mlen, s2)     (* throw InvalidBodyLength(mlen) *)
  else
    let n := N.to_nat mlen in
    (* sockRead(msg_buf, mlen); sockRead(msg_buf + mlen, _chksum_sz) *)
    if p_max p <? n + chksum_sz then (OOob SiteMsgBuf, s2) else
    match sock_read n s2 with
    | (None, s3) => (OEos, s3)
    | (Some body, s3) =>
      match sock_read chksum_sz s3 with
      | (None, s4) => (OEos, s4)
      | (Some chk, s4) => (OMsg (to ++ body ++ chk), s4)   (* to.append(msg_buf, mlen + 7) *)
      end
    end.

(* "*tag != c || tag[1]": tag[] holds the digits of the tag and a NUL, so the test passes exactly
   for the one-character tag c (commit cb750d0; before: only the first character was compared) *)
Definition tag_exact (tag : list byte) (c : byte) : bool :=
  match tag with [b] => (b =? c)%N | _ => false end.

(* "*val && !isdigit(*val)" (commit b287a2f): the first character of the BodyLength value came with
   the fixed-size first read and was not checked by the digit loop *)
Definition first_not_digit (val : list byte) : bool :=
  match val with b :: _ => negb (b =? 0)%N && negb (isdigit b) | [] => false end.

(* the part of FIXReader::read between the preamble loop and the body: the two extract_element
   calls into char tag[MAX_MSGTYPE_FIELD_LEN], val[FIX8_MAX_FLD_LENGTH] *)
Definition read_fields (p : params) (to : list byte) (s2 : sock) : outcome * sock :=
  match extract_element p to with
  | EEOob st => (OOob st, s2)
  | EERet r1 tag1 val1 =>
    if r1 =? 0 then (OIllegal to, s2)                  (* falls through to the final throw *)
    else if negb (tag_exact tag1 56%N) then (OIllegal to, s2)      (* *tag != '8' || tag[1] *)
    else if negb (list_eqb (cstr val1) (p_begin p)) then (OBadVersion (cstr val1), s2)
    else
      match extract_element p (skipn r1 to) with
      | EEOob st => (OOob st, s2)
      | EERet r2 tag2 val2 =>
        if r2 =? 0 then (OIllegal to, s2)
        else if negb (tag_exact tag2 57%N) then (OIllegal to, s2)  (* *tag != '9' || tag[1] *)
        else if first_not_digit val2 then (OIllegal to, s2)        (* *val && !isdigit( *val) *)
        else read_body p to (atoi_u32 (cstr val2)) s2              (* mlen = fast_atoi<unsigned>(val) *)
      end
  end.

(* FIXReader::read as it was before cb750d0 / b287a2f (first character of the tags only, first
   BodyLength character unchecked): kept only for the witnesses c15_lenient_orig_refuted *)
Definition read_fields_orig (p : params) (to : list byte) (s2 : sock) : outcome * sock :=
  match extract_element p to with
  | EEOob st => (OOob st, s2)
  | EERet r1 tag1 val1 =>
    if r1 =? 0 then (OIllegal to, s2)
    else if negb (head_is tag1 56%N) then (OIllegal to, s2)        (* *tag != '8' *)
    else if negb (list_eqb (cstr val1) (p_begin p)) then (OBadVersion (cstr val1), s2)
    else
      match extract_element p (skipn r1 to) with
      | EEOob st => (OOob st, s2)
      | EERet r2 tag2 val2 =>
        if r2 =? 0 then (OIllegal to, s2)
        else if negb (head_is tag2 57%N) then (OIllegal to, s2)    (* *tag != '9' *)
        else read_body p to (atoi_u32 (cstr val2)) s2
      end
  end.

Definition read_msg (p : params) (s : sock) : outcome * sock :=
  let bg := bg_sz p in
  (* char msg_buf[_max_msg_len] {};  sockRead(msg_buf, _bg_sz) *)
  match sock_read bg s with
  | (None, s1) => (OEos, s1)
  | (Some pre, s1) =>
    if p_max p <? bg then (OOob SiteMsgBuf, s1) else
    match pre_loop (p_max p) p (rev pre) bg s1 with
    | (PEos, s2) => (OEos, s2)
    | (PIllegal buf, s2) => (OIllegal (cstr buf), s2)      (* IllegalMessage(msg_buf): a C string *)
    | (POob, s2) => (OOob SiteMsgBuf, s2)
    | (PFuel, s2) => (OFuel, s2)
    | (PDone to, s2) => read_fields p to s2                (* to.assign(msg_buf, offs) *)
    end
  end.

(* FIXReader::execute, threaded model: while (!cancelled && !shutdown) { if (read(msg)) process(msg); }
   with every exception ending the loop.  Session::process returning false only bumps a counter.
   Result: the strings handed to Session::process in order, and what ended the loop. *)
Fixpoint read_all (fuel : nat) (p : params) (s : sock) : list (list byte) * outcome :=
  match fuel with
  | O => ([], OFuel)
  | S f =>
    match read_msg p s with
    | (OMsg m, s') => let (d, e) := read_all f p s' in (m :: d, e)
    | (o, _) => ([], o)
    end
  end.

Definition total (s : sock) : nat := length (concat s).

(* how the reader thread ends, as observed from outside *)
Inductive ending :=
| EWait                           (* blocked in receiveBytes, peer still connected *)
| EPeerReset                      (* PeerResetConnection: receiveBytes returned 0 *)
| EIllegal (text : list byte)      (* text of the exception as what() shows it *)
| EBadVersion (text : list byte)
| EBadLen (n : N)
| EOob
| EOther.

Definition ending_of (o : outcome) (closed : bool) : ending :=
  match o with
  | OEos => if closed then EPeerReset else EWait
  | OIllegal t => EIllegal (cstr t)      (* observed through what(), a C string *)
  | OBadVersion t => EBadVersion t
  | OBadLen n => EBadLen n
  | OOob _ => EOob
  | OMsg _ | OFuel => EOther
  end.

(* a whole run: [closed] = the peer closes the connection after the last chunk *)
Definition run (p : params) (chunks : sock) (closed : bool) : list (list byte) * ending :=
  let (d, o) := read_all (S (total chunks)) p chunks in (d, ending_of o closed).

(* the same reader with the old field tests (witnesses only) *)
Definition read_msg_orig (p : params) (s : sock) : outcome * sock :=
  let bg := bg_sz p in
  match sock_read bg s with
  | (None, s1) => (OEos, s1)
  | (Some pre, s1) =>
    if p_max p <? bg then (OOob SiteMsgBuf, s1) else
    match pre_loop (p_max p) p (rev pre) bg s1 with
    | (PEos, s2) => (OEos, s2)
    | (PIllegal buf, s2) => (OIllegal (cstr buf), s2)
    | (POob, s2) => (OOob SiteMsgBuf, s2)
    | (PFuel, s2) => (OFuel, s2)
    | (PDone to, s2) => read_fields_orig p to s2
    end
  end.

Fixpoint read_all_orig (fuel : nat) (p : params) (s : sock) : list (list byte) * outcome :=
  match fuel with
  | O => ([], OFuel)
  | S f =>
    match read_msg_orig p s with
    | (OMsg m, s') => let (d, e) := read_all_orig f p s' in (m :: d, e)
    | (o, _) => ([], o)
    end
  end.

Definition run_orig (p : params) (chunks : sock) (closed : bool) : list (list byte) * ending :=
  let (d, o) := read_all_orig (S (total chunks)) p chunks in (d, ending_of o closed).

(* the longest preamble field value extract_element accepts: ValSz - 1 *)
Definition max_width (p : params) : nat := p_valcap p - 1.

(* the configuration of the pinned tree with the UTEST (FIX.4.2) context *)
Definition fix42 : list byte := [70; 73; 88; 46; 52; 46; 50]%N.
Definition std_params (begin : list byte) : params :=
  mk_params begin (N.to_nat 8192) 32 (N.to_nat 2048).
