(* For every stream, chunking and configuration the fuel of the model's loops suffices, and a write
   outside a buffer needs unsafe constants. *)
From Coq Require Import NArith List Bool Arith Lia.
From F8 Require Import C15.Reader C15.Spec_C15 C15.ReaderProofs.
Import ListNotations.

Lemma sock_read_total_le : forall n s, total (snd (sock_read n s)) <= total s.
Proof.
  intros n s. destruct (sock_read_concat s n) as [s' [E C]].
  rewrite E. unfold total. cbn [snd]. rewrite C, skipn_length. lia.
Qed.

(* EERet, not EEOob: no write past tag[] or val[], whatever the input *)
Lemma ee_tag_ret : forall from p ii rtag,
  length rtag < p_tagcap p -> 1 <= p_valcap p -> exists c t v, ee_tag p from ii rtag = EERet c t v.
Proof.
  induction from as [|b r IH]; intros p ii rtag Lt Lv; cbn [ee_tag].
  - rewrite ee_term_fits by (cbn [length]; lia). eauto.
  - destruct (isdigit b).
    + destruct (length rtag =? p_tagcap p - 1) eqn:E0; [rewrite ee_term_fits by (cbn [length]; lia); eauto|].
      apply Nat.eqb_neq in E0.
      destruct (p_tagcap p <=? length rtag) eqn:E; [apply Nat.leb_le in E; lia|].
      apply IH; [cbn [length]; lia | assumption].
    + destruct (b =? EQS)%N; [|rewrite ee_term_fits by (cbn [length]; lia); eauto].
      destruct (ee_val_inv r p (S ii) rtag [] Lt Lv) as (c & v & E & _). eauto.
Qed.

(* what every part of a call of FIXReader::read guarantees; n bounds the bytes left on the socket
   once a message is handed on, which is the measure the fuel of [read_all] is compared with *)
Definition step_ok (p : params) (n : nat) (r : outcome * sock) : Prop :=
  match r with
  | (OMsg _, s') => total s' < n
  | (OOob _, _) => safe_params p <> true
  | (OFuel, _) => False
  | _ => True
  end.

Lemma read_body_inv : forall p to mlen s, step_ok p (S (total s)) (read_body p to mlen s).
Proof.
  intros p to mlen s. unfold read_body.
  destruct ((mlen =? 0)%N || (len_limit p <? mlen)%N) eqn:E; [exact I|].
  destruct (p_max p <? N.to_nat mlen + chksum_sz) eqn:E2.
  { intros Sf. destruct (safe_inv p Sf) as (_ & _ & Mx & _).
    apply orb_false_iff in E. destruct E as [_ E]. apply N.ltb_ge in E.
    rewrite (len_limit_eq p Sf) in E. apply Nat.ltb_lt in E2. unfold chksum_sz in *. lia. }
  pose proof (sock_read_total_le (N.to_nat mlen) s) as T1.
  destruct (sock_read (N.to_nat mlen) s) as [[body|] s3]; [|exact I].
  pose proof (sock_read_total_le chksum_sz s3) as T2.
  destruct (sock_read chksum_sz s3) as [[chk|] s4]; [|exact I].
  cbn [snd step_ok] in *. lia.
Qed.

Lemma read_fields_inv : forall p to s, step_ok p (S (total s)) (read_fields p to s).
Proof.
  intros p to s.
  assert (EE : forall from st, extract_element p from = EEOob st -> safe_params p <> true).
  { intros from st E Sf. destruct (safe_inv p Sf) as (Lt & Lv & _).
    destruct (ee_tag_ret from p 0 [] Lt Lv) as (c & t & v & E'). unfold extract_element in E. congruence. }
  unfold read_fields.
  destruct (extract_element p to) as [st|r1 tag1 val1] eqn:E1; [exact (EE _ _ E1)|].
  destruct (r1 =? 0); [exact I|].
  destruct (negb (tag_exact tag1 56%N)); [exact I|].
  destruct (negb (list_eqb (cstr val1) (p_begin p))); [exact I|].
  destruct (extract_element p (skipn r1 to)) as [st|r2 tag2 val2] eqn:E2; [exact (EE _ _ E2)|].
  destruct (r2 =? 0); [exact I|].
  destruct (negb (tag_exact tag2 57%N)); [exact I|].
  destruct (first_not_digit val2); [exact I|].
  apply read_body_inv.
Qed.

Lemma read_msg_inv : forall p s, step_ok p (total s) (read_msg p s).
Proof.
  intros p s.
  destruct (read_msg_cases p s) as [E|[[t E]|[[E Mx]|(to & s2 & y & l & E & Ec & Et & _)]]].
  - destruct (read_msg p s) as [o s']. cbn [fst] in E. subst o. exact I.
  - destruct (read_msg p s) as [o s']. cbn [fst] in E. subst o. exact I.
  - destruct (read_msg p s) as [o s']. cbn [fst] in E. subst o.
    intros Sf. destruct (safe_inv p Sf) as (_ & _ & Mx' & _). lia.
  - rewrite E. pose proof (read_fields_inv p to s2) as F.
    assert (L : S (total s2) <= total s).
    { unfold total. rewrite Ec, Et, !app_length. cbn [length]. lia. }
    destruct (read_fields p to s2) as [[] s']; cbn [step_ok] in *; (exact F || lia).
Qed.

Lemma read_all_inv : forall fuel p s, total s < fuel ->
  match snd (read_all fuel p s) with
  | OMsg _ | OFuel => False
  | OOob _ => safe_params p <> true
  | _ => True
  end.
Proof.
  induction fuel as [|f IH]; intros p s L; [lia|].
  cbn [read_all]. pose proof (read_msg_inv p s) as M.
  destruct (read_msg p s) as [[] s']; cbn [snd step_ok] in *; try exact M; try exact I.
  specialize (IH p s' ltac:(lia)). destruct (read_all f p s'). exact IH.
Qed.

Lemma run_inv : forall p chunks closed,
  match snd (run p chunks closed) with
  | EOther => False
  | EOob => safe_params p <> true
  | _ => True
  end.
Proof.
  intros p chunks closed. unfold run.
  pose proof (read_all_inv (S (total chunks)) p chunks ltac:(lia)) as A.
  destruct (read_all (S (total chunks)) p chunks) as [d []]; cbn [snd ending_of] in *;
    try exact A; try exact I. destruct closed; exact I.
Qed.
