(* The reader model (Reader.v) against the oracle (Spec_C15.v).  sockRead reads from the
   concatenated stream ([sock_read_concat]); all about chunking follows from that.  One call of
   FIXReader::read is described forwards, on a stream whose first bytes are known ([read_msg_digits]
   ... [read_msg_valid]), and backwards, for any stream ([read_msg_cases], [read_msg_prefix]).  Valid
   frames are consumed one by one; what follows them decides how the run ends ([run_after_valid],
   [bad_after_valid_ok]), so a theorem about a corrupted preamble is a fact about one call of read
   and one about the oracle's spec_frame.  Where extract_element does not deliver the field that
   read looks for, the call ends in IllegalMessage ([no_field], [refused]). *)
From Coq Require Import String Ascii NArith List Bool Arith Lia.
From F8 Require Import C15.Reader C15.Spec_C15.
Import ListNotations.

Lemma firstn_app_exact : forall (a b : list N), firstn (length a) (a ++ b) = a.
Proof. intros a b. rewrite firstn_app, firstn_all, Nat.sub_diag. apply app_nil_r. Qed.

Lemma skipn_app_exact : forall (a b : list N), skipn (length a) (a ++ b) = b.
Proof. intros a b. rewrite skipn_app, skipn_all, Nat.sub_diag. reflexivity. Qed.

Lemma sock_read_concat : forall (s : sock) (n : nat),
  exists s', sock_read n s =
               (if n <=? length (concat s) then Some (firstn n (concat s)) else None, s') /\
             concat s' = skipn n (concat s).
Proof.
  induction s as [|c s IH]; intros [|n].
  - exists []. split; reflexivity.
  - exists []. split; reflexivity.
  - exists (c :: s). split; reflexivity.
  - cbn [sock_read concat]. rewrite app_length, firstn_app, skipn_app.
    destruct (S n <? length c) eqn:LT.
    + apply Nat.ltb_lt in LT. exists (skipn (S n) c :: s).
      replace (S n - length c) with 0 by lia.
      replace (S n <=? length c + length (concat s)) with true by (symmetry; apply Nat.leb_le; lia).
      cbn [firstn skipn concat]. rewrite app_nil_r. split; reflexivity.
    + apply Nat.ltb_ge in LT.
      destruct (IH (S n - length c)) as [s' [E C]]. rewrite E. exists s'.
      rewrite (firstn_all2 c LT), (skipn_all2 c LT). split; [|exact C].
      destruct (Nat.leb_spec (S n - length c) (length (concat s))),
               (Nat.leb_spec (S n) (length c + length (concat s))); (reflexivity || lia).
Qed.

Lemma sock_read_app : forall (s : sock) (a rest : list N),
  concat s = a ++ rest ->
  exists s', sock_read (length a) s = (Some a, s') /\ concat s' = rest.
Proof.
  intros s a rest H.
  destruct (sock_read_concat s (length a)) as [s' [E C]].
  exists s'. rewrite E, C, H, app_length, (proj2 (Nat.leb_le _ _) (Nat.le_add_r _ _)).
  rewrite firstn_app_exact, skipn_app_exact. split; reflexivity.
Qed.

Lemma sock_read_some : forall n s bs s', sock_read n s = (Some bs, s') -> concat s = bs ++ concat s'.
Proof.
  intros n s bs s' H. destruct (sock_read_concat s n) as [s1 [E C]]. rewrite H in E.
  destruct (n <=? length (concat s)); [|discriminate].
  injection E as -> ->. rewrite C. symmetry. apply firstn_skipn.
Qed.

Definition same_stream (s t : sock) : Prop := concat s = concat t.

Definition same_res {A : Type} (x y : A * sock) : Prop :=
  fst x = fst y /\ same_stream (snd x) (snd y).

Lemma same_res_ret : forall {A : Type} (a : A) s t, same_stream s t -> same_res (a, s) (a, t).
Proof. intros A a s t H. split; [reflexivity | exact H]. Qed.

Lemma same_res_bind : forall {A B : Type} (x y : A * sock) (g : A -> sock -> B * sock),
  same_res x y -> (forall a s t, same_stream s t -> same_res (g a s) (g a t)) ->
  same_res (let (a, s) := x in g a s) (let (a, t) := y in g a t).
Proof.
  intros A B [a s] [b t] g [E H] G. cbn [fst snd] in E, H. subst b. apply G, H.
Qed.

Lemma sock_read_same : forall n s t, same_stream s t -> same_res (sock_read n s) (sock_read n t).
Proof.
  intros n s t H.
  destruct (sock_read_concat s n) as [s' [Es Cs]], (sock_read_concat t n) as [t' [Et Ct]].
  rewrite Es, Et. unfold same_res, same_stream in *. cbn [fst snd]. rewrite Cs, Ct, H.
  split; reflexivity.
Qed.

Lemma pre_loop_same : forall fuel p racc offs s t, same_stream s t ->
  same_res (pre_loop fuel p racc offs s) (pre_loop fuel p racc offs t).
Proof.
  induction fuel as [|f IH]; intros p racc offs s t H; cbn [pre_loop].
  - apply same_res_ret, H.
  - apply same_res_bind; [apply sock_read_same, H|]. clear s t H. intros r s t H.
    destruct r as [[|bt [|b2 l]]|]; try apply same_res_ret, H.
    destruct (negb (isdigit bt) && negb (bt =? SOH)%N); [apply same_res_ret, H|].
    destruct (p_max p <=? offs); [apply same_res_ret, H|].
    destruct (negb (bt =? SOH)%N && (S offs <? p_max p)); [apply IH, H | apply same_res_ret, H].
Qed.

Lemma read_body_same : forall p to mlen s t, same_stream s t ->
  same_res (read_body p to mlen s) (read_body p to mlen t).
Proof.
  intros p to mlen s t H. unfold read_body.
  destruct ((mlen =? 0)%N || (len_limit p <? mlen)%N); [apply same_res_ret, H|].
  destruct (p_max p <? N.to_nat mlen + chksum_sz); [apply same_res_ret, H|].
  apply same_res_bind; [apply sock_read_same, H|]. clear s t H. intros [body|] s t H; [|apply same_res_ret, H].
  apply same_res_bind; [apply sock_read_same, H|]. clear s t H. intros [chk|] s t H; apply same_res_ret, H.
Qed.

Lemma read_fields_same : forall p to s t, same_stream s t ->
  same_res (read_fields p to s) (read_fields p to t).
Proof.
  intros p to s t H. unfold read_fields.
  destruct (extract_element p to) as [st|r1 tag1 val1]; [apply same_res_ret, H|].
  destruct (r1 =? 0); [apply same_res_ret, H|].
  destruct (negb (tag_exact tag1 56%N)); [apply same_res_ret, H|].
  destruct (negb (list_eqb (cstr val1) (p_begin p))); [apply same_res_ret, H|].
  destruct (extract_element p (skipn r1 to)) as [st|r2 tag2 val2]; [apply same_res_ret, H|].
  destruct (r2 =? 0); [apply same_res_ret, H|].
  destruct (negb (tag_exact tag2 57%N)); [apply same_res_ret, H|].
  destruct (first_not_digit val2); [apply same_res_ret, H|].
  apply read_body_same, H.
Qed.

Lemma read_msg_same : forall p s t, same_stream s t -> same_res (read_msg p s) (read_msg p t).
Proof.
  intros p s t H. unfold read_msg.
  apply same_res_bind; [apply sock_read_same, H|]. clear s t H. intros [pre|] s t H; [|apply same_res_ret, H].
  destruct (p_max p <? bg_sz p); [apply same_res_ret, H|].
  apply same_res_bind; [apply pre_loop_same, H|]. clear s t H.
  intros [to| |buf| |] s t H; try apply same_res_ret, H. apply read_fields_same, H.
Qed.

Lemma read_all_same : forall fuel p s t, same_stream s t -> read_all fuel p s = read_all fuel p t.
Proof.
  induction fuel as [|f IH]; intros p s t H; [reflexivity|].
  cbn [read_all].
  destruct (read_msg_same p s t H) as [E HS].
  destruct (read_msg p s) as [o1 s1], (read_msg p t) as [o2 s2]. cbn [fst snd] in E, HS. subst o2.
  destruct o1; try reflexivity.
  rewrite (IH p s1 s2 HS). reflexivity.
Qed.

Definition nosoh (b : N) : bool := negb (b =? SOH)%N.
Definition nonul (b : N) : bool := negb (b =? 0)%N.

(* what the theorems assume about the reader's constants: BeginString without SOH/NUL and shorter
   than val[], room for tag "8"/"9", msg_buf holds a preamble with a BodyLength field as long as
   val[] allows and the shortest frame, no size_t / 32-bit wrap of the constants *)
Definition wf_params (p : params) : bool :=
  forallb (fun b => nosoh b && nonul b) (p_begin p) &&
  (2 <=? p_tagcap p) && (length (p_begin p) <? p_valcap p) &&
  (bg_sz p + p_valcap p <=? p_max p) && (bg_sz p + 8 <=? p_max p) &&
  (N.of_nat (p_max p) <? W32)%N.

Lemma wf_inv : forall p, wf_params p = true ->
  Forall (fun b => nosoh b = true) (p_begin p) /\ Forall (fun b => nonul b = true) (p_begin p) /\
  2 <= p_tagcap p /\ length (p_begin p) < p_valcap p /\ bg_sz p + p_valcap p <= p_max p /\
  bg_sz p + 8 <= p_max p /\ (N.of_nat (p_max p) < W32)%N.
Proof.
  intros p H. unfold wf_params in H.
  repeat (apply andb_true_iff in H; destruct H as [H ?]).
  rewrite forallb_forall in H.
  repeat split.
  - apply Forall_forall. intros b Hb. apply H in Hb. apply andb_true_iff in Hb. tauto.
  - apply Forall_forall. intros b Hb. apply H in Hb. apply andb_true_iff in Hb. tauto.
  - apply Nat.leb_le; assumption.
  - apply Nat.ltb_lt; assumption.
  - apply Nat.leb_le; assumption.
  - apply Nat.leb_le; assumption.
  - apply N.ltb_lt; assumption.
Qed.

(* all that memory safety needs: the buffers exist and the constants do not wrap *)
Definition safe_params (p : params) : bool :=
  (1 <=? p_tagcap p) && (1 <=? p_valcap p) && (bg_sz p + 7 <=? p_max p) && (N.of_nat (p_max p) <? W64)%N.

Lemma safe_inv : forall p, safe_params p = true ->
  1 <= p_tagcap p /\ 1 <= p_valcap p /\ bg_sz p + 7 <= p_max p /\ (N.of_nat (p_max p) < W64)%N.
Proof.
  intros p H. unfold safe_params in H.
  repeat (apply andb_true_iff in H; destruct H as [H ?]).
  repeat split; try (apply Nat.leb_le; assumption). apply N.ltb_lt; assumption.
Qed.

Lemma wf_safe : forall p, wf_params p = true -> safe_params p = true.
Proof.
  intros p W. destruct (wf_inv p W) as (_ & _ & Tc & Bl & _ & Mx8 & M32).
  unfold safe_params. repeat (apply andb_true_iff; split).
  - apply Nat.leb_le; lia.
  - apply Nat.leb_le; lia.
  - apply Nat.leb_le; lia.
  - apply N.ltb_lt. unfold W32, W64 in *. lia.
Qed.

Lemma digit_nosoh : forall b, isdigit b = true -> nosoh b = true.
Proof.
  intros b H. unfold isdigit in H. apply andb_true_iff in H. destruct H as [H _].
  apply N.leb_le in H. apply negb_true_iff, N.eqb_neq. unfold SOH. lia.
Qed.

Lemma digit_nonul : forall b, isdigit b = true -> nonul b = true.
Proof.
  intros b H. unfold isdigit in H. apply andb_true_iff in H. destruct H as [H _].
  apply N.leb_le in H. apply negb_true_iff, N.eqb_neq. lia.
Qed.

Lemma cstr_nonul : forall l, Forall (fun b => nonul b = true) l -> cstr l = l.
Proof.
  induction 1 as [|b l Hb _ IH]; [reflexivity|].
  cbn [cstr]. unfold nonul in Hb. destruct (b =? 0)%N; [discriminate|]. rewrite IH. reflexivity.
Qed.

Lemma list_eqb_refl : forall l, list_eqb l l = true.
Proof. induction l as [|b l IH]; [reflexivity|]. cbn. rewrite N.eqb_refl, IH. reflexivity. Qed.

Lemma list_eqb_eq : forall a b, list_eqb a b = true -> a = b.
Proof.
  induction a as [|x a IH]; destruct b as [|y b]; cbn; intros H; try discriminate; [reflexivity|].
  apply andb_true_iff in H. destruct H as [H1 H2]. apply N.eqb_eq in H1. subst y. f_equal. apply IH, H2.
Qed.

Lemma app_nonempty_r : forall (a b : list N), b <> [] -> a ++ b <> [].
Proof. intros a b H E. apply app_eq_nil in E. tauto. Qed.

Lemma Forall_app_l : forall (P : N -> Prop) a b, Forall P (a ++ b) -> Forall P a.
Proof. intros P a b H. apply Forall_app in H. tauto. Qed.

Lemma add1_eqb_0 : forall n, (n + 1 =? 0) = false.
Proof. intros n. rewrite Nat.add_1_r. reflexivity. Qed.

Lemma ee_term_fits : forall p ret rtag rval,
  length rtag < p_tagcap p -> length rval < p_valcap p ->
  ee_term p ret rtag rval = EERet ret (rev rtag) (rev rval).
Proof.
  intros p ret rtag rval Lt Lv. unfold ee_term.
  apply Nat.leb_gt in Lt, Lv. rewrite Lt, Lv. reflexivity.
Qed.

Lemma ee_val_run : forall v p more ii rtag rval,
  Forall (fun b => nosoh b = true) v -> length rval + length v < p_valcap p ->
  ee_val p (v ++ SOH :: more) ii rtag rval = ee_term p (S (ii + length v)) rtag (rev v ++ rval).
Proof.
  induction v as [|b v IH]; intros p more ii rtag rval Hv L.
  - cbn [app ee_val length rev]. rewrite N.eqb_refl. rewrite Nat.add_0_r. reflexivity.
  - inversion Hv as [|? ? Hb Hv']; subst.
    cbn [app ee_val length]. unfold nosoh in Hb.
    destruct (b =? SOH)%N; [discriminate|].
    cbn [length] in L.
    destruct (length rval =? p_valcap p - 1) eqn:E0; [apply Nat.eqb_eq in E0; lia|].
    destruct (p_valcap p <=? length rval) eqn:E; [apply Nat.leb_le in E; lia|].
    rewrite IH; [|assumption|cbn [length]; lia].
    cbn [rev]. rewrite <- app_assoc. cbn [app]. f_equal. lia.
Qed.

Lemma ee_tag_run : forall t p r ii rtag,
  Forall (fun b => isdigit b = true) t -> length rtag + length t < p_tagcap p ->
  ee_tag p (t ++ EQS :: r) ii rtag = ee_val p r (S (ii + length t)) (rev t ++ rtag) [].
Proof.
  induction t as [|b t IH]; intros p r ii rtag Ht L.
  - cbn [app ee_tag length rev]. change (isdigit EQS) with false. rewrite N.eqb_refl.
    rewrite Nat.add_0_r. reflexivity.
  - inversion Ht as [|? ? Hb Ht']; subst.
    cbn [app ee_tag length]. rewrite Hb. cbn [length] in L.
    destruct (length rtag =? p_tagcap p - 1) eqn:E0; [apply Nat.eqb_eq in E0; lia|].
    destruct (p_tagcap p <=? length rtag) eqn:E; [apply Nat.leb_le in E; lia|].
    rewrite IH; [|assumption|cbn [length]; lia].
    cbn [rev]. rewrite <- app_assoc. cbn [app]. f_equal. lia.
Qed.

Lemma ee_field : forall p t v more,
  Forall (fun b => isdigit b = true) t -> length t < p_tagcap p ->
  Forall (fun b => nosoh b = true) v -> length v < p_valcap p ->
  extract_element p (t ++ EQS :: v ++ SOH :: more) = EERet (length t + 1 + length v + 1) t v.
Proof.
  intros p t v more Ht Lt Hv Lv. unfold extract_element.
  rewrite ee_tag_run by (cbn [length]; (assumption || lia)).
  rewrite ee_val_run by (cbn [length]; (assumption || lia)).
  rewrite !app_nil_r, ee_term_fits by (rewrite rev_length; assumption).
  rewrite !rev_involutive. f_equal. cbn [length]. lia.
Qed.

(* c = 0 is extract_element's failure; otherwise the loop has met an SOH *)
Lemma ee_val_inv : forall from p ii rtag rval,
  length rtag < p_tagcap p -> length rval < p_valcap p ->
  exists c v, ee_val p from ii rtag rval = EERet c (rev rtag) v /\
    (c = 0 \/ exists v' x, from = v' ++ SOH :: x /\ v = rev rval ++ v').
Proof.
  induction from as [|b r IH]; intros p ii rtag rval Lt Lv; cbn [ee_val].
  - rewrite ee_term_fits by assumption. eauto.
  - destruct (b =? SOH)%N eqn:Eb.
    { apply N.eqb_eq in Eb. subst b. rewrite ee_term_fits by assumption.
      do 2 eexists. split; [reflexivity|]. right. exists [], r. rewrite app_nil_r. split; reflexivity. }
    destruct (length rval =? p_valcap p - 1) eqn:E0; [rewrite ee_term_fits by assumption; eauto|].
    apply Nat.eqb_neq in E0.
    destruct (p_valcap p <=? length rval) eqn:E; [apply Nat.leb_le in E; lia|].
    destruct (IH p (S ii) rtag (b :: rval) Lt) as (c & v & Ev & Hc); [cbn [length]; lia|].
    exists c, v. split; [exact Ev|]. destruct Hc as [Hc|(v' & x & -> & ->)]; [left; exact Hc|].
    right. exists (b :: v'), x. cbn [rev app]. rewrite <- app_assoc. split; reflexivity.
Qed.

Lemma ee_after_tag : forall p t z,
  Forall (fun b => isdigit b = true) t -> length t < p_tagcap p -> 1 <= p_valcap p ->
  exists c v, extract_element p (t ++ EQS :: z) = EERet c t v /\ (c = 0 \/ exists x, z = v ++ SOH :: x).
Proof.
  intros p t z Ht Lt Lv. unfold extract_element.
  rewrite ee_tag_run by (cbn [length]; (assumption || lia)).
  destruct (ee_val_inv z p (S (0 + length t)) (rev t ++ []) []) as (c & v & E & Hc).
  - rewrite app_nil_r, rev_length. exact Lt.
  - exact Lv.
  - rewrite E, app_nil_r, rev_involutive. exists c, v. split; [reflexivity|].
    destruct Hc as [Hc|(v' & x & Ez & ->)]; eauto.
Qed.

Lemma atoi_step_digit : forall a b, isdigit b = true ->
  atoi_step (a mod W32) b = ((a * 10 + (b - 48)) mod W32)%N.
Proof.
  intros a b H. unfold isdigit in H. apply andb_true_iff in H. destruct H as [H1 H2].
  apply N.leb_le in H1. apply N.leb_le in H2.
  unfold atoi_step.
  destruct (b <? 128)%N eqn:E; [|apply N.ltb_ge in E; lia].
  assert (W : W32 <> 0%N) by (unfold W32; discriminate).
  replace (a mod W32 * 10 + b + 4294967248)%N with ((a mod W32 * 10 + (b - 48)) + 1 * W32)%N
    by (unfold W32; lia).
  rewrite N.mod_add by exact W.
  rewrite <- (N.add_mod_idemp_l (a * 10)) by exact W.
  rewrite <- (N.mul_mod_idemp_l a 10) by exact W.
  rewrite N.add_mod_idemp_l by exact W. reflexivity.
Qed.

Lemma atoi_digits : forall ds, Forall (fun b => isdigit b = true) ds ->
  atoi_u32 ds = (dec ds mod W32)%N.
Proof.
  intros ds H. unfold atoi_u32, dec.
  assert (G : forall a, fold_left atoi_step ds (a mod W32)%N =
                        (fold_left (fun acc b => acc * 10 + (b - 48)) ds a mod W32)%N).
  { induction H as [|b ds Hb _ IH]; intros a; [reflexivity|].
    cbn [fold_left]. rewrite atoi_step_digit by exact Hb. apply IH. }
  exact (G 0%N).
Qed.

Lemma pre_loop_digits : forall ds fuel p racc offs s c R,
  concat s = ds ++ c :: R -> Forall (fun b => isdigit b = true) ds -> isdigit c = false ->
  offs + length ds < p_max p -> length ds < fuel ->
  exists s', concat s' = R /\
    pre_loop fuel p racc offs s =
    (if (c =? SOH)%N then PDone (rev racc ++ ds ++ [c]) else PIllegal (rev racc ++ ds), s').
Proof.
  induction ds as [|d ds IH]; intros fuel p racc offs s c R C Hd Hc Lo Lf;
    (destruct fuel as [|f]; [cbn [length] in Lf; lia|]); cbn [length] in Lo, Lf; cbn [pre_loop].
  - destruct (sock_read_app s [c] R C) as [s' [E C']]. cbn [length] in E. rewrite E, Hc.
    exists s'. split; [exact C'|].
    destruct (c =? SOH)%N; cbn [negb andb rev app]; [|rewrite app_nil_r; reflexivity].
    destruct (p_max p <=? offs) eqn:E1; [apply Nat.leb_le in E1; lia | reflexivity].
  - inversion Hd as [|? ? Hb Hd']; subst.
    destruct (sock_read_app s [d] (ds ++ c :: R) C) as [s' [E C']]. cbn [length] in E. rewrite E, Hb.
    cbn [negb andb].
    destruct (p_max p <=? offs) eqn:E1; [apply Nat.leb_le in E1; lia|].
    pose proof (digit_nosoh d Hb) as Hn. unfold nosoh in Hn. rewrite Hn. cbn [andb].
    destruct (S offs <? p_max p) eqn:E2; [|apply Nat.ltb_ge in E2; lia].
    destruct (IH f p (d :: racc) (S offs) s' c R C' Hd' Hc ltac:(lia) ltac:(lia)) as [s'' [C'' P]].
    exists s''. split; [exact C''|]. rewrite P. cbn [rev]. rewrite <- !app_assoc. reflexivity.
Qed.

Lemma read_msg_digits : forall p s pre ds c R,
  concat s = pre ++ ds ++ c :: R -> length pre = bg_sz p ->
  Forall (fun b => isdigit b = true) ds -> isdigit c = false -> bg_sz p + length ds < p_max p ->
  exists s2, concat s2 = R /\
    read_msg p s = if (c =? SOH)%N then read_fields p (pre ++ ds ++ [c]) s2
                   else (OIllegal (cstr (pre ++ ds)), s2).
Proof.
  intros p s pre ds c R C Lp Hd Hc Lm.
  destruct (sock_read_app s pre _ C) as [s1 [E1 C1]]. rewrite Lp in E1.
  unfold read_msg. rewrite E1.
  destruct (p_max p <? bg_sz p) eqn:E0; [apply Nat.ltb_lt in E0; lia|].
  destruct (pre_loop_digits ds (p_max p) p (rev pre) (bg_sz p) s1 c R C1 Hd Hc Lm ltac:(lia))
    as [s2 [C2 P]].
  rewrite P, rev_involutive. exists s2. split; [exact C2|]. destruct (c =? SOH)%N; reflexivity.
Qed.

Lemma header_length : forall b, length (header b) = length b + 5.
Proof. intros b. unfold header. rewrite !app_length. cbn [length]. lia. Qed.

Lemma header_app : forall b x, header b ++ x = [56; 61]%N ++ b ++ [SOH] ++ [57%N] ++ EQS :: x.
Proof. intros b x. unfold header, EQS, SOH. rewrite <- !app_assoc. reflexivity. Qed.

Lemma bg_header : forall p, bg_sz p = length (header (p_begin p)) + 1.
Proof. intros p. unfold bg_sz. rewrite header_length. lia. Qed.

Lemma read_fields_first : forall p rest0 s2, wf_params p = true ->
  read_fields p ([56; 61]%N ++ p_begin p ++ [SOH] ++ rest0) s2 =
  match extract_element p rest0 with
  | EEOob st => (OOob st, s2)
  | EERet r2 tag2 val2 =>
    if (r2 =? 0) || negb (tag_exact tag2 57%N) || first_not_digit val2
    then (OIllegal ([56; 61]%N ++ p_begin p ++ [SOH] ++ rest0), s2)
    else read_body p ([56; 61]%N ++ p_begin p ++ [SOH] ++ rest0) (atoi_u32 (cstr val2)) s2
  end.
Proof.
  intros p rest0 s2 W. destruct (wf_inv p W) as (Bs & Bn & Tc & Bl & _).
  set (to := [56; 61]%N ++ p_begin p ++ [SOH] ++ rest0).
  unfold read_fields.
  change to with ([56%N] ++ EQS :: p_begin p ++ SOH :: rest0) at 1.
  rewrite ee_field; [|repeat constructor|cbn [length]; lia|exact Bs|exact Bl].
  cbn [length tag_exact]. rewrite add1_eqb_0.
  rewrite N.eqb_refl, (cstr_nonul _ Bn), list_eqb_refl. cbn [negb].
  replace (skipn (1 + 1 + length (p_begin p) + 1) to) with rest0.
  2:{ replace to with (([56; 61]%N ++ p_begin p ++ [SOH]) ++ rest0)
        by (unfold to; rewrite <- !app_assoc; reflexivity).
      replace (1 + 1 + length (p_begin p) + 1) with (length ([56; 61]%N ++ p_begin p ++ [SOH]))
        by (rewrite !app_length; cbn [length]; lia).
      symmetry. apply skipn_app_exact. }
  destruct (extract_element p rest0) as [st|r2 tag2 val2]; [reflexivity|].
  destruct (r2 =? 0); [reflexivity|]. destruct (negb (tag_exact tag2 57%N)); [reflexivity|].
  destruct (first_not_digit val2); reflexivity.
Qed.

Lemma first_not_digit_digits : forall ds, Forall (fun b => isdigit b = true) ds -> first_not_digit ds = false.
Proof.
  intros ds H. destruct H as [|d ds Hd _]; [reflexivity|].
  cbn [first_not_digit]. rewrite Hd. apply andb_false_r.
Qed.

Lemma read_fields_preamble : forall p ds s2,
  wf_params p = true -> Forall (fun b => isdigit b = true) ds -> length ds < p_valcap p ->
  read_fields p (header (p_begin p) ++ ds ++ [SOH]) s2 =
  read_body p (header (p_begin p) ++ ds ++ [SOH]) (dec ds mod W32)%N s2.
Proof.
  intros p ds s2 W Hd Ld. destruct (wf_inv p W) as (_ & _ & Tc & _).
  rewrite header_app, (read_fields_first p _ s2 W).
  rewrite ee_field; [|repeat constructor|cbn [length]; lia|exact (Forall_impl _ digit_nosoh Hd)|exact Ld].
  cbn [length tag_exact]. rewrite add1_eqb_0.
  rewrite N.eqb_refl, (first_not_digit_digits ds Hd). cbn [negb orb].
  rewrite (cstr_nonul ds (Forall_impl _ digit_nonul Hd)), (atoi_digits ds Hd). reflexivity.
Qed.

Lemma read_msg_preamble : forall p s ds R,
  wf_params p = true ->
  concat s = header (p_begin p) ++ ds ++ [SOH] ++ R ->
  ds <> [] -> Forall (fun b => isdigit b = true) ds -> length ds < p_valcap p ->
  exists s2, concat s2 = R /\
    read_msg p s = read_body p (header (p_begin p) ++ ds ++ [SOH]) (dec ds mod W32)%N s2.
Proof.
  intros p s ds R W C Hne Hd Ld.
  destruct (wf_inv p W) as (_ & _ & _ & _ & Mx & _).
  destruct ds as [|d1 ds']; [congruence|]. inversion Hd as [|? ? _ Hd']; subst.
  destruct (read_msg_digits p s (header (p_begin p) ++ [d1]) ds' SOH R) as [s2 [C2 E]].
  - rewrite C, <- !app_assoc. reflexivity.
  - rewrite app_length, bg_header. reflexivity.
  - exact Hd'.
  - reflexivity.
  - cbn [length] in Ld. lia.
  - exists s2. split; [exact C2|]. rewrite E. change (SOH =? SOH)%N with true. cbv iota.
    rewrite <- app_assoc. exact (read_fields_preamble p (d1 :: ds') s2 W Hd Ld).
Qed.

Lemma len_limit_eq : forall p, safe_params p = true ->
  len_limit p = N.of_nat (p_max p - bg_sz p - chksum_sz).
Proof.
  intros p W. destruct (safe_inv p W) as (_ & _ & Mx & M64).
  unfold len_limit, chksum_sz in *.
  replace (N.of_nat (p_max p) + W64 - N.of_nat (bg_sz p) - N.of_nat 7)%N
    with (N.of_nat (p_max p - bg_sz p - 7) + 1 * W64)%N by lia.
  rewrite N.mod_add by (unfold W64; discriminate).
  apply N.mod_small. lia.
Qed.

Lemma read_body_ok : forall p to body trl s2 rest,
  wf_params p = true -> 1 <= length body -> (N.of_nat (length body) <= len_limit p)%N ->
  length trl = 7 -> concat s2 = body ++ trl ++ rest ->
  exists s4, concat s4 = rest /\
    read_body p to (N.of_nat (length body)) s2 = (OMsg (to ++ body ++ trl), s4).
Proof.
  intros p to body trl s2 rest W Pos Lim Lt C.
  pose proof (len_limit_eq p (wf_safe p W)) as LE. rewrite LE in Lim.
  destruct (wf_inv p W) as (_ & _ & _ & _ & _ & Mx8 & _).
  unfold read_body. rewrite LE.
  destruct (N.of_nat (length body) =? 0)%N eqn:E0; [apply N.eqb_eq in E0; lia|].
  destruct (N.of_nat (p_max p - bg_sz p - chksum_sz) <? N.of_nat (length body))%N eqn:E1;
    [apply N.ltb_lt in E1; lia|].
  cbn [orb]. rewrite Nat2N.id.
  unfold chksum_sz in *.
  destruct (p_max p <? length body + 7) eqn:E2; [apply Nat.ltb_lt in E2; lia|].
  destruct (sock_read_app s2 body (trl ++ rest) C) as [s3 [R3 C3]]. rewrite R3.
  destruct (sock_read_app s3 trl rest C3) as [s4 [R4 C4]]. rewrite Lt in R4. rewrite R4.
  exists s4. split; [exact C4 | reflexivity].
Qed.

Lemma strip_some : forall pre s r, strip pre s = Some r -> s = pre ++ r.
Proof.
  induction pre as [|x pre IH]; intros s r H; cbn in H.
  - injection H as ->. reflexivity.
  - destruct s as [|y s]; [discriminate|].
    destruct (x =? y)%N eqn:E; [|discriminate]. apply N.eqb_eq in E. subst y.
    cbn. f_equal. apply IH, H.
Qed.

Lemma strip_app : forall pre r, strip pre (pre ++ r) = Some r.
Proof.
  induction pre as [|x pre IH]; intros r; cbn; [reflexivity|]. rewrite N.eqb_refl. apply IH.
Qed.

Lemma take_drop_digits : forall r, take_digits r ++ drop_digits r = r.
Proof.
  induction r as [|b r IH]; [reflexivity|]. cbn. destruct (sp_digit b); cbn; [rewrite IH|]; reflexivity.
Qed.

Lemma take_digits_all : forall r, Forall (fun b => isdigit b = true) (take_digits r).
Proof.
  induction r as [|b r IH]; cbn; [constructor|].
  destruct (sp_digit b) eqn:E; [|constructor]. constructor; [exact E | exact IH].
Qed.

Lemma take_drop_app : forall ds c x, Forall (fun b => isdigit b = true) ds -> isdigit c = false ->
  take_digits (ds ++ c :: x) = ds /\ drop_digits (ds ++ c :: x) = c :: x.
Proof.
  induction ds as [|d ds IH]; intros c x H Hc.
  - cbn. change (sp_digit c) with (isdigit c). rewrite Hc. split; reflexivity.
  - inversion H as [|? ? Hd H']; subst. cbn. change (sp_digit d) with (isdigit d). rewrite Hd.
    destruct (IH c x H' Hc) as [E1 E2]. rewrite E1, E2. split; reflexivity.
Qed.

Lemma trailer_ok_length : forall t, trailer_ok t = true -> length t = 7.
Proof.
  intros t H. unfold trailer_ok in H.
  do 7 (destruct t as [|? t]; [discriminate|]). destruct t; [reflexivity | discriminate].
Qed.

Record shape (p : params) (m ds body trl : list N) : Prop := mk_shape {
  sh_m : m = header (p_begin p) ++ ds ++ [SOH] ++ body ++ trl;
  sh_ds : ds <> [];
  sh_dig : Forall (fun b => isdigit b = true) ds;
  sh_dec : dec ds = N.of_nat (length body);
  sh_pos : 1 <= length body;
  sh_lim : (N.of_nat (length body) <= len_limit p)%N;
  sh_trl : trailer_ok trl = true;
  sh_w : length ds <= max_width p
}.

(* a valid frame for the oracle, with the reader's limits (largest BodyLength, longest field
   value) as the oracle's parameters *)
Definition frame_ok (p : params) (m : list N) : bool :=
  valid_frame (p_begin p) (len_limit p) (max_width p) m.

Lemma frame_ok_shape : forall p m, frame_ok p m = true -> exists ds body trl, shape p m ds body trl.
Proof.
  intros p m H. unfold frame_ok, valid_frame, spec_frame in H.
  destruct (strip (header (p_begin p)) m) as [r|] eqn:St.
  2:{ destruct (is_prefix m (header (p_begin p))); discriminate. }
  apply strip_some in St.
  pose proof (take_drop_digits r) as TD. pose proof (take_digits_all r) as TA.
  destruct (max_width p <? length (take_digits r)) eqn:Ew; [discriminate|]. apply Nat.ltb_ge in Ew.
  destruct (drop_digits r) as [|c more] eqn:Dr; [discriminate|].
  destruct (c =? sp_soh)%N eqn:Ec; cbn [negb] in H; [|discriminate].
  apply N.eqb_eq in Ec. subst c.
  destruct (take_digits r) as [|d ds0] eqn:Tk; [discriminate|].
  set (ds := d :: ds0) in *.
  destruct (dec ds =? 0)%N eqn:Ez; [discriminate|].
  destruct (len_limit p <? dec ds)%N eqn:El; [discriminate|].
  destruct (N.of_nat (length more) <? dec ds + 7)%N eqn:Em; [discriminate|].
  destruct (trailer_ok (firstn 7 (skipn (N.to_nat (dec ds)) more))) eqn:Et; [|discriminate].
  destruct (skipn (N.to_nat (dec ds) + 7) more) as [|? ?] eqn:Sk; [|discriminate].
  apply N.eqb_neq in Ez. apply N.ltb_ge in El. apply N.ltb_ge in Em.
  set (k := N.to_nat (dec ds)) in *.
  assert (Lm : length more = k + 7).
  { apply (f_equal (@length N)) in Sk. rewrite skipn_length in Sk. cbn [length] in Sk. subst k. lia. }
  exists ds, (firstn k more), (skipn k more).
  assert (Lb : length (firstn k more) = k) by (rewrite firstn_length; lia).
  constructor.
  - rewrite St, <- TD. unfold SOH, sp_soh.
    cbn [app]. rewrite (firstn_skipn k more). reflexivity.
  - subst ds. discriminate.
  - exact TA.
  - rewrite Lb. subst k. rewrite N2Nat.id. reflexivity.
  - rewrite Lb. subst k. lia.
  - rewrite Lb. subst k. rewrite N2Nat.id. exact El.
  - rewrite <- Et. f_equal.
    rewrite firstn_all2; [reflexivity|]. rewrite skipn_length. lia.
  - exact Ew.
Qed.

Lemma shape_nonempty : forall p m ds body trl, shape p m ds body trl -> 1 <= length m.
Proof.
  intros p m ds body trl Sh. rewrite (sh_m _ _ _ _ _ Sh), app_length, header_length. lia.
Qed.

Lemma concat_length_ge : forall p msgs, Forall (fun m => frame_ok p m = true) msgs ->
  length msgs <= length (concat msgs).
Proof.
  intros p msgs H. induction H as [|m msgs Hm _ IH]; [cbn; lia|].
  destruct (frame_ok_shape p m Hm) as (ds & body & trl & Sh).
  pose proof (shape_nonempty _ _ _ _ _ Sh). cbn [concat length]. rewrite app_length. lia.
Qed.

Lemma read_msg_valid : forall p s m ds body trl rest,
  wf_params p = true -> shape p m ds body trl -> concat s = m ++ rest ->
  exists s', concat s' = rest /\ read_msg p s = (OMsg m, s').
Proof.
  intros p s m ds body trl rest W Sh C.
  destruct Sh as [Em Hne Hd Hdec Pos Lim Trl Hw].
  pose proof (trailer_ok_length _ Trl) as Lt.
  destruct (wf_inv p W) as (_ & _ & _ & Bl & _ & _ & M32).
  assert (C' : concat s = header (p_begin p) ++ ds ++ [SOH] ++ (body ++ trl ++ rest)).
  { rewrite C, Em. rewrite <- !app_assoc. reflexivity. }
  destruct (read_msg_preamble p s ds _ W C' Hne Hd) as [s2 [C2 E]]; [unfold max_width in Hw; lia|].
  rewrite E, Hdec.
  assert (M : (N.of_nat (length body) mod W32 = N.of_nat (length body))%N).
  { apply N.mod_small. rewrite (len_limit_eq p (wf_safe p W)) in Lim. lia. }
  rewrite M.
  destruct (read_body_ok p (header (p_begin p) ++ ds ++ [SOH]) body trl s2 rest W Pos Lim Lt C2) as [s4 [C4 R]].
  exists s4. split; [exact C4|]. rewrite R. rewrite Em. rewrite <- !app_assoc. reflexivity.
Qed.

Lemma read_all_valid : forall p msgs s rest fuel,
  wf_params p = true -> Forall (fun m => frame_ok p m = true) msgs ->
  concat s = concat msgs ++ rest -> length msgs <= fuel ->
  exists s', concat s' = rest /\
    read_all fuel p s = (let (d, e) := read_all (fuel - length msgs) p s' in (msgs ++ d, e)).
Proof.
  intros p msgs. induction msgs as [|m msgs IH]; intros s rest fuel W Hv C Lf.
  - exists s. split; [exact C|]. cbn [length app]. rewrite Nat.sub_0_r.
    destruct (read_all fuel p s). reflexivity.
  - inversion Hv as [|? ? Hm Hv']; subst.
    destruct (frame_ok_shape p m Hm) as (ds & body & trl & Sh).
    cbn [concat] in C. rewrite <- app_assoc in C.
    destruct (read_msg_valid p s m ds body trl _ W Sh C) as [s1 [C1 R1]].
    cbn [length] in Lf. destruct fuel as [|f]; [lia|].
    destruct (IH s1 rest f W Hv' C1 ltac:(lia)) as [s' [C' R']].
    exists s'. split; [exact C'|].
    cbn [read_all]. rewrite R1, R'. cbn [length Nat.sub].
    destruct (read_all (f - length msgs) p s'). reflexivity.
Qed.

Definition err_or_eos (o : outcome) : bool :=
  match o with OEos | OIllegal _ | OBadVersion _ | OBadLen _ => true | _ => false end.

(* How one call of read refuses a corrupted preamble: IllegalMessage or the end of the stream in
   every case; InvalidVersion(t) / InvalidBodyLength(n) for the t, n that V, L admit.  [refusal_end]
   is the same class of endings of a run. *)
Definition refusal (V : list N -> Prop) (L : N -> Prop) (o : outcome) : Prop :=
  match o with OEos | OIllegal _ => True | OBadVersion t => V t | OBadLen n => L n | _ => False end.

Definition refusal_end (V : list N -> Prop) (L : N -> Prop) (e : ending) : Prop :=
  match e with EWait | EPeerReset | EIllegal _ => True | EBadVersion t => V t | EBadLen n => L n | _ => False end.

Definition illegal_or_eos : outcome -> Prop := refusal (fun _ => False) (fun _ => False).

Definition illegal_or_eos_end (e : ending) : Prop :=
  match e with EWait | EPeerReset | EIllegal _ => True | _ => False end.

Lemma refusal_err : forall V L o, refusal V L o -> err_or_eos o = true.
Proof. intros V L o H. destruct o; cbn in *; try contradiction; reflexivity. Qed.

Lemma refusal_ending : forall V L o closed, refusal V L o -> refusal_end V L (ending_of o closed).
Proof. intros V L o closed H. destruct o; cbn in *; try contradiction; try exact H. destruct closed; exact I. Qed.

Lemma same_stream_single : forall s, same_stream s [concat s].
Proof. intros s. unfold same_stream. cbn. rewrite app_nil_r. reflexivity. Qed.

Lemma run_after_valid : forall p msgs chunks rest closed,
  wf_params p = true -> Forall (fun m => frame_ok p m = true) msgs ->
  concat chunks = concat msgs ++ rest ->
  err_or_eos (fst (read_msg p [rest])) = true ->
  run p chunks closed = (msgs, ending_of (fst (read_msg p [rest])) closed).
Proof.
  intros p msgs chunks rest closed W Hv C He. unfold run, total.
  pose proof (concat_length_ge p msgs Hv) as L.
  assert (Lf : length msgs <= length (concat chunks)) by (rewrite C, app_length; lia).
  destruct (read_all_valid p msgs chunks rest (S (length (concat chunks))) W Hv C ltac:(lia)) as [s' [Cs R]].
  rewrite R, Nat.sub_succ_l by exact Lf.
  cbn [read_all].
  assert (SS : same_stream s' [rest]) by (rewrite <- Cs; apply same_stream_single).
  destruct (read_msg_same p s' [rest] SS) as [E _].
  destruct (read_msg p s') as [o s'']. cbn [fst] in E. subst o.
  destruct (fst (read_msg p [rest])); try discriminate; rewrite app_nil_r; reflexivity.
Qed.

Lemma frames_exact_lemma : forall p msgs chunks closed,
  wf_params p = true -> Forall (fun m => frame_ok p m = true) msgs ->
  concat chunks = concat msgs ->
  run p chunks closed = (msgs, if closed then EPeerReset else EWait).
Proof.
  intros p msgs chunks closed W Hv C.
  assert (E : fst (read_msg p [[]]) = OEos) by reflexivity.
  rewrite (run_after_valid p msgs chunks [] closed W Hv); rewrite ?E, ?app_nil_r; [reflexivity|exact C|reflexivity].
Qed.

Lemma spec_frame_app : forall p m ds body trl rest, shape p m ds body trl ->
  spec_frame (p_begin p) (len_limit p) (max_width p) (m ++ rest) = FFrame m rest.
Proof.
  intros p m ds body trl rest Sh. destruct Sh as [Em Hne Hd Hdec Pos Lim Trl Hw].
  pose proof (trailer_ok_length _ Trl) as Lt.
  unfold spec_frame.
  assert (E : m ++ rest = header (p_begin p) ++ (ds ++ SOH :: (body ++ trl ++ rest))).
  { rewrite Em. rewrite <- !app_assoc. reflexivity. }
  rewrite E, strip_app.
  destruct (take_drop_app ds SOH (body ++ trl ++ rest) Hd eq_refl) as [E1 E2].
  rewrite E1, E2.
  destruct (max_width p <? length ds) eqn:Ew; [apply Nat.ltb_lt in Ew; lia|].
  change (SOH =? sp_soh)%N with true. cbn [negb].
  destruct ds as [|d ds0]; [congruence|]. set (ds := d :: ds0) in *.
  rewrite Hdec.
  destruct (N.of_nat (length body) =? 0)%N eqn:E0; [apply N.eqb_eq in E0; lia|].
  destruct (len_limit p <? N.of_nat (length body))%N eqn:E3; [apply N.ltb_lt in E3; lia|].
  destruct (N.of_nat (length (body ++ trl ++ rest)) <? N.of_nat (length body) + 7)%N eqn:E4.
  { apply N.ltb_lt in E4. rewrite !app_length in E4. lia. }
  rewrite Nat2N.id, <- Lt, skipn_app_exact, firstn_app_exact, Trl.
  rewrite <- app_length, (app_assoc body), firstn_app_exact, skipn_app_exact. f_equal. rewrite Em. unfold SOH, sp_soh. rewrite <- ?app_assoc. reflexivity.
Qed.

Lemma spec_parse_app : forall p msgs rest fuel,
  Forall (fun m => frame_ok p m = true) msgs -> length msgs <= fuel ->
  spec_parse fuel (p_begin p) (len_limit p) (max_width p) (concat msgs ++ rest) =
  (let (fs, t) := spec_parse (fuel - length msgs) (p_begin p) (len_limit p) (max_width p) rest in
   (msgs ++ fs, t)).
Proof.
  intros p msgs rest. induction msgs as [|m msgs IH]; intros fuel Hv L.
  - cbn [concat app length]. rewrite Nat.sub_0_r. destruct (spec_parse fuel _ _ _ rest). reflexivity.
  - inversion Hv as [|? ? Hm Hv']; subst.
    destruct (frame_ok_shape p m Hm) as (ds & body & trl & Sh).
    pose proof (shape_nonempty _ _ _ _ _ Sh) as Ln.
    cbn [concat length] in *. rewrite <- app_assoc.
    destruct (m ++ concat msgs ++ rest) as [|x xs] eqn:Ex.
    { apply (f_equal (@length N)) in Ex. rewrite app_length in Ex. cbn in Ex. lia. }
    destruct fuel as [|f]; [lia|].
    cbn [spec_parse Nat.sub]. rewrite <- Ex, (spec_frame_app p m ds body trl _ Sh), IH by (assumption || lia).
    destruct (spec_parse (f - length msgs) _ _ _ rest). reflexivity.
Qed.

Lemma sp_eqb_refl : forall l, sp_eqb l l = true.
Proof. induction l as [|b l IH]; [reflexivity|]. cbn. rewrite N.eqb_refl, IH. reflexivity. Qed.

Lemma sp_eqbb_refl : forall l, sp_eqbb l l = true.
Proof. induction l as [|b l IH]; [reflexivity|]. cbn. rewrite sp_eqb_refl, IH. reflexivity. Qed.

(* model ending -> the oracle's vocabulary (the same map as in ocaml/c15_driver.ml) *)
Definition rd_of (e : ending) : rd_end :=
  match e with
  | EWait => RWait
  | EPeerReset => RPeerReset
  | EIllegal _ | EBadVersion _ | EBadLen _ => RError
  | EOob => RMemory
  | EOther => ROther
  end.

Definition model_ok (p : params) (chunks : sock) (closed : bool) : bool :=
  let (d, e) := run p chunks closed in
  c15_ok (p_begin p) (len_limit p) (max_width p) (concat chunks) closed d (rd_of e).

Lemma valid_streams_ok_lemma : forall p msgs chunks closed,
  wf_params p = true -> Forall (fun m => frame_ok p m = true) msgs ->
  concat chunks = concat msgs ->
  model_ok p chunks closed = true.
Proof.
  intros p msgs chunks closed W Hv C. unfold model_ok.
  rewrite (frames_exact_lemma p msgs chunks closed W Hv C).
  unfold c15_ok. rewrite C. rewrite <- (app_nil_r (concat msgs)) at 2.
  pose proof (concat_length_ge p msgs Hv) as L.
  rewrite (spec_parse_app p msgs [] _ Hv) by lia.
  destruct (S (length (concat msgs)) - length msgs); cbn [spec_parse];
    rewrite app_nil_r, sp_eqbb_refl; destruct closed; reflexivity.
Qed.

Lemma bad_after_valid_ok : forall p msgs chunks rest closed,
  wf_params p = true -> Forall (fun m => frame_ok p m = true) msgs ->
  concat chunks = concat msgs ++ rest ->
  spec_frame (p_begin p) (len_limit p) (max_width p) rest = FBad ->
  err_or_eos (fst (read_msg p [rest])) = true ->
  run p chunks closed = (msgs, ending_of (fst (read_msg p [rest])) closed) /\
  model_ok p chunks closed = true.
Proof.
  intros p msgs chunks rest closed W Hv C Hb He.
  pose proof (run_after_valid p msgs chunks rest closed W Hv C He) as R.
  split; [exact R|].
  unfold model_ok. rewrite R. unfold c15_ok. rewrite C.
  pose proof (concat_length_ge p msgs Hv) as L.
  rewrite (spec_parse_app p msgs rest _ Hv) by (rewrite app_length; lia).
  destruct rest as [|x xs]; [discriminate Hb|].
  rewrite app_length, Nat.sub_succ_l by lia. cbn [spec_parse]. rewrite Hb, app_nil_r, sp_eqbb_refl.
  destruct (fst (read_msg p [x :: xs])); try discriminate; destruct closed; reflexivity.
Qed.

Lemma refusal_after_valid : forall V L p msgs chunks rest closed,
  wf_params p = true -> Forall (fun m => frame_ok p m = true) msgs ->
  concat chunks = concat msgs ++ rest ->
  spec_frame (p_begin p) (len_limit p) (max_width p) rest = FBad ->
  refusal V L (fst (read_msg p [rest])) ->
  (exists e, run p chunks closed = (msgs, e) /\ refusal_end V L e) /\ model_ok p chunks closed = true.
Proof.
  intros V L p msgs chunks rest closed W Hv C Hb R.
  destruct (bad_after_valid_ok p msgs chunks rest closed W Hv C Hb (refusal_err V L _ R)) as [R1 R2].
  split; [|exact R2]. eexists. split; [exact R1 | apply refusal_ending, R].
Qed.

(* POob: only the loop's first write can fall outside msg_buf, when the first read has filled it *)
Lemma pre_loop_inv : forall fuel p racc offs s,
  1 <= fuel -> p_max p - offs <= fuel ->
  match pre_loop fuel p racc offs s with
  | (PDone to, s') =>
      exists y l, to = rev racc ++ y ++ [l] /\ concat s = y ++ l :: concat s' /\
                  Forall (fun b => isdigit b = true) y /\ (l = SOH \/ offs + length y + 1 = p_max p)
  | (POob, _) => p_max p <= offs
  | (PFuel, _) => False
  | _ => True
  end.
Proof.
  induction fuel as [|f IH]; intros p racc offs s L1 L2; [lia|].
  cbn [pre_loop].
  destruct (sock_read 1 s) as [r s1] eqn:R.
  destruct r as [[|bt [|b2 l0]]|]; try exact I.
  apply sock_read_some in R. cbn [app] in R.
  destruct (negb (isdigit bt) && negb (bt =? SOH)%N) eqn:E1; [exact I|].
  destruct (p_max p <=? offs) eqn:E2; [apply Nat.leb_le, E2|]. apply Nat.leb_gt in E2.
  destruct (negb (bt =? SOH)%N && (S offs <? p_max p)) eqn:E3.
  - apply andb_true_iff in E3. destruct E3 as [E3 E4]. apply Nat.ltb_lt in E4.
    rewrite E3, andb_true_r in E1. apply negb_false_iff in E1.
    specialize (IH p (bt :: racc) (S offs) s1 ltac:(lia) ltac:(lia)).
    destruct (pre_loop f p (bt :: racc) (S offs) s1) as [[to| |buf| |] s']; try exact IH; [|lia].
    destruct IH as (y & l & Et & Ec & Hy & Hl).
    exists (bt :: y), l. split; [|split; [|split]].
    + rewrite Et. cbn [rev]. rewrite <- !app_assoc. reflexivity.
    + rewrite R, Ec. reflexivity.
    + constructor; assumption.
    + cbn [length]. destruct Hl as [Hl|Hl]; [left; exact Hl | right; lia].
  - exists [], bt. split; [reflexivity|]. split; [exact R|]. split; [constructor|].
    apply andb_false_iff in E3. destruct E3 as [E3|E3].
    + left. apply negb_false_iff in E3. apply N.eqb_eq in E3. exact E3.
    + right. apply Nat.ltb_ge in E3. cbn [length]. lia.
Qed.

Lemma read_msg_cases : forall p s,
  fst (read_msg p s) = OEos \/ (exists t, fst (read_msg p s) = OIllegal t) \/
  (fst (read_msg p s) = OOob SiteMsgBuf /\ p_max p <= bg_sz p) \/
  exists to s2 y l, read_msg p s = read_fields p to s2 /\
    concat s = to ++ concat s2 /\ to = firstn (bg_sz p) (concat s) ++ y ++ [l] /\
    bg_sz p <= length (concat s) /\
    Forall (fun b => isdigit b = true) y /\ (l = SOH \/ length to = p_max p).
Proof.
  intros p s. unfold read_msg.
  destruct (sock_read_concat s (bg_sz p)) as [s1 [E1 C1]]. rewrite E1.
  destruct (bg_sz p <=? length (concat s)) eqn:L; [|left; reflexivity]. apply Nat.leb_le in L.
  destruct (p_max p <? bg_sz p) eqn:E0.
  { apply Nat.ltb_lt in E0. right. right. left. split; [reflexivity | lia]. }
  apply Nat.ltb_ge in E0.
  pose proof (pre_loop_inv (p_max p) p (rev (firstn (bg_sz p) (concat s))) (bg_sz p) s1) as P.
  destruct (pre_loop (p_max p) p (rev (firstn (bg_sz p) (concat s))) (bg_sz p) s1) as [[to| |buf| |] s2];
    cbn [fst].
  - destruct P as (y & l & Et & Ec & Hy & Hl); [unfold bg_sz in *; lia | lia|].
    rewrite rev_involutive in Et.
    right. right. right. exists to, s2, y, l. repeat split; try assumption.
    + rewrite <- (firstn_skipn (bg_sz p) (concat s)) at 1. rewrite <- C1, Ec, Et.
      rewrite <- !app_assoc. reflexivity.
    + destruct Hl as [Hl|Hl]; [left; exact Hl|right].
      rewrite Et, !app_length, firstn_length_le by exact L. cbn [length]. lia.
  - left. reflexivity.
  - right. left. eexists. reflexivity.
  - right. right. left. split; [reflexivity|]. apply P; unfold bg_sz in *; lia.
  - exfalso. apply P; unfold bg_sz in *; lia.
Qed.

(* the loop cannot stop inside a Z that fits msg_buf and has no SOH after the first read: the field
   tests see Z and more *)
Lemma read_msg_prefix : forall (Q : outcome -> Prop) p s Z tail,
  safe_params p = true -> concat s = Z ++ tail ->
  length Z <= p_max p -> Forall (fun b => nosoh b = true) (skipn (bg_sz p) Z) ->
  Q OEos -> (forall t, Q (OIllegal t)) ->
  (forall more s2, Q (fst (read_fields p (Z ++ more) s2))) ->
  Q (fst (read_msg p s)).
Proof.
  intros Q p s Z tail Sf C Lm Hns Qe Qi Qf. destruct (safe_inv p Sf) as (_ & _ & Mx & _).
  destruct (read_msg_cases p s) as [E|[[t E]|[[_ E]|(to & s2 & y & l & E & Ec & Et & Lb & _ & Hl)]]].
  - rewrite E. exact Qe.
  - rewrite E. apply Qi.
  - lia.
  - rewrite E. rewrite C in Ec.
    destruct (app_eq_app _ _ _ _ Ec) as [a [[E1 _]|[E1 _]]]; [|rewrite E1; apply Qf].
    (* Z = to ++ a: the loop did not stop at an SOH inside Z, so msg_buf is full and a = [] *)
    destruct Hl as [Hl|Hl].
    + exfalso. subst l. rewrite E1, Et, <- !app_assoc in Hns.
      rewrite <- (firstn_length_le (concat s) Lb) in Hns at 1. rewrite C, skipn_app_exact in Hns.
      apply Forall_app in Hns. destruct Hns as [_ Hns]. apply Forall_inv in Hns. discriminate Hns.
    + assert (a = []) as ->.
      { apply (f_equal (@length N)) in E1. rewrite app_length in E1.
        destruct a; [reflexivity | cbn [length] in E1; lia]. }
      rewrite app_nil_r in E1. rewrite <- E1, <- (app_nil_r Z). apply Qf.
Qed.

Lemma bad_bodylength_spec : forall p w tail,
  wf_params p = true -> w <> [] -> Forall (fun b => isdigit b = true) w ->
  ((dec w mod W32 =? 0) || (len_limit p <? dec w mod W32))%N = true ->
  spec_frame (p_begin p) (len_limit p) (max_width p) (header (p_begin p) ++ w ++ [SOH] ++ tail) = FBad.
Proof.
  intros p w tail W Hne Hd Hb. unfold spec_frame. rewrite strip_app.
  destruct (take_drop_app w SOH tail Hd eq_refl) as [E1 E2].
  cbn [app]. rewrite E1, E2.
  destruct (max_width p <? length w); [reflexivity|].
  change (SOH =? sp_soh)%N with true. cbn [negb].
  destruct w as [|d w0]; [congruence|]. set (w := d :: w0) in *.
  pose proof (len_limit_eq p (wf_safe p W)) as LE.
  destruct (wf_inv p W) as (_ & _ & _ & _ & _ & _ & M32).
  destruct (dec w =? 0)%N eqn:E0; [reflexivity|].
  destruct (len_limit p <? dec w)%N eqn:E3; [reflexivity|].
  exfalso. apply N.eqb_neq in E0. apply N.ltb_ge in E3.
  rewrite (N.mod_small (dec w) W32) in Hb by lia. apply orb_true_iff in Hb. destruct Hb as [Hb|Hb].
  - apply N.eqb_eq in Hb. lia.
  - apply N.ltb_lt in Hb. lia.
Qed.

Lemma bad_bodylength_lemma : forall p msgs chunks w tail closed,
  wf_params p = true -> Forall (fun m => frame_ok p m = true) msgs ->
  concat chunks = concat msgs ++ header (p_begin p) ++ w ++ [SOH] ++ tail ->
  w <> [] -> Forall (fun b => isdigit b = true) w -> length w < p_valcap p ->
  ((dec w mod W32 =? 0) || (len_limit p <? dec w mod W32))%N = true ->
  run p chunks closed = (msgs, EBadLen (dec w mod W32)%N) /\ model_ok p chunks closed = true.
Proof.
  intros p msgs chunks w tail closed W Hv C Hne Hd Lw Hb.
  set (rest := header (p_begin p) ++ w ++ [SOH] ++ tail) in *.
  assert (R : fst (read_msg p [rest]) = OBadLen (dec w mod W32)%N).
  { destruct (read_msg_preamble p [rest] w tail W (app_nil_r rest) Hne Hd Lw) as [s2 [_ E]].
    rewrite E. unfold read_body. rewrite Hb. reflexivity. }
  destruct (bad_after_valid_ok p msgs chunks rest closed W Hv C) as [R1 R2].
  - apply bad_bodylength_spec; assumption.
  - rewrite R. reflexivity.
  - rewrite R in R1. split; assumption.
Qed.

Lemma nonnumeric_read : forall p s c0 ds' c tail,
  wf_params p = true ->
  concat s = header (p_begin p) ++ [c0] ++ ds' ++ [c] ++ tail ->
  Forall (fun b => isdigit b = true) ds' -> isdigit c = false -> nosoh c = true ->
  length ds' < p_valcap p ->
  fst (read_msg p s) = OIllegal (cstr (header (p_begin p) ++ [c0] ++ ds')).
Proof.
  intros p s c0 ds' c tail W C Hd Hc Hs Ld.
  destruct (wf_inv p W) as (_ & _ & _ & _ & Mx & _).
  destruct (read_msg_digits p s (header (p_begin p) ++ [c0]) ds' c tail) as [s2 [_ E]].
  - rewrite C, <- !app_assoc. reflexivity.
  - rewrite app_length, bg_header. reflexivity.
  - exact Hd.
  - exact Hc.
  - lia.
  - rewrite E. apply negb_true_iff in Hs. rewrite Hs, <- app_assoc. reflexivity.
Qed.

(* a non-digit as the first character of the value is not seen by the digit loop: it came with the
   fixed-size first read, and is met by the test "*val && !isdigit( *val)" unless the value is cut
   short or is NUL *)
Lemma nonnumeric_first_read : forall p s c tail,
  wf_params p = true -> concat s = header (p_begin p) ++ [c] ++ tail ->
  isdigit c = false -> nosoh c = true ->
  refusal (fun _ => False) (fun n => n = 0%N) (fst (read_msg p s)).
Proof.
  intros p s c tail W C Hc Hs.
  destruct (wf_inv p W) as (_ & _ & Tc & Bl & _ & Mx8 & _).
  apply (read_msg_prefix (refusal _ _) p s (header (p_begin p) ++ [c]) tail (wf_safe p W)).
  - rewrite C, <- app_assoc. reflexivity.
  - rewrite app_length, <- bg_header. lia.
  - rewrite skipn_all2; [constructor|]. rewrite app_length, <- bg_header. lia.
  - exact I.
  - intros t. exact I.
  - intros more s2.
    rewrite <- app_assoc, header_app, (read_fields_first p _ s2 W).
    destruct (ee_after_tag p [57%N] ([c] ++ more)) as (r2 & v & E & Hr);
      [repeat constructor | cbn [length]; lia | lia|].
    rewrite E. cbn [tag_exact]. rewrite N.eqb_refl. cbn [negb]. rewrite orb_false_r.
    destruct Hr as [->|[x Ev]]; [exact I|].
    destruct (r2 =? 0); [exact I|]. cbn [orb].
    destruct v as [|c' v']; cbn [app] in Ev; injection Ev as -> _; [discriminate Hs|].
    cbn [first_not_digit]. rewrite Hc, andb_true_r.
    destruct (c' =? 0)%N eqn:E0; cbn [negb]; [|exact I].
    cbn [cstr]. rewrite E0. reflexivity.
Qed.

Lemma nonnumeric_spec : forall p ds0 c tail,
  Forall (fun b => isdigit b = true) ds0 -> isdigit c = false -> nosoh c = true ->
  spec_frame (p_begin p) (len_limit p) (max_width p) (header (p_begin p) ++ ds0 ++ [c] ++ tail) = FBad.
Proof.
  intros p ds0 c tail Hd Hc Hs. unfold spec_frame. rewrite strip_app.
  destruct (take_drop_app ds0 c tail Hd Hc) as [E1 E2]. cbn [app]. rewrite E1, E2.
  destruct (max_width p <? length ds0); [reflexivity|].
  change sp_soh with SOH. unfold nosoh in Hs. rewrite Hs. reflexivity.
Qed.

Lemma cstr_cstr : forall l, cstr (cstr l) = cstr l.
Proof.
  induction l as [|b l IH]; [reflexivity|]. cbn [cstr]. destruct (b =? 0)%N eqn:E; [reflexivity|].
  cbn [cstr]. rewrite E, IH. reflexivity.
Qed.

Lemma nonnumeric_lemma : forall p msgs chunks c0 ds' c tail closed,
  wf_params p = true -> Forall (fun m => frame_ok p m = true) msgs ->
  concat chunks = concat msgs ++ header (p_begin p) ++ [c0] ++ ds' ++ [c] ++ tail ->
  nosoh c0 = true -> Forall (fun b => isdigit b = true) ds' -> isdigit c = false -> nosoh c = true ->
  length ds' < p_valcap p ->
  run p chunks closed = (msgs, EIllegal (cstr (header (p_begin p) ++ [c0] ++ ds'))) /\
  model_ok p chunks closed = true.
Proof.
  intros p msgs chunks c0 ds' c tail closed W Hv C H0 Hd Hc Hs Ld.
  set (rest := header (p_begin p) ++ [c0] ++ ds' ++ [c] ++ tail) in *.
  assert (R : fst (read_msg p [rest]) = OIllegal (cstr (header (p_begin p) ++ [c0] ++ ds'))).
  { apply (nonnumeric_read p [rest] c0 ds' c tail W); try assumption. apply app_nil_r. }
  destruct (bad_after_valid_ok p msgs chunks rest closed W Hv C) as [R1 R2].
  - destruct (isdigit c0) eqn:D0.
    + apply (nonnumeric_spec p (c0 :: ds') c tail); try assumption. constructor; assumption.
    + apply (nonnumeric_spec p [] c0 (ds' ++ [c] ++ tail)); try assumption. constructor.
  - rewrite R. reflexivity.
  - rewrite R in R1. cbn [ending_of] in R1. rewrite cstr_cstr in R1. split; assumption.
Qed.

Lemma nonnumeric_anywhere_lemma : forall p msgs chunks ds0 c tail closed,
  wf_params p = true -> Forall (fun m => frame_ok p m = true) msgs ->
  concat chunks = concat msgs ++ header (p_begin p) ++ ds0 ++ [c] ++ tail ->
  Forall (fun b => isdigit b = true) ds0 -> isdigit c = false -> nosoh c = true ->
  length ds0 <= p_valcap p ->
  (exists e, run p chunks closed = (msgs, e) /\
             match e with EWait | EPeerReset | EIllegal _ => True | EBadLen n => n = 0%N | _ => False end) /\
  model_ok p chunks closed = true.
Proof.
  intros p msgs chunks ds0 c tail closed W Hv C Hd Hc Hs Ld.
  set (rest := header (p_begin p) ++ ds0 ++ [c] ++ tail) in *.
  apply (refusal_after_valid (fun _ => False) (fun n => n = 0%N) p msgs chunks rest closed W Hv C).
  - apply nonnumeric_spec; assumption.
  - destruct Hd as [|d1 ds' Hd1 Hd'].
    + apply (nonnumeric_first_read p [rest] c tail W); try assumption. apply app_nil_r.
    + rewrite (nonnumeric_read p [rest] d1 ds' c tail W (app_nil_r rest) Hd' Hc Hs Ld). exact I.
Qed.

Lemma is_prefix_app : forall s l, is_prefix s l = true -> exists r, l = s ++ r.
Proof.
  induction s as [|x s IH]; intros l H.
  - exists l. reflexivity.
  - destruct l as [|y l]; [discriminate|]. cbn in H. apply andb_true_iff in H. destruct H as [H1 H2].
    apply N.eqb_eq in H1. subst y. destruct (IH l H2) as [r ->]. exists r. reflexivity.
Qed.

Lemma spec_frame_no_header : forall b lim mw s,
  (forall r, s <> header b ++ r) -> (forall r, header b <> s ++ r) -> spec_frame b lim mw s = FBad.
Proof.
  intros b lim mw s H1 H2. unfold spec_frame.
  destruct (strip (header b) s) as [r|] eqn:St; [apply strip_some in St; destruct (H1 r St)|].
  destruct (is_prefix s (header b)) eqn:Pf; [|reflexivity].
  apply is_prefix_app in Pf. destruct Pf as [r Pf]. destruct (H2 r Pf).
Qed.

Lemma first_soh_unique : forall a b x y,
  Forall (fun c => nosoh c = true) a -> Forall (fun c => nosoh c = true) b ->
  a ++ SOH :: x = b ++ SOH :: y -> a = b.
Proof.
  induction a as [|c a IH]; intros b x y Ha Hb E.
  - destruct b as [|d b]; [reflexivity|]. cbn in E. injection E as E _. subst d.
    inversion Hb as [|? ? Hd _]. discriminate Hd.
  - destruct b as [|d b].
    + cbn in E. injection E as E _. subst c. inversion Ha as [|? ? Hc _]. discriminate Hc.
    + cbn in E. injection E as -> E. inversion Ha; inversion Hb; subst. f_equal. eapply IH; eassumption.
Qed.

Lemma bad_beginstring_spec : forall p v tail,
  wf_params p = true -> Forall (fun c => nosoh c = true) v -> v <> p_begin p ->
  spec_frame (p_begin p) (len_limit p) (max_width p) ([56; 61]%N ++ v ++ [SOH] ++ tail) = FBad.
Proof.
  intros p v tail W Hv Hne. destruct (wf_inv p W) as (Bs & _).
  apply spec_frame_no_header; intros r E; apply Hne; unfold header in E;
    rewrite <- ?app_assoc in E; cbn [app] in E; injection E as E.
  - exact (first_soh_unique v (p_begin p) _ _ Hv Bs E).
  - symmetry. exact (first_soh_unique (p_begin p) v _ _ Bs Hv E).
Qed.

Lemma bad_beginstring_read : forall p s v tail,
  wf_params p = true -> concat s = [56; 61]%N ++ v ++ [SOH] ++ tail ->
  Forall (fun c => nosoh c = true) v -> length v + 3 <= bg_sz p -> length v < p_valcap p ->
  list_eqb (cstr v) (p_begin p) = false ->
  refusal (fun t => t = cstr v) (fun _ => False) (fst (read_msg p s)).
Proof.
  intros p s v tail W C Hv Lv Lc Hne.
  destruct (wf_inv p W) as (_ & _ & Tc & _ & _ & Mx8 & _).
  assert (La : length ([56; 61]%N ++ v ++ [SOH]) = length v + 3) by (rewrite !app_length; cbn [length]; lia).
  apply (read_msg_prefix (refusal _ _) p s ([56; 61]%N ++ v ++ [SOH]) tail (wf_safe p W)).
  - rewrite C, <- !app_assoc. reflexivity.
  - lia.
  - rewrite skipn_all2; [constructor | lia].
  - exact I.
  - intros t. exact I.
  - intros more s2. unfold read_fields.
    replace (([56; 61]%N ++ v ++ [SOH]) ++ more) with ([56%N] ++ EQS :: v ++ SOH :: more)
      by (rewrite <- !app_assoc; reflexivity).
    rewrite ee_field; [|repeat constructor|cbn [length]; lia|exact Hv|exact Lc].
    cbn [length tag_exact]. rewrite add1_eqb_0.
    rewrite N.eqb_refl, Hne. reflexivity.
Qed.

Lemma bad_beginstring_lemma : forall p msgs chunks v tail closed,
  wf_params p = true -> Forall (fun m => frame_ok p m = true) msgs ->
  concat chunks = concat msgs ++ [56; 61]%N ++ v ++ [SOH] ++ tail ->
  Forall (fun c => nosoh c = true) v -> length v + 3 <= bg_sz p -> length v < p_valcap p ->
  list_eqb (cstr v) (p_begin p) = false ->
  (exists e, run p chunks closed = (msgs, e) /\
             match e with
             | EWait | EPeerReset | EIllegal _ => True
             | EBadVersion t => t = cstr v
             | _ => False
             end) /\
  model_ok p chunks closed = true.
Proof.
  intros p msgs chunks v tail closed W Hv C Hs Lv Lc Hne.
  apply (refusal_after_valid (fun t => t = cstr v) (fun _ => False) p msgs chunks _ closed W Hv C).
  - apply bad_beginstring_spec; [exact W | exact Hs |].
    intros ->. destruct (wf_inv p W) as (_ & Bn & _). rewrite (cstr_nonul _ Bn), list_eqb_refl in Hne. discriminate.
  - exact (bad_beginstring_read p [_] v tail W (app_nil_r _) Hs Lv Lc Hne).
Qed.

Definition no_field (p : params) (c0 : N) (Z : list N) : Prop :=
  forall more, exists c t v, extract_element p (Z ++ more) = EERet c t v /\
                             (c = 0 \/ tag_exact t c0 = false).

Lemma tag_exact_single : forall t c, t <> [c] -> tag_exact t c = false.
Proof.
  intros t c H. destruct t as [|a [|b t]]; cbn [tag_exact]; try reflexivity.
  destruct (a =? c)%N eqn:E; [|reflexivity]. apply N.eqb_eq in E. subst a. congruence.
Qed.

Lemma no_field_tag : forall p c0 t,
  Forall (fun b => isdigit b = true) t -> length t < p_tagcap p -> 1 <= p_valcap p ->
  t <> [c0] -> no_field p c0 (t ++ [EQS]).
Proof.
  intros p c0 t Ht Lt Vc Hne more. rewrite <- app_assoc.
  destruct (ee_after_tag p t more Ht Lt Vc) as (c & v & E & _).
  exists c, t, v. split; [exact E|]. right. apply tag_exact_single, Hne.
Qed.

Definition refused (p : params) (Z : list N) : Prop :=
  forall more s2, read_fields p (Z ++ more) s2 = (OIllegal (Z ++ more), s2).

Lemma refused_first : forall p Z, no_field p 56%N Z -> refused p Z.
Proof.
  intros p Z H more s2. destruct (H more) as (c & t & v & E & Hc).
  unfold read_fields. rewrite E.
  destruct Hc as [->|Ht]; [reflexivity|]. destruct (c =? 0); [reflexivity|]. rewrite Ht. reflexivity.
Qed.

Lemma refused_second : forall p Z, wf_params p = true -> no_field p 57%N Z ->
  refused p ([56; 61]%N ++ p_begin p ++ [SOH] ++ Z).
Proof.
  intros p Z W H more s2. destruct (H more) as (c & t & v & E & Hc).
  rewrite <- !app_assoc, (read_fields_first p _ s2 W), E.
  destruct Hc as [->|Ht]; [reflexivity|]. rewrite Ht, orb_true_r. reflexivity.
Qed.

Lemma refused_read : forall p s Z tail,
  safe_params p = true -> concat s = Z ++ tail -> length Z <= p_max p ->
  Forall (fun b => nosoh b = true) (skipn (bg_sz p) Z) -> refused p Z ->
  illegal_or_eos (fst (read_msg p s)).
Proof.
  intros p s Z tail Sf C Lm Hns HR.
  apply (read_msg_prefix illegal_or_eos p s Z tail Sf C Lm Hns I (fun _ => I)).
  intros more s2. rewrite HR. exact I.
Qed.

(* The four places where an over-long field can stand: first tag, first value, second tag, second
   value (BodyLength); see LongFields.v. *)
Definition long_field_rest (p : params) (rest : list N) : Prop :=
  (exists t tail, rest = t ++ tail /\ Forall (fun b => isdigit b = true) t /\
                  p_tagcap p <= length t /\ bg_sz p <= length t /\ length t <= p_max p) \/
  (exists v tail, rest = [56; 61]%N ++ v ++ tail /\ Forall (fun b => nosoh b = true) v /\
                  p_valcap p <= length v /\ bg_sz p <= length v + 2 /\ length v + 2 <= p_max p) \/
  (exists t tail, rest = [56; 61]%N ++ p_begin p ++ [SOH] ++ t ++ tail /\
                  Forall (fun b => isdigit b = true) t /\
                  p_tagcap p <= length t /\ 3 <= length t /\ length (p_begin p) + 3 + length t <= p_max p) \/
  (exists w tail, rest = header (p_begin p) ++ w ++ tail /\ Forall (fun b => nosoh b = true) w /\
                  p_valcap p <= length w /\ 1 <= length w /\ length (p_begin p) + 5 + length w <= p_max p).

Lemma tag_eq_inv : forall c0 (t x y : list N), isdigit c0 = true ->
  Forall (fun b => isdigit b = true) t -> t ++ 61%N :: x = c0 :: 61%N :: y -> t = [c0].
Proof.
  intros c0 t x y Hc Ht E. destruct t as [|a [|b t]]; cbn in E.
  - injection E as E _. subst c0. discriminate Hc.
  - injection E as -> _. reflexivity.
  - injection E as _ E _. subst b. inversion Ht as [|? ? _ Ht']; subst.
    inversion Ht' as [|? ? Hb _]; subst. discriminate Hb.
Qed.

Lemma bad_tag1_spec : forall p t z,
  Forall (fun b => isdigit b = true) t -> t <> [56%N] ->
  spec_frame (p_begin p) (len_limit p) (max_width p) (t ++ [EQS] ++ z) = FBad.
Proof.
  intros p t z Ht Hne.
  apply spec_frame_no_header; intros r E; apply Hne; unfold header, EQS in E;
    rewrite <- ?app_assoc in E; cbn [app] in E.
  - exact (tag_eq_inv 56%N t _ _ eq_refl Ht E).
  - exact (tag_eq_inv 56%N t _ _ eq_refl Ht (eq_sym E)).
Qed.

Lemma bad_tag2_spec : forall p t z,
  Forall (fun b => isdigit b = true) t -> t <> [57%N] ->
  spec_frame (p_begin p) (len_limit p) (max_width p) ([56; 61]%N ++ p_begin p ++ [SOH] ++ t ++ [EQS] ++ z) = FBad.
Proof.
  intros p t z Ht Hne.
  apply spec_frame_no_header; intros r E; apply Hne; unfold header, EQS, SOH in E;
    rewrite <- ?app_assoc in E; do 2 apply app_inv_head in E; cbn [app] in E; injection E as E.
  - exact (tag_eq_inv 57%N t _ _ eq_refl Ht E).
  - exact (tag_eq_inv 57%N t _ _ eq_refl Ht (eq_sym E)).
Qed.

Lemma bad_tag_lemma : forall p msgs chunks t z closed,
  wf_params p = true -> Forall (fun m => frame_ok p m = true) msgs ->
  Forall (fun b => isdigit b = true) t -> length t < p_tagcap p ->
  ((concat chunks = concat msgs ++ t ++ [EQS] ++ z /\ t <> [56%N] /\ length t + 1 <= bg_sz p) \/
   (concat chunks = concat msgs ++ [56; 61]%N ++ p_begin p ++ [SOH] ++ t ++ [EQS] ++ z /\ t <> [57%N] /\ length t <= 2)) ->
  (exists e, run p chunks closed = (msgs, e) /\ illegal_or_eos_end e) /\ model_ok p chunks closed = true.
Proof.
  intros p msgs chunks t z closed W Hv Ht Lt HC.
  pose proof (wf_safe p W) as Sf. destruct (safe_inv p Sf) as (_ & Vc & Mx & _).
  destruct HC as [(C & Hne & Lb)|(C & Hne & L2)];
    apply (refusal_after_valid (fun _ => False) (fun _ => False) p msgs chunks _ closed W Hv C).
  - apply bad_tag1_spec; assumption.
  - apply (refused_read p _ (t ++ [EQS]) z Sf).
    + cbn [concat]. rewrite app_nil_r, <- app_assoc. reflexivity.
    + rewrite app_length. cbn [length]. lia.
    + rewrite skipn_all2; [constructor|]. rewrite app_length. cbn [length]. lia.
    + apply refused_first, no_field_tag; assumption.
  - apply bad_tag2_spec; assumption.
  - apply (refused_read p _ ([56; 61]%N ++ p_begin p ++ [SOH] ++ t ++ [EQS]) z Sf).
    + cbn [concat]. rewrite app_nil_r, <- !app_assoc. reflexivity.
    + rewrite !app_length. cbn [length]. unfold bg_sz in Mx. lia.
    + rewrite skipn_all2; [constructor|]. rewrite !app_length. cbn [length]. unfold bg_sz. lia.
    + apply refused_second, no_field_tag; assumption.
Qed.

Fixpoint bs (s : string) : list N :=
  match s with
  | EmptyString => []
  | String a r => N_of_ascii a :: bs r
  end.

Definition P42 : params := std_params fix42.
Definition hdr42 : list N := bs "8=FIX.4.2" ++ [SOH] ++ bs "9=".
Definition trl0 : list N := bs "10=000" ++ [SOH].

Lemma wf_std_params : wf_params (std_params fix42) = true.
Proof. vm_compute. reflexivity. Qed.

(* 32 digits and SOH (the 32nd digit does not fit tag[32]); 31 digits *)
Definition w_tag32 : list N := repeat 55%N 32 ++ [SOH].
Definition w_tag31 : list N := repeat 55%N 31 ++ [SOH].
(* a first / second field value of 2048 bytes does not fit val[2048]; 2047 bytes do *)
Definition w_val1 (n : N) : list N := bs "8=" ++ repeat 49%N (N.to_nat n) ++ [SOH].
Definition w_val2 (n : N) : list N := hdr42 ++ repeat 49%N (N.to_nat n) ++ [SOH].
(* BodyLength 2^32 + 5 is read as 5 *)
Definition w_wrap : list N := hdr42 ++ bs "4294967301" ++ [SOH] ++ bs "35=0" ++ [SOH] ++ trl0.
(* before b287a2f the 13th byte of the preamble was never inspected: "9=:" was BodyLength 10 *)
Definition w_colon : list N := hdr42 ++ bs ":" ++ [SOH] ++ bs "35=0" ++ [SOH] ++ bs "58=a" ++ [SOH] ++ trl0.
(* before cb750d0 only the first character of the tags was compared *)
Definition w_tag88 : list N := bs "88=FIX.4.2" ++ [SOH] ++ bs "9=5" ++ [SOH] ++ bs "35=0" ++ [SOH] ++ trl0.
Definition w_tag93 : list N := bs "8=FIX.4.2" ++ [SOH] ++ bs "93=5" ++ [SOH] ++ bs "35=0" ++ [SOH] ++ trl0.
(* BeginString is compared as a C string *)
Definition w_nul : list N := bs "8=FIX.4.2" ++ [0%N; SOH] ++ bs "9=5" ++ [SOH] ++ bs "35=0" ++ [SOH] ++ trl0.

Definition nv_m1 : list N := hdr42 ++ bs "5" ++ [SOH] ++ bs "35=0" ++ [SOH] ++ trl0.
Definition nv_m2 : list N := hdr42 ++ bs "012" ++ [SOH] ++ bs "35=D" ++ [SOH] ++ bs "11=ABC" ++ [SOH] ++ trl0.
Definition one_byte_chunks (l : list N) : sock := map (fun b => [b]) l.
Definition nv_badlen : list N := nv_m1 ++ hdr42 ++ bs "8173" ++ [SOH].
Definition nv_v44 : list N := bs "FIX.4.4".
Definition nv_badver : list N := nv_m1 ++ bs "8=" ++ nv_v44 ++ [SOH] ++ bs "9=5" ++ [SOH].

Lemma forallb_Forall : forall p msgs, forallb (frame_ok p) msgs = true ->
  Forall (fun m => frame_ok p m = true) msgs.
Proof.
  intros p msgs H. apply Forall_forall. intros m Hm. rewrite forallb_forall in H. apply H, Hm.
Qed.
