(* Property C07 — "Checksum function computes the byte sum mod 256 within bounds".
   Only theorem statements: each is closed by [exact] of a lemma proved in
   C07/ChksumProofs.v, by a few lines that instantiate general theorems proved there, or, where
   it states a concrete witness, by evaluation in place; each is followed by Print Assumptions. *)
From Coq Require Import ZArith Lia List Bool.
From F8 Require Import C07.Chksum C07.Spec_C07 C07.ChksumProofs.
Import ListNotations.
Local Open Scope Z_scope.

(* With a length: for every buffer content, offset and length inside the buffer the routine
   returns the sum of exactly those bytes mod 256, and every index it reads lies in
   [offset, offset+len)  (c07_ok checks both the value and the read hull). *)
Theorem c07_len : forall (mem : list Z) (sz off len : Z),
  bytes_ok mem = true -> 0 <= off -> 0 <= len < 2147483648 ->
  off + len <= Z.of_nat (length mem) ->
  c07_ok mem sz off len (calc_chksum mem sz off len) = true.
Proof. exact c07_len_lemma. Qed.
Print Assumptions c07_len.

(* Without a length: the remainder [offset, sz) of the buffer. *)
Theorem c07_nolen : forall (mem : list Z) (sz off : Z),
  bytes_ok mem = true -> 0 <= off <= sz -> sz <= Z.of_nat (length mem) -> sz < W64 ->
  c07_ok mem sz off (-1) (calc_chksum mem sz off (-1)) = true.
Proof. exact c07_nolen_lemma. Qed.
Print Assumptions c07_nolen.

(* The routine as it was before the repair (elen = sz) violates the no-length clause. *)
Theorem c07_nolen_orig_refuted :
  exists mem sz off, bytes_ok mem = true /\ 0 <= off <= sz /\ sz <= Z.of_nat (length mem) /\
                     c07_ok mem sz off (-1) (calc_chksum_orig mem sz off (-1)) = false.
Proof. exists [1; 2], 2, 1. repeat split; try lia; reflexivity. Qed.
Print Assumptions c07_nolen_orig_refuted.

(* Non-vacuity: 590 bytes of 0xff at offset 3 meet c07_len's hypotheses (byte lanes carry on
   every addition and the 256-byte flush is taken twice). *)
Theorem c07_nonvacuous :
  let mem := repeat 255 600 in
  bytes_ok mem = true /\ 0 <= 3 /\ 0 <= 590 < 2147483648 /\
  (3 + 590 <=? Z.of_nat (length mem)) = true /\
  calc_chksum mem 600 3 590 = Some ((590 * 255) mod 256, Some (3, 592)).
Proof.
  cbv zeta. split; [vm_compute; reflexivity|]. split; [lia|]. split; [lia|].
  split; vm_compute; reflexivity.
Qed.
Print Assumptions c07_nonvacuous.
