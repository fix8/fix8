(* Property C08 -- "Numeric field text conversions are exact inverses".
   Only theorem statements: each is closed by [exact] of a lemma proved in C08/, by a few lines
   that instantiate general theorems proved there, or, where it states a concrete witness, by
   evaluation in place; each is followed by Print Assumptions.
   Models: itoa_int / itoa_uint / fast_atoi (NumInt.v; fast_atoi as of /repo commits a8219b1 + 1965750), modp_dtoa / fast_atof (NumFloat.v);
   specification: canon_dec, c08_int_ok, c08_atoi_ok, c08_float_ok ... (Spec_C08.v). *)
From Coq Require Import ZArith List Bool Reals Lia.
From Flocq Require Import IEEE754.BinarySingleNaN.
From F8 Require Import C08.NumInt C08.NumFloat C08.Spec_C08 C08.NumIntProofs C08.NumFloatProofs
  C08.NumFloatShapeProofs C08.NumFloatRoundProofs C08.NumFloatOracleProofs
  C08.NumFloatTextProofs.
Import ListNotations.
Local Open Scope Z_scope.

(* Every int32 (INT_MIN included) is rendered by itoa<int> as its canonical decimal text. *)
Theorem c08_itoa_canonical : forall v,
  -2147483648 <= v < 2147483648 -> itoa_int v 10 = Some (canon_dec v).
Proof. intros v H. apply itoa_int_canon. lia. Qed.
Print Assumptions c08_itoa_canonical.

(* Every uint32 is rendered by itoa<unsigned> as its canonical decimal text. *)
Theorem c08_utoa_canonical : forall v,
  0 <= v < 4294967296 -> itoa_uint v 10 = Some (canon_dec v).
Proof. intros v H. apply itoa_uint_canon. lia. Qed.
Print Assumptions c08_utoa_canonical.

(* The specification's text really denotes the value (sanity of canon_dec: Horner evaluation of
   its digits, with the sign, gives v back and the text is recognised as canonical). *)
Theorem c08_canon_dec_denotes : forall v, Z.abs v < 10 ^ 25 -> canon_value (canon_dec v) = Some v.
Proof. exact canon_value_canon_dec. Qed.
Print Assumptions c08_canon_dec_denotes.

(* THE INTEGER HALF OF THE PROPERTY, at full strength (fast_atoi as of 1965750: leading '-' honoured
   for signed T, value accumulated in the unsigned type and negated at the end): every int32 v --
   INT_MIN and INT_MAX included -- is rendered by itoa<int> as its canonical decimal text and
   fast_atoi<int> parses that text back to v; the property's oracle accepts the round trip.  (No
   "no overflow" side condition is left: the routine has no undefined operation on any text, see
   c08_atoi_total.) *)
Theorem c08_atoi_itoa : forall v, -2147483648 <= v < 2147483648 ->
  int_roundtrip v = Some (canon_dec v, AR_ok v) /\
  c08_int_strict_ok v (canon_dec v) (Some v) = true.
Proof. exact int_roundtrip_exact. Qed.
Print Assumptions c08_atoi_itoa.

(* Every uint32 round-trips through itoa<unsigned> / fast_atoi<unsigned>. *)
Theorem c08_atoi_utoa : forall v, 0 <= v < 4294967296 -> uint_roundtrip v = Some (canon_dec v, AR_ok v).
Proof. exact uint_roundtrip_exact. Qed.
Print Assumptions c08_atoi_utoa.

(* Parser clause on ARBITRARY text, for the three instantiations used by fix8 (Field<int>; tags,
   lengths, sequence numbers): whenever the text is the canonical decimal of a value of the type,
   that value is returned.  (For other texts only totality is claimed, c08_atoi_total: there is
   still no digit test.) *)
Theorem c08_atoi_any_text : forall text,
  c08_atoi_ok (-2147483648) 2147483647 text (ar_opt (fast_atoi T_int 0 text)) = true /\
  c08_atoi_ok 0 4294967295 text (ar_opt (fast_atoi T_uint 0 text)) = true /\
  c08_atoi_ok 0 65535 text (ar_opt (fast_atoi T_ushort 0 text)) = true.
Proof.
  intros text. repeat split; apply atoi_any_text; intros v Hv; cbn; unfold W31, W32, W16; lia.
Qed.
Print Assumptions c08_atoi_any_text.

(* fast_atoi is TOTAL and free of undefined operations on EVERY text (digits or not, any length):
   the unsigned accumulator wraps mod 2^32 / 2^16 and the result is a value of the target type. *)
Theorem c08_atoi_total : forall text,
  (exists v, fast_atoi T_int 0 text = AR_ok v /\ -2147483648 <= v <= 2147483647) /\
  (exists v, fast_atoi T_uint 0 text = AR_ok v /\ 0 <= v <= 4294967295) /\
  (exists v, fast_atoi T_ushort 0 text = AR_ok v /\ 0 <= v <= 65535).
Proof.
  intros text. repeat split.
  - destruct (atoi_total T_int text) as [v [E H]]. exists v. cbn in H. unfold W31 in H. split; [exact E | lia].
  - destruct (atoi_total T_uint text) as [v [E H]]. exists v. cbn in H. unfold W32 in H. split; [exact E | lia].
  - destruct (atoi_total T_ushort text) as [v [E H]]. exists v. cbn in H. unfold W16 in H. split; [exact E | lia].
Qed.
Print Assumptions c08_atoi_total.

(* The routine as it was BEFORE the repairs (a8219b1^) violated the property (witnesses; the repaired routine
   is right on the same inputs): no sign handling, "-5" -> -25 and a shift of a negative value ... *)
Theorem c08_atoi_neg_orig_refuted :
  itoa_int (-5) 10 = Some [45; 53] /\ fast_atoi_orig [45; 53] = -25 /\
  fast_atoi_checked_orig [45; 53] = AC_shift_negative /\
  fast_atoi T_int 0 [45; 53] = AR_ok (-5).
Proof. vm_compute. repeat split; reflexivity. Qed.
Print Assumptions c08_atoi_neg_orig_refuted.

(* ... and the digit's character code was added before '0' was subtracted: signed overflow on the
   text of INT_MAX (of every int from 2147483600 on). *)
Theorem c08_atoi_top_overflow_orig_refuted :
  itoa_int 2147483647 10 = Some [50; 49; 52; 55; 52; 56; 51; 54; 52; 55] /\
  fast_atoi_checked_orig [50; 49; 52; 55; 52; 56; 51; 54; 52; 55] = AC_overflow /\
  fast_atoi T_int 0 [50; 49; 52; 55; 52; 56; 51; 54; 52; 55] = AR_ok 2147483647.
Proof. vm_compute. repeat split; reflexivity. Qed.
Print Assumptions c08_atoi_top_overflow_orig_refuted.

(* The general law is FALSE for the faithful model; independent counterexamples, each inside
   the property's domain (finite, |v| < 2^31, precision 0..9) and rejected by the oracle. *)

(* BEFORE a6c4c45 (dtoa_stage_orig / modp_dtoa_orig): 0.95 at precision 1 left the rounding stage
   with frac = 10 = 10^p and was printed as "0.1"; the repaired stage rolls over (whole 1, frac 0)
   and prints "1.0". *)
Theorem c08_dtoa_rollover_orig_refuted :
  let v := f64_of_bits 0x3FEE666666666666 in
  c08_in_domain v 1 = true /\
  option_map (fun st => (ds_whole st, ds_frac st)) (dtoa_stage_orig v 1) = Some (0, 10) /\
  modp_dtoa_orig v 1 = DT_text [48; 46; 49] /\
  option_map (fun st => (ds_whole st, ds_frac st)) (dtoa_stage v 1) = Some (1, 0) /\
  modp_dtoa v 1 = DT_text [49; 46; 48].
Proof. vm_compute. repeat split; reflexivity. Qed.
Print Assumptions c08_dtoa_rollover_orig_refuted.

(* ... "1.0" is still not the correctly rounded decimal of the double 0.94999999999999995559
   ("0.9"): 0.95 * 10 rounds to 9.5 exactly, a spurious tie -- the double-rounding defect, now off by
   one unit in the last place instead of printing a different number. *)
Theorem c08_dtoa_inexact_half_nines_refuted :
  let v := f64_of_bits 0x3FEE666666666666 in
  c08_in_domain v 1 = true /\ fst (float_roundtrip v 1) = DT_text [49; 46; 48] /\
  c08_render_ok v 1 [49; 46; 48] = false /\ c08_render_ok v 1 [48; 46; 57] = true /\
  roundtrip_ok v 1 = false.
Proof. vm_compute. repeat split; reflexivity. Qed.
Print Assumptions c08_dtoa_inexact_half_nines_refuted.

(* 0.45 at precision 1 -> "0.4" although "0.5" is the correct rounding (double rounding) *)
Theorem c08_dtoa_inexact_half_refuted :
  let v := f64_of_bits 0x3FDCCCCCCCCCCCCD in
  c08_in_domain v 1 = true /\ fst (float_roundtrip v 1) = DT_text [48; 46; 52] /\
  c08_render_ok v 1 [48; 46; 52] = false /\ c08_render_ok v 1 [48; 46; 53] = true /\
  roundtrip_ok v 1 = false.
Proof. vm_compute. repeat split; reflexivity. Qed.
Print Assumptions c08_dtoa_inexact_half_refuted.

(* 2147483647.5 -> sprintf("%e") *)
Theorem c08_dtoa_sliver_refuted :
  let v := f64_of_bits 0x41DFFFFFFFE00000 in
  c08_in_domain v 2 = true /\ float_roundtrip v 2 = (DT_sprintf, None) /\ roundtrip_ok v 2 = false.
Proof. vm_compute. repeat split; reflexivity. Qed.
Print Assumptions c08_dtoa_sliver_refuted.

(* the largest double below 2^31, precision 0: ++whole overflows int *)
Theorem c08_dtoa_overflow_refuted :
  let v := f64_of_bits 0x41DFFFFFFFFFFFFF in
  c08_in_domain v 0 = true /\ float_roundtrip v 0 = (DT_overflow, None) /\ roundtrip_ok v 0 = false.
Proof. vm_compute. repeat split; reflexivity. Qed.
Print Assumptions c08_dtoa_overflow_refuted.

(* "38.85" is rendered correctly but parsed one ulp low *)
Theorem c08_atof_inexact_refuted :
  let v := f64_of_bits 0x40436CCCCCCCCCCD in
  let t := [51; 56; 46; 56; 53] in
  c08_in_domain v 2 = true /\ fst (float_roundtrip v 2) = DT_text t /\
  c08_render_ok v 2 t = true /\
  bits_of_f64 (fast_atof t) = 0x40436CCCCCCCCCCC /\ c08_parse_ok t (fast_atof t) = false /\
  c08_parse_ok t v = true /\ roundtrip_ok v 2 = false.
Proof. vm_compute. repeat split; reflexivity. Qed.
Print Assumptions c08_atof_inexact_refuted.

(* What IS true: every integral double of magnitude below 2^31 (the double nearest to -- here:
   equal to -- the integer n) renders, at every precision 0..9, as the canonical decimal of n
   (followed by ".0" when the precision is not 0), and fast_atof returns exactly the same double. *)
Theorem c08_dtoa_int_partial : forall n p, Z.abs n < 2147483648 -> 0 <= p <= 9 ->
  float_roundtrip (f_of_Z n) p =
  (DT_text (canon_dec n ++ (if p =? 0 then [] else [46; 48])), Some (f_of_Z n)).
Proof. exact float_roundtrip_int. Qed.
Print Assumptions c08_dtoa_int_partial.

(* ... in the property's own terms: the oracle c08_float_ok (value in the domain, text = correctly
   rounded decimal with <= p fraction digits, parse within half an ulp) accepts that round trip. *)
Theorem c08_dtoa_int_oracle : forall n p, Z.abs n < 2147483648 -> 0 <= p <= 9 ->
  roundtrip_ok (f_of_Z n) p = true.
Proof. exact roundtrip_ok_int. Qed.
Print Assumptions c08_dtoa_int_oracle.

(* Shape, for EVERY finite double and every precision argument (clamped to 0..9 as the code does):
   whenever modp_dtoa writes a decimal text it is [-]digits without redundant leading zero, with
   no point at precision 0 and otherwise a point followed by 1..p digits (c08_shape_ok); the digit
   loops never run out of fuel.  (Needed by C02: a rendered float never contains SOH or '='.) *)
Theorem c08_dtoa_digits_partial : forall v p0, is_finite v = true ->
  match modp_dtoa v p0 with
  | DT_text t => c08_shape_ok (clamp_prec p0) t = true
  | DT_fuel => False
  | DT_sprintf | DT_overflow => True
  end.
Proof. exact dtoa_shape. Qed.
Print Assumptions c08_dtoa_digits_partial.

(* ... and inside the threshold (|v| <= 2^31-1, the test the code itself makes) the outcome IS a
   text: the sprintf and ++whole-overflow outcomes only occur for |v| > 2^31-1. *)
Theorem c08_dtoa_text_within_threshold : forall v p0, is_finite v = true ->
  flt thres_max (if flt v fzero then fneg v else v) = false ->
  exists t, modp_dtoa v p0 = DT_text t /\ c08_shape_ok (clamp_prec p0) t = true.
Proof. exact dtoa_text_within. Qed.
Print Assumptions c08_dtoa_text_within_threshold.

(* When is the rounding right?  Precision 1..9: whenever the tie test of the rounding stage is false
   (the computed diff = tmp - frac is not exactly 0.5), whole * 10^p + frac -- the number the digit
   loops then print -- is THE integer nearest to |v| * 10^p (distance < 1/2): the rendering is
   correctly rounded.  The rendering defect that remains (double rounding onto an exact half) needs
   diff == 0.5; its classifier is the negation of this hypothesis plus narrower sub-conditions. *)
Theorem c08_dtoa_nearest_partial : forall v p, is_finite v = true -> 1 <= p <= 9 ->
  match dtoa_stage v p with
  | None => True
  | Some st => ds_whole0 st <= 2147483647 -> feq (ds_diff st) fhalf = false ->
               (Rabs (B2R (ds_value st) * IZR (10 ^ p) - IZR (ds_whole st * 10 ^ p + ds_frac st)) < / 2)%R
  end.
Proof. exact stage_nearest. Qed.
Print Assumptions c08_dtoa_nearest_partial.

(* Since a6c4c45 the stage's frac is always below 10^p, so the TEXT denotes the stage's number,
   unconditionally (before the repair this needed "no roll-over in the tie branch"): inside the
   threshold, at (clamped) precision p >= 1, the text is  [-] digits(whole) . fd  with 1..p fraction
   digits fd whose value, padded to p places, is exactly frac. *)
Theorem c08_dtoa_text_value : forall v p0, is_finite v = true ->
  flt thres_max (if flt v fzero then fneg v else v) = false -> 1 <= clamp_prec p0 ->
  exists st fd,
    dtoa_stage v (clamp_prec p0) = Some st /\
    ds_value st = (if flt v fzero then fneg v else v) /\
    ds_whole0 st <= 2147483647 /\ 0 <= ds_whole st /\
    modp_dtoa v p0 = DT_text ((if ds_neg st then [45] else []) ++ dec_digits dec_fuel (ds_whole st) ++ 46 :: fd) /\
    Forall (fun c => 48 <= c <= 57) fd /\ 1 <= Z.of_nat (length fd) <= clamp_prec p0 /\
    digits_value fd * 10 ^ (clamp_prec p0 - Z.of_nat (length fd)) = ds_frac st.
Proof. exact dtoa_text_value. Qed.
Print Assumptions c08_dtoa_text_value.

(* THE RENDERING CLAUSE, partial: precision 1..9, |v| <= 2^31-1; whenever the tie test of the rounding
   stage is false (computed diff <> 0.5) the text is the correctly rounded decimal: the number it
   denotes, times 10^p, is the integer nearest to |v| * 10^p.  The one remaining rendering defect
   (C08-dtoa-inexact-half) lives entirely in the negation of that hypothesis. *)
Theorem c08_dtoa_correct_partial : forall v p, is_finite v = true -> 1 <= p <= 9 ->
  flt thres_max (if flt v fzero then fneg v else v) = false ->
  match dtoa_stage v p with
  | None => False
  | Some st =>
    feq (ds_diff st) fhalf = false ->
    exists fd, modp_dtoa v p = DT_text ((if ds_neg st then [45] else []) ++ dec_digits dec_fuel (ds_whole st) ++ 46 :: fd) /\
               Forall (fun c => 48 <= c <= 57) fd /\ 1 <= Z.of_nat (length fd) <= p /\
               (Rabs (B2R (if flt v fzero then fneg v else v) * IZR (10 ^ p) -
                      IZR (ds_whole st * 10 ^ p + digits_value fd * 10 ^ (p - Z.of_nat (length fd)))) < / 2)%R
  end.
Proof. exact dtoa_correct_off_tie. Qed.
Print Assumptions c08_dtoa_correct_partial.

(* Precision 0 is ALWAYS right inside the threshold: the text is [-]N where N is the integer
   nearest to |v|, and in case of a tie the even one (round half to even, like printf). *)
Theorem c08_dtoa_prec0_correct : forall v, is_finite v = true ->
  flt thres_max (if flt v fzero then fneg v else v) = false ->
  exists N, modp_dtoa v 0 = DT_text ((if flt v fzero then [45] else []) ++ dec_digits dec_fuel N) /\
            0 <= N /\
            (Rabs (B2R (if flt v fzero then fneg v else v) - IZR N) <= / 2)%R /\
            ((Rabs (B2R (if flt v fzero then fneg v else v) - IZR N) = / 2)%R -> Z.even N = true).
Proof. exact dtoa_p0_nearest_even. Qed.
Print Assumptions c08_dtoa_prec0_correct.

(* Non-vacuity: INT_MIN meets the hypotheses of the integer theorems and of the integral-double
   theorem (as -2147483647 - 1 is outside the latter, its neighbour is used there). *)
Theorem c08_nonvacuous :
  itoa_int (-2147483648) 10 = Some [45; 50; 49; 52; 55; 52; 56; 51; 54; 52; 56] /\
  int_roundtrip (-2147483648) = Some ([45; 50; 49; 52; 55; 52; 56; 51; 54; 52; 56], AR_ok (-2147483648)) /\
  fst (float_roundtrip (f_of_Z (-2147483647)) 9) =
    DT_text [45; 50; 49; 52; 55; 52; 56; 51; 54; 52; 55; 46; 48].
Proof. vm_compute. repeat split; reflexivity. Qed.
Print Assumptions c08_nonvacuous.
