(* Property C29 — "Log and store rotation keeps generations and stays in bounds".
   Only theorem statements: each is closed by [exact] of a lemma proved under C29/, by a few
   lines that instantiate general theorems proved there, or, where it states a concrete witness,
   by evaluation in place; each is followed by Print Assumptions.

   Vocabulary (coq/C29/Rotate.v, coq/C29/Spec_C29.v): a directory [dir] maps file names to
   contents ([lookup]); [rotate name rotnum append compress force d] is FileLogger::rotate(force)
   and [initialise name rotnum purge d] the directory effect of FilePersister::initialise, both
   with the std::vector accesses instrumented ([OOB] = index outside the vector), as repaired by
   a64fc7d ([rotate_orig]/[initialise_orig] are the routines before the repair);
   [gen_log name compress k] is generation k of a log (k = 0: the live file [name]; k >= 1:
   name.k, with ".gz" appended when the compress flag is set), [gen_db]/[gen_idx] the store's
   data and index generations (name, name.k / name.idx, name.k.idx); cap = 1024 is
   Logger::max_rotation and [kept rotnum] = min rotnum cap. *)
From Coq Require Import NArith List Ascii Bool Lia.
From F8 Require Import C29.Rotate C29.Spec_C29 C29.RotateProofs C29.RotateTheorems C29.OracleProofs
  C29.Main.
Import ListNotations.
Local Open Scope char_scope.
Local Open Scope N_scope.

(* No out-of-bounds access, whatever the configured count, the flags and the directory. *)
Theorem c29_bounds : forall name rotnum append compress force d,
  exists d', rotate name rotnum append compress force d = Ok d'.
Proof. intros. eexists. apply rotate_eq. Qed.
Print Assumptions c29_bounds.

(* Generations shifted (all directories, all names, all counts): after a rotation that takes
   place (count >= 1, and not append-mode unless forced) the live file is fresh and generation k
   holds what generation k-1 held, 1 <= k <= min(count,cap).  A missing generation k-1 leaves a
   hole at k, except that the oldest kept generation survives when nothing is shifted onto it. *)
Theorem c29_shift : forall name rotnum append compress force d d',
  0 < rotnum -> (append = false \/ force = true) ->
  rotate name rotnum append compress force d = Ok d' ->
  lookup d' name = Some [] /\
  forall k, 1 <= k <= kept rotnum ->
    lookup d' (gen_log name compress k) =
    match lookup d (gen_log name compress (k - 1)) with
    | Some c => Some c
    | None => if k =? kept rotnum then lookup d (gen_log name compress k) else None
    end.
Proof.
  intros name rotnum append compress force d d' Hpos Hflag Hrun.
  destruct (rotate_sem name rotnum append compress force d (rotates_of _ _ _ Hpos Hflag))
    as [d1 [H1 H]].
  replace d' with d1 by congruence. exact H.
Qed.
Print Assumptions c29_shift.

(* At most min(count,cap) generations are kept: if no generation beyond that number existed
   before, none exists afterwards (the count of generations is then at most min(count,cap)). *)
Theorem c29_cap : forall name rotnum append compress force d d',
  rotate name rotnum append compress force d = Ok d' ->
  (forall k, kept rotnum < k -> lookup d (gen_log name compress k) = None) ->
  forall k, kept rotnum < k -> lookup d' (gen_log name compress k) = None.
Proof.
  intros name rotnum append compress force d d' Hrun Hbefore k Hk.
  rewrite (rotate_frame _ _ _ _ _ _ _ Hrun); [apply Hbefore; exact Hk|].
  intros j Hj E. apply gen_log_inj in E. lia.
Qed.
Print Assumptions c29_cap.

(* Other files are never touched: every name that is not one of the generations 0..min(count,cap)
   keeps its content (or stays absent). *)
Theorem c29_untouched : forall name rotnum append compress force d d',
  rotate name rotnum append compress force d = Ok d' ->
  forall x, (forall k, k <= kept rotnum -> x <> gen_log name compress k) -> lookup d' x = lookup d x.
Proof. exact rotate_frame. Qed.
Print Assumptions c29_untouched.

(* Append-mode logs are not rotated unless forced: the directory is unchanged except that a
   missing live file is created empty. *)
Theorem c29_append : forall name rotnum compress d,
  exists d', rotate name rotnum true compress false d = Ok d' /\
    (forall x, x <> name -> lookup d' x = lookup d x) /\
    lookup d' name = match lookup d name with Some c => Some c | None => Some [] end.
Proof.
  intros name rotnum compress d.
  unfold rotate. rewrite rotate_gen_idle by (unfold rotates; apply andb_false_r).
  eexists. split; [reflexivity|]. split.
  - intros x Hx. exact (lookup_reopen_other true name d x Hx).
  - rewrite lookup_open_app, str_eqb_refl. reflexivity.
Qed.
Print Assumptions c29_append.

(* The store: no out-of-bounds access for any count ... *)
Theorem c29_store_bounds : forall name rotnum purge d,
  exists d', initialise name rotnum purge d = Ok d'.
Proof. intros. eexists. apply initialise_eq. Qed.
Print Assumptions c29_store_bounds.

(* ... purging with rotation shifts the data file and its .idx companion in step, both live
   files fresh ... *)
Theorem c29_store_shift : forall name rotnum d d',
  0 < rotnum -> initialise name rotnum true d = Ok d' ->
  lookup d' name = Some [] /\ lookup d' (name ++ ["."; "i"; "d"; "x"]) = Some [] /\
  forall k, 1 <= k <= kept rotnum ->
    lookup d' (gen_db name k) =
      match lookup d (gen_db name (k - 1)) with
      | Some c => Some c
      | None => if k =? kept rotnum then lookup d (gen_db name k) else None
      end /\
    lookup d' (gen_idx name k) =
      match lookup d (gen_idx name (k - 1)) with
      | Some c => Some c
      | None => if k =? kept rotnum then lookup d (gen_idx name k) else None
      end.
Proof.
  intros name rotnum d d' Hpos Hrun.
  destruct (initialise_sem name rotnum d Hpos) as [d1 [H1 H]].
  replace d' with d1 by congruence. exact H.
Qed.
Print Assumptions c29_store_shift.

(* ... and nothing else is touched, with or without purge (so no generation beyond
   min(count,cap) comes into existence). *)
Theorem c29_store_untouched : forall name rotnum purge d d',
  initialise name rotnum purge d = Ok d' ->
  forall x, (forall k, k <= kept rotnum -> x <> gen_db name k /\ x <> gen_idx name k) ->
  lookup d' x = lookup d x.
Proof. exact initialise_frame. Qed.
Print Assumptions c29_store_untouched.

(* The property at full strength: the executable oracle (Spec_C29.c29_ok: generations shifted,
   at most min(count,cap) kept, other files untouched, append-mode not rotated unless forced, no
   out-of-bounds access) holds on EVERY run of the model -- any configured count, any directory,
   any sequence of constructor / rotate / write / initialise operations. *)
Theorem c29_model_ok : forall c ops d,
  exists tr, run c ops d = Trace tr /\ c29_ok c d ops (Trace tr) = true.
Proof. exact model_ok. Qed.
Print Assumptions c29_model_ok.

(* The routines as they were before the repair a64fc7d (loop index starting at the configured
   count) violated the bounds clause: count 1025 indexes rlst[1025] of a 1025-element vector
   (logger) and dblst[1025] (store), and so does every count above the cap. *)
Theorem c29_oob_orig_refuted :
  (exists rotnum d, rotate_orig w_log rotnum false false false d = OOB /\
                    initialise_orig w_db rotnum true d = OOB) /\
  (forall name rotnum append compress force d, cap < rotnum ->
     (append = false \/ force = true) -> rotate_orig name rotnum append compress force d = OOB) /\
  (forall name rotnum d, cap < rotnum -> initialise_orig name rotnum true d = OOB).
Proof.
  split; [|split].
  - exists 1025, [(w_log, ["G"; "0"])].
    split; [apply rotate_orig_oob; split; reflexivity|apply initialise_orig_oob; reflexivity].
  - intros name rotnum append compress force d Hcap Hflag. apply rotate_orig_oob.
    split; [|exact Hcap]. apply rotates_of; [unfold cap in Hcap; lia|exact Hflag].
  - exact initialise_orig_oob.
Qed.
Print Assumptions c29_oob_orig_refuted.

(* The property's finite range of counts, 0..1100, on the instrumented model (log "log" / store
   "db" in an empty directory), as instances of what holds for every count: none is out of
   bounds ... *)
Theorem c29_sweep_log : forall r, r <= 1100 ->
  rotate ["l"; "o"; "g"] r false false false [] <> OOB.
Proof. intros r _. apply ok_not_oob, c29_bounds. Qed.
Print Assumptions c29_sweep_log.

Theorem c29_sweep_store : forall r, r <= 1100 ->
  initialise ["d"; "b"] r true [] <> OOB.
Proof. intros r _. apply ok_not_oob, c29_store_bounds. Qed.
Print Assumptions c29_sweep_store.

(* ... while before the repair exactly 1025..1100 were. *)
Theorem c29_sweep_log_orig : forall r, r <= 1100 ->
  (rotate_orig ["l"; "o"; "g"] r false false false [] = OOB <-> 1024 < r).
Proof.
  intros r _. rewrite rotate_orig_oob. fold cap. split; [tauto|].
  intros H. split; [apply rotates_of; [unfold cap in H; lia|left; reflexivity]|exact H].
Qed.
Print Assumptions c29_sweep_log_orig.

(* Non-vacuity: count 3 on {log=A, log.1=B, log.2=E, log.3=C, log.4=D, other=X} meets the
   hypotheses of c29_shift; the result is {log="", log.1=A, log.2=B, log.3=E, log.4=D, other=X}
   (C dropped, log.4 and other untouched); with count 1025 (kept = 1024) everything shifts by one
   and nothing is dropped; the oracle accepts the three-step run constructor / write / forced
   rotation. *)
Theorem c29_nonvacuous :
  0 < 3 /\ kept 3 = 3 /\ kept 1025 = 1024 /\
  (forall x, In x [w_log; (w_log ++ ["."; "1"]); (w_log ++ ["."; "2"]); (w_log ++ ["."; "3"]);
                   (w_log ++ ["."; "4"]); ["o"; "t"; "h"; "e"; "r"]] ->
     match rotate w_log 3 false false false nv_dir with
     | Ok d' => lookup d' x =
         lookup [ (w_log, []); (w_log ++ ["."; "1"], ["A"]); (w_log ++ ["."; "2"], ["B"]);
                  (w_log ++ ["."; "3"], ["E"]); (w_log ++ ["."; "4"], ["D"]);
                  (["o"; "t"; "h"; "e"; "r"], ["X"]) ] x
     | _ => False
     end) /\
  (forall x, In x [w_log; (w_log ++ ["."; "1"]); (w_log ++ ["."; "2"]); (w_log ++ ["."; "3"]);
                   (w_log ++ ["."; "4"]); (w_log ++ ["."; "5"]); ["o"; "t"; "h"; "e"; "r"]] ->
     match rotate w_log 1025 false false false nv_dir with
     | Ok d' => lookup d' x =
         lookup [ (w_log, []); (w_log ++ ["."; "1"], ["A"]); (w_log ++ ["."; "2"], ["B"]);
                  (w_log ++ ["."; "3"], ["E"]); (w_log ++ ["."; "4"], ["C"]); (w_log ++ ["."; "5"], ["D"]);
                  (["o"; "t"; "h"; "e"; "r"], ["X"]) ] x
     | _ => False
     end) /\
  c29_ok (mkcfg w_log 3 false false) nv_dir [OpRotate false; OpWrite ["w"]; OpRotate true]
         (run (mkcfg w_log 3 false false) [OpRotate false; OpWrite ["w"]; OpRotate true] nv_dir) = true.
Proof. exact c29_nonvacuous_lemma. Qed.
Print Assumptions c29_nonvacuous.
