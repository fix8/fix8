(* Property C24 -- "Session activation follows the configured schedule".
   Only theorem statements: each is closed by [exact] of a lemma proved in C24/SchedProofs.v,
   C24/SchedWitness.v or C24/ConfigProofs.v, by a few lines that instantiate general theorems
   proved there, or, where it states a concrete witness, by evaluation in place; each is followed
   by Print Assumptions.

   Model (C24/Sched.v): decode_dow, get_time_field/time_parse, Configuration::create_schedule,
   Schedule::test as [test_o cfg prev clock] (None = signed overflow, undefined behaviour), and
   [run_o cfg prev0 instants]: the polling loop of Session::activation_service feeding each result
   back as [prev].  Spec (C24/Spec_C24.v): [active] (window membership written from the property
   text), [c24_ok_run] (oracle on a polling trace), [spec_dow], [c24_ok_cfg]. *)
From Coq Require Import ZArith List Bool.
From F8 Require Import C24.Sched C24.Spec_C24 C24.SchedProofs C24.SchedWitness C24.ConfigProofs.
Import ListNotations.
Local Open Scope Z_scope.

(* For EVERY string: the code decodes exactly what the property allows -- a single digit 0..6,
   or a name whose case-folded text begins with su / m / tu / w / th / f / sa -- and -1 otherwise. *)
Theorem c24_dow_exact : forall s : list Z, decode_dow s = spec_dow s.
Proof. exact decode_dow_spec. Qed.
Print Assumptions c24_dow_exact.

(* What "decoded by the prefix" means for longer input: everything after the distinguishing
   prefix is ignored ("monday", "Tues", "sunday1", "mx" all decode). *)
Theorem c24_dow_trailing_ignored : forall p d t, In (p, d) dow_prefixes -> decode_dow (p ++ t) = d.
Proof. exact decode_dow_prefix. Qed.
Print Assumptions c24_dow_trailing_ignored.

Theorem c24_dow_range : forall s, -1 <= decode_dow s <= 6.
Proof. exact decode_dow_range. Qed.
Print Assumptions c24_dow_range.

(* A daily schedule (no weekdays configured): for EVERY previous flag and EVERY instant (local
   time after 1970 and before 2^62 ns) one call of Schedule::test returns exactly "local time of
   day within [start, end]". *)
Theorem c24_daily_exact : forall c prev t,
  ranges_okb c = true -> instants_okb c [t] = true -> s_sd c < 0 ->
  test_o c prev t = Some (daily_active (s_start c) (Some (s_end c)) (local (s_utc c) t)).
Proof.
  intros c prev t R I D. apply instants_okb_cons in I. apply test_o_daily; tauto.
Qed.
Print Assumptions c24_daily_exact.

(* ... hence every polling trace of a daily schedule, whatever the gaps and the initial flag,
   passes the oracle. *)
Theorem c24_daily_run : forall c prev ts,
  ranges_okb c = true -> instants_okb c ts = true -> s_sd c < 0 ->
  c24_ok_run (s_utc c) (s_sd c) (s_ed c) (s_start c) (Some (s_end c)) ts (run_o c prev ts) = true.
Proof.
  intros c prev ts R I D. rewrite (run_o_daily c ts prev R I D). apply ok_run_of_exact.
Qed.
Print Assumptions c24_daily_run.

(* Partial: start day < end day, start + 1 min <= end, end + 1 min < 24 h  ([weekly_hyp]), an
   ARBITRARY polling sequence whose gaps are within [0, 1 min], and an initial flag that is right
   at the first instant (in particular: flag off and polling begins outside a window).  Then the
   flag returned at every instant is exactly the window membership at that instant. *)
Theorem c24_weekly_partial : forall c t0 ts prev0,
  ranges_okb c = true ->
  weekly_hyp (s_sd c) (s_ed c) (s_start c) (s_end c) = true ->
  instants_okb c (t0 :: ts) = true -> gaps_ok (t0 :: ts) = true ->
  prev0 = active (s_sd c) (s_ed c) (s_start c) (Some (s_end c)) (local (s_utc c) t0) ->
  run_o c prev0 (t0 :: ts)
  = Some (map (fun u => active (s_sd c) (s_ed c) (s_start c) (Some (s_end c)) (local (s_utc c) u))
              (t0 :: ts)).
Proof.
  intros c t0 ts prev0 R H I G ->. apply run_o_weekly_exact; try assumption. apply Bool.eqb_reflx.
Qed.
Print Assumptions c24_weekly_partial.

Theorem c24_weekly_partial_ok : forall c t0 ts prev0,
  ranges_okb c = true ->
  weekly_hyp (s_sd c) (s_ed c) (s_start c) (s_end c) = true ->
  instants_okb c (t0 :: ts) = true -> gaps_ok (t0 :: ts) = true ->
  start_consistent c prev0 (t0 :: ts) = true ->
  c24_ok_run (s_utc c) (s_sd c) (s_ed c) (s_start c) (Some (s_end c)) (t0 :: ts)
             (run_o c prev0 (t0 :: ts)) = true.
Proof.
  intros c t0 ts prev0 R H I G S. rewrite (run_o_weekly_exact c _ prev0 R H I G S).
  apply ok_run_of_exact.
Qed.
Print Assumptions c24_weekly_partial_ok.

(* Refuted, one witness per dropped hypothesis.  [refutes c prev0 ts]: well-formed configuration,
   polling gaps of a minute, and the run fails the oracle c24_ok_run. *)

(* start day = end day (Monday 09:00-17:00): never activates *)
Theorem c24_weekly_refuted_same_day :
  refutes w_sameday_c false w_sameday_ts /\ start_consistent w_sameday_c false w_sameday_ts = true /\
  run_o w_sameday_c false w_sameday_ts = Some [false; false; false].
Proof.
  split; [apply (refutes_at _ _ _ [false; false; false] 1%nat (at_ 1 9 0 0)) | split]; reflexivity.
Qed.
Print Assumptions c24_weekly_refuted_same_day.

(* wrapping week (Friday 09:00 -> Monday 17:00) polled every minute from Monday 16:59 (inside the
   window, flag on): still active on Tuesday noon -- the deactivation branch wants wday strictly above the end day *)
Theorem c24_weekly_refuted_wrapping :
  refutes w_wrap_c true w_wrap_ts /\ start_consistent w_wrap_c true w_wrap_ts = true /\
  exists bits i, run_o w_wrap_c true w_wrap_ts = Some bits /\
    nth_error w_wrap_ts i = Some (at_ 9 12 0 0) /\ nth_error bits i = Some true /\
    active 5 1 (hms_ns 9 0 0) (Some (hms_ns 17 0 0)) (at_ 9 12 0 0) = false.
Proof. exact refuted_wrapping. Qed.
Print Assumptions c24_weekly_refuted_wrapping.

(* first check inside the window but outside [start,end] time of day (Tuesday 20:00, Mon-Fri) *)
Theorem c24_weekly_refuted_start_inside :
  refutes mon_fri false w_inside_ts /\ start_consistent mon_fri false w_inside_ts = false /\
  run_o mon_fri false w_inside_ts = Some [false; false; false].
Proof.
  split; [apply (refutes_at _ _ _ [false; false; false] 0%nat (at_ 2 20 0 0)) | split]; reflexivity.
Qed.
Print Assumptions c24_weekly_refuted_start_inside.

(* the flag a Session starts with (_active = true), first check outside the window (Sunday) *)
Theorem c24_weekly_refuted_initial_active :
  refutes mon_fri true w_initial_ts /\ start_consistent mon_fri true w_initial_ts = false /\
  run_o mon_fri true w_initial_ts = Some [true; true; true].
Proof.
  split; [apply (refutes_at _ _ _ [true; true; true] 0%nat (at_ 0 12 0 0)) | split]; reflexivity.
Qed.
Print Assumptions c24_weekly_refuted_initial_active.

(* [start,end] shorter than the polling gap: the opening is missed *)
Theorem c24_weekly_refuted_short_window :
  refutes w_short_c false w_short_ts /\ start_consistent w_short_c false w_short_ts = true /\
  weekly_hyp 1 3 (hms_ns 9 0 0) (hms_ns 9 0 30) = false /\
  run_o w_short_c false w_short_ts = Some [false; false; false].
Proof.
  split; [apply (refutes_at _ _ _ [false; false; false] 1%nat (at_ 1 9 0 45)) | split; [|split]];
    reflexivity.
Qed.
Print Assumptions c24_weekly_refuted_short_window.

(* end time within the last minute of the day: the closing is missed for a whole day *)
Theorem c24_weekly_refuted_late_end :
  refutes w_late_c true w_late_ts /\ start_consistent w_late_c true w_late_ts = true /\
  weekly_hyp 1 2 (hms_ns 9 0 0) (hms_ns 23 59 30) = false /\
  run_o w_late_c true w_late_ts = Some [true; true; true].
Proof.
  split; [apply (refutes_at _ _ _ [true; true; true] 1%nat (at_ 3 0 0 15)) | split; [|split]];
    reflexivity.
Qed.
Print Assumptions c24_weekly_refuted_late_end.

(* A schedule with a start but neither end_time nor duration keeps Tickval::errorticks as its
   end; on every day after 1970-01-01 "today + _end" overflows int64 (undefined behaviour; in
   practice the sum wraps negative and the schedule is never active). *)
Theorem c24_open_end_overflow : forall c prev t,
  fits64 (toffset c) = true -> instants_okb c [t] = true -> s_sd c < 0 -> s_end c = errorticks ->
  ns_day <= local (s_utc c) t ->
  test_o c prev t = None.
Proof.
  intros c prev t F I. apply instants_okb_cons in I. apply open_end_ub; tauto.
Qed.
Print Assumptions c24_open_end_overflow.

(* For every attribute set, create_schedule meets the configuration oracle: start required, end =
   end_time | start + duration min | none, end <= start rejected, days decoded by spec_dow, an
   absent end_day defaults to the start day, no days = daily. *)
Theorem c24_config : forall x,
  c24_ok_cfg (x_start x) (x_end x) (x_utc x) (x_dur x) (x_sd x) (x_ed x) (observe (create_schedule x)) = true.
Proof. exact create_schedule_ok. Qed.
Print Assumptions c24_config.

(* Whenever the attributes are well formed ("HH:MM:SS" times, duration 0..10^8) the schedule
   create_schedule builds IS the one the element denotes ([denote], written from the property
   text): same start, end, offset and days; a missing start gives the invalid schedule; an end
   not after the start is rejected.  [denotes D_unjudged _] is True: ill-formed text is not judged. *)
Theorem c24_config_denotes : forall x,
  denotes (denote (x_start x) (x_end x) (x_utc x) (x_dur x) (x_sd x) (x_ed x)) (observe (create_schedule x)).
Proof. exact create_schedule_denotes. Qed.
Print Assumptions c24_config_denotes.

(* The configured path end to end for daily schedules: element -> create_schedule -> polling,
   any initial flag, arbitrary instants: the activity is that of the denoted schedule. *)
Theorem c24_configured_daily : forall x prev ts st e utc sd ed,
  denote (x_start x) (x_end x) (x_utc x) (x_dur x) (x_sd x) (x_ed x) = D_sched st (Some e) utc sd ed ->
  sd < 0 -> e < T62 -> fits64 (utc * minute) = true ->
  forallb (fun t => (0 <=? local utc t) && (local utc t <? T62)) ts = true ->
  c24_ok_cfgrun (x_start x) (x_end x) (x_utc x) (x_dur x) (x_sd x) (x_ed x) ts
                (observe_run (configured_run x prev ts)) = true.
Proof. exact configured_daily_ok. Qed.
Print Assumptions c24_configured_daily.

(* Non-vacuity at midnight: start_time="00:00:00" (0 ticks) is well formed, denotes and yields a
   valid schedule that is active when polled; likewise mo 00:00:00 .. fr 18:00:00, which opens at
   Monday 00:00. *)
Theorem c24_config_midnight_nonvacuous :
  denote (x_start midnight_x) (x_end midnight_x) (x_utc midnight_x) (x_dur midnight_x) (x_sd midnight_x)
         (x_ed midnight_x) = D_sched 0 (Some (hms_ns 23 59 59)) 0 (-1) (-1) /\
  create_schedule midnight_x = CS_ok (mkSched 0 (hms_ns 23 59 59) 0 0 (-1) (-1)) /\
  configured_run midnight_x false (poll sunday ns_minute 3) = CR_bits [true; true; true] /\
  create_schedule midnight_week_x = CS_ok (mkSched 0 (hms_ns 18 0 0) 0 0 1 5) /\
  configured_run midnight_week_x false (poll (at_ 0 23 59 0) ns_minute 3) = CR_bits [false; true; true].
Proof. repeat (split; [reflexivity|]). reflexivity. Qed.
Print Assumptions c24_config_midnight_nonvacuous.

(* Monday-Friday 09:00-17:00 at UTC+60 polled every minute for eight days from a Sunday: all
   hypotheses of c24_weekly_partial hold and the flag is on for 6241 of the 11520 polls. *)
Theorem c24_nonvacuous :
  ranges_okb nv_c = true /\ weekly_hyp 1 5 (hms_ns 9 0 0) (hms_ns 17 0 0) = true /\
  instants_okb nv_c nv_ts = true /\ gaps_ok nv_ts = true /\ start_consistent nv_c false nv_ts = true /\
  exists bits, run_o nv_c false nv_ts = Some bits /\
    Z.of_nat (length (filter (fun b => b) bits)) = 6241 /\ Z.of_nat (length bits) = 11520.
Proof. exact nonvacuous_weekly. Qed.
Print Assumptions c24_nonvacuous.
