(* Property C14 -- "Distinct repeating-group definitions never share metadata".
   Only theorem statements: each is closed by [exact] of a lemma proved in C14/GroupHashProofs.v,
   by a few lines that instantiate general theorems proved there, or, where it states a concrete
   witness, by evaluation in place; each is followed by Print Assumptions.
   The model (C14/GroupHash.v) transcribes f8c's parse_groups / group_hash / find_group /
   generate_group_bodies and rothash; a "definition" is the expanded body of a <group>
   (list ritem); own_node is the trait tree a message's own definition calls for (C13/Schema.v);
   f8c_node is the trait tree the modelled generator emits. *)
From Coq Require Import NArith List Bool.
From F8 Require Import C13.SMap C13.Schema C13.Probe C14.GroupHash C14.GroupHashProofs.
Import ListNotations.
Local Open Scope N_scope.

(* rothash r v = L r xor v xor K with L additive over GF(2) (L (a xor b) = L a xor L b, L 0 = 0):
   the hash is an affine map, so collisions can be solved for. *)
Theorem c14_rothash_linear : forall r v,
  rothash r v = N.lxor (N.lxor (rot_l r) v) KROT
  /\ (forall a b, rot_l (N.lxor a b) = N.lxor (rot_l a) (rot_l b))
  /\ rot_l 0 = 0.
Proof. intros. split; [reflexivity|]. split; [exact rot_l_lxor | exact rot_l_0]. Qed.
Print Assumptions c14_rothash_linear.

(* the model stays inside uint32_t *)
Theorem c14_rothash_bound : forall r v, r < W32 -> v < W32 -> rothash r v < W32.
Proof. exact rothash_bound_lemma. Qed.
Print Assumptions c14_rothash_bound.

(* ALL collisions between two-member definitions {a,b} and {c,d}: exactly d = L(a xor c) xor b. *)
Theorem c14_pair_collision_iff : forall a b c d,
  rothash (rothash 0 a) b = rothash (rothash 0 c) d <-> d = N.lxor (rot_l (N.lxor a c)) b.
Proof. exact pair_collision_iff_lemma. Qed.
Print Assumptions c14_pair_collision_iff.

(* The hash sees only the SET of member numbers: flat definitions with the same members in
   any order, with any required flags / types / component attribution, always collide. *)
Theorem c14_hash_ignores_order_flags : forall l1 l2,
  forallb (fun x => negb (is_group x)) l1 = true -> forallb (fun x => negb (is_group x)) l2 = true ->
  (forall n, In n (map item_num l1) <-> In n (map item_num l2)) ->
  group_hash l1 = group_hash l2.
Proof.
  intros l1 l2 F1 F2 E. apply group_hash_ext; [assumption|]. rewrite !flat_item_hash by assumption. reflexivity.
Qed.
Print Assumptions c14_hash_ignores_order_flags.

(* The property is violated: members {1, 24676} and {2, 7} under one count field hash alike
   (0x23036665, the instance d = L(1 xor 2) xor 24676 = 7), so the second message is generated
   with the first definition's traits and its own group element cannot be built. *)
Theorem c14_collision_refuted :
  group_hash [RField 1 15 true []; RField 24676 15 false []] = 587425381
  /\ group_hash [RField 2 15 true []; RField 7 4 true []] = 587425381
  /\ 7 = N.lxor (rot_l (N.lxor 1 2)) 24676
  /\ (exists n, f8c_node FUEL (build_gm (level_defs wA ++ level_defs wB)) wB = Some n
                /\ node_subs n = node_subs (own_node wA)
                /\ node_subs n <> node_subs (own_node wB)
                /\ probe_outcome (fun _ => false) wHdr n [] [PGroup 5000 [[PField 2; PField 7]]] = 1
                /\ probe_outcome (fun _ => false) wHdr (own_node wB) [] [PGroup 5000 [[PField 2; PField 7]]] = 0).
Proof.
  split; [vm_compute; reflexivity|]. split; [vm_compute; reflexivity|]. split; [vm_compute; reflexivity|].
  eexists. split; [vm_compute; reflexivity|].
  split; [vm_compute; reflexivity|]. split; [vm_compute; discriminate|].
  split; vm_compute; reflexivity.
Qed.
Print Assumptions c14_collision_refuted.

(* ... and without any collision solving: same members in another order (element encoded in the
   first definition's order), same members with other required flags (element rejected). *)
Theorem c14_order_flags_refuted :
  (exists n, f8c_node FUEL (build_gm (level_defs wA' ++ level_defs wC ++ level_defs wD)) wC = Some n
             /\ node_subs n = node_subs (own_node wA') /\ node_subs n <> node_subs (own_node wC)
             /\ probe_outcome (fun _ => false) wHdr n [] [PGroup 5001 [[PField 13; PField 11; PField 12]]] = 2
             /\ probe_outcome (fun _ => false) wHdr (own_node wC) [] [PGroup 5001 [[PField 13; PField 11; PField 12]]] = 0)
  /\ (exists n, f8c_node FUEL (build_gm (level_defs wA' ++ level_defs wC ++ level_defs wD)) wD = Some n
             /\ node_subs n = node_subs (own_node wA') /\ node_subs n <> node_subs (own_node wD)
             /\ probe_outcome (fun _ => false) wHdr n [] [PGroup 5001 [[PField 11; PField 13]]] = 3
             /\ probe_outcome (fun _ => false) wHdr (own_node wD) [] [PGroup 5001 [[PField 11; PField 13]]] = 0).
Proof.
  split; eexists; (split; [vm_compute; reflexivity|]);
    (split; [vm_compute; reflexivity|]); (split; [vm_compute; discriminate|]); split; vm_compute; reflexivity.
Qed.
Print Assumptions c14_order_flags_refuted.

(* What IS true (partial): if (count field, group_hash) tells the definitions of the schema
   apart -- a decidable premise, evaluated on every schema compiled in the tie -- then every
   level of the schema (header, trailer, each message; any nesting depth below FUEL = 64) is
   generated with the trait tree of its own definitions, i.e. resolved traits = own traits for
   every group at every depth. *)
Theorem c14_sound_if_injective : forall (x : xschema) (its : list ritem),
  defs_injective (schema_defs x) = true -> x_level x its -> (level_depth its < FUEL)%nat ->
  f8c_node FUEL (build_gm (schema_defs x)) its = Some (own_node its).
Proof. exact sound_if_injective_lemma. Qed.
Print Assumptions c14_sound_if_injective.

(* The same per message, with the exact hypothesis whose negation is the classifier of finding
   F18: no definition used by the message is preceded, in f8c's processing order, by a different
   definition with the same key. *)
Theorem c14_sound_if_no_clash : forall fuel all its,
  msg_clash all its = false -> (level_depth its < fuel)%nat ->
  f8c_node fuel (build_gm all) its = Some (own_node its).
Proof. exact sound_if_no_clash_lemma. Qed.
Print Assumptions c14_sound_if_no_clash.

(* The structural hash recurses: a nested group enters its parent's hash with the hash of its own
   body.  On the definitions NoAllocs{79,80,NoMiscFees{137,138}} / {79,80,NoMiscFees{137,139}} (same
   direct members, different nested members) the model yields 0x7a05739b and 0x7a05739a -- the values
   the pinned f8c prints -- so they are kept apart and the second message keeps its own nested
   group classes. *)
Theorem c14_hash_covers_nested :
  (forall n r c sub, item_hash (RGroup n r c sub) = [([n], group_hash sub)])
  /\ level_nums nhA = level_nums nhB
  /\ group_hash nhA = 2047177627 /\ group_hash nhB = 2047177626
  /\ msg_clash (level_defs nhMsgA ++ level_defs nhMsgB) nhMsgB = false
  /\ f8c_node FUEL (build_gm (level_defs nhMsgA ++ level_defs nhMsgB)) nhMsgB = Some (own_node nhMsgB)
  /\ own_node nhMsgB <> own_node nhMsgA.
Proof.
  split; [exact item_hash_group_lemma|].
  split; [vm_compute; reflexivity|]. split; [vm_compute; reflexivity|]. split; [vm_compute; reflexivity|].
  split; [vm_compute; reflexivity|]. split; [vm_compute; reflexivity | vm_compute; discriminate].
Qed.
Print Assumptions c14_hash_covers_nested.

(* The value is mixed in with all its bits: with the same running hash, two different values --
   in particular the 32-bit hashes of two nested definitions that differ in any bit, high or low --
   give different results, so a parent with a single nested group inherits every distinction. *)
Theorem c14_rothash_value_injective : forall r v1 v2, rothash r v1 = rothash r v2 -> v1 = v2.
Proof. exact rothash_value_injective_lemma. Qed.
Print Assumptions c14_rothash_value_injective.

(* Non-vacuity: an expanded schema with six stored definitions, among them two DIFFERENT
   definitions of one count field (and one reused unchanged, with a nested group), meets the
   hypotheses of c14_sound_if_injective. *)
Theorem c14_nonvacuous :
  defs_injective (schema_defs nvX) = true
  /\ length (schema_defs nvX) = 6%nat
  /\ (forall m its, In (m, its) (x_msgs nvX) -> (level_depth its < FUEL)%nat)
  /\ (exists a b, In a (schema_defs nvX) /\ In b (schema_defs nvX) /\ fst a = fst b /\ snd a <> snd b).
Proof.
  split; [vm_compute; reflexivity|]. split; [vm_compute; reflexivity|]. split.
  - intros m its H. apply PeanoNat.Nat.ltb_lt.
    destruct H as [H|[H|[H|[]]]]; inversion H; subst; vm_compute; reflexivity.
  - exists (555, [RField 600 15 true []; RGroup 556 false [] [RField 601 1 true []; RField 602 11 false []]; RField 603 10 false []]),
           (555, [RField 600 15 true []; RField 604 1 false []]).
    split; [vm_compute; tauto|]. split; [vm_compute; tauto|]. split; [reflexivity | discriminate].
Qed.
Print Assumptions c14_nonvacuous.
