(* Property C32 -- "XML configuration parser preserves element trees".
   Only theorem statements: each is closed by [exact] of a lemma proved in C32/..., by a few lines
   that instantiate general theorems proved there, or, where it states a concrete witness, by
   evaluation in place; each is followed by Print Assumptions.
   Model: C32/Xml.v (XmlElement's constructor = loop/step/finish/parse_doc, ParseAttrs = parse_attrs,
   InplaceXlate = xlate, find = find_all/find_first); printer, reach and the tree classes: C32/Spec_C32.v. *)
From Coq Require Import String.
From Coq Require Import NArith List Bool.
From F8 Require Import C32.XmlBase C32.Xml C32.Spec_C32 C32.XmlProofs C32.XmlTreeProofs C32.XmlTotal C32.XmlNumProofs.
Import ListNotations.
Local Open Scope N_scope.

(* ParseAttrs inverts the attribute printer: for every attribute list with pairwise different keys,
   keys over the name alphabet [A-Za-z0-9_.:-]+ other than "docpath", and values over ALL bytes except
   NUL in which no '&' is followed by something reference-shaped (name; #digits; #xhex;), parsing
   ` k1="escaped v1" k2="escaped v2" ...' returns exactly that list (same keys, same order, references
   decoded back to the values), whatever the current line number. *)
Theorem c32_attrs_partial : forall (line : N) (m : list (str * str)),
  attrs_ok m = true -> parse_attrs line (print_attrs m) = Ok m.
Proof.
  intros line m H. unfold attrs_ok in H. apply andb_true_iff in H as [ND OK].
  apply parse_attrs_arun, (arun_attrs line m []); assumption.
Qed.
Print Assumptions c32_attrs_partial.

(* The property is violated: InplaceXlate searches again from the start after every replacement,
   so decoded text is decoded again.  The 4-character value  &lt;  is printed  &amp;lt;  and comes back
   as the single character  <  -- in the decoder alone and through the whole parser (text and attribute). *)
Theorem c32_entity_refuted :
  let v := bs "&lt;" in
  escape v = bs "&amp;lt;" /\ xlate (escape v) = bs "<" /\
  parse_doc (print_el (El (bs "a") None (Some v) [(bs "k", v)] [])) =
    Ok (El (bs "a") None (Some (bs "<")) [(bs "k", bs "<")] []).
Proof. vm_compute. repeat split. Qed.
Print Assumptions c32_entity_refuted.

(* ... and holds exactly outside that region: every text without NUL whose '&'s are not followed by
   something reference-shaped survives escaping + decoding (all of & < > and both quotes included). *)
Theorem c32_entity_single_partial : forall v : str,
  value_ok v = true -> xlate (escape v) = v.
Proof. exact xlate_escape. Qed.
Print Assumptions c32_entity_single_partial.

(* The same for numeric references ("markup characters written as entity or numeric references"):
   & < > and both quotes written as decimal (&#38; ...) or hexadecimal (&#x26; ...) references are decoded
   back to the text under the same hypothesis. *)
Theorem c32_entity_numeric_partial : forall v : str,
  value_ok v = true -> xlate (escape_dec v) = v /\ xlate (escape_hex v) = v.
Proof. exact c32_entity_numeric_partial_lemma. Qed.
Print Assumptions c32_entity_numeric_partial.

(* find (both overloads, every delimiter, attribute filter pointers atag/aval each possibly null): for every
   tree whose tags are non-empty, free of the delimiter and not beginning with "//" (all trees of
   c32_tree_partial for the default delimiter, see c32_tree_find_tags), every start element and EVERY path
   string, the all-matches form returns exactly the elements reachable by the path -- its components name
   the start element (or the root after a leading "//") and then one child per component -- that pass the
   filter, in document order, and the first-match form returns the first of them. *)
Theorem c32_find_exact : forall (root cur : el) (a : addr) (path : str) (d : byte) (q : filt),
  find_tags_ok d root = true -> find_tags_ok d cur = true ->
  find_all (find_fuel path) root cur a path d q = reach_path root cur a path d q /\
  find_first (find_fuel path) root cur a path d q = hd_error (reach_path root cur a path d q).
Proof. intros. rewrite find_first_hd, find_all_exact by (unfold find_fuel; auto). auto. Qed.
Print Assumptions c32_find_exact.

(* The attribute filter is exact: with `matched' the path-matched elements (= the unfiltered find-all),
   the filtered find-all is `matched' filtered by "has attribute atag with a value EQUAL to aval" (attr_ok;
   no filter unless both are given), in the same order, and the filtered find-first is its head. *)
Theorem c32_find_filter : forall (root cur : el) (a : addr) (path : str) (d : byte) (q : filt),
  find_tags_ok d root = true -> find_tags_ok d cur = true ->
  let matched := reach_path_el root cur a path d in
  find_all (find_fuel path) root cur a path d (None, None) = map fst matched /\
  find_all (find_fuel path) root cur a path d q = map fst (filter (fun p => attr_ok q (snd p)) matched) /\
  find_first (find_fuel path) root cur a path d q =
    hd_error (map fst (filter (fun p => attr_ok q (snd p)) matched)).
Proof. exact c32_find_filter_lemma. Qed.
Print Assumptions c32_find_filter.

(* For ALL trees, paths, delimiters and filters (no hypothesis): find-first is the head of find-all. *)
Theorem c32_find_first_head : forall (root : el) (d : byte) (q : filt) (fuel : nat) (what : str) (cur : el) (a : addr),
  find_first fuel root cur a what d q = hd_error (find_all fuel root cur a what d q).
Proof. exact find_first_hd. Qed.
Print Assumptions c32_find_first_head.

Theorem c32_tree_find_tags : forall (t : el) (d : nat), tree_ok d t = true -> find_tags_ok 47 t = true.
Proof. exact tree_ok_find_tags. Qed.
Print Assumptions c32_tree_find_tags.

(* The tree round trip: for EVERY element tree t of any width and any
   depth up to MaxDepth = 128 whose tags are names [A-Za-z0-9_.:-]+ other than "xi:include", whose
   attribute keys are pairwise different names other than "docpath", whose attribute values and text are
   over all bytes except NUL, LF, CR with no '&' followed by something reference-shaped, and whose text,
   if present, has a character other than blank/tab (tree_ok, a boolean predicate of Spec_C32.v), the
   modelled parser applied to the printed document returns exactly t: same tags, same attribute lists
   with references decoded, same text, same children in the same order (and never runs out of fuel). *)
Theorem c32_tree_partial : forall t : el, tree_ok 0 t = true -> parse_doc (print_el t) = Ok t.
Proof. exact c32_tree_partial_lemma. Qed.
Print Assumptions c32_tree_partial.

(* The two remaining hypotheses of tree_ok are needed: blank-only text is dropped, an attribute named
   docpath is dropped. *)
Theorem c32_blank_text_refuted :
  parse_doc (print_el (El (bs "a") None (Some (bs "  ")) [] [])) = Ok (El (bs "a") None None [] []).
Proof. vm_compute. reflexivity. Qed.
Print Assumptions c32_blank_text_refuted.

Theorem c32_docpath_refuted :
  parse_doc (print_el (El (bs "a") None None [(bs "docpath", bs "x"); (bs "e", bs "1")] [])) =
  Ok (El (bs "a") None None [(bs "e", bs "1")] []).
Proof. vm_compute. reflexivity. Qed.
Print Assumptions c32_docpath_refuted.

(* Non-vacuity: a three-level tree with repeated sibling tags, all five markup characters and
   near-references in values and text meets every hypothesis above; its printed form, its parse and
   three path lookups are as stated. *)
Theorem c32_nonvacuous :
  tree_ok 0 sample_tree = true /\
  attrs_ok (el_attrs sample_tree) = true /\
  find_tags_ok 47 sample_tree = true /\
  print_el sample_tree =
    bs "<cfg name=""x&quot;y&apos;z&gt;&amp;"" v.1=""&amp;l; &amp;#; &amp;lt""> a&lt;b &amp; c&gt; <item id=""1""/><ns:other>&apos;</ns:other><item id=""2"">t<leaf-1/><item/></item></cfg>" /\
  parse_doc (print_el sample_tree) = Ok sample_tree /\
  find_all (find_fuel (bs "cfg/item")) sample_tree sample_tree [] (bs "cfg/item") 47 (None, None) = [[0%nat]; [2%nat]] /\
  find_all (find_fuel (bs "//cfg/item/item")) sample_tree sample_tree [] (bs "//cfg/item/item") 47 (None, None) = [[2%nat; 1%nat]] /\
  find_first (find_fuel (bs "cfg/item")) sample_tree sample_tree [] (bs "cfg/item") 47 (Some (bs "id"), Some (bs "2")) = Some [2%nat] /\
  find_all (find_fuel (bs "cfg/item")) sample_tree sample_tree [] (bs "cfg/item") 47 (Some (bs "id"), Some (bs "")) = [].
Proof. vm_compute. repeat split. Qed.
Print Assumptions c32_nonvacuous.

(* Arbitrary input bytes: the model is total -- for EVERY byte string the fuel of parse_doc
   (2 * length + 4 loop iterations over all nesting levels) is never exhausted, so the modelled parser
   always answers with a tree or a parse error.  (That the real parser does the same without memory
   errors is what the correspondence run checks under ASan/UBSan.) *)
Theorem c32_total : forall bytes : str, parse_doc bytes <> OutOfFuel.
Proof. exact c32_total_lemma. Qed.
Print Assumptions c32_total.

(* ... and the two replacement loops of InplaceXlate always reach their fixed point: any fuel of at
   least length + 1 gives the same result as the fuel used by the model. *)
Theorem c32_xlate_fuel : forall (s : str) (fuel1 fuel2 : nat),
  (length s < fuel1)%nat -> (length (xlate_named fuel1 s) < fuel2)%nat ->
  xlate_num fuel2 (xlate_named fuel1 s) = xlate s.
Proof. exact c32_xlate_fuel_lemma. Qed.
Print Assumptions c32_xlate_fuel.
