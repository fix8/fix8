(* Property C04 -- "Strict decoding accepts exactly schema-conforming messages".
   Only theorem statements: each is closed by [exact] of a lemma proved in C04/*Proofs.v, or,
   where it states a concrete witness, by evaluation in place; each is followed by Print Assumptions.
   strict_factory = the model of Message::factory (coq/Codec/Decode.v) with permissive_mode = false;
   conforms / retains / c04_ok = the independent oracle of C04/Spec_C04.v. *)
From Coq Require Import NArith ZArith List Bool.
From F8 Require Import Codec.Bytes Codec.Meta Codec.Extract Codec.Decode Codec.Example
                       C04.Spec_C04 C04.Strict C04.Tokens C04.Example04 C04.Sound C04.Exact C04.WitnessProofs C04.SoundProofs
                       C04.ExactProofs C04.RetainProofs.
Import ListNotations.
Local Open Scope N_scope.

(* Soundness of acceptance, for EVERY byte string (no hypothesis on the input beyond "bytes are
   bytes" and the size of an unsigned int): whenever the strict decoder returns a message,
     - the checksum is right: the input ends in 10=ccc| and ccc, as fast_atoi reads it, is the sum
       of all bytes before "10=" modulo 256 (chk_as_read; through C07's theorem on calc_chksum);
     - msg_sound: header, body and trailer objects were decoded against the header table, the table
       of the message type named by 35 and the trailer table; in each of them no tag occurs twice
       -- except data-typed tags, which the Length/data pairing adds without the duplicate test
       (finding C04-length-field-pairing) --, a tag is in the object iff its present bit is set and
       no mandatory trait lacks the bit; every element of every repeating group at every depth
       has no repeated tag, all its mandatory fields, and holds at arrival index 1 a field of
       schema position 1 (it began with the group's first field).
   What is NOT claimed, because it is false (c04_retains_refuted): that the object accounts for
   every token of the input. *)
Theorem c04_accept_sound_partial : forall c bytes m,
  wf_ctx c = true -> bytes_small bytes = true -> lenN bytes < 2147483648 ->
  strict_factory c bytes = Ok m ->
  chk_as_read bytes /\ msg_sound c m.
Proof. exact c04_accept_sound_lemma. Qed.
Print Assumptions c04_accept_sound_partial.

(* Retention fails, three independent witnesses on the schema ex4_ctx (each accepted by the model
   with a correct checksum, each losing or renaming a token; re-confirmed on the real decoder by
   the known-finding witnesses of known_findings.d/C04.json):
   (a) F10  ...|9998=x|112=TESTID|10=..|   an unknown tag after the last mandatory field ends header,
            body and trailer decoding in turn; factory ignores decode's consumed length;
   (b) F11  ...|65648=zz|10=..|            tags are read with fast_atoi<unsigned short>: 65648 is 112;
   (c) F12  ...|112=a|50=sub|10=..|        a header-only tag in the body is dropped. *)
Theorem c04_retains_refuted :
  (wf_ctx ex4_ctx = true /\ tokenize (ser toks_a) = Some toks_a /\ tags_small toks_a = true /\
   chk_ok (ser toks_a) = true /\ accepted ex4_ctx (ser toks_a) = true /\ retained ex4_ctx toks_a = false /\
   conforms ex4_ctx (ser toks_a) = false) /\
  (tokenize (ser toks_b) = Some toks_b /\ tags_small toks_b = false /\
   chk_ok (ser toks_b) = true /\ accepted ex4_ctx (ser toks_b) = true /\ retained ex4_ctx toks_b = false /\
   conforms ex4_ctx (ser toks_b) = false) /\
  (tokenize (ser toks_c) = Some toks_c /\ tags_small toks_c = true /\ tags_known ex4_ctx toks_c = true /\
   chk_ok (ser toks_c) = true /\ accepted ex4_ctx (ser toks_c) = true /\ retained ex4_ctx toks_c = false /\
   conforms ex4_ctx (ser toks_c) = false).
Proof. vm_compute. repeat split; reflexivity. Qed.
Print Assumptions c04_retains_refuted.

(* Exactness on token sequences, under explicit boolean hypotheses (C04/Exact.v: exact_hyps = the list is
   framed 8, 9, 35 ... 10=ddd; every tag < 65536; values without SOH / NUL and within the buffers;
   int-typed texts are an optional '-' and digits, within the int range; no Length-typed field other
   than BodyLength; the automatic fields of the header and trailer tables (8, 9, 35 / 10) do not
   occur again) and provided every tag is legal AT ITS POSITION (struct_verdict <> VIllegal):
   the model of Message::factory accepts ser toks if and only if ser toks conforms, it never ends in
   a memory error or a hang, it rejects by throwing, and the model's recursion fuel (two units per
   input byte) is never exhausted. *)
Theorem c04_exact_partial : forall c toks,
  wf_ctx c = true -> exact_hyps c toks = true -> struct_verdict c toks <> VIllegal ->
  match strict_factory c (ser toks) with
  | Ok m => conforms c (ser toks) = true
  | Exc _ => conforms c (ser toks) = false
  | _ => False
  end.
Proof. exact exact_accept_lemma. Qed.
Print Assumptions c04_exact_partial.

(* The whole property on the same token sequences: if moreover every value survives its type's
   rendering (rendered: printing the field object built from the text gives the text back, for
   int types the same integer; the BeginString is the schema's own), then the oracle c04_ok
   holds on the model's result:
     accepted  -> the input conforms AND every token of the input is matched by a distinct
                  (tag, value) entry of the accepted object (retains: nothing discarded, renamed or
                  given another value);
     otherwise -> the model throws and the input does not conform.
   c04_ok is the function the check applies to the real decoder's result on every case. *)
Theorem c04_exact_retains_partial : forall c toks,
  wf_ctx c = true -> exact_hyps c toks = true -> rendered c toks = true ->
  struct_verdict c toks <> VIllegal ->
  c04_ok c (ser toks) (outcome_of c (strict_factory c (ser toks))) = true.
Proof. exact c04_ok_lemma. Qed.
Print Assumptions c04_exact_retains_partial.

(* Non-vacuity: a NewOrderList with two orders, the second carrying two nested allocations, meets
   every hypothesis of c04_exact_partial / c04_exact_retains_partial, conforms, is accepted by the
   model, and every token is retained. *)
Theorem c04_nonvacuous :
  wf_ctx ex4_ctx = true /\ exact_hyps ex4_ctx toks_list = true /\ rendered ex4_ctx toks_list = true /\
  struct_verdict ex4_ctx toks_list = VConf /\ tokenize (ser toks_list) = Some toks_list /\
  conforms ex4_ctx (ser toks_list) = true /\ accepted ex4_ctx (ser toks_list) = true /\
  retained ex4_ctx toks_list = true /\ model_ok ex4_ctx (ser toks_list) = true.
Proof. vm_compute. repeat split; reflexivity. Qed.
Print Assumptions c04_nonvacuous.
