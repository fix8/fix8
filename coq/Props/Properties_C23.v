(* Property C23 "Logon acceptance and CompID identity are enforced consistently".
   Theorems about the session model coq/Sess/Session.v (Session::process -> handle_logon, tied to the real code
   by the correspondence run) and about coq/C23/SessionID.v (the comparison members of FIX8::SessionID, tied by
   calling the real operators).  They hold for every schema with schema_ok (checked by the driver on the
   metadata of the generated code), every decoder, all CompID strings, flags, client lists and persisters.
   Notation: for a decoded Logon m, lg_sci m / lg_tci m are its Sender/TargetCompID, lg_hbi m its HeartBtInt,
   lg_reset m its ResetSeqNumFlag;  acc_idok s m = (enforcement off) || own CompID = lg_tci m;
   acc_listed s m = (no client list) || lg_sci m listed;  acc_numbers = the reset / recovery of the two numbers.
   Only theorem statements: each is closed by [exact] of a lemma proved in C23/, by a few lines that
   instantiate general theorems proved there, or, where it states a concrete witness, by evaluation in place;
   each is followed by Print Assumptions. *)
From Coq Require Import NArith ZArith List Bool.
From F8 Require Import Sess.Bytes Sess.Msg Sess.Persist Sess.Session Sess.Wire
  C22.Hyp C22.Spec_C22 C22.SendLemmas C22.HbProofs C22.Demo
  C23.SessionID C23.Spec_C23 C23.SidProofs C23.LogonProofs C23.Demo23.
Import ListNotations.
Local Open Scope N_scope.

(* An acceptor that is not yet logged on refuses a Logon failing either test: process returns false, nothing is
   sent, the session is stopped and terminated. *)
Theorem c23_acceptor_refuses : forall sc decode fl now raw s rest q m,
  find_after pat_34 raw = Some rest -> fast_atoi_u rest SOH 0 = Some q -> decode raw = DecOk m ->
  m_type m = mt_logon -> s_role s = Acceptor -> s_state s <> st_continuous ->
  acc_idok s m && acc_listed s m = false ->
  exists s', process sc decode fl now raw s = (false, s', []) /\
             s_state s' = st_session_terminated /\ is_shutdown s' = true /\ s_hb s' = s_hb s.
Proof. exact acceptor_refuses. Qed.
Print Assumptions c23_acceptor_refuses.

(* Hence the logon completes ONLY when TargetCompID is the acceptor's own CompID (under enforcement) and the
   sender is listed (when a list is configured). *)
Theorem c23_acceptor_only : forall sc decode fl now raw s rest q m b s' e,
  find_after pat_34 raw = Some rest -> fast_atoi_u rest SOH 0 = Some q -> decode raw = DecOk m ->
  m_type m = mt_logon -> s_role s = Acceptor -> s_state s <> st_continuous ->
  process sc decode fl now raw s = (b, s', e) -> s_state s' = st_continuous ->
  acc_idok s m && acc_listed s m = true.
Proof. intros. eapply acceptor_only; eassumption. Qed.
Print Assumptions c23_acceptor_only.

(* A Logon passing both tests, carrying the expected sequence number, completes: exactly one message goes out,
   a Logon echoing HeartBtInt; the session is continuous, has adopted the interval and the identity
   (sender := TargetCompID, target := SenderCompID of the Logon); both numbers are those of acc_numbers plus
   one -- i.e. 2 and 2 when ResetSeqNumFlag=Y (c23_acceptor_reset). *)
Theorem c23_acceptor_accepts : forall sc, schema_ok sc = true -> forall decode fl now raw s rest q m,
  find_after pat_34 raw = Some rest -> fast_atoi_u rest SOH 0 = Some q -> decode raw = DecOk m ->
  m_type m = mt_logon -> s_role s = Acceptor -> s_state s <> st_continuous ->
  s_closed s = false -> s_batch s = [] -> no_soh (lg_sci m) = true -> no_soh (lg_tci m) = true ->
  acc_idok s m && acc_listed s m = true ->
  let s1 := acc_numbers (lg_reset m) (w_state st_logon_received s) in
  q = s_next_recv s1 ->
  exists s' out,
    process sc decode fl now raw s = (true, s', [EOut out]) /\
    kind_of out = KLogon (Some (dec (lg_hbi m))) /\
    s_state s' = st_continuous /\ s_hb s' = lg_hbi m /\
    s_snd s' = lg_tci m /\ s_tgt s' = lg_sci m /\
    s_next_send s' = s_next_send s1 + 1 /\ s_next_recv s' = s_next_recv s1 + 1 /\ s_shutdown s' = s_shutdown s.
Proof. exact acceptor_accepts. Qed.
Print Assumptions c23_acceptor_accepts.

(* ResetSeqNumFlag=Y resets both sequence numbers to 1 (whatever the persister holds and whatever numbers were
   requested at start). *)
Theorem c23_acceptor_reset : forall s,
  s_next_send (acc_numbers true s) = 1 /\ s_next_recv (acc_numbers true s) = 1.
Proof. intro s. split; reflexivity. Qed.
Print Assumptions c23_acceptor_reset.

(* operator== is equality of identities. *)
Theorem c23_eq_char : forall a b, sid_eq a b = true <-> a = b.
Proof. exact sid_eq_char. Qed.
Print Assumptions c23_eq_char.

(* Identity is the PAIR of CompIDs -- no rendering of it takes part in the comparison. *)
Theorem c23_identity_is_pair : forall a b, sid_eq a b = true <-> sid_snd a = sid_snd b /\ sid_tgt a = sid_tgt b.
Proof. exact sid_eq_pair. Qed.
Print Assumptions c23_identity_is_pair.

(* In particular not the printable id "<Begin>:<sender>-><target>" (SessionID::make_id / get_id), which is not
   injective because "->" may occur inside a CompID: (A->B, C) and (A, B->C) print identically for every
   BeginString, yet they are different identities (== false, != true).  And the session model agrees: the
   initiator (A->B, C) treats the Logon response 49=B->C 56=A as a mismatch (state 2), 49=C 56=A->B completes. *)
Theorem c23_printable_id_not_injective :
  (forall begin, amb1 <> amb2 /\ sid_print begin amb1 = sid_print begin amb2 /\
                 sid_eq amb1 amb2 = false /\ sid_ne amb1 amb2 = true) /\
  (let ops := demo_amb_ops id_BC [65] in
   sid_print begin_42 (mkSid id_AB [67]) = sid_print begin_42 (mkSid [65] id_BC) /\
   c23_hist_ok ops (run_history demo_schema ops) = true /\
   map (fun st => match st_snap st with Some sn => sn_state sn | None => 99 end) (run_history demo_schema ops) = [5; 2]) /\
  (let ops := demo_amb_ops [67] id_AB in
   c23_hist_ok ops (run_history demo_schema ops) = true /\
   map (fun st => match st_snap st with Some sn => sn_state sn | None => 99 end) (run_history demo_schema ops) = [5; 1]).
Proof. split; [exact sid_print_not_injective|vm_compute; repeat split]. Qed.
Print Assumptions c23_printable_id_not_injective.

(* Session identities compare unequal exactly when they are not equal (since the repair ab2c959). *)
Theorem c23_neq : forall a b, sid_ne a b = negb (sid_eq a b).
Proof. exact sid_ne_negb_eq. Qed.
Print Assumptions c23_neq.

Theorem c23_neq_char : forall a b, sid_ne a b = true <-> a <> b.
Proof. exact sid_ne_char. Qed.
Print Assumptions c23_neq_char.

(* Before ab2c959 (DESIGN F28) operator!= was the CONJUNCTION of the component inequalities (sid_ne_orig, not part
   of the tied model any more): A->B != A->C was false while A->B == A->C was false too. *)
Theorem c23_neq_orig_refuted :
  (forall a b, sid_ne_orig a b = true <-> (sid_snd a <> sid_snd b /\ sid_tgt a <> sid_tgt b)) /\
  (exists a b, a <> b /\ sid_eq a b = false /\ sid_ne_orig a b = false /\ sid_ne a b = true).
Proof.
  split; [exact sid_ne_orig_char|]. exists (mkSid [65] [66]), (mkSid [65] [67]).
  split; [discriminate|repeat split].
Qed.
Print Assumptions c23_neq_orig_refuted.

(* The initiator clause at full strength: under enforcement a Logon response whose CompIDs do not mirror the
   initiator's identity -- TargetCompID or SenderCompID wrong, either one suffices -- is a mismatch: process
   returns false, nothing is sent, the session is stopped and terminated (for every sequence number). *)
Theorem c23_initiator : forall sc decode fl now raw s rest q m,
  find_after pat_34 raw = Some rest -> fast_atoi_u rest SOH 0 = Some q -> decode raw = DecOk m ->
  m_type m = mt_logon -> s_role s = Initiator -> s_state s <> st_continuous ->
  pr_ec (s_par s) = true -> (lg_tci m <> s_snd s \/ lg_sci m <> s_tgt s) ->
  exists s', process sc decode fl now raw s = (false, s', []) /\
             s_state s' = st_session_terminated /\ is_shutdown s' = true.
Proof. exact initiator_not_mirrored. Qed.
Print Assumptions c23_initiator.

(* Hence, under enforcement, the logon completes ONLY for a mirrored response ... *)
Theorem c23_initiator_only : forall sc decode fl now raw s rest q m b s' e,
  find_after pat_34 raw = Some rest -> fast_atoi_u rest SOH 0 = Some q -> decode raw = DecOk m ->
  m_type m = mt_logon -> s_role s = Initiator -> s_state s <> st_continuous -> pr_ec (s_par s) = true ->
  process sc decode fl now raw s = (b, s', e) -> s_state s' = st_continuous ->
  lg_tci m = s_snd s /\ lg_sci m = s_tgt s.
Proof. intros. eapply initiator_only; eassumption. Qed.
Print Assumptions c23_initiator_only.

(* ... and a mirrored response (or any response when enforcement is off) with the expected number does complete it. *)
Theorem c23_initiator_accepts : forall sc decode fl now raw s rest q m,
  find_after pat_34 raw = Some rest -> fast_atoi_u rest SOH 0 = Some q -> decode raw = DecOk m ->
  m_type m = mt_logon -> s_role s = Initiator -> s_state s <> st_continuous ->
  sid_ne (own_sid s) (logon_sid m) && pr_ec (s_par s) = false ->
  q = s_next_recv s ->
  exists s', process sc decode fl now raw s = (true, s', []) /\
             s_state s' = st_continuous /\ s_next_recv s' = s_next_recv s + 1 /\
             s_snd s' = s_snd s /\ s_tgt s' = s_tgt s /\ s_shutdown s' = s_shutdown s.
Proof. exact initiator_accepts. Qed.
Print Assumptions c23_initiator_accepts.

(* On whole histories with the oracle (model of "START I none sid=CLI:SRV | IN <Logon 49=.. 56=..>"): the
   mirrored response completes the logon; the response SRV->XXX (exactly one wrong CompID: the input that F28 let
   through) and the response XXX->XXX end in session_terminated; c23_hist_ok holds for all three. *)
Theorem c23_initiator_witness :
  schema_ok demo_schema = true /\
  (let ops := demo_initiator_ops id_SRV id_CLI in
   c23_hist_ok ops (run_history demo_schema ops) = true /\
   map (fun st => match st_snap st with Some sn => sn_state sn | None => 99 end) (run_history demo_schema ops) = [5; 1]) /\
  (let ops := demo_initiator_ops id_SRV id_XXX in
   c23_hist_ok ops (run_history demo_schema ops) = true /\
   map (fun st => match st_snap st with Some sn => sn_state sn | None => 99 end) (run_history demo_schema ops) = [5; 2]) /\
  (let ops := demo_initiator_ops id_XXX id_XXX in
   c23_hist_ok ops (run_history demo_schema ops) = true /\
   map (fun st => match st_snap st with Some sn => sn_state sn | None => 99 end) (run_history demo_schema ops) = [5; 2]).
Proof. vm_compute. repeat split. Qed.
Print Assumptions c23_initiator_witness.

(* The hypotheses are met by non-trivial inputs: the demo schema is admissible; an acceptor SRV (enforcement on,
   client list [CLI]) and the Logon CLI->SRV satisfy both tests, the Logon CLI->XXX fails the first, XXX->SRV the
   second; the model accepts / refuses accordingly and the oracle agrees. *)
Theorem c23_nonvacuous :
  schema_ok demo_schema = true /\
  (let ops := demo_acceptor_ops true [id_CLI] id_CLI id_SRV in
   c23_hist_ok ops (run_history demo_schema ops) = true /\
   map (fun st => match st_snap st with Some sn => sn_state sn | None => 99 end) (run_history demo_schema ops) = [3; 1]) /\
  (let ops := demo_acceptor_ops true [id_CLI] id_CLI id_XXX in
   c23_hist_ok ops (run_history demo_schema ops) = true /\
   map (fun st => match st_snap st with Some sn => sn_state sn | None => 99 end) (run_history demo_schema ops) = [3; 2]) /\
  (let ops := demo_acceptor_ops true [id_CLI] id_XXX id_SRV in
   map (fun st => match st_snap st with Some sn => sn_state sn | None => 99 end) (run_history demo_schema ops) = [3; 2]).
Proof. vm_compute. repeat split. Qed.
Print Assumptions c23_nonvacuous.
