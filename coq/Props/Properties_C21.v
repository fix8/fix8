(* Property C21 "Two fix8 sessions deliver every application message across failures".
   Vocabulary (coq/C21): TwoParty.run_schedule = an initiator and an acceptor, each the session model of coq/Sess
   with its own FilePersister model, joined by two in-flight buffers and driven by a schedule of application sends
   (SI/SA), deliveries (DA/DI/D), connection drops (DROP) and process restarts (RI/RA); Spec_C21.c21_ok = the property
   on the schedule and the trace of both sides; Loss.c21_class = 1 iff some reconnect lost a message in flight;
   Example21.run21 l = run_schedule mini (simple_decode mini []) [] l, the model on the small concrete schema
   C20/Example.mini with Sess.SimpleCodec as the decoder.
   Only theorem statements: each is closed by [exact] of a lemma proved in C21/, by a few lines that
   instantiate general theorems proved there, or, where it states a concrete witness, by evaluation in place;
   each is followed by Print Assumptions. *)
From Coq Require Import NArith ZArith List Bool.
From F8 Require Import Sess.Bytes Sess.Msg Sess.Persist Sess.Session Sess.SimpleCodec Sess.Wire
  Sess.SendLemmas C20.Peer C20.Classify C20.SessFacts C20.BurstProofs C20.Example
  C21.TwoParty C21.Pair C21.Spec_C21 C21.Loss C21.Example21 C21.NoFaultProofs C21.SimProofs C21.TwoPartyProofs.
Import ListNotations.
Local Open Scope N_scope.

(* The property is FALSE of two fix8 endpoints; one drop suffices.  Logon exchange, the acceptor's application sends
   message 2, the connection drops while it is in flight, both sides reconnect from their persister files: the
   acceptor accepts the initiator's Logon and answers with its own Logon numbered 3; the initiator expects 2 --
   C20's "Logon above expected": InvalidMsgSequence in logon_received, the initiator writes a Logout and stops.
   Message 2 is never delivered, the sessions do not re-establish. *)
Theorem c21_refuted :
  exists sched, let tr := run21 sched in
    c21_ok sched tr = false /\ c21_class sched tr = 1 /\
    states21 tr = [(5, 3); (1, 1); (1, 1); (5, 3); (7, 1)] /\
    recvs21 tr = [(1, 1); (2, 2); (2, 2); (2, 1); (2, 4)] /\
    writes_logout (st_events (fst (nth 4 tr (mkStep [] None, mkStep [] None)))) = true /\
    deliveries_at false tr 0 = [].
Proof. exists w_one_drop. vm_compute. repeat split. Qed.
Print Assumptions c21_refuted.

(* Not only application messages: if the initiator's first Logon is lost, its next Logon carries 2, the acceptor
   expects 1 and terminates (states logon_sent / logoff_sent). *)
Theorem c21_logon_lost_refuted :
  exists sched, let tr := run21 sched in
    c21_ok sched tr = false /\ c21_class sched tr = 1 /\ states21 tr = [(5, 3); (5, 3); (5, 7)].
Proof. exists w_logon_lost. vm_compute. repeat split. Qed.
Print Assumptions c21_logon_lost_refuted.

(* Examples on which the property holds: a fault-free schedule (every message exactly once, never PossDup), and a
   drop on a quiet connection (nothing in flight): harmless. *)
Theorem c21_examples :
  (let tr := run21 w_no_fault in
   c21_ok w_no_fault tr = true /\ c21_exact w_no_fault tr = true /\ c21_class w_no_fault tr = 0) /\
  (let tr := run21 w_quiet_drop in
   c21_ok w_quiet_drop tr = true /\ c21_exact w_quiet_drop tr = true /\ c21_class w_quiet_drop tr = 0 /\
   has_fault w_quiet_drop = true).
Proof. split; vm_compute; repeat split. Qed.
Print Assumptions c21_examples.

(* c21_nofault_partial.  Vocabulary: Pair.pair = the two session states and the two in-flight byte lists; Pair.fstep /
   frun = the fault-free operations on them (FSendI m / FSendA m = Session::send, FDeliverA / FDeliverI = the bytes in
   flight reach FIXReader's loop); synced p = both sessions logged on (state continuous, reader running, socket open,
   nothing batched), facing each other, nothing in flight, each side's expected number = the other side's next
   outbound number; valid_run p ops = every message of the schedule is a simple application message (known
   application type, body fields only) AND is read back by the receiving side's decoder, in the state in which it is
   sent, as "new application message with the sender's next number" (an executable condition about the codec alone);
   sent_list b ops n = the (type, number, PossDup=false) triples of the initiator's (b = true) / acceptor's sends,
   numbered consecutively from n; dels = the DELIVER events of an event list.
   For EVERY schema (wf_schema: the header fields the session adds are known), decoder, session configuration and
   persister, and EVERY schedule of sends and deliveries in ANY interleaving, followed by one delivery per direction:
   the acceptor's application is handed exactly the initiator's messages -- each once, in send order, never PossDup --
   and vice versa, and the pair is synced again (no one terminates, numbers match). *)
Theorem c21_nofault_partial :
  forall sc decode fl now, wf_schema sc = true ->
  forall ops p, synced p -> valid_run sc decode fl now p ops ->
  exists p' ei ea,
    frun sc decode fl now p (ops ++ [FDeliverA; FDeliverI]) = (p', ei, ea) /\
    synced p' /\
    dels ea = sent_list true ops (s_next_send (pa_i p)) /\
    dels ei = sent_list false ops (s_next_send (pa_a p)).
Proof. exact nofault_delivery. Qed.
Print Assumptions c21_nofault_partial.

(* ... and for the two-party model itself: when the two Sess.Wire worlds of TwoParty hold a synced pair (sim), the
   events of run_sops on a schedule of SI/SA/DA/DI operations (corr: each SEND builds the message of the session-level
   schedule) followed by DA, DI show exactly these deliveries. *)
Theorem c21_nofault_twoparty :
  forall sc decode fl now, wf_schema sc = true ->
  forall sops fops t p,
  sim now t p -> synced p -> Forall2 (corr sc) sops fops -> valid_run sc decode fl now p fops ->
  let evs := map step_events (run_sops sc decode fl t (sops ++ [SDeliverA; SDeliverI])) in
  dels (concat (map snd evs)) = sent_list true fops (s_next_send (pa_i p)) /\
  dels (concat (map fst evs)) = sent_list false fops (s_next_send (pa_a p)).
Proof. exact twoparty_nofault. Qed.
Print Assumptions c21_nofault_twoparty.

(* The hypotheses are met: on the small schema, with Sess.SimpleCodec as the decoder, the two-party model after
   creation and the Logon exchange (t_logged) holds a synced pair, and the schedule SI SA DA SI SA DI SI of
   NewOrderSingle messages is valid for it (every message is read back by the codec as required). *)
Theorem c21_nofault_nonvacuous :
  wf_schema mini = true /\
  exists p, proj_pair t_logged = Some p /\ sim T0 t_logged p /\ synced p /\
            Forall2 (corr mini) sops_w fops_w /\ valid_run mini dec_mini [] T0 p fops_w.
Proof. exact nofault_instance. Qed.
Print Assumptions c21_nofault_nonvacuous.
