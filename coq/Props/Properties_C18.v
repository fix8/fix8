(* Property C18 "Resend requests are answered with a complete, faithful replay".

   All general theorems are about Sess.Session.handle_resend_request (the transcription of
   Session::handle_resend_request + retrans_callback scenarios #1..#8 + the persisters' range get) for
   EVERY schema, decoder, clock value, session state, store and range that meet the stated hypotheses;
   they are proved by induction over the live iteration of the store (C18/ReplayProofs.v).  The
   session state s is the one in which the request is dispatched; `ready` says that enforce lets the
   request through without side effect (in sequence, CompIDs right), the session is not already replaying
   and the socket is open; `ready_store` says always_seqnum_assign is off and a persister is attached whose
   store has ascending keys and holds only strings the decoder accepts.  The hypotheses are satisfiable
   (c18_nonvacuous, c18_nonvacuous_oracle).

   Only theorem statements: each is closed by [exact] of a lemma proved in C18/, by a few lines that instantiate
   general theorems proved there, or, where it states a concrete witness, by evaluation in place; each is
   followed by Print Assumptions. *)
From Coq Require Import NArith ZArith List Bool.
From F8 Require Import Sess.Bytes Sess.Msg Sess.Persist Sess.Session Sess.SimpleCodec Sess.Wire Sess.SessLemmas.
From F8 Require Import C18.Spec_C18 C18.Replay C18.ReplayProofs C18.PlanProofs C18.FaithProofs C18.Exact C18.OracleProofs
                       C18.C18Proofs C18.Witness C18.WitnessProofs.
Import ListNotations.
Local Open Scope N_scope.

(* 1. The answer is the replay plan (Replay.plan): for all stores and ranges the events are exactly the
      plan's gap fills and resent records in order, next_send afterwards is the plan's, the state is
      `continuous` again and the store is untouched.  Of the state `ready` demands only
      (s_state s =? resend_request_received) = false: EVERY other state answers (14-16 treat the states
      that enforce itself changes). *)
Theorem c18_replay_plan : forall sc decode now s seqnum m,
  nosoh (sc_begin sc) = true -> is_admin sc mt_sequence_reset = true ->
  ready sc decode now s seqnum m -> ready_store decode s ->
  range_bad (req_begin m) (req_end m) = false ->
  exists s',
    handle_resend_request sc decode now seqnum m s =
      (inl true, s', out sc now decode s (fst (plan (p_store (s_per s)) (s_next_send s) (req_begin m) (req_end m)))) /\
    s_next_send s' = snd (plan (p_store (s_per s)) (s_next_send s) (req_begin m) (req_end m)) /\
    s_state s' = st_continuous /\ p_store (s_per s') = p_store (s_per s).
Proof.
  intros sc decode now s seqnum m W ADM ((r & ENF) & ST & CL & BA) (ASA & ATT & WF & DEC & LEN) RB.
  exact (answer_plan sc now decode W ADM s seqnum m r s [] ENF ST RB (conj CL (conj BA (conj ASA ATT))) WF DEC LEN).
Qed.
Print Assumptions c18_replay_plan.

(* 2. COMPLETE, ORDERED, FAITHFUL (always_seqnum_assign off): what is resent is exactly the set of stored
      records with Begin <= number <= End (End = 0: the last stored one), in ascending order, and each goes
      out as the decoded stored message with its own MsgSeqNum, PossDupFlag=Y, OrigSendingTime = its stored
      SendingTime, a fresh SendingTime, every other header field and the whole body unchanged. *)
Theorem c18_resent_partial : forall sc decode now s seqnum m,
  schema_ok sc = true ->
  ready sc decode now s seqnum m -> ready_store decode s ->
  forallb (record_ok decode) (p_store (s_per s)) = true ->
  range_bad (req_begin m) (req_end m) = false ->
  exists s' items,
    handle_resend_request sc decode now seqnum m s = (inl true, s', out sc now decode s items) /\
    (forall k raw, In (k, raw) (resent items) <->
                   In (k, raw) (p_store (s_per s)) /\ req_begin m <= k <= finish_of (p_store (s_per s)) (req_end m)) /\
    sorted_from (req_begin m - 1) (resent items) = true /\
    Forall (fun kr => faithful_wire sc decode now (fst kr) (snd kr) (wire sc decode now s (PMsg (fst kr) (snd kr))))
           (resent items).
Proof.
  intros sc decode now s seqnum m SOK ((r & ENF) & ST & CL & BA) RS RO RB.
  exact (resent_any sc decode now s seqnum m r s [] SOK ENF ST CL BA RS RO RB).
Qed.
Print Assumptions c18_resent_partial.

(* 3. GAP FILLS INSIDE THE REPLAY ARE EXACT (scenarios #2/#3, since /repo 930506b), for all stores and ranges:
      each one is read by the oracle's parser as MsgSeqNum = a, NewSeqNo = k where a is the first number of
      a gap (Begin, or the number after a stored record), k is the number of the next stored record in the
      range, and nothing is stored in [a, k). *)
Theorem c18_gapfill_exact : forall sc decode now s seqnum m,
  schema_ok sc = true -> nosoh (s_snd s) = true -> nosoh (s_tgt s) = true ->
  ready sc decode now s seqnum m -> ready_store decode s ->
  range_bad (req_begin m) (req_end m) = false ->
  exists s' loop_items final,
    handle_resend_request sc decode now seqnum m s =
      (inl true, s', out sc now decode s (loop_items ++ [final])) /\
    forall a k, In (PGap a k) loop_items ->
      parse_out (wire sc decode now s (PGap a k)) = IGap a k /\
      req_begin m <= a /\ a < k /\
      (exists raw, In (k, raw) (p_store (s_per s)) /\ k <= finish_of (p_store (s_per s)) (req_end m)) /\
      (forall k' raw', In (k', raw') (p_store (s_per s)) -> ~ (a <= k' < k)) /\
      (a = req_begin m \/ exists raw', In (a - 1, raw') (p_store (s_per s))).
Proof.
  intros sc decode now s seqnum m SOK N1 N2 ((r & ENF) & ST & CL & BA) RS RB.
  exact (gapfill_any sc decode now s seqnum m r s [] SOK N1 N2 ENF ST CL BA RS RB).
Qed.
Print Assumptions c18_gapfill_exact.

(* 4. F22 BEFORE the repair, on Session.retrans_record_orig (the callback as it was): for every state the gap
      fill in front of a record k > Begin carries MsgSeqNum = next_send instead of Begin; witness in the
      state of c18_nonvacuous (store {3}, next_send 4, request [1,0]): `34=4 ... 36=3`.  After the repair
      the same history is answered `34=1 ... 36=3` and the oracle accepts it. *)
Theorem c18_gapfill_seq_orig_refuted : forall sc decode now s b k raw,
  schema_ok sc = true -> nosoh (s_snd s) = true -> nosoh (s_tgt s) = true ->
  s_closed s = false -> s_batch s = [] -> pr_asa (s_par s) = false -> p_attached (s_per s) = true ->
  resendable decode (k, raw) = true -> b < k ->
  exists s' w evs,
    retrans_record_orig sc decode now b 0 k raw s = (inl true, s', EOut w :: evs) /\
    parse_out w = IGap (s_next_send s) k.
Proof. exact gapfill_seq_orig_refuted. Qed.
Print Assumptions c18_gapfill_seq_orig_refuted.

Theorem c18_gapfill_seq_orig_witness : orig_first_item = IGap 4 3.
Proof. vm_compute. reflexivity. Qed.
Print Assumptions c18_gapfill_seq_orig_witness.

Theorem c18_gapfill_seq_repaired :
  c18_ok_line line_f22 (run_line schema0 line_f22) = true /\
  c18_judged_line line_f22 (run_line schema0 line_f22) = 1 /\
  map brief (answer_items schema0 line_f22) =
    [IGap 1 3; IMsg [(dec T_MsgType, [68]); (dec T_MsgSeqNum, dec 3)]; IGap 4 5].
Proof.
  destruct (ok_and_judged line_f22 1) as [A B]; [vm_compute; reflexivity|].
  repeat apply conj; [exact A|exact B|vm_compute; reflexivity].
Qed.
Print Assumptions c18_gapfill_seq_repaired.

(* 5. The remaining defect, witness: store {2,4}, next_send 5, request [2,3]: the final gap fill is `34=3 36=5`,
      declaring the stored message 4 skipped; the oracle rejects the trace. *)
Theorem c18_overreach_refuted :
  c18_ok_line line_overreach (run_line schema0 line_overreach) = false /\
  map brief (answer_items schema0 line_overreach) =
    [IMsg [(dec T_MsgType, [68]); (dec T_MsgSeqNum, dec 2)]; IGap 3 5].
Proof. repeat apply conj; vm_compute; reflexivity. Qed.
Print Assumptions c18_overreach_refuted.

(* 6. Without a persister (scenarios #7/#8): exactly one gap fill, MsgSeqNum = Begin,
      NewSeqNo = max (Begin+1) next_send, and next_send becomes that number. *)
Theorem c18_nopersister : forall sc decode now s seqnum m,
  schema_ok sc = true -> nosoh (s_snd s) = true -> nosoh (s_tgt s) = true ->
  ready sc decode now s seqnum m -> p_attached (s_per s) = false ->
  range_bad (req_begin m) (req_end m) = false ->
  exists s' w,
    handle_resend_request sc decode now seqnum m s = (inl true, s', [EOut w]) /\
    parse_out w = IGap (req_begin m) (N.max (req_begin m + 1) (s_next_send s)) /\
    s_next_send s' = N.max (req_begin m + 1) (s_next_send s) /\ s_state s' = s_state s.
Proof.
  intros sc decode now s seqnum m SOK N1 N2 ((r & ENF) & ST & CL & BA) ATT RB.
  exact (nopersister_any sc decode now s seqnum m r s [] SOK N1 N2 ENF ST CL BA ATT RB).
Qed.
Print Assumptions c18_nopersister.

(* 7. Continuation: the answer always ends with a gap fill, and next_send afterwards is the NewSeqNo it
      announces (every send increments from there: property C16). *)
Theorem c18_continue : forall sc decode now s seqnum m,
  schema_ok sc = true -> nosoh (s_snd s) = true -> nosoh (s_tgt s) = true ->
  ready sc decode now s seqnum m -> ready_store decode s ->
  range_bad (req_begin m) (req_end m) = false ->
  exists s' evs w a,
    handle_resend_request sc decode now seqnum m s = (inl true, s', (evs ++ [EOut w])%list) /\
    parse_out w = IGap a (s_next_send s') /\ s_state s' = st_continuous /\
    p_store (s_per s') = p_store (s_per s).
Proof.
  intros sc decode now s seqnum m SOK N1 N2 ((r & ENF) & ST & CL & BA) RS RB.
  destruct (replay_plan_any_state sc decode now s seqnum m r s [] SOK N1 N2 ENF ST CL BA RS RB)
    as (s' & evs & w & a & E & _ & P & _ & C & S).
  exists s', evs, w, a. auto.
Qed.
Print Assumptions c18_continue.

(* 8. Validity: (End < Begin and End <> 0) or Begin = 0 is answered by exactly one Reject, which is a new
      message (next_send + 1); nothing is replayed. *)
Theorem c18_reject_invalid : forall sc decode now s seqnum m,
  nosoh (sc_begin sc) = true ->
  ready sc decode now s seqnum m ->
  range_bad (req_begin m) (req_end m) = true ->
  exists s',
    handle_resend_request sc decode now seqnum m s =
      (inl true, s', [EOut (encode sc (fst (stamp sc now s (reject_msg sc seqnum m))))]) /\
    m_type (reject_msg sc seqnum m) = mt_reject /\
    s_next_send s' = s_next_send s + 1 /\ s_state s' = s_state s.
Proof.
  intros sc decode now s seqnum m W ((r & ENF) & ST & CL & BA) RB.
  destruct (answer_reject sc now decode W s seqnum m r s [] ENF ST RB CL BA) as (s' & E & NS & STS).
  destruct (reject_fresh sc seqnum m) as [b F]. exists s'. rewrite F at 2. auto.
Qed.
Print Assumptions c18_reject_invalid.

(* 9. END TO END, for every store and range: provided End = 0 or nothing is stored beyond End
      (nothing_stored_beyond: the final gap fill still announces next_send, the one remaining defect) the bytes
      the model emits satisfy the ORACLE Spec_C18.answer_ok -- holes in front of and between stored messages
      included.  exact_ok = the decoder neither drops nor reorders tokens of the stored strings (the codec's own
      properties C03/C04); keys_below = what is stored was sent.  The negation of nothing_stored_beyond is the
      classifier of the known finding.
      [c18_ok applies answer_ok to `original_store` = the stored numbers with, under each number, the message as it
       was ORIGINALLY TRANSMITTED (first new OUT event carrying that MsgSeqNum); for the model this is the store
       itself: send_process stores the very bytes it hands to the socket (property C17).] *)
Theorem c18_answer_ok_partial : forall sc decode now, schema_ok sc = true -> forall s seqnum m,
  nosoh (s_snd s) = true -> nosoh (s_tgt s) = true ->
  (exists r, enforce sc now seqnum m s = (inl r, s, [])) ->
  (s_state s =? st_resend_request_received) = false -> s_closed s = false -> s_batch s = [] ->
  pr_asa (s_par s) = false -> p_attached (s_per s) = true ->
  store_wf (p_store (s_per s)) = true -> N.of_nat (length (p_store (s_per s))) <= 100000 ->
  forallb (record_ok decode) (p_store (s_per s)) = true ->
  forallb (exact_ok sc decode) (p_store (s_per s)) = true ->
  keys_below (s_next_send s) (p_store (s_per s)) = true ->
  range_bad (req_begin m) (req_end m) = false ->
  nothing_stored_beyond (p_store (s_per s)) (s_next_send s) (req_end m) = true ->
  exists s' evs,
    handle_resend_request sc decode now seqnum m s = (inl true, s', evs) /\
    answer_ok (p_store (s_per s)) seqnum (s_next_send s) (req_begin m) (req_end m) (outs evs) (s_next_send s') = true.
Proof.
  intros sc decode now SOK s seqnum m N1 N2 (r & ENF) ST CL BA ASA ATT WF LEN RO EX KB RB NB.
  exact (answer_ok_any sc decode now SOK s seqnum m r s [] N1 N2 ENF ST CL BA ASA ATT WF LEN RO EX KB RB NB).
Qed.
Print Assumptions c18_answer_ok_partial.

(* 10. always_seqnum_assign ON (outside the property): store {2}, next_send 3,
       request [2,6]: the single stored message goes out FIVE times as new messages 3..7 -- each copy is
       stored under its new number and reached again by the live iteration -- and the final gap fill
       re-uses MsgSeqNum 7. *)
Theorem c18_asa_refuted :
  map brief (answer_items schema0 line_asa) =
    [IMsg [(dec T_MsgType, [68]); (dec T_MsgSeqNum, dec 3)]; IMsg [(dec T_MsgType, [68]); (dec T_MsgSeqNum, dec 4)];
     IMsg [(dec T_MsgType, [68]); (dec T_MsgSeqNum, dec 5)]; IMsg [(dec T_MsgType, [68]); (dec T_MsgSeqNum, dec 6)];
     IMsg [(dec T_MsgType, [68]); (dec T_MsgSeqNum, dec 7)]; IGap 7 8].
Proof. vm_compute. reflexivity. Qed.
Print Assumptions c18_asa_refuted.

(* 11. The oracle is not trivially false: a complete replay (store {2,3}, request [2,0]) is judged and accepted. *)
Theorem c18_oracle_accepts :
  c18_ok_line line_good (run_line schema0 line_good) = true /\
  c18_judged_line line_good (run_line schema0 line_good) = 1.
Proof. apply ok_and_judged. vm_compute. reflexivity. Qed.
Print Assumptions c18_oracle_accepts.

(* 12. The hypotheses of 1-3, 7 hold in a reachable state with a hole in front of a stored message
       (store {3}, next_send 4, request [1,0]; the plan has the gap fills (1,3) and (4,5) and resends 3) ... *)
Theorem c18_nonvacuous :
  schema_ok schema0 = true /\ nosoh (s_snd s_f22) = true /\ nosoh (s_tgt s_f22) = true /\
  ready schema0 (dec_fn schema0) (w_now w_f22) s_f22 2 m_f22 /\
  ready_store (dec_fn schema0) s_f22 /\
  forallb (record_ok (dec_fn schema0)) (p_store (s_per s_f22)) = true /\
  range_bad (req_begin m_f22) (req_end m_f22) = false /\
  map fst (p_store (s_per s_f22)) = [3] /\ s_next_send s_f22 = 4 /\ req_begin m_f22 = 1 /\ req_end m_f22 = 0 /\
  gaps (fst (plan (p_store (s_per s_f22)) (s_next_send s_f22) (req_begin m_f22) (req_end m_f22))) = [(1, 3); (4, 5)] /\
  map fst (resent (fst (plan (p_store (s_per s_f22)) (s_next_send s_f22) (req_begin m_f22) (req_end m_f22)))) = [3].
Proof.
  unfold ready, ready_store. repeat apply conj; try (vm_compute; reflexivity).
  - exists false. vm_compute. reflexivity.
  - vm_compute. discriminate.
Qed.
Print Assumptions c18_nonvacuous.

(* 13. ... and those of 9 in a reachable state with two stored messages (store {2,3}, next_send 4, request [2,0]). *)
Theorem c18_nonvacuous_oracle :
  schema_ok schema0 = true /\ nosoh (s_snd s_good) = true /\ nosoh (s_tgt s_good) = true /\
  (exists r, enforce schema0 (w_now w_good) 2 m_good s_good = (inl r, s_good, [])) /\
  (s_state s_good =? st_resend_request_received) = false /\ s_closed s_good = false /\ s_batch s_good = [] /\
  pr_asa (s_par s_good) = false /\ p_attached (s_per s_good) = true /\
  store_wf (p_store (s_per s_good)) = true /\
  forallb (record_ok (dec_fn schema0)) (p_store (s_per s_good)) = true /\
  forallb (exact_ok schema0 (dec_fn schema0)) (p_store (s_per s_good)) = true /\
  keys_below (s_next_send s_good) (p_store (s_per s_good)) = true /\
  range_bad (req_begin m_good) (req_end m_good) = false /\
  nothing_stored_beyond (p_store (s_per s_good)) (s_next_send s_good) (req_end m_good) = true /\
  map fst (p_store (s_per s_good)) = [2; 3] /\ s_next_send s_good = 4 /\ req_begin m_good = 2 /\ req_end m_good = 0.
Proof.
  repeat apply conj; try (vm_compute; reflexivity). exists false. vm_compute. reflexivity.
Qed.
Print Assumptions c18_nonvacuous_oracle.

(* 14. EVERY ESTABLISHED SUB-STATE.  enforce lets the request through and leaves (s1, e1) -- s1 differs from s
       when the request's own number is ahead (16).  Whatever the state s1 is, other than
       resend_request_received (test_request_sent, resend_request_sent, logoff_sent, ...), the answer is e1
       followed by the whole plan, and it ends with a gap fill announcing the next_send left behind: a valid
       request is never dropped.  (A session that returns without output in state X <> 13 contradicts this.) *)
Theorem c18_replay_plan_any_state : forall sc decode now s seqnum m r s1 e1,
  schema_ok sc = true -> nosoh (s_snd s1) = true -> nosoh (s_tgt s1) = true ->
  enforce sc now seqnum m s = (inl r, s1, e1) ->
  (s_state s1 =? st_resend_request_received) = false ->
  s_closed s1 = false -> s_batch s1 = [] -> ready_store decode s1 ->
  range_bad (req_begin m) (req_end m) = false ->
  exists s' evs w a,
    handle_resend_request sc decode now seqnum m s = (inl true, s', (e1 ++ evs ++ [EOut w])%list) /\
    (evs ++ [EOut w])%list =
      out sc now decode s1 (fst (plan (p_store (s_per s1)) (s_next_send s1) (req_begin m) (req_end m))) /\
    parse_out w = IGap a (s_next_send s') /\
    s_next_send s' = snd (plan (p_store (s_per s1)) (s_next_send s1) (req_begin m) (req_end m)) /\
    s_state s' = st_continuous /\ p_store (s_per s') = p_store (s_per s1).
Proof. exact replay_plan_any_state. Qed.
Print Assumptions c18_replay_plan_any_state.

(* 15. ... and the one exception, exactly as in the code: while a replay is running (state
       resend_request_received after enforce) the request produces nothing beyond what enforce emitted. *)
Theorem c18_unanswered_only_while_replaying : forall sc decode now s seqnum m r s1 e1,
  enforce sc now seqnum m s = (inl r, s1, e1) ->
  (s_state s1 =? st_resend_request_received) = true ->
  handle_resend_request sc decode now seqnum m s = (inl true, s1, e1).
Proof. intros sc decode now. exact (answer_busy sc now decode). Qed.
Print Assumptions c18_unanswered_only_while_replaying.

(* 16. The request's own MsgSeqNum is above the expected one (state continuous, CompIDs right): enforce sends
       OUR ResendRequest [next_recv, 0] (a new message: next_send + 1) and moves to resend_request_sent; the
       answer follows, planned from next_send + 1, and the state is continuous afterwards. *)
Theorem c18_replay_plan_ahead : forall sc decode now s seqnum m,
  nosoh (sc_begin sc) = true -> is_admin sc mt_sequence_reset = true -> is_admin sc mt_resend_request = true ->
  s_state s = st_continuous ->
  compid_check m s = (inl tt, s, []) ->
  beq (m_type m) mt_sequence_reset = false ->
  s_next_recv s < seqnum ->
  s_closed s = false -> s_batch s = [] -> ready_store decode s ->
  range_bad (req_begin m) (req_end m) = false ->
  exists s' s1,
    s_state s1 = st_resend_request_sent /\ s_next_send s1 = s_next_send s + 1 /\
    handle_resend_request sc decode now seqnum m s =
      (inl true, s',
       (EOut (encode sc (fst (stamp sc now s (generate_resend_request sc (s_next_recv s) 0)))) ::
        out sc now decode s1 (fst (plan (p_store (s_per s)) (s_next_send s + 1) (req_begin m) (req_end m))))) /\
    s_next_send s' = snd (plan (p_store (s_per s)) (s_next_send s + 1) (req_begin m) (req_end m)) /\
    s_state s' = st_continuous /\ p_store (s_per s') = p_store (s_per s).
Proof. exact replay_plan_ahead. Qed.
Print Assumptions c18_replay_plan_ahead.

(* 17. Witnesses on the complete model: store {2,3}, request [2,0] delivered (a) with its number ahead, (b) in
       state test_request_sent, (c) in state resend_request_sent: answered in full, JUDGED and accepted by the
       oracle; the same traces with the answer left out (a session that drops the request) are rejected. *)
Theorem c18_states_judged :
  judged_ok_dropped_bad line_ahead = (true, 1, false) /\
  judged_ok_dropped_bad line_testreq = (true, 1, false) /\ nth 7 (states_of line_testreq) 0 = st_test_request_sent /\
  judged_ok_dropped_bad line_sent = (true, 1, false) /\ nth 7 (states_of line_sent) 0 = st_resend_request_sent /\
  map brief (answer_items schema0 line_ahead) =
    [IMsg [(dec T_MsgType, [50]); (dec T_MsgSeqNum, dec 4)];
     IMsg [(dec T_MsgType, [68]); (dec T_MsgSeqNum, dec 2)]; IMsg [(dec T_MsgType, [68]); (dec T_MsgSeqNum, dec 3)];
     IGap 4 5].
Proof. exact states_judged. Qed.
Print Assumptions c18_states_judged.
