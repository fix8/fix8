(* Property C01 -- "Message encode/decode round trip preserves every field".
   Only theorem statements: each is closed by [exact] of a lemma proved in C01/, by a few lines
   that instantiate general theorems proved there, or, where it states a concrete witness, by
   evaluation in place; each is followed by Print Assumptions.
     roundtrip c m = msg_encode, then factory (strict, checksum verified) on the bytes, then
                     msg_encode of the decoded object -- the models of Message::encode and
                     Message::factory of coq/Codec, tied to the real code by the correspondence run;
     extract_element = the model of MessageBase::extract_element with the caller's buffer sizes. *)
From Coq Require Import NArith ZArith List Bool.
From F8 Require Import Codec.Bytes Codec.Meta Codec.Extract Codec.Decode Codec.Encode Codec.Render Codec.Example
                       C02.Spec_C02 C02.WfC02 C02.TokenProofs C02.AuxProofs C02.RenderProofs C02.EncodeProofs
                       C01.Spec_C01 C01.WfC01 C01.WfGroups C01.ExtractProofs C01.FlatTheorem C01.RoundtripProofs.
Import ListNotations.
Local Open Scope N_scope.

(* The tokenising primitive inverts the printing of one field, for every tag, every value without
   SOH, every continuation, whenever the window and the caller's buffers are large enough
   (tag digits < tcap, value length < vcap: 2048 in decode/decode_group). *)
Theorem c01_extract_inverts_print : forall f v rest sz tcap vcap,
  no_soh v -> lenN (pbytes (f, v)) <= sz -> lenN (itoa_N f) < tcap -> lenN v < vcap ->
  extract_element (pbytes (f, v) ++ rest) sz tcap vcap = XOk (itoa_N f) v (lenN (pbytes (f, v))).
Proof. exact extract_field. Qed.
Print Assumptions c01_extract_inverts_print.

(* The round trip, for EVERY schema context and EVERY message object satisfying the decidable
   hypotheses (all evaluated at run time on the generated messages):
     wf_msg, fresh  -- as in C02 (unambiguous metadata, fields under their schema positions, ...);
     vals_canonical -- every value text stored in the object is a fixed point of its type's rendering,
                       so the printed content below IS the content the message was built with (negative
                       ints are canonical since a8219b1; value-changing floats are refuted below);
     c01_flat       -- C01/WfC01.v: no repeating-group ELEMENT (count fields may be present with 0),
                       no Length-typed field besides BodyLength, no trailer field besides CheckSum;
                       values < 2048 bytes without SOH/NUL; tags < 65536; MsgType < 32 bytes;
                       fields legal and not repeated; mandatory fields of header/body/trailer present;
                       the header/trailer constructors as the generated code has them.
   Then: the encoder succeeds, Message::factory (strict mode, checksum verified) succeeds on
   exactly those bytes, the decoded object has the same content (the same printed (tag, value)
   sequence in header, body and trailer, and the same message type), and encoding the decoded
   object gives byte-identical output.
   Not covered here: group elements (the next theorem); Length/data pairs and trailer fields (the
   differential run only). *)
Theorem c01_roundtrip_partial : forall c m,
  render_ok c -> wf_msg c m = true -> fresh m = true -> vals_canonical c m = true -> c01_flat c m = true ->
  exists b m1 m' m2,
    msg_encode c m = Ok (b, m1) /\ factory c real_caps b false false = Ok m' /\
    msg_encode c m' = Ok (b, m2) /\
    content c m <> None /\ content c m' = content c m /\ m_type m' = m_type m.
Proof. exact c01_roundtrip_partial_lemma. Qed.
Print Assumptions c01_roundtrip_partial.

(* THE ROUND TRIP WITH REPEATING GROUPS.  Same statement as c01_roundtrip_partial with c01_flat
   replaced by c01_groups (C01/WfGroups.v, decidable, evaluated at run time on generated messages):
     the BODY is any content tree accepted by wf_msg (every element non-empty and starting with its
     position-1 field, every count field's value = number of its elements, no tag of a group at an
     enclosing level: wf_ctx "unambiguous") whose nodes are decodable (dnodes_ok: legal, positioned,
     value canonical / < 2048 bytes / no SOH, NUL; a count field carries elements exactly when the
     decoder looks for them; every element has its mandatory fields and no tag twice) --
     ANY number of elements nested to ANY depth;
     the header has no group element and no Length-typed field, the trailer carries only CheckSum,
     the body has no Length-typed field at message level (inside elements they are plain fields).
   Both theorems are instances of C01/GroupRoundtrip.v roundtrip_msg; decode_group inverts encode_group
   by induction on the tree (C01/GroupRoundtripDecode.v node_dec_all, after DESIGN Appendix A.4).
   Still excluded (covered by the differential run only): group elements in the HEADER (FIX44
   NoHops), trailer fields (Signature), Length/data pairs at message level (C06 proves the dec_loop
   turn for an adjacent pair; pairs inside groups are mishandled by the decoder: C06's finding). *)
Theorem c01_roundtrip_groups_partial : forall c m,
  render_ok c -> wf_msg c m = true -> fresh m = true -> vals_canonical c m = true -> c01_groups c m = true ->
  exists b m1 m' m2,
    msg_encode c m = Ok (b, m1) /\ factory c real_caps b false false = Ok m' /\
    msg_encode c m' = Ok (b, m2) /\
    content c m <> None /\ content c m' = content c m /\ m_type m' = m_type m.
Proof. exact c01_roundtrip_groups_partial_lemma. Qed.
Print Assumptions c01_roundtrip_groups_partial.

(* Non-vacuity of c01_roundtrip_groups_partial: two group elements, the second with two nested ones. *)
Theorem c01_groups_nonvacuous :
  render_ok ex_ctx /\ wf_msg ex_ctx ex_list = true /\ fresh ex_list = true /\ vals_canonical ex_ctx ex_list = true /\
  c01_groups ex_ctx ex_list = true.
Proof. split; [apply render_default_ok; reflexivity|]. repeat apply conj; vm_compute; reflexivity. Qed.
Print Assumptions c01_groups_nonvacuous.

(* Non-vacuity of c01_roundtrip_partial's hypotheses, on a Heartbeat whose MsgSeqNum is the NEGATIVE
   integer -5: since a8219b1 negative ints are canonical, i.e. inside the theorem's domain. *)
Theorem c01_partial_nonvacuous :
  render_ok ex_ctx /\ wf_msg ex_ctx ex_hb_neg = true /\ fresh ex_hb_neg = true /\ vals_canonical ex_ctx ex_hb_neg = true /\
  c01_flat ex_ctx ex_hb_neg = true /\ hdr_val ex_hb_neg 34 = Some [45; 53].
Proof. split; [apply render_default_ok; reflexivity|]. repeat apply conj; vm_compute; reflexivity. Qed.
Print Assumptions c01_partial_nonvacuous.

(* Finding F01, FIXED in /repo a8219b1: with the rendering of the ORIGINAL fast_atoi (no sign
   handling: render_default_orig / fast_atoi_i32_orig) negative integers did not survive: a
   well-formed message built with MsgSeqNum = "-5" was encoded as 34=-25, decoded as -25 and
   re-encoded differently (-275).  With the repaired function the same message is inside the
   domain of c01_roundtrip_partial (see c01_partial_nonvacuous). *)
Theorem c01_negative_int_orig_refuted :
  exists m b m' b2, render_ok ex_ctx_orig /\ c_render ex_ctx_orig = render_default_orig /\
    wf_msg ex_ctx_orig m = true /\ fresh m = true /\
    hdr_val m 34 = Some [45; 53] /\
    roundtrip ex_ctx_orig m = Ok (b, m', b2) /\
    hdr_val m' 34 = Some [45; 50; 53] /\
    list_eqb b b2 = false.
Proof. exact c01_negative_int_orig_refuted_lemma. Qed.
Print Assumptions c01_negative_int_orig_refuted.

(* Float finding (conditional on the observed behaviour of the real float conversion, which is
   modelled by C08, not here): with a rendering that prints 2147483648.0 as 2.147484e+09 -- what
   fast_atof / modp_dtoa do for |v| >= 2^31 (sprintf "%e", 7 significant digits) -- an OrderQty
   built as 2147483648.0 decodes as 2.147484e+09 (= 2147484000).  The tie-branch carry of DESIGN
   F02 (0.995 -> 0.1) was repaired in /repo a6c4c45. *)
Theorem c01_float_refuted :
  exists c m b m' b2,
    c_render c ft_float big_txt = big_out /\
    first_elem_val m 73 38 = Some big_txt /\
    roundtrip c m = Ok (b, m', b2) /\
    first_elem_val m' 73 38 = Some big_out.
Proof.
  exists ex_ctx_obs, ex_list_f. do 3 eexists. split; [reflexivity|]. repeat apply conj; vm_compute; reflexivity.
Qed.
Print Assumptions c01_float_refuted.

(* Non-vacuity: a message with two group elements, the second with two nested elements, fields
   inserted out of order, round-trips: the decoded object has a content tree and re-encodes to
   the same bytes. *)
Theorem c01_nonvacuous :
  exists b m', render_ok ex_ctx /\ wf_msg ex_ctx ex_list = true /\ fresh ex_list = true /\
    roundtrip ex_ctx ex_list = Ok (b, m', b) /\
    tree_of ex_ctx (m_body m') <> None.
Proof.
  do 2 eexists. split; [apply render_default_ok; reflexivity|]. split; [vm_compute; reflexivity|].
  split; [vm_compute; reflexivity|]. split; [vm_compute; reflexivity|]. vm_compute. discriminate.
Qed.
Print Assumptions c01_nonvacuous.
