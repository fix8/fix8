(* Property C22 "Heartbeat and test-request supervision follows the protocol".
   The theorems are about the session model coq/Sess/Session.v (a transcription of runtime/session.cpp tied
   to the real code byte for byte by the correspondence run).  They hold for EVERY schema with
   schema_ok sc = true (evaluated by the driver on the metadata of the generated code at run time), every
   decoder, every session state with sess_ok (socket open, no half-built batch, printable CompIDs) and every
   heartbeat interval H >= 1.  Thresholds, exactly:  elapsed now t = floor((now - t) / 1 s);
   hb_due H now ls  <->  H <= elapsed now ls;   period H = H + H / 5 (integer division);
   quiet_due H now lr  <->  period H < elapsed now lr.   (The model computes with truncation toward zero as
   the C++ does; HbProofs.hb_due_quot / quiet_due_quot show that the two agree at these thresholds.)
   Only theorem statements: each is closed by [exact] of a lemma proved in C22/, by a few lines that
   instantiate general theorems proved there, or, where it states a concrete witness, by evaluation in place;
   each is followed by Print Assumptions. *)
From Coq Require Import NArith ZArith List Bool.
From F8 Require Import Sess.Bytes Sess.Msg Sess.Persist Sess.Session Sess.Wire
  C22.Hyp C22.Spec_C22 C22.SendLemmas C22.HbProofs C22.Invariant C22.InProofs C22.Timeline C22.TraceProofs C22.Demo.
Import ListNotations.
Local Open Scope N_scope.

(* The supervision tick, exactly: what it puts on the wire (in this order, nothing else), the new state,
   the new last_sent; last_received and the interval are untouched; it terminates exactly on the Logout. *)
Theorem c22_tick_exact : forall sc, schema_ok sc = true -> forall now s,
  sess_ok s = true -> is_shutdown s = false -> 1 <= s_hb s ->
  let H := s_hb s in
  let hb := hb_due H now (s_last_sent s) in
  let q := quiet_due H now (s_last_recv s) in
  let pend := s_state s =? st_test_request_sent in
  exists s' evs,
    heartbeat_service sc now s = (true, s', evs) /\ all_out evs = true /\
    outs evs = ((if hb then [KHeartbeat None] else []) ++
                (if q then (if pend then [KLogout] else [KTestRequest (Some txt_test)]) else []))%list /\
    s_state s' = (if q then (if pend then st_session_terminated else st_test_request_sent) else s_state s) /\
    s_last_sent s' = (if hb || q then now else s_last_sent s) /\
    s_last_recv s' = s_last_recv s /\ s_hb s' = s_hb s /\
    is_shutdown s' = q && pend /\ (q && pend = false -> sess_ok s' = true).
Proof. exact tick_exact. Qed.
Print Assumptions c22_tick_exact.

(* floor(now - last_sent) >= H  ->  a Heartbeat (without TestReqID) is the first message of this tick. *)
Theorem c22_heartbeat : forall sc, schema_ok sc = true -> forall now s,
  sess_ok s = true -> is_shutdown s = false -> 1 <= s_hb s ->
  hb_due (s_hb s) now (s_last_sent s) = true ->
  exists s' raw rest,
    heartbeat_service sc now s = (true, s', EOut raw :: rest) /\ kind_of raw = KHeartbeat None /\
    s_last_sent s' = now.
Proof. exact heartbeat_due. Qed.
Print Assumptions c22_heartbeat.

(* floor(now - last_recv) > H + H/5 and state <> test_request_sent  ->  TestRequest (TestReqID "TEST"),
   no Logout, state := test_request_sent; last_received is NOT touched (the root of F27). *)
Theorem c22_testreq : forall sc, schema_ok sc = true -> forall now s,
  sess_ok s = true -> is_shutdown s = false -> 1 <= s_hb s ->
  quiet_due (s_hb s) now (s_last_recv s) = true -> s_state s <> st_test_request_sent ->
  exists s' evs,
    heartbeat_service sc now s = (true, s', evs) /\
    existsb (fun k => match k with KTestRequest (Some id) => beq id txt_test | _ => false end) (outs evs) = true /\
    existsb is_lo (outs evs) = false /\
    s_state s' = st_test_request_sent /\ s_last_recv s' = s_last_recv s /\ s_hb s' = s_hb s /\
    sess_ok s' = true /\ is_shutdown s' = false.
Proof. exact testreq_due. Qed.
Print Assumptions c22_testreq.

(* Conversely: below the threshold the tick sends no Heartbeat, and a TestRequest goes out in no situation
   other than the one of c22_testreq. *)
Theorem c22_only : forall sc, schema_ok sc = true -> forall now s,
  sess_ok s = true -> is_shutdown s = false -> 1 <= s_hb s ->
  (hb_due (s_hb s) now (s_last_sent s) = false ->
   exists s' evs, heartbeat_service sc now s = (true, s', evs) /\ existsb is_hb (outs evs) = false) /\
  (quiet_due (s_hb s) now (s_last_recv s) = false \/ s_state s = st_test_request_sent ->
   exists s' evs, heartbeat_service sc now s = (true, s', evs) /\ existsb is_tr (outs evs) = false).
Proof. exact tick_only. Qed.
Print Assumptions c22_only.

(* An inbound TestRequest that passes the session rules (enforce raises no exception) is answered, in the
   same call of process, by a Heartbeat carrying the same TestReqID; for every decoder. *)
Theorem c22_testreq_answer : forall sc, schema_ok sc = true -> forall decode fl now raw s rest q m id b s1 e1,
  sess_ok s = true ->
  find_after pat_34 raw = Some rest -> fast_atoi_u rest SOH 0 = Some q -> decode raw = DecOk m ->
  m_type m = mt_test_request -> get_field T_TestReqID (m_body m) = Some id -> id <> [] -> no_soh id = true ->
  enforce sc now q m s = (inl b, s1, e1) ->
  exists s' out,
    process sc decode fl now raw s = (true, s', (e1 ++ [EOut out])%list) /\
    kind_of out = KHeartbeat (Some id) /\ s_state s' = s_state s1.
Proof. intros. eapply testreq_answer; eassumption. Qed.
Print Assumptions c22_testreq_answer.

(* An inbound Heartbeat that passes the session rules while a TestRequest is outstanding returns the session
   to normal operation (continuous). *)
Theorem c22_hb_resets : forall sc, schema_ok sc = true -> forall decode fl now raw s rest q m b s1 e1,
  sess_ok s = true ->
  find_after pat_34 raw = Some rest -> fast_atoi_u rest SOH 0 = Some q -> decode raw = DecOk m ->
  m_type m = mt_heartbeat -> s_state s = st_test_request_sent ->
  enforce sc now q m s = (inl b, s1, e1) ->
  exists s', process sc decode fl now raw s = (true, s', e1) /\ s_state s' = st_continuous.
Proof. intros. eapply hb_resets; eassumption. Qed.
Print Assumptions c22_hb_resets.

(* The whole inbound path (process with every handler and the resend machinery, any decoder, any bytes) never
   ENTERS test_request_sent, sets last_sent to `now` exactly when it writes to the socket, and leaves
   last_received alone (the reader loop sets it): the invariant behind the trace theorems. *)
Theorem c22_inbound_invariant : forall sc decode fl now raw s b s' e,
  process sc decode fl now raw s = (b, s', e) ->
  (s_state s' = st_test_request_sent -> s_state s = st_test_request_sent) /\
  (if has_out e then s_last_sent s' = now else s_last_sent s' = s_last_sent s) /\
  s_last_recv s' = s_last_recv s.
Proof. exact P_process. Qed.
Print Assumptions c22_inbound_invariant.

(* For ALL timelines of ticks / receptions / sends (any instants, any messages, any decoder): the timestamp
   the Heartbeat rule uses is the instant of the latest step that put bytes on the wire, and the one the
   TestRequest/Logout rule uses is the instant of the latest reception. *)
Theorem c22_timestamps_trace : forall sc decode fl ops s,
  s_last_sent (tl_final sc decode fl s ops) = last_out_instant (s_last_sent s) (tl_run sc decode fl s ops) /\
  s_last_recv (tl_final sc decode fl s ops) = last_in_instant (s_last_recv s) (tl_run sc decode fl s ops).
Proof. intros. split; [apply trace_last_sent|apply trace_last_recv]. Qed.
Print Assumptions c22_timestamps_trace.

(* Trace form of the Heartbeat rule: in any timeline, a tick of a running session at which the observable
   silence on the outbound side has lasted >= H whole seconds starts with a Heartbeat. *)
Theorem c22_trace_heartbeat : forall sc decode fl ops s0 a r b t,
  schema_ok sc = true ->
  tl_run sc decode fl s0 ops = (a ++ r :: b)%list -> r_op r = TTick t ->
  sess_ok (r_pre r) = true -> is_shutdown (r_pre r) = false -> 1 <= s_hb (r_pre r) ->
  hb_due (s_hb (r_pre r)) t (last_out_instant (s_last_sent s0) a) = true ->
  exists raw rest, r_evs r = EOut raw :: rest /\ kind_of raw = KHeartbeat None.
Proof. exact trace_heartbeat. Qed.
Print Assumptions c22_trace_heartbeat.

(* The tick meets the property's rule (the oracle's c22_step for TICK: exact list of messages and new state)
   whenever measuring the period from the last reception or from the TestRequest gives the same verdict.
   The hypothesis is what F27 violates; its negation is the classifier of the known finding. *)
Theorem c22_logout_partial : forall sc, schema_ok sc = true -> forall now s tp,
  sess_ok s = true -> is_shutdown s = false -> 1 <= s_hb s ->
  let H := s_hb s in
  let pend := s_state s =? st_test_request_sent in
  (pend = true -> quiet_due H now (s_last_recv s) = quiet_due H now (Z.max tp (s_last_recv s))) ->
  exists s' evs,
    heartbeat_service sc now s = (true, s', evs) /\
    let w := tick_wants H pend now (s_last_sent s) (s_last_recv s) tp in
    match_outs w (outs evs) = true /\
    s_state s' = (if has_want WLo w then st_session_terminated
                  else if has_want WTr w then st_test_request_sent else s_state s).
Proof. intros sc SOK now s tp OK LIVE H1. exact (tick_meets_spec_partial sc SOK now s OK LIVE H1 tp). Qed.
Print Assumptions c22_logout_partial.

(* What is true of the supervision Logout in every timeline: it happens only in state test_request_sent --
   which only an earlier supervision tick can have entered and no step since has left (no Heartbeat was
   accepted in between) -- and only when nothing was received for more than the period; it terminates. *)
Theorem c22_trace_logout_partial : forall sc decode fl ops s0 a r b t,
  schema_ok sc = true -> s_state s0 <> st_test_request_sent ->
  tl_run sc decode fl s0 ops = (a ++ r :: b)%list -> r_op r = TTick t ->
  sess_ok (r_pre r) = true -> is_shutdown (r_pre r) = false -> 1 <= s_hb (r_pre r) ->
  existsb is_lo (outs (r_evs r)) = true ->
  has_origin a /\
  quiet_due (s_hb (r_pre r)) t (last_in_instant (s_last_recv s0) a) = true /\
  s_state (r_post r) = st_session_terminated.
Proof. intros. eapply trace_logout_partial; eassumption. Qed.
Print Assumptions c22_trace_logout_partial.

(* F27 (DESIGN section 5): _last_received is not touched when the TestRequest goes out, so the NEXT tick, one
   second later, sees the same condition in state test_request_sent and logs out: the peer gets one tick, not
   another H + 20 %.  (1) For every admissible schema: H = 30, TestRequest at T0+37 s, Logout at T0+38 s although
   the property's rule (tick_wants) asks for no Logout.  (2) The same on whole histories with the oracle: an
   initiator that never hears from its peer, ticks at +1 s and +2 s: the model's trace violates c22_ok at the
   third step; with the second tick after more than the period (+38 s) the oracle has nothing to object. *)
Theorem c22_logout_refuted :
  (forall sc, schema_ok sc = true ->
   let s := demo_sess in
   let t1 := (T0 + 37 * NS)%Z in
   let t2 := (t1 + NS)%Z in
   exists s1 e1 s2 e2,
     heartbeat_service sc t1 s = (true, s1, e1) /\ existsb is_tr (outs e1) = true /\ existsb is_lo (outs e1) = false /\
     heartbeat_service sc t2 s1 = (true, s2, e2) /\ existsb is_lo (outs e2) = true /\
     s_state s2 = st_session_terminated /\
     elapsed t2 t1 = 1%Z /\ period (s_hb s1) = 36 /\
     has_want WLo (tick_wants (s_hb s1) true t2 (s_last_sent s1) (s_last_recv s1) t1) = false) /\
  (schema_ok demo_schema = true /\
   c22_ok demo_f27_ops (run_history demo_schema demo_f27_ops) = false /\
   c22_first_bad ost0 demo_f27_ops (run_history demo_schema demo_f27_ops) 0 = 2 /\
   c22_ok demo_fine_ops (run_history demo_schema demo_fine_ops) = true).
Proof. split; [exact logout_next_tick|vm_compute; repeat split]. Qed.
Print Assumptions c22_logout_refuted.

(* The hypotheses are satisfiable by a non-trivial input: the demo schema is admissible, the demo session
   (continuous, H = 30, last sent/received at T0) meets sess_ok / running / H >= 1, at T0+30 s the Heartbeat is
   due and the TestRequest is not, at T0+37 s both are; and the hypothesis of c22_logout_partial is met by a
   pending session whose TestRequest has been out for more than the period. *)
Theorem c22_nonvacuous :
  schema_ok demo_schema = true /\ sess_ok demo_sess = true /\ is_shutdown demo_sess = false /\ 1 <= s_hb demo_sess /\
  hb_due 30 (T0 + 30 * NS)%Z (s_last_sent demo_sess) = true /\ quiet_due 30 (T0 + 30 * NS)%Z (s_last_recv demo_sess) = false /\
  hb_due 30 (T0 + 30 * NS - 1)%Z (s_last_sent demo_sess) = false /\
  quiet_due 30 (T0 + 37 * NS)%Z (s_last_recv demo_sess) = true /\ quiet_due 30 (T0 + 37 * NS - 1)%Z (s_last_recv demo_sess) = false /\
  quiet_due 30 (T0 + 74 * NS)%Z (s_last_recv demo_sess) = quiet_due 30 (T0 + 74 * NS)%Z (Z.max (T0 + 37 * NS)%Z (s_last_recv demo_sess)).
Proof. vm_compute. repeat split; discriminate. Qed.
Print Assumptions c22_nonvacuous.
