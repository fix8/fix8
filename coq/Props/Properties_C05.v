(* Property C05 -- "Permissive decoding passes unknown fields through unchanged".
   Only theorem statements: each is closed by [exact] of a lemma proved in C05/PermProofs.v, or,
   where it states a concrete witness (the byte strings of C05/Witness.v), by evaluation in place;
   each is followed by Print Assumptions.
     factory      = the model of Message::factory (coq/Codec/Decode.v); last argument = permissive
     c05_ok       = the property on observations (C05/Spec_C05.v): accepted /\ known fields as in
                    strict mode /\ unknown tokens retained /\ re-encoding = known tokens + unknown
                    tokens, byte for byte, correctly framed
     c05_hyp      = (C05/Perm.v) for header, body and trailer in turn: where the strict decoder
                    stops, the rest of the byte string holds only tags unknown to that part; true
                    of a conforming message with unknown tokens inserted when every inserted token
                    sits after the last known token and no inserted tag is congruent mod 65536 to a
                    known one (checked against c05_hyp on every such case of the suite)
     msg_known    = a message object without its three _unknown strings
   The property is FALSE of the code (finding F13): see the three refutations. *)
From Coq Require Import NArith ZArith List Bool String.
From F8 Require Import Codec.Bytes Codec.Meta Codec.Extract Codec.Decode Codec.Encode Codec.Render Codec.Example
                       C05.Spec_C05 C05.Obs C05.Perm C05.PermProofs C05.Witness.
Import ListNotations.
Local Open Scope N_scope.

(* What does hold, for every schema, every byte string, with or without checksum test: if the
   tail condition c05_hyp holds and strict decoding accepts the string, then permissive decoding
   accepts it too and yields exactly the same known content -- same fields, values, positions,
   groups, presence bits -- in header, body and trailer ("no known field is lost").
   (The alternative Fuel is the model's recursion-fuel artefact.)  Proved by a simulation between
   the two runs of MessageBase::decode's loop: they are in lock step up to the point where the
   strict one breaks; from there the permissive one only appends to _unknown and finally returns
   last_valid_offset, i.e. the same offset, so that the next part starts at the same place. *)
Theorem c05_values_partial :
  forall (c : ctx) (cp : caps) (from : list N) (no_chksum : bool) (ms : message),
    c05_hyp c cp from = true ->
    factory c cp from no_chksum false = Ok ms ->
    factory c cp from no_chksum true = Fuel \/
    exists mp, factory c cp from no_chksum true = Ok mp /\ msg_known mp = msg_known ms.
Proof. exact c05_values_partial_lemma. Qed.
Print Assumptions c05_values_partial.

(* The same in terms of the property's oracle: the observations of the two results satisfy the
   "values" clause of c05_ok. *)
Theorem c05_values_partial_spec :
  forall (c : ctx) (from : list N) (no_chksum : bool) (ms mp : message),
    c05_hyp c real_caps from = true ->
    factory c real_caps from no_chksum false = Ok ms ->
    factory c real_caps from no_chksum true = Ok mp ->
    c05_values_ok (obs_of_res c (Ok mp)) (obs_of_res c (Ok ms)) = true.
Proof. exact c05_values_spec_lemma. Qed.
Print Assumptions c05_values_partial_spec.

(* The step lemma behind it, for one MessageBase::decode call (any table, any offset): *)
Theorem c05_decode_simulation :
  forall (c : ctx) (cp : caps) (from : list N) (m : mbase) (off ignore o' : N),
    part_hyp c cp from m off ignore = Some o' ->
    exists m', mbase_decode c cp from m off ignore false = Ok (m', o') /\
      (mbase_decode c cp from m off ignore true = Fuel \/
       exists u, mbase_decode c cp from m off ignore true = Ok (with_unknown m' u, o')).
Proof. exact part_perm. Qed.
Print Assumptions c05_decode_simulation.

(* Refutation 1 (re-encoding): Message::decode runs the header decoder first with ignore = 0;
   in permissive mode it treats every token after the header -- the whole body, the trailer and
   10=ddd -- as unknown and appends them to the header's _unknown (the body decoder does the
   same with everything after the body), and MessageBase::encode re-emits those strings.  A
   Heartbeat WITHOUT any unknown token re-encodes to
   8=..|9=..|35=0|..|112=TEST|10=156|112=TEST|10=156|10=...|; so does a message with one. *)
Theorem c05_reenc_refuted :
  is_ok (factory ex_ctx real_caps hb_clean false false) = true /\
  is_ok (factory ex_ctx real_caps hb_clean false true) = true /\
  c05_reenc_ok hb_clean [] (reenc_of ex_ctx hb_clean true) = false /\
  c05_reenc_ok e_clean [bs "9999=x"] (reenc_of ex_ctx e_body true) = false.
Proof. vm_compute. repeat split; reflexivity. Qed.
Print Assumptions c05_reenc_refuted.

(* Refutation 2: an unknown token in the body before a known body field (35=E ... 66=L1 9999=x
   55=IBM 93=1 89=z): the body decoder sees a known field after the first unknown one, returns
   the end of the message instead of last_valid_offset, and the trailer decoder starts there:
   the known trailer fields 93 and 89 are lost. *)
Theorem c05_body_refuted :
  is_ok (factory ex_ctx real_caps e_clean false false) = true /\
  is_ok (factory ex_ctx real_caps e_body false true) = true /\
  values_run ex_ctx e_clean e_body = false /\
  match factory ex_ctx real_caps e_body false true with
  | Ok m => mb_fields (m_trl m) = [(10, bs "222")] | _ => False end.
Proof. vm_compute. repeat split; reflexivity. Qed.
Print Assumptions c05_body_refuted.

(* Refutation 3: an unknown token in the header before a known header field (35=E 49=A 9999=x
   56=B ...): the header decoder returns the end of the message, the body decoder finds
   nothing, and a message that strict mode accepts (without the token) is rejected with
   MissingMandatoryField(66). *)
Theorem c05_header_refuted :
  is_ok (factory ex_ctx real_caps e_clean false false) = true /\
  factory ex_ctx real_caps e_hdr false true = Exc (EMissingMandatory 66).
Proof. vm_compute. split; reflexivity. Qed.
Print Assumptions c05_header_refuted.

(* Hence the property as stated does not hold. *)
Theorem c05_refuted :
  exists c clean toks dirty,
    is_ok (factory c real_caps clean false false) = true /\ c05_run c clean toks dirty = false.
Proof. exists ex_ctx, e_clean, [bs "9999=x"], e_hdr. vm_compute. split; reflexivity. Qed.
Print Assumptions c05_refuted.

(* Non-vacuity of c05_values_partial: the hypothesis is met by a Heartbeat followed by two
   unknown tokens (a tag >= 65536, a value containing '='); both decoders accept; the known
   fields equal those of the clean message and both tokens are retained. *)
Theorem c05_nonvacuous :
  c05_hyp ex_ctx real_caps hb_end = true /\
  is_ok (factory ex_ctx real_caps hb_end false false) = true /\
  is_ok (factory ex_ctx real_caps hb_end false true) = true /\
  values_run ex_ctx hb_clean hb_end = true /\
  c05_retained_ok [bs "9999=x"; bs "70000=y=z"] (obs_of_res ex_ctx (factory ex_ctx real_caps hb_end false true)) = true.
Proof. vm_compute. repeat split; reflexivity. Qed.
Print Assumptions c05_nonvacuous.
