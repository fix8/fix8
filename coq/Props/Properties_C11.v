(* Property C11 -- "Cloning and field transfer preserve message content".
   Only theorem statements: each is closed by [exact] of a lemma proved in C11/*Proofs.v, by a few lines
   that instantiate general theorems proved there, or, where it states a concrete witness, by evaluation
   in place; each is followed by Print Assumptions.
   copy_legal / move_legal / clone are the models of coq/C11/Copy.v (MessageBase::copy_legal,
   MessageBase::move_legal, Message::clone), msg_encode / mb_encode the models of Message::encode /
   MessageBase::encode (coq/Codec/Encode.v); clone_ok / src_ok are the decidable hypotheses of
   coq/C11/Hyp.v; same_content / count_fields the oracle's notions (coq/C11/Spec_C11.v) applied to
   obj_of, the observed object of a model object. *)
From Coq Require Import NArith ZArith List Bool.
From F8 Require Import Codec.Bytes Codec.Meta Codec.Extract Codec.Decode Codec.Encode Codec.Render Codec.Example
                       C11.Copy C11.CopyOrig C11.Spec_C11 C11.Hyp C11.Examples C11.WitnessProofs
                       C11.CopyProofs C11.CountProofs C11.CloneProofs C11.MoveProofs
                       C11.Precision C11.PrecisionProofs.
Import ListNotations.
Local Open Scope N_scope.

(* "For every message, a clone encodes to the same bytes as the original" -- for every message that
   satisfies clone_ok (coq/C11/Hyp.v): each part's _pos is in strictly increasing schema order
   (API-built messages; messages decoded from in-order input), every _pos entry is backed by _fields
   and a present bit and vice versa, no pass-through bytes, the constructor-owned fields 8, 9, 10 are
   still suppressed (never encoded) and BeginString is the constructor's, the target's class knows the
   nested class of each group (the group object itself need not be pre-created); recursively for
   every group element, to any nesting depth.
   Whenever the original encodes, the clone exists and encodes to exactly the same bytes. *)
Theorem c11_clone_partial : forall c m md,
  find_msg (c_msgs c) (m_type m) = Some md -> clone_ok c md m = true ->
  forall b m1, msg_encode c m = Ok (b, m1) ->
  exists t m2, clone c m = Ok t /\ msg_encode c t = Ok (b, m2).
Proof. exact c11_clone_lemma. Qed.
Print Assumptions c11_clone_partial.

(* "copying legal fields into an empty message of the same type transfers every field and group
   element": copy_legal of a source satisfying src_ok into a fresh deep object t0 of the same class
   (nothing present, empty pre-created groups) succeeds, returns the number of fields of the source
   at every level (the oracle's count_fields), and yields an object with the same content (the
   oracle's same_content: every field, every element of every group, recursively) that encodes like
   the source.  By induction over the group tree: unbounded in the number of elements and in depth. *)
Theorem c11_copy_legal_partial : forall s t0, src_ok s t0 = true ->
  exists t, copy_legal false s t0 = Ok (count_fields (obj_of s), t) /\
            same_content (obj_of s) (obj_of t) = true /\
            (forall c b, mb_encode c s = Ok b -> mb_encode c t = Ok b).
Proof.
  intros s t0 H. destruct (copy_spec s t0 H) as (t & Hc & He & Hcont). exists t.
  rewrite (count_nfields s t0 H). unfold same_content. rewrite <- Hcont, ctoks_eqb_refl. repeat split; assumption.
Qed.
Print Assumptions c11_copy_legal_partial.

(* Per-field output state.  A field value of the model is the state of the C++ field object: its
   text and, for the floating point classes, its output precision (coq/C11/Precision.v: an API-built
   Field<fp_type>(value, p) is the text "~p~<decimal>", rendered by modp_dtoa at precision p; a field
   made by the string constructor has the default precision 2).  Every field object of the copy_legal
   target, at every nesting level, has the (precision, value) state of the corresponding source field:
   Field::copy() must carry _precision.  (c11_clone_partial and c11_copy_legal_partial hold for every
   rendering function of the ctx, in particular for render_c11, which depends on that state;
   move_legal moves the objects themselves.) *)
Theorem c11_copy_field_state_partial : forall s t0, src_ok s t0 = true ->
  exists n t, copy_legal false s t0 = Ok (n, t) /\ field_states (obj_of s) = field_states (obj_of t).
Proof.
  intros s t0 H. destruct (copy_spec s t0 H) as (t & Hc & _ & Hcont). exists (nfields s), t.
  unfold field_states. rewrite Hcont. split; [exact Hc|reflexivity].
Qed.
Print Assumptions c11_copy_field_state_partial.

(* Non-vacuity for the precision-carrying values: a message with Field<fp_type>(1.23456, 5) in a
   group element and Field<fp_type>(400.5, 0) in a nested element satisfies clone_ok, its clone encodes
   to the same bytes under the real float rendering, and those bytes differ from the encoding of the
   same values at the default precision (a copy that dropped _precision would be seen). *)
Theorem c11_precision_nonvacuous :
  clone_ok ex_ctx_p md_list ex_list_p = true /\
  clone_enc ex_ctx_p ex_list_p = enc_of ex_ctx_p ex_list_p /\ enc_of ex_ctx_p ex_list_p <> [] /\
  enc_of ex_ctx_p ex_list_p <> enc_of ex_ctx_p ex_list_d.
Proof. repeat split; vm_compute; (reflexivity || discriminate). Qed.
Print Assumptions c11_precision_nonvacuous.

(* "moving them leaves the target equal to the original source": move_legal of a source satisfying
   move_ok (local_ok + fresh target as above; every non-empty group belongs to a present group field;
   no recursion: the elements are handed over as they are) into a fresh deep object succeeds, returns
   the number of fields of the object itself (top_fields), the target has the same content and
   encodes like the original source; the source keeps its trait table (present bits still set), each
   of its _fields entries holds a null pointer, so does each _groups entry of a present group field,
   and its _pos is empty (the husk has no _pos component).
   Target shapes covered (target_ok): ANY fresh object of the class whose existing group objects are
   empty -- deep-constructed (every group pre-created: move_legal REPLACES the group object),
   shallow-constructed (no group object: move_legal ADDS the source's group object) and mixed (FIX44
   header, NoHops not pre-created); the two branches of move_legal are distinct in the model
   (map_set / map_insert on _groups) and both are covered by this theorem. *)
Theorem c11_move_legal_partial : forall s t0, move_ok s t0 = true ->
  exists t k, move_legal false s t0 = Ok (top_fields (obj_of s), t, k) /\
    same_content (obj_of s) (obj_of t) = true /\
    (forall c b, mb_encode c s = Ok b -> mb_encode c t = Ok b) /\
    hk_fp k = mb_fp s /\
    map fst (hk_fields k) = map fst (mb_fields s) /\
    (forall f, In f (map fst (mb_fields s)) -> map_find f (hk_fields k) = Some None) /\
    map fst (hk_groups k) = map fst (mb_groups s) /\
    (forall f els, map_find f (mb_groups s) = Some els ->
                   map_find f (hk_groups k) = Some (if group_owned (mb_fp s) f then None else Some els)).
Proof. exact c11_move_legal_lemma. Qed.
Print Assumptions c11_move_legal_partial.

(* A message decoded from valid input whose tokens are not in schema order re-encodes in ARRIVAL
   order (the decoder keys _pos by arrival index) whereas its clone encodes in SCHEMA order
   (copy_legal files every field under the target's getPos): the clone's bytes differ. *)
Theorem c11_clone_arrival_order_refuted :
  exists c bytes m,
    decoded c bytes = Some m /\ enc_of c m = bytes /\ clone_enc c m <> [] /\ clone_enc c m <> enc_of c m.
Proof.
  exists ex_ctx, hb_shuffled_bytes. eexists. split; [vm_compute; reflexivity|].
  split; [vm_compute; reflexivity|]. split; vm_compute; discriminate.
Qed.
Print Assumptions c11_clone_arrival_order_refuted.

(* Two fields without the position trait bit (getPos() = 0, FIX42UTEST's 9991 / 9999) inserted in
   descending tag order: the original emits them in insertion order, the clone in table order. *)
Theorem c11_clone_equal_positions_refuted :
  exists c m, enc_of c m <> [] /\ clone_enc c m <> [] /\ clone_enc c m <> enc_of c m.
Proof. exists ex_ctx_u, (hb_user 9999 9991). repeat apply conj; vm_compute; discriminate. Qed.
Print Assumptions c11_clone_equal_positions_refuted.

(* Pass-through bytes of a permissive decode (_unknown) are not transferred by copy_legal. *)
Theorem c11_clone_unknown_refuted :
  exists c m, enc_of c m <> [] /\ clone_enc c m <> [] /\ clone_enc c m <> enc_of c m.
Proof. exists ex_ctx, hb_unknown. repeat apply conj; vm_compute; discriminate. Qed.
Print Assumptions c11_clone_unknown_refuted.

(* Two defects found by this check have been repaired in /repo; the model follows the repaired code.
   (1) /repo 1eb9e00: move_legal dereferenced _groups.find(fnum) == end() for a decoded message holding
   a group count field with value 0 (no group object).  Such a message satisfies clone_ok; moving it
   succeeds and the target encodes like the source. *)
Theorem c11_move_zero_count_repaired :
  exists c bytes m md, decoded_nock c bytes = Some m /\ find_msg (c_msgs c) (m_type m) = Some md /\
                       clone_ok c md m = true /\ map_find 73 (mb_groups (m_body m)) = None /\
                       exists nb nh nt t k, move_msg c m = Ok (nb, nh, nt, t, k) /\
                                            enc_of c t = enc_of c m /\ enc_of c m <> [].
Proof. exact c11_move_zero_count_repaired_lemma. Qed.
Print Assumptions c11_move_zero_count_repaired.

(* (2) /repo 198b3ea: copy_legal dereferenced to->find_group(fnum) == nullptr when the deep constructor
   of the target does not pre-create the group (FIX44 header, NoHops 627); it now uses find_add_group.
   A message with a Hops element in such a header satisfies clone_ok (no group object is required in
   the target) and its clone encodes to the original's bytes. *)
Theorem c11_clone_missing_target_group :
  clone_ok ex_ctx_h md_hb hb_hops = true /\
  mb_groups (m_hdr (mk_message ex_ctx_h md_hb true)) = [] /\
  clone_enc ex_ctx_h hb_hops = enc_of ex_ctx_h hb_hops /\ enc_of ex_ctx_h hb_hops <> [].
Proof. repeat split; vm_compute; (reflexivity || discriminate). Qed.
Print Assumptions c11_clone_missing_target_group.

(* The same two inputs on the code as it was BEFORE the repairs (coq/C11/CopyOrig.v): the memory errors
   this check found.  move_legal read and wrote through _groups.end(); copy_legal called
   create_group on a null GroupBase. *)
Theorem c11_move_missing_group_orig_refuted :
  exists c bytes m md, decoded_nock c bytes = Some m /\ find_msg (c_msgs c) (m_type m) = Some md /\
                       clone_ok c md m = true /\ move_msg_orig c m = OOB site_groups_end.
Proof.
  exists ex_ctx, list_zero_bytes. eexists. exists md_list. split; [vm_compute; reflexivity|].
  split; [reflexivity|]. split; vm_compute; reflexivity.
Qed.
Print Assumptions c11_move_missing_group_orig_refuted.

Theorem c11_clone_target_group_orig_refuted :
  exists c m, enc_of c m <> [] /\ clone_orig c m = OOB site_target_group.
Proof. exists ex_ctx_h, hb_hops. split; [vm_compute; discriminate|vm_compute; reflexivity]. Qed.
Print Assumptions c11_clone_target_group_orig_refuted.

(* Non-vacuity: clone_ok holds of an API-built message with nested groups filled out of order and
   of a message decoded from in-order bytes; their clones encode to the originals' bytes. *)
Theorem c11_nonvacuous :
  clone_ok ex_ctx md_list ex_list = true /\ clone_enc ex_ctx ex_list = enc_of ex_ctx ex_list /\
  enc_of ex_ctx ex_list <> [] /\
  exists m, decoded ex_ctx hb_inorder_bytes = Some m /\ clone_ok ex_ctx md_hb m = true /\
            clone_enc ex_ctx m = hb_inorder_bytes.
Proof.
  split; [vm_compute; reflexivity|]. split; [reflexivity|]. split; [vm_compute; discriminate|].
  eexists. split; [vm_compute; reflexivity|]. split; vm_compute; reflexivity.
Qed.
Print Assumptions c11_nonvacuous.

(* Non-vacuity of the copy_legal / move_legal theorems: the body of that message (11 fields over
   three levels) satisfies src_ok and move_ok against a fresh deep object of its class. *)
Theorem c11_nonvacuous_parts :
  src_ok (m_body ex_list) (create_group ex_body true) = true /\
  move_ok (m_body ex_list) (create_group ex_body true) = true /\
  count_fields (obj_of (m_body ex_list)) = 11.
Proof. repeat split; vm_compute; reflexivity. Qed.
Print Assumptions c11_nonvacuous_parts.

(* Non-vacuity of c11_move_legal_partial for a SHALLOW-constructed target: move_ok holds, the target
   has no group object, move_legal returns the 3 top-level fields, the target holds the source's two
   order elements under 73 (added, not replaced) and encodes like the source. *)
Theorem c11_move_shallow_nonvacuous :
  move_ok (m_body ex_list) (create_group ex_body false) = true /\
  mb_groups (create_group ex_body false) = [] /\
  exists t k, move_legal false (m_body ex_list) (create_group ex_body false) = Ok (3, t, k) /\
              map_find 73 (mb_groups t) = map_find 73 (mb_groups (m_body ex_list)) /\
              map_find 73 (mb_groups (m_body ex_list)) = Some [ex_order1; ex_order2] /\
              mb_encode ex_ctx t = mb_encode ex_ctx (m_body ex_list).
Proof.
  split; [vm_compute; reflexivity|]. split; [reflexivity|].
  do 2 eexists. split; [vm_compute; reflexivity|]. split; [vm_compute; reflexivity|]. split; vm_compute; reflexivity.
Qed.
Print Assumptions c11_move_shallow_nonvacuous.
