(* Property C02 -- "Encoded messages are well-formed FIX on the wire".
   Only theorem statements: each is closed by [exact] of a lemma proved in C02/, by a few lines
   that instantiate general theorems proved there, or, where it states a concrete witness, by
   evaluation in place; each is followed by Print Assumptions.
     msg_encode  = the model of Message::encode on a char buffer (coq/Codec/Encode.v), tied to the real
                   encoder by the correspondence run;
     wire_ok     = the independent validator of C02/Spec_C02.v, clauses (a)-(e) of its head comment;
     wf_msg      = decidable well-formedness of the object (C02/WfC02.v), evaluated at run time on
                   every generated message: per message type the metadata is unambiguous (wf_ctx),
                   every present field sits in _pos under its schema position, rendered values contain
                   no SOH, every group count field's value is the number of its elements, every
                   element is non-empty and starts with its position-1 field, no _unknown bytes, and
                   the body is shorter than 10^7 bytes;
     fresh       = the suppress bits of 8, 9, 10 are still set (the object was never encoded);
     render_ok   = the per-type rendering leaves canonical decimal ints < 2^31 and strings unchanged
                   (proved for render_default: C02/RenderProofs.v render_default_ok). *)
From Coq Require Import NArith ZArith List Bool.
From F8 Require Import Codec.Bytes Codec.Meta Codec.Extract Codec.Decode Codec.Encode Codec.Render
                       Codec.Example C02.Spec_C02 C02.WfC02 C02.AuxProofs C02.RenderProofs C02.EncodeProofs C02.InsertProofs.
Import ListNotations.
Local Open Scope N_scope.

(* For EVERY schema context and EVERY well-formed, never-encoded message object (any message
   type, any subset of fields, any number of group elements nested to any depth -- and, since
   wf_msg speaks about the object and not about how it was built, whatever the insertion order
   was) the encoder succeeds and its output satisfies all clauses of the property. *)
Theorem c02_wellformed : forall c m,
  render_ok c -> wf_msg c m = true -> fresh m = true ->
  exists b m', msg_encode c m = Ok (b, m') /\ wire_ok c b = true.
Proof. exact c02_wellformed_lemma. Qed.
Print Assumptions c02_wellformed.

(* "Regardless of insertion order", at the level of the API: for EVERY sequence of add_field calls
   (any fields, any order, repeats included) on a freshly created part or group element, the
   resulting _pos is sorted by key and every entry is filed under getPos of its field's trait --
   so encode, which walks _pos, emits the fields in schema position order. *)
Theorem c02_insertion_order : forall l g d m',
  add_all (create_group g d) l = Ok m' -> pos_inv m'.
Proof. exact insertion_order_lemma. Qed.
Print Assumptions c02_insertion_order.

(* Finding F05: Message::encode clears the suppress bits of BeginString, BodyLength and
   CheckSum and never restores them, so encoding the same (well-formed, fresh) object a second
   time emits 8=, 9= and 10= twice: the first output is well-formed, the second is not. *)
Theorem c02_second_encode_refuted :
  exists c m, render_ok c /\ wf_msg c m = true /\ fresh m = true /\
              wire_ok c (enc_bytes c m) = true /\ wire_ok c (enc_twice c m) = false.
Proof.
  exists ex_ctx, ex_hb. split; [apply render_default_ok; reflexivity|].
  repeat apply conj; vm_compute; reflexivity.
Qed.
Print Assumptions c02_second_encode_refuted.

(* Finding F04: a group element built without its position-1 field is emitted as it is, which
   contradicts the last clause of the property (wf_msg excludes such objects). *)
Theorem c02_no_delimiter_refuted :
  exists c m b m', render_ok c /\ fresh m = true /\ msg_encode c m = Ok (b, m') /\ wire_ok c b = false.
Proof.
  exists ex_ctx, ex_list_nofirst. eexists. eexists. split; [apply render_default_ok; reflexivity|].
  split; [vm_compute; reflexivity|]. split; [vm_compute; reflexivity|vm_compute; reflexivity].
Qed.
Print Assumptions c02_no_delimiter_refuted.

(* Non-vacuity: a message with two group elements, the second with two nested elements, all
   fields inserted out of schema order, meets every hypothesis of c02_wellformed. *)
Theorem c02_nonvacuous :
  render_ok ex_ctx /\ wf_msg ex_ctx ex_list = true /\ fresh ex_list = true /\
  wire_ok ex_ctx (enc_bytes ex_ctx ex_list) = true.
Proof. split; [apply render_default_ok; reflexivity|]. repeat apply conj; vm_compute; reflexivity. Qed.
Print Assumptions c02_nonvacuous.
