(* Property C03 -- "Codec is memory-safe and total on arbitrary input".
   Only theorem statements: each is closed by [exact] of a lemma proved in C03/..., by a few lines
   that instantiate general theorems proved there, or, where it states a concrete witness, by
   evaluation in place; each is followed by Print Assumptions.  factory / msg_encode_str are the
   instrumented models of Message::factory and Message::encode(f8String&) in coq/Codec (every write
   into a stack buffer is checked against the buffer's capacity, real_caps = the capacities of the
   pinned source).

   State of the code (/repo 408434c): factory refuses the pseudo rows header/trailer of the message
   table (408434c), extract_element (d48d8ce) and extract_element_fixed_width (ce1e2cc) are bounded,
   decode_group leaves its loop on an empty element (a0d41df), fast_atoi honours '-' (a8219b1) and
   accumulates in the unsigned type (1965750), calc_chksum loads with memcpy (9d9ce26), the
   date/time parsers do not shift and clamp the month (da4ab8c).  Decoding is therefore proved safe
   for ALL byte strings.  NOT repaired and stated as refutations / partial theorems: output[] of
   encode(f8String&) (F07) and the 64-bit tick product of the date/time constructors.  The
   pre-repair definitions (suffix _orig) carry the witnesses of the repaired defects. *)
From Coq Require Import NArith ZArith List Bool String.
From F8 Require Import Codec.Bytes Codec.Meta Codec.Extract Codec.Decode Codec.Encode Codec.Example
                       C03.Bounds C03.ExtractProofs C03.FactoryProofs C03.EncodeProofs.
Import ListNotations.
Local Open Scope N_scope.

(* The tokeniser never leaves the caller's buffers, whatever the memory it is given contains and
   whatever the (non-empty) buffers' sizes are: it fails the extraction instead. *)
Theorem c03_extract_element_safe : forall tcap vcap from sz,
  0 < tcap -> 0 < vcap -> sz <= lenN from -> forall s, extract_element from sz tcap vcap <> XOOB s.
Proof. exact extract_element_safe. Qed.
Print Assumptions c03_extract_element_safe.

(* Decoding: for every schema with closed group tables (c03_wf, checked on the dumped metadata at
   every run) and EVERY byte string shorter than 2^32 -- Length/data pairs included, any MsgType text
   --, strict or permissive, with or without checksum test, Message::factory returns a message or
   throws a library exception: no overrun of the tag/val/len/mtype buffers, no read past the input or
   of bytes never written, no Diverge, no Fuel.  (UB inside the value constructors is the subject of
   the fast_atoi / date-time theorems below; memory safety of encode of c03_encode_*.) *)
Theorem c03_decode_safe : forall c bytes no_chksum permissive,
  c03_wf c = true -> is_bytes bytes = true -> lenN bytes < 4294967296 ->
  safe (c03_factory c real_caps bytes no_chksum permissive).
Proof. exact c03_decode_safe_lemma. Qed.
Print Assumptions c03_decode_safe.

(* Totality: on EVERY list of numbers the fuel dec_fuel suffices (each turn of each loop of decode /
   decode_group consumes at least two bytes) and the repaired decode_group never stalls. *)
Theorem c03_decode_total : forall c bytes no_chksum permissive,
  c03_wf c = true ->
  c03_factory c real_caps bytes no_chksum permissive <> Fuel /\ c03_factory c real_caps bytes no_chksum permissive <> Diverge.
Proof. exact c03_decode_total_lemma. Qed.
Print Assumptions c03_decode_total.

(* Finding C03-pseudo-msgtype, repaired by 408434c: with the OLD table lookup (c03_factory_orig)
   35=header / 35=trailer selected a row whose creator is reinterpret_cast<Message *>(new header /
   trailer) and factory decoded into that object (type confusion); now both texts are unknown types.
   Outside these two texts the old lookup was safe as well. *)
Theorem c03_pseudo_msgtype_orig_refuted :
  is_bytes (pseudo_msg "header") = true /\
  c03_factory_orig ex_ctx real_caps (pseudo_msg "header") false false = OOB site_pseudo_entry /\
  c03_factory_orig ex_ctx real_caps (pseudo_msg "trailer") true true = OOB site_pseudo_entry /\
  c03_factory ex_ctx real_caps (pseudo_msg "header") false false = Exc EInvalidMessage /\
  c03_factory ex_ctx real_caps (pseudo_msg "trailer") true true = Exc EInvalidMessage /\
  c03_pseudo real_caps (pseudo_msg "Header") = false /\ c03_pseudo real_caps (pseudo_msg "header1") = false /\
  c03_pseudo real_caps (pseudo_msg "heade") = false /\ c03_pseudo real_caps (pseudo_msg "trailer ") = false.
Proof. repeat split; vm_compute; reflexivity. Qed.
Print Assumptions c03_pseudo_msgtype_orig_refuted.

Theorem c03_decode_orig_safe_partial : forall c bytes no_chksum permissive,
  c03_wf c = true -> is_bytes bytes = true -> lenN bytes < 4294967296 -> c03_pseudo real_caps bytes = false ->
  safe (c03_factory_orig c real_caps bytes no_chksum permissive).
Proof. exact c03_factory_orig_safe_lemma. Qed.
Print Assumptions c03_decode_orig_safe_partial.

(* The fixed-width extractor never leaves its buffers either (repaired by ce1e2cc). *)
Theorem c03_extract_fixed_width_safe : forall tcap vcap from sz val_sz,
  0 < tcap -> 0 < vcap -> sz <= lenN from ->
  forall s, extract_element_fixed_width from sz val_sz tcap vcap <> XOOB s.
Proof. exact extract_fw_safe. Qed.
Print Assumptions c03_extract_fixed_width_safe.

(* F06 residue, repaired by ce1e2cc: the ORIGINAL fixed-width extractor writes the 2049th digit past
   tag[2048] and leaves the tag unterminated (decode read tag[] beyond the bytes written). *)
Theorem c03_fixed_width_orig_refuted :
  extract_element_fixed_width_orig (digits_tok 2049) (lenN (digits_tok 2049)) 1 MAX_FLD_LENGTH MAX_FLD_LENGTH = XOOB site_tag_write /\
  extract_element_fixed_width (digits_tok 2049) (lenN (digits_tok 2049)) 1 MAX_FLD_LENGTH MAX_FLD_LENGTH = XFail [] [] /\
  (exists t v r, extract_element_fixed_width (digits_tok 2047) (lenN (digits_tok 2047)) 1 MAX_FLD_LENGTH MAX_FLD_LENGTH = XOk t v r) /\
  cstr_known (tagbuf_after_fw_orig [56; 57; 56; 57] (tagbuf_after [57; 51] [])) = None /\
  cstr_known (tagbuf_after_fw [56; 57; 56; 57] (tagbuf_after [57; 51] [])) = Some [56; 57; 56; 57] /\
  safe (factory ex_ctx real_caps (fw_digits 2049) false false) /\ safe (factory ex_ctx real_caps fw_uninit false false).
Proof.
  split; [exact (fw_orig_digits_tok 2049 eq_refl)|].
  split; [exact (fw_digits_tok 2049)|].
  split; [do 3 eexists; exact (fw_digits_tok 2047)|].
  split; [reflexivity|]. split; [reflexivity|].
  split; [apply ex_safe_padded; reflexivity|apply ex_safe; reflexivity].
Qed.
Print Assumptions c03_fixed_width_orig_refuted.

(* F06, repaired by d48d8ce: the ORIGINAL extract_element writes a value of 2048 bytes through
   val[2048]; the repaired one fails the extraction and factory answers with an exception. *)
Theorem c03_val_overflow_orig_refuted :
  extract_element_orig (val_token 2048) (lenN (val_token 2048)) MAX_FLD_LENGTH MAX_FLD_LENGTH = XOOB site_val_write /\
  (exists t v r, extract_element_orig (val_token 2047) (lenN (val_token 2047)) MAX_FLD_LENGTH MAX_FLD_LENGTH = XOk t v r) /\
  (exists t v, extract_element (val_token 2048) (lenN (val_token 2048)) MAX_FLD_LENGTH MAX_FLD_LENGTH = XFail t v) /\
  (exists t v r, extract_element (val_token 2047) (lenN (val_token 2047)) MAX_FLD_LENGTH MAX_FLD_LENGTH = XOk t v r) /\
  safe (factory ex_ctx real_caps (hb_val 2048) false false) /\ safe (factory ex_ctx real_caps (hb_val 3000) false false).
Proof.
  split; [exact (token_orig [49; 49; 50] (xs 2048) 3 2048 MAX_FLD_LENGTH MAX_FLD_LENGTH eq_refl eq_refl (xs_no_soh _) (xs_len _))|].
  split; [do 3 eexists; exact (token_orig [49; 49; 50] (xs 2047) 3 2047 MAX_FLD_LENGTH MAX_FLD_LENGTH eq_refl eq_refl (xs_no_soh _) (xs_len _))|].
  split; [exact (token_new [49; 49; 50] (xs 2048) 3 2048 MAX_FLD_LENGTH MAX_FLD_LENGTH eq_refl eq_refl (xs_no_soh _) (xs_len _) eq_refl eq_refl)|].
  split; [do 3 eexists; exact (token_new [49; 49; 50] (xs 2047) 3 2047 MAX_FLD_LENGTH MAX_FLD_LENGTH eq_refl eq_refl (xs_no_soh _) (xs_len _) eq_refl eq_refl)|].
  split; apply ex_safe_padded; reflexivity.
Qed.
Print Assumptions c03_val_overflow_orig_refuted.

(* F06 (header), repaired by d48d8ce: a MsgType of 32 bytes through mtype[32], 32 digits through tag[32]. *)
Theorem c03_header_overflow_orig_refuted :
  extract_element_orig (mtype_token 32) (lenN (mtype_token 32)) MAX_MSGTYPE_FIELD_LEN MAX_MSGTYPE_FIELD_LEN = XOOB site_val_write /\
  extract_element_orig (tag_token 32) (lenN (tag_token 32)) MAX_MSGTYPE_FIELD_LEN MAX_FLD_LENGTH = XOOB site_tag_write /\
  (exists t v, extract_element (mtype_token 32) (lenN (mtype_token 32)) MAX_MSGTYPE_FIELD_LEN MAX_MSGTYPE_FIELD_LEN = XFail t v) /\
  (exists t v, extract_element (tag_token 32) (lenN (tag_token 32)) MAX_MSGTYPE_FIELD_LEN MAX_FLD_LENGTH = XFail t v) /\
  (exists t v r, extract_element (mtype_token 31) (lenN (mtype_token 31)) MAX_MSGTYPE_FIELD_LEN MAX_MSGTYPE_FIELD_LEN = XOk t v r) /\
  safe (factory ex_ctx real_caps (long_mtype 100) false false).
Proof.
  split; [exact (token_orig [51; 53] (xs 32) 2 32 MAX_MSGTYPE_FIELD_LEN MAX_MSGTYPE_FIELD_LEN eq_refl eq_refl (xs_no_soh _) (xs_len _))|].
  split; [exact (token_orig (repeat 56 32) [70] 32 1 MAX_MSGTYPE_FIELD_LEN MAX_FLD_LENGTH eq_refl eq_refl (Forall_cons 70 eq_refl (Forall_nil _)) eq_refl)|].
  split; [exact (token_new [51; 53] (xs 32) 2 32 MAX_MSGTYPE_FIELD_LEN MAX_MSGTYPE_FIELD_LEN eq_refl eq_refl (xs_no_soh _) (xs_len _) eq_refl eq_refl)|].
  split; [exact (token_new (repeat 56 32) [70] 32 1 MAX_MSGTYPE_FIELD_LEN MAX_FLD_LENGTH eq_refl eq_refl (Forall_cons 70 eq_refl (Forall_nil _)) eq_refl eq_refl eq_refl)|].
  split; [do 3 eexists; exact (token_new [51; 53] (xs 31) 2 31 MAX_MSGTYPE_FIELD_LEN MAX_MSGTYPE_FIELD_LEN eq_refl eq_refl (xs_no_soh _) (xs_len _) eq_refl eq_refl)|].
  apply ex_safe_padded; reflexivity.
Qed.
Print Assumptions c03_header_overflow_orig_refuted.

(* F08, repaired by a0d41df: on "A=1|" right after the count of a group whose class has no
   mandatory member the ORIGINAL decode_group appends empty elements for ever (Diverge); the
   repaired one returns at once and factory accepts or rejects the message. *)
Theorem c03_group_hang_orig_refuted :
  c03_wf ex_ctx = true /\
  decode_group_orig ex_ctx real_caps hang_tail (lenN hang_tail) 10 (create_group ex_orders true) 78 0 = Diverge /\
  (exists m, decode_group ex_ctx real_caps hang_tail (lenN hang_tail) 10 (create_group ex_orders true) 78 0 = Ok (m, 0)) /\
  safe (factory ex_ctx real_caps hang_msg false false).
Proof.
  split; [vm_compute; reflexivity|]. split; [vm_compute; reflexivity|].
  split; [eexists; vm_compute; reflexivity|]. vm_compute. exact I.
Qed.
Print Assumptions c03_group_hang_orig_refuted.

(* Encoding: a message whose encoding is no longer than FIX8_MAX_MSG_LENGTH is written inside
   output[] and returned unchanged ... *)
Theorem c03_encode_safe_partial : forall c m bytes m',
  msg_encode c m = Ok (bytes, m') -> lenN bytes <= MAX_MSG_LENGTH ->
  msg_encode_str c real_caps m = Ok (bytes, m').
Proof. exact c03_encode_safe_partial_lemma. Qed.
Print Assumptions c03_encode_safe_partial.

(* ... F07 (NOT repaired): a 9000-byte string field is written through the end of output[8224]. *)
Theorem c03_encode_overflow_refuted :
  exists c m, (exists b m', msg_encode c m = Ok (b, m') /\ MAX_MSG_LENGTH + HEADER_CALC_OFFSET <= lenN b) /\
              msg_encode_str c real_caps m = OOB site_encode_buf.
Proof. exact c03_encode_overflow_refuted_lemma. Qed.
Print Assumptions c03_encode_overflow_refuted.

(* fast_atoi<int> (F09), repaired by 1965750 (accumulation in the unsigned type): no text triggers
   UB any more (atoi_ub is the model's UB flag for the routine: unsigned arithmetic has none) ... *)
Theorem c03_fast_atoi_safe : forall s, atoi_ub s = false.
Proof. exact c03_fast_atoi_safe_lemma. Qed.
Print Assumptions c03_fast_atoi_safe.

(* ... and the repair changes no result: wherever the previous int accumulation was defined, the
   wrapped unsigned accumulation (Codec.Bytes.fast_atoi_i32) returns the same value. *)
Theorem c03_fast_atoi_agrees_with_orig : forall s, atoi_ub_orig s = false -> atoi_val s = atoi_val_orig s.
Proof. exact c03_fast_atoi_agree_lemma. Qed.
Print Assumptions c03_fast_atoi_agrees_with_orig.

(* The previous routine (a8219b1): an optional '-' and at most 9 digits never overflowed ... *)
Theorem c03_fast_atoi_orig_safe_partial : forall s, small_int_text s = true -> atoi_ub_orig s = false.
Proof. exact c03_fast_atoi_orig_safe_partial_lemma. Qed.
Print Assumptions c03_fast_atoi_orig_safe_partial.

(* ... the edges of the int range parsed without UB, one step beyond them was signed overflow; the
   repaired routine wraps there ("2147483648" = -2147483648) and still accepts non-digits ("1e3" = 633). *)
Theorem c03_fast_atoi_ub_orig_refuted :
  atoi_ub_orig (bytes_of_string "2147483647"%string) = false /\ atoi_ub_orig (bytes_of_string "-2147483648"%string) = false /\
  atoi_ub_orig (bytes_of_string "2147483648"%string) = true /\ atoi_ub_orig (bytes_of_string "-2147483649"%string) = true /\
  atoi_ub_orig (bytes_of_string "99999999999"%string) = true /\ atoi_ub_orig (bytes_of_string "1e3"%string) = false /\
  atoi_val (bytes_of_string "-5"%string) = (-5)%Z /\ atoi_val (bytes_of_string "1e3"%string) = 633%Z /\
  atoi_val (bytes_of_string "2147483648"%string) = (-2147483648)%Z /\ atoi_val (bytes_of_string "99999999999"%string) = 1215752191%Z.
Proof. repeat split; vm_compute; reflexivity. Qed.
Print Assumptions c03_fast_atoi_ub_orig_refuted.

(* The date/time field constructors (field.hpp), repaired by da4ab8c: a month outside 01..13
   indexed mon_days out of bounds and a char below '0' led to a shift of a negative value
   (dt_ub_orig); the repaired parsers have no UB on these texts (dt_ub). *)
Theorem c03_datetime_ub_orig_refuted :
  dt_ub_orig ft_UTCTimestamp (bytes_of_string "20231401-00:00:00"%string) = Some true /\
  dt_ub ft_UTCTimestamp (bytes_of_string "20231401-00:00:00"%string) = Some false /\
  dt_ub_orig ft_UTCTimestamp (bytes_of_string "2023-101-00:00:00.000"%string) = Some true /\
  dt_ub ft_UTCTimestamp (bytes_of_string "2023-101-00:00:00.000"%string) = Some false /\
  dt_ub_orig ft_LocalMktDate (bytes_of_string "20230001"%string) = Some true /\
  dt_ub ft_LocalMktDate (bytes_of_string "20230001"%string) = Some false.
Proof. repeat split; vm_compute; reflexivity. Qed.
Print Assumptions c03_datetime_ub_orig_refuted.

(* NOT repaired: time_to_epoch(..) * Tickval::billion is a signed 64-bit product -- a year before
   1678 or after 2262 overflows it (UB); inside that range there is none.  None = the parser reads
   beyond the text (stale bytes of val[]). *)
Theorem c03_datetime_ticks_refuted :
  dt_ub ft_LocalMktDate (bytes_of_string "99990101"%string) = Some true /\
  dt_ub ft_UTCTimestamp (bytes_of_string "00000101-00:00:00"%string) = Some true /\
  dt_ub ft_UTCTimestamp (bytes_of_string "22620101-00:00:00"%string) = Some false /\
  dt_ub ft_UTCTimestamp (bytes_of_string "16780101-00:00:00"%string) = Some false /\
  dt_ub ft_UTCTimestamp (bytes_of_string "20230101-00:00:00.000"%string) = Some false /\
  dt_ub ft_UTCTimestamp (bytes_of_string "2023"%string) = None.
Proof. repeat split; vm_compute; reflexivity. Qed.
Print Assumptions c03_datetime_ticks_refuted.

(* calc_chksum (D4), repaired by 9d9ce26: the uint32 loads were misaligned for a buffer that is not
   4-aligned (chksum_ub_orig); with memcpy there is no alignment requirement. *)
Theorem c03_chksum_align_orig_refuted :
  chksum_ub_orig 1 8 = true /\ chksum_ub_orig 4 64 = false /\ forall m l, chksum_ub m l = false.
Proof. split; [reflexivity|]. split; reflexivity. Qed.
Print Assumptions c03_chksum_align_orig_refuted.

(* Non-vacuity: the example schema (with a Length/data pair and groups without mandatory member) is
   well-formed, an encoded message with nested groups is a byte string and decodes. *)
Theorem c03_nonvacuous :
  c03_wf ex_ctx = true /\ is_bytes ex_list_bytes = true /\ lenN ex_list_bytes < 4294967296 /\
  (exists m, factory ex_ctx real_caps ex_list_bytes false false = Ok m).
Proof.
  split; [vm_compute; reflexivity|]. split; [vm_compute; reflexivity|]. split; [vm_compute; reflexivity|].
  eexists; vm_compute; reflexivity.
Qed.
Print Assumptions c03_nonvacuous.
