(* Property C17 -- "Sent application messages are stored exactly as transmitted".
   Only theorem statements: each is closed by [exact] of a lemma proved in C17/C17Proofs.v, by a few lines that
   instantiate general theorems proved there, or, where it states a concrete witness, by evaluation in place;
   each is followed by Print Assumptions.
   The oracle c17_ok (C17/Spec_C17.v): with a persister attached, every new application message put on
   the wire during an operation is among the entries that entered the persister during that operation,
   under its own MsgSeqNum with exactly its wire bytes; no new administrative message is (neither its
   number nor its bytes). *)
From Coq Require Import NArith ZArith List Bool.
From F8 Require Import Sess.Bytes Sess.Msg Sess.Persist Sess.Session Sess.SimpleCodec Sess.Wire
  Sess.SessLemmas Sess.SendLemmas Sess.Demo C16.Spec_C16 C16.C16Proofs C17.Spec_C17 C17.C17Proofs.
Import ListNotations.
Local Open Scope N_scope.

(* c17_store: the property at full strength for send-side histories (any length, both roles, memory / file /
   no persister, any start number, any schema whose admin flags are the session-level types): a START
   followed by plain SEND / BATCH / CLOCK operations with SOH- and NUL-free field contents satisfies the
   oracle -- every transmitted new application message, sent singly or in ANY position of a batch, is stored
   under its MsgSeqNum with exactly the wire bytes, and no administrative message is stored.
   (plain = no custom sequence number, no no_increment, not a SequenceReset, MsgSeqNum / PossDupFlag not
   preset: with a custom number the key is next_send, see c17_custom_refuted.) *)
Theorem c17_store : forall (sc : schema) (p : startp) (t : option Z) (ops : list op),
  wf_schema sc = true -> nonul (sc_begin sc) = true -> wf_admin sc = true ->
  wf_start17 p = true -> forallb plain_op17 ops = true ->
  c17_ok (OStart p t :: ops) (run_history sc (OStart p t :: ops)) = true.
Proof. exact c17_store_lemma. Qed.
Print Assumptions c17_store.

(* the same at the level of one Session::send_process call, for every state between operations or inside a
   batch and for every position, the message that flushes a non-empty batch buffer included: the store grows
   by exactly (next_send, wire bytes) for an application message and not at all for an administrative one. *)
Theorem c17_store_step : forall sc now s m pend,
  wf_schema sc = true -> nonul (sc_begin sc) = true ->
  plain17 sc m = true -> good s -> s_batch s = concat (map (encode sc) pend) ->
  p_attached (s_per s) = true ->
  p_store (s_per (snd (fst (send_process sc now s m)))) =
  (p_store (s_per s) ++ if session_type (m_type m) then [] else [(s_next_send s, wire sc now s m)])%list.
Proof.
  intros sc now s m pend WS NB P G _ A. rewrite (send_store sc NB now s m P G), A. reflexivity.
Qed.
Print Assumptions c17_store_step.

(* c17_store_orig_refuted (F21, repaired by d862447): in a state with a non-empty batch buffer the ORIGINAL
   send_process stored the flushing application message (number 3, 81 wire bytes) as the EMPTY string --
   ptr had been redirected to the batch buffer, which is cleared before _persist->put; the code as it is
   now stores the 81 bytes. *)
Theorem c17_store_orig_refuted :
  s_next_send sb1 = 3 /\ s_batch sb1 <> [] /\
  last_stored (send_process_orig demo_schema T0 sb1 m_order) = Some 0%nat /\
  last_stored (send_process demo_schema T0 sb1 m_order) = Some 81%nat /\
  length (wire demo_schema T0 sb1 m_order) = 81%nat.
Proof. vm_compute. repeat split. discriminate. Qed.
Print Assumptions c17_store_orig_refuted.

(* a custom sequence number: the message travels as 7 but is stored under next_send = 2. *)
Theorem c17_custom_refuted :
  all_new_seqs (run_history demo_schema h_custom17) = map dec [1; 7] /\
  map fst (store_lengths (run_history demo_schema h_custom17)) = [2] /\
  c17_ok h_custom17 (run_history demo_schema h_custom17) = false.
Proof. vm_compute. repeat split. Qed.
Print Assumptions c17_custom_refuted.

(* non-vacuity of c17_store: singles, a batch with an application message last, a batch of one, a batch of two
   application messages meet the hypotheses; nine messages 1..9 go out, the six application ones are stored;
   the two-order batch that used to lose its last message satisfies the oracle. *)
Theorem c17_nonvacuous :
  wf_schema demo_schema = true /\ nonul (sc_begin demo_schema) = true /\ wf_admin demo_schema = true /\
  wf_start17 (demo_init PFile) = true /\ forallb plain_op17 h_plain17 = true /\
  all_new_seqs (run_history demo_schema (OStart (demo_init PFile) None :: h_plain17)) = map dec [1; 2; 3; 4; 5; 6; 7; 8; 9] /\
  stored_keys (run_history demo_schema (OStart (demo_init PFile) None :: h_plain17)) = [2; 3; 5; 7; 8; 9] /\
  c17_ok h_batch2 (run_history demo_schema h_batch2) = true.
Proof. vm_compute. repeat split. Qed.
Print Assumptions c17_nonvacuous.
