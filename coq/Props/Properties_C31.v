(* Property C31 — "Timer events fire no earlier than scheduled and in due order".
   Only theorem statements: each is closed by [exact] of a lemma proved in C31/TimerProofs.v,
   or, where it states a concrete witness, by evaluation in place; each is followed by
   Print Assumptions.

   Vocabulary.  [run res ops init] executes an ARBITRARY sequence [ops] of operations on the
   model of Timer<T> (C31/Timer.v): schedule(ev, ms), clear(), or one pass of the loop body of
   the timer thread, each paired with the clock value it reads; the oracle [k] of a loop pass
   says which of several queue elements of equal minimal due time is the top (so every statement
   holds for every tie-breaking, see c31_tiebreak_complete); [res cb n] is the return value of
   the n-th run of callback cb (arbitrary).  [hist] is the observable history of the run and
   [c31_mon] the monitor of C31/Spec_C31.v, which checks the four clauses of the property (and
   one extra clause) on a history.  [op_wf]: the clock is not before the epoch and the delay
   fits an unsigned.  The clock values need NOT be monotone: every comparison the code makes is
   against the clock value of the same loop pass. *)
From Coq Require Import ZArith List Bool.
From F8 Require Import C31.Spec_C31 C31.Timer C31.TimerProofs.
From F8 Require C31.TimerUnlocked.
Import ListNotations.
Local Open Scope Z_scope.

(* Clause 1: a callback never runs before its due time (monitor form: the run of an event armed
   by a schedule call at t0 with delay ms happens at a clock value >= t0 + ms*10^6; a run of an
   event that was never scheduled also counts against this clause). *)
Theorem c31_not_early : forall res ops, forallb op_wf ops = true ->
  ok_ne (verd (c31_mon (hist (run res ops init)))) = true.
Proof. intros res ops W. exact (f_equal ok_ne (run_ok res ops W)). Qed.
Print Assumptions c31_not_early.

(* Clause 1 once more without the monitor: every callback run recorded in the history is
   preceded by a schedule call of that event whose due time had passed. *)
Theorem c31_not_early_direct : forall res ops, forallb op_wf ops = true ->
  forall id cb t r, In (HFire id cb t r) (hist (run res ops init)) ->
  exists rep ms t0, In (HSched id cb rep ms t0) (hist (run res ops init)) /\ 1 <= ms /\ t0 + ms * MILLION <= t.
Proof. exact run_justified. Qed.
Print Assumptions c31_not_early_direct.

(* Clause 2: whenever a callback runs, no other pending event has an earlier due time (hence
   two pending events with due1 < due2 run in that order). *)
Theorem c31_due_order : forall res ops, forallb op_wf ops = true ->
  ok_ord (verd (c31_mon (hist (run res ops init)))) = true.
Proof. intros res ops W. exact (f_equal ok_ord (run_ok res ops W)). Qed.
Print Assumptions c31_due_order.

(* Clause 3: a repeating event runs again no sooner than its interval after the previous run,
   only if that run returned true; a non-repeating event runs at most once. *)
Theorem c31_repeat : forall res ops, forallb op_wf ops = true ->
  ok_rep (verd (c31_mon (hist (run res ops init)))) = true.
Proof. intros res ops W. exact (f_equal ok_rep (run_ok res ops W)). Qed.
Print Assumptions c31_repeat.

(* Clause 4: an event that was pending when clear() was called never runs afterwards.  clear()
   is a step of ANY thread, placed anywhere between two other steps of [ops]; a pass of the timer
   loop over a due event (pop, callback, push-back of a repeating event) is one step because the
   loop holds _spin_lock across all of it and clear() takes the same lock: "at arbitrary moments"
   therefore means between two such steps - a clear() issued while a callback runs takes effect
   after the push-back and removes the re-queued event (see c31_clear_unlocked_refuted for the
   loop without that). *)
Theorem c31_clear : forall res ops, forallb op_wf ops = true ->
  ok_clr (verd (c31_mon (hist (run res ops init)))) = true.
Proof. intros res ops W. exact (f_equal ok_clr (run_ok res ops W)). Qed.
Print Assumptions c31_clear.

(* Clause 4 once more without the monitor: in the history after a clear() no event that was
   scheduled before that clear() runs (whatever is executed before and after it). *)
Theorem c31_clear_direct : forall res ops1 now ops2,
  let s1 := run res ops1 init in
  let s2 := run res ops2 (clear now s1) in
  exists h', hist s2 = hist s1 ++ [HClear now (length (q s1))] ++ h' /\
    forall id cb rep ms t0, In (HSched id cb rep ms t0) (hist s1) ->
    forall cb' t r, ~ In (HFire id cb' t r) h'.
Proof. exact clear_direct. Qed.
Print Assumptions c31_clear_direct.

(* What the lock is for: in the VARIANT loop of C31/TimerUnlocked.v, which releases the lock
   before the callback and re-acquires it only for the push-back, a clear() that falls between the
   two halves misses the running event; it is re-queued and runs again: clause 4 fails. *)
Theorem c31_clear_unlocked_refuted :
  exists res ops,
    forallb op_wf ops = true /\
    hist (TimerUnlocked.base (TimerUnlocked.urun res ops TimerUnlocked.uinit)) =
      [HSched 0 7 true 5 0; HFire 0 7 5000000 true; HClear 5000000 0; HFire 0 7 10000000 true] /\
    ok_clr (verd (c31_mon (hist (TimerUnlocked.base (TimerUnlocked.urun res ops TimerUnlocked.uinit))))) = false.
Proof.
  exists (fun _ _ => true),
         [(0, OSched 7 true 5); (5000000, OIter O); (5000000, OClear); (5000000, OIter O); (10000000, OIter O)].
  vm_compute. repeat split; reflexivity.
Qed.
Print Assumptions c31_clear_unlocked_refuted.

(* Extra clause (not in the property text, but needed for the first four to mean anything):
   whenever the timer thread decides to sleep, no pending event is due. *)
Theorem c31_prompt : forall res ops, forallb op_wf ops = true ->
  ok_prompt (verd (c31_mon (hist (run res ops init)))) = true.
Proof. intros res ops W. exact (f_equal ok_prompt (run_ok res ops W)). Qed.
Print Assumptions c31_prompt.

(* All clauses at once, in the form of the oracle that is applied to the real trace. *)
Theorem c31_all : forall res ops, forallb op_wf ops = true ->
  c31_ok (hist (run res ops init)) = true.
Proof. intros res ops W. exact (f_equal verdict_all (run_ok res ops W)). Qed.
Print Assumptions c31_all.

(* The tie-breaking oracle is complete: every queue element of minimal due time is the top for
   some k, so "for all ops" above includes every behaviour of std::priority_queue. *)
Theorem c31_tiebreak_complete : forall l1 e l2,
  (forall x, In x (l1 ++ e :: l2) -> e_due e <= e_due x) ->
  exists k, top k (l1 ++ e :: l2) = Some (e, l1 ++ l2).
Proof. exact top_complete. Qed.
Print Assumptions c31_tiebreak_complete.

(* The runs used by the correspondence check (one harness action - schedule, clock advance,
   clear, or "SPark": clear() from a second thread while a callback is kept from returning - then
   the thread runs until it sleeps; [pref] steers the tie-breaking; callback cb takes [dur cb] >= 0
   of clock time, and every pass of the loop reads the clock afresh, as the code does): the
   history satisfies the oracle ... *)
Theorem c31_script : forall res dur, (forall cb, 0 <= dur cb) ->
  forall extra t0 pref sc, 0 <= t0 -> forallb sop_wf sc = true ->
  match run_script res dur extra t0 pref sc with
  | (s, _, _, _) => c31_ok (hist s) = true
  end.
Proof. exact script_ok. Qed.
Print Assumptions c31_script.

(* ... and with instantaneous callbacks the fuel given to the wait loop always suffices. *)
Theorem c31_script_fuel : forall res extra t0 pref sc, 0 <= t0 -> forallb sop_wf sc = true ->
  snd (run_script res dur0 extra t0 pref sc) = true.
Proof. exact script_fuel. Qed.
Print Assumptions c31_script_fuel.

(* The monitor rejects a history violating any one clause (and accepts a correct one). *)
Theorem c31_monitor_rejects :
  c31_ok [HSched 0 7 false 5 1000; HFire 0 7 4999999 false] = false /\
  c31_ok [HSched 0 7 false 5 1000; HSched 1 8 false 6 1000; HFire 1 8 7000000 false] = false /\
  c31_ok [HSched 0 7 true 5 0; HFire 0 7 5000000 true; HFire 0 7 9999999 true] = false /\
  c31_ok [HSched 0 7 true 5 0; HFire 0 7 5000000 false; HFire 0 7 10000000 true] = false /\
  c31_ok [HSched 0 7 false 5 0; HFire 0 7 5000000 true; HFire 0 7 10000000 true] = false /\
  c31_ok [HSched 0 7 false 5 0; HClear 1 1; HFire 0 7 5000000 true] = false /\
  c31_ok [HSched 0 7 false 5 0; HQuiet 5000000] = false /\
  c31_ok [HSched 0 7 true 5 0; HSched 1 8 false 6 0; HQuiet 4999999; HFire 0 7 5000000 true;
          HQuiet 5000000; HFire 1 8 6000000 true; HFire 0 7 10000000 false; HQuiet 20000000] = true.
Proof. vm_compute. repeat split; reflexivity. Qed.
Print Assumptions c31_monitor_rejects.

(* Non-vacuity: a well-formed script in which three events come due together (two of them
   tied), one repeats once and stops on false, and a pending event is cleared. *)
Theorem c31_nonvacuous :
  forallb sop_wf nv_script = true /\
  match run_script nv_res dur0 0 1000000000 [2; 1; 0] nv_script with
  | (s, _, _, fin) =>
      fin = true /\
      filter (fun h => match h with HFire _ _ _ _ => true | HClear _ _ => true | _ => false end) (hist s) =
        [HFire 2 2 1005000000 false; HFire 1 1 1005000000 false; HFire 0 0 1005000000 true;
         HFire 0 0 1010000000 false; HClear 1010000000 1]
  end.
Proof. vm_compute. repeat split; reflexivity. Qed.
Print Assumptions c31_nonvacuous.

(* Non-vacuity for slow callbacks: two events due in the same wake-up; the first one's callback
   takes 5 ms of clock time, so the second (repeating, 10 ms) runs at t + 5 ms and, the clock
   being read per pass, is re-armed from that moment: next run at t + 15 ms, not t + 10 ms. *)
Theorem c31_nonvacuous_slow :
  match run_script (fun _ _ => true) nv_slow_dur 4 0 [0; 1]
          [SSched false 10; SSched true 10; SAdv 10000000; SAdv 5000000; SAdv 4999999; SAdv 1] with
  | (s, now, _, fin) =>
      fin = true /\ now = 25000000 /\
      filter (fun h => match h with HFire _ _ _ _ => true | _ => false end) (hist s) =
        [HFire 0 0 10000000 true; HFire 1 1 15000000 true; HFire 1 1 25000000 true]
  end.
Proof. vm_compute. repeat split; reflexivity. Qed.
Print Assumptions c31_nonvacuous_slow.
