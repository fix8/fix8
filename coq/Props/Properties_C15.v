(* Property C15 — "Socket reader frames the byte stream exactly".
   Only theorem statements: each is closed by [exact] of a lemma proved in C15/ (ReaderProofs.v,
   ReaderBounds.v, LongFields.v), by a few lines that instantiate general theorems proved there,
   or, where it states a concrete witness, by evaluation in place; each is followed by Print
   Assumptions.

   Model: C15/Reader.v  (FIXReader::sockRead / read / execute, MessageBase::extract_element with
   its caller's buffers tag[32] / val[2048] instrumented, fast_atoi<unsigned>).
   Oracle: C15/Spec_C15.v (c15_ok, written from the FIX framing rules).
   [model_ok p chunks closed] = c15_ok applied to the model's run on [chunks].
   [wf_params p] = sanity of the reader's constants (holds for fix8's configuration: c15_nonvacuous).
   [frame_ok p m] = m is a valid frame for the oracle (8=<begin>|9=<n>|<n bytes>10=ddd|, n >= 1,
   n <= _max_msg_len - _bg_sz - 7, BodyLength written with at most ValSz-1 = 2047 characters).
   extract_element is the one repaired by commit d48d8ce (bounded by the callers' arrays), the field
   tests of FIXReader::read those of cb750d0 (whole tag) and b287a2f (first BodyLength character);
   [safe_params p] = the buffers exist and the constants do not wrap. *)
From Coq Require Import NArith List Bool Arith Lia.
From F8 Require Import C15.Reader C15.Spec_C15 C15.ReaderProofs C15.ReaderBounds C15.LongFields.
Import ListNotations.

(* sockRead(n) returns exactly the next n bytes of the stream and leaves the rest, however the
   stream is cut into chunks (every receiveBytes call may return any non-empty part of a chunk). *)
Theorem c15_sockread_chunking : forall (chunks : sock) (n : nat),
  n <= length (concat chunks) ->
  exists rest, sock_read n chunks = (Some (firstn n (concat chunks)), rest) /\
               concat rest = skipn n (concat chunks).
Proof.
  intros chunks n H. destruct (sock_read_concat chunks n) as [s' [E C]].
  apply Nat.leb_le in H. rewrite H in E. exists s'. split; assumption.
Qed.
Print Assumptions c15_sockread_chunking.

(* For EVERY stream, valid or not: what the reader hands on and how it ends depends only on the
   concatenated bytes, never on the chunk boundaries. *)
Theorem c15_chunking_independent : forall p chunks1 chunks2 closed,
  concat chunks1 = concat chunks2 -> run p chunks1 closed = run p chunks2 closed.
Proof.
  intros p c1 c2 closed H. unfold run, total. rewrite H.
  rewrite (read_all_same (S (length (concat c2))) p c1 c2 H). reflexivity.
Qed.
Print Assumptions c15_chunking_independent.

(* Any sequence of valid frames, in any chunking: exactly those frames are handed to the session,
   byte-identical and in order; the reader then waits (or sees the peer's close); no error, no
   out-of-bounds write (the result contains no EOob). *)
Theorem c15_frames_exact : forall p msgs chunks closed,
  wf_params p = true -> Forall (fun m => frame_ok p m = true) msgs ->
  concat chunks = concat msgs ->
  run p chunks closed = (msgs, if closed then EPeerReset else EWait).
Proof. exact frames_exact_lemma. Qed.
Print Assumptions c15_frames_exact.

(* the same, stated with the oracle *)
Theorem c15_valid_streams_ok : forall p msgs chunks closed,
  wf_params p = true -> Forall (fun m => frame_ok p m = true) msgs ->
  concat chunks = concat msgs ->
  model_ok p chunks closed = true.
Proof. exact valid_streams_ok_lemma. Qed.
Print Assumptions c15_valid_streams_ok.

(* Corrupted preamble after any valid frames, any chunking — BodyLength made of digits (fewer than
   2048) whose value, AS THE CODE READS IT (mod 2^32: fast_atoi wraps), is zero or above the
   limit: InvalidBodyLength, exactly the valid frames handed on, oracle satisfied.  (dec w < 2^32
   makes "mod" vanish; for dec w >= 2^32 the hypothesis can fail: c15_bodylength_wrap_refuted.) *)
Theorem c15_bad_bodylength_partial : forall p msgs chunks w tail closed,
  wf_params p = true -> Forall (fun m => frame_ok p m = true) msgs ->
  concat chunks = concat msgs ++ header (p_begin p) ++ w ++ [SOH] ++ tail ->
  w <> [] -> Forall (fun b => isdigit b = true) w -> length w < p_valcap p ->
  ((dec w mod W32 =? 0) || (len_limit p <? dec w mod W32))%N = true ->
  run p chunks closed = (msgs, EBadLen (dec w mod W32)%N) /\ model_ok p chunks closed = true.
Proof. exact bad_bodylength_lemma. Qed.
Print Assumptions c15_bad_bodylength_partial.

(* Non-numeric BodyLength: a byte that is neither digit nor SOH after any number (also zero) of
   digits -- since b287a2f the first character is checked too: IllegalMessage
   (InvalidBodyLength(0) if the value starts with NUL), or out of bytes; exactly the valid frames
   are handed on; oracle satisfied. *)
Theorem c15_nonnumeric_bodylength_partial : forall p msgs chunks ds0 c tail closed,
  wf_params p = true -> Forall (fun m => frame_ok p m = true) msgs ->
  concat chunks = concat msgs ++ header (p_begin p) ++ ds0 ++ [c] ++ tail ->
  Forall (fun b => isdigit b = true) ds0 -> isdigit c = false -> nosoh c = true ->
  length ds0 <= p_valcap p ->
  (exists e, run p chunks closed = (msgs, e) /\
             match e with EWait | EPeerReset | EIllegal _ => True | EBadLen n => n = 0%N | _ => False end) /\
  model_ok p chunks closed = true.
Proof. exact nonnumeric_anywhere_lemma. Qed.
Print Assumptions c15_nonnumeric_bodylength_partial.

(* Wrong tags (since cb750d0 the whole tag is compared): a first tag other than "8" (any digit
   string shorter than tag[] whose '=' stands within the fixed-size first read), or, after a correct
   "8=<begin>|", a second tag other than "9" (at most 2 digits: later bytes are covered by the digit
   loop): IllegalMessage or out of bytes, exactly the valid frames handed on, oracle satisfied. *)
Theorem c15_bad_tag_partial : forall p msgs chunks t z closed,
  wf_params p = true -> Forall (fun m => frame_ok p m = true) msgs ->
  Forall (fun b => isdigit b = true) t -> length t < p_tagcap p ->
  ((concat chunks = concat msgs ++ t ++ [EQS] ++ z /\ t <> [56%N] /\ length t + 1 <= bg_sz p) \/
   (concat chunks = concat msgs ++ [56; 61]%N ++ p_begin p ++ [SOH] ++ t ++ [EQS] ++ z /\ t <> [57%N] /\ length t <= 2)) ->
  (exists e, run p chunks closed = (msgs, e) /\ illegal_or_eos_end e) /\ model_ok p chunks closed = true.
Proof. exact bad_tag_lemma. Qed.
Print Assumptions c15_bad_tag_partial.

(* Wrong BeginString: "8=" v SOH with v different from the session's BeginString AS A C STRING (a v
   equal to it up to a NUL byte is accepted, see c15_beginstring_nul_refuted),
   SOH-free, and short enough for the field to end within the fixed-size first read (|v| <= |begin|+3;
   e.g. FIX.4.4 or FIXT.1.1 against FIX.4.2): nothing but the valid frames is handed on and the
   reader ends with InvalidVersion(v), or IllegalMessage, or is out of bytes. *)
Theorem c15_bad_beginstring_partial : forall p msgs chunks v tail closed,
  wf_params p = true -> Forall (fun m => frame_ok p m = true) msgs ->
  concat chunks = concat msgs ++ [56; 61]%N ++ v ++ [SOH] ++ tail ->
  Forall (fun c => nosoh c = true) v -> length v + 3 <= bg_sz p -> length v < p_valcap p ->
  list_eqb (cstr v) (p_begin p) = false ->
  (exists e, run p chunks closed = (msgs, e) /\
             match e with
             | EWait | EPeerReset | EIllegal _ => True
             | EBadVersion t => t = cstr v
             | _ => False
             end) /\
  model_ok p chunks closed = true.
Proof. exact bad_beginstring_lemma. Qed.
Print Assumptions c15_bad_beginstring_partial.

(* The fuel of the model's loops is always enough and the classification of endings is complete:
   for every configuration, stream and chunking the run ends in one of Wait / PeerReset /
   IllegalMessage / InvalidVersion / InvalidBodyLength / out-of-bounds write. *)
Theorem c15_fuel_enough : forall p chunks closed, snd (run p chunks closed) <> EOther.
Proof.
  intros p chunks closed E. pose proof (run_inv p chunks closed) as A. rewrite E in A. exact A.
Qed.
Print Assumptions c15_fuel_enough.

(* No out-of-bounds write for ANY stream, chunking and configuration with existing buffers: the
   instrumented writes into msg_buf / tag / val never reach their capacity. *)
Theorem c15_no_oob : forall p chunks closed,
  safe_params p = true -> snd (run p chunks closed) <> EOob.
Proof.
  intros p chunks closed W E. pose proof (run_inv p chunks closed) as A. rewrite E in A. exact (A W).
Qed.
Print Assumptions c15_no_oob.

(* Over-long tags and values (the inputs that overflowed before d48d8ce), after any valid frames,
   any chunking: a run of >= TagSz digits where the first or the second tag is read, or a first /
   second field value of >= ValSz bytes: the reader ends with IllegalMessage (or is out of bytes),
   and exactly the valid frames are handed on.  ([long_field_rest] spells out the four positions; a
   longer run is covered by putting its remainder into [tail].) *)
Theorem c15_long_field_error : forall p msgs chunks rest closed,
  wf_params p = true -> Forall (fun m => frame_ok p m = true) msgs ->
  concat chunks = concat msgs ++ rest -> long_field_rest p rest ->
  exists e, run p chunks closed = (msgs, e) /\
            match e with EWait | EPeerReset | EIllegal _ => True | _ => False end.
Proof. exact long_field_lemma. Qed.
Print Assumptions c15_long_field_error.

(* Repaired by d48d8ce: with the ORIGINAL extract_element 32 digits overflowed tag[32] (31 did
   not) and a 2048-byte value overflowed val[2048] (2047 did not); with the repaired one the same
   streams are refused with IllegalMessage and satisfy the oracle. *)
Theorem c15_overflow_orig_refuted :
  (extract_element_orig P42 w_tag32 = EEOob SiteTag /\
   extract_element_orig P42 w_tag31 = EERet 0 (repeat 55%N 31) [] /\
   extract_element_orig P42 (w_val1 2048) = EEOob SiteVal /\
   extract_element_orig P42 (w_val1 2047) = EERet (N.to_nat 2050) [56%N] (repeat 49%N (N.to_nat 2047))) /\
  (run P42 [w_tag32] true = ([], EIllegal w_tag32) /\ model_ok P42 [w_tag32] true = true) /\
  (run P42 [w_val1 2048] true = ([], EIllegal (w_val1 2048)) /\ model_ok P42 [w_val1 2048] true = true) /\
  (run P42 [w_val2 2048] true = ([], EIllegal (w_val2 2048)) /\ model_ok P42 [w_val2 2048] true = true).
Proof.
  split; [exact overflow_orig_witness|]. split; [exact tag32_refused|].
  split; [apply val1_refused | apply val2_refused]; lia.
Qed.
Print Assumptions c15_overflow_orig_refuted.

(* Not repaired: BodyLength 2^32+5 is read as 5: the oracle says corrupted preamble
   (oversized), the reader hands a 5-byte-body frame on. *)
Theorem c15_bodylength_wrap_refuted :
  run P42 [w_wrap] true = ([w_wrap], EPeerReset) /\
  spec_frame fix42 (len_limit P42) (max_width P42) w_wrap = FBad /\ model_ok P42 [w_wrap] true = false.
Proof. repeat apply conj; vm_compute; reflexivity. Qed.
Print Assumptions c15_bodylength_wrap_refuted.

(* Repaired by cb750d0 / b287a2f: with the ORIGINAL field tests "9=:" was BodyLength 10 and tags
   88 / 93 passed for 8 / 9 (a frame with a corrupted preamble was handed on); with the repaired
   tests the same streams are refused, nothing is handed on, the oracle holds. *)
Theorem c15_lenient_orig_refuted :
  (run_orig P42 [w_colon] true = ([w_colon], EPeerReset) /\
   spec_frame fix42 (len_limit P42) (max_width P42) w_colon = FBad /\
   fst (run P42 [w_colon] true) = [] /\ model_ok P42 [w_colon] true = true) /\
  (run_orig P42 [w_tag88] true = ([w_tag88], EPeerReset) /\
   spec_frame fix42 (len_limit P42) (max_width P42) w_tag88 = FBad /\
   fst (run P42 [w_tag88] true) = [] /\ model_ok P42 [w_tag88] true = true) /\
  (run_orig P42 [w_tag93] true = ([w_tag93], EPeerReset) /\
   spec_frame fix42 (len_limit P42) (max_width P42) w_tag93 = FBad /\
   fst (run P42 [w_tag93] true) = [] /\ model_ok P42 [w_tag93] true = true).
Proof. repeat apply conj; vm_compute; reflexivity. Qed.
Print Assumptions c15_lenient_orig_refuted.

(* Not repaired: "FIX.4.2\0" passes for FIX.4.2 (C-string compare) and the frame with the NUL is
   handed to the session. *)
Theorem c15_beginstring_nul_refuted :
  run P42 [w_nul] true = ([w_nul], EPeerReset) /\
  spec_frame fix42 (len_limit P42) (max_width P42) w_nul = FBad /\ model_ok P42 [w_nul] true = false.
Proof. repeat apply conj; vm_compute; reflexivity. Qed.
Print Assumptions c15_beginstring_nul_refuted.

(* Non-vacuity: fix8's configuration is well-formed; two concrete frames (one with leading zeros
   in BodyLength) satisfy frame_ok, are delivered in 1-byte chunks and come out exactly; the
   corrupted-preamble hypotheses are met by "9=8173" and "8=FIX.4.4". *)
Theorem c15_nonvacuous :
  wf_params P42 = true /\
  forallb (frame_ok P42) [nv_m1; nv_m2] = true /\
  concat (one_byte_chunks (nv_m1 ++ nv_m2)) = concat [nv_m1; nv_m2] /\
  run P42 (one_byte_chunks (nv_m1 ++ nv_m2)) false = ([nv_m1; nv_m2], EWait) /\
  run P42 [nv_badlen] true = ([nv_m1], EBadLen 8173%N) /\
  run P42 [nv_badver] true = ([nv_m1], EBadVersion nv_v44).
Proof. repeat apply conj; vm_compute; reflexivity. Qed.
Print Assumptions c15_nonvacuous.
