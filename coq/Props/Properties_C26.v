(* Property C26 -- "Persisters honour the store contract".
   Only theorem statements: each is closed by [exact] of a lemma proved in C26/, by a few lines
   that instantiate general theorems proved there, or, where it states a concrete witness, by
   evaluation in place; each is followed by Print Assumptions.

   Vocabulary: [op] = one API call (put / get / control put / control get / last / nearest /
   range get with a callback that refuses its abort-th record / close+reopen), [out] = its
   result; [file_outputs ops], [mem_outputs ops] = results of the FilePersister / MemoryPersister
   model (None: a call overran its buffer or did not return); [spec_outputs ops] = results of
   the store contract: a map seq -> bytes plus one control record, where put to an occupied
   number or to 0 is refused (what both persisters do, and what the property text says). *)
From Coq Require Import NArith List Bool.
From F8 Require Import C26.SMap C26.PersistSpec C26.Spec_C26 C26.MemPersist C26.MemProofs
  C26.FilePersist C26.FileProofs C26.SpecProofs.
Import ListNotations.
Local Open Scope N_scope.

(* File persister: for EVERY sequence of fewer than 2^31 operations with numbers below 2^31 and
   records of at most MaxMsgLen = 8192 bytes (ops_wf), searches/ranges starting at >= 1
   (zero_free), and no reopen after a control record was written over a message's index entry
   (reopen_safe: negation = finding F31), every result is the contract's -- including across
   close+reopen. *)
Theorem c26_file_refines : forall ops,
  ops_wf ops = true -> zero_free ops = true -> reopen_safe ops = true ->
  file_outputs ops = Some (spec_outputs ops).
Proof. exact c26_file_refines_lemma. Qed.
Print Assumptions c26_file_refines.

(* ... in particular for every sequence without reopen, whatever the order of control and
   message stores *)
Theorem c26_file_noreopen : forall ops,
  ops_wf ops = true -> zero_free ops = true -> no_reopen ops = true ->
  file_outputs ops = Some (spec_outputs ops).
Proof.
  intros ops Hw Hz Hn. exact (c26_file_refines_lemma ops Hw Hz (no_reopen_safe ops SVirgin Hn)).
Qed.
Print Assumptions c26_file_noreopen.

(* the oracle accepts a run exactly when its results are the contract's *)
Theorem c26_oracle_exact : forall ops r, c26_ok ops r = true <-> r = Some (spec_outputs ops).
Proof. exact c26_ok_iff. Qed.
Print Assumptions c26_oracle_exact.

(* Memory persister (code since commit 760121b): for EVERY operation sequence
   with numbers below 2^31 and searches/ranges starting at >= 1 every result is the contract's,
   the control record included (the last one stored is returned; every control put succeeds).
   No bound on the record length is needed, and reopen is not an operation of this persister.
   The hypotheses are implied by ops_wf / zero_free of the file persister's theorem. *)
Theorem c26_mem_refines : forall ops,
  forallb op_bounded ops = true -> zero_free ops = true ->
  mem_outputs ops = Some (spec_outputs ops).
Proof. exact c26_mem_refines_lemma. Qed.
Print Assumptions c26_mem_refines.

(* The code BEFORE 760121b (F30, repaired): reading the control record back yielded values
   unrelated to what was stored (the oracle rejects them) and a second control put was refused;
   the repaired code on the same inputs returns (5,7), accepts the second put, returns (6,8). *)
Theorem c26_mem_orig_refuted :
  c26_ok [OCtlPut 5 7; OCtlGet] (mem_outputs_orig [OCtlPut 5 7; OCtlGet]) = false /\
  mem_outputs_orig [OCtlPut 5 7; OCtlPut 6 8] = Some [RBool true; RBool false] /\
  spec_outputs [OCtlPut 5 7; OCtlPut 6 8] = [RBool true; RBool true] /\
  mem_outputs [OCtlPut 5 7; OCtlGet; OCtlPut 6 8; OCtlGet] =
    Some [RBool true; RCtl (Some (5, 7)); RBool true; RCtl (Some (6, 8))].
Proof. repeat apply conj; vm_compute; reflexivity. Qed.
Print Assumptions c26_mem_orig_refuted.

(* Range retrieval after any admissible history: the callback is handed exactly the stored
   records with from <= seq <= finish in ascending order (or the first [abort] of them when it
   refuses the abort-th), each with the no-more-records flag clear, then exactly one completion
   call (0, "", flag set); the return value is the number of records handed over. *)
Theorem c26_range_file : forall ops from to abort, file_hyp (ops ++ [ORange from to abort]) ->
  exists vis, file_outputs (ops ++ [ORange from to abort]) =
              Some (spec_outputs ops ++
                    [RRange (N.of_nat (length vis))
                            (map (fun kb => (fst kb, snd kb, false)) vis ++ [completion])]) /\
              range_facts (spec_state ops) from to abort vis.
Proof. exact (cor_range file_outputs file_hyp file_refines_hyp). Qed.
Print Assumptions c26_range_file.

Theorem c26_range_mem : forall ops from to abort, mem_hyp (ops ++ [ORange from to abort]) ->
  exists vis, mem_outputs (ops ++ [ORange from to abort]) =
              Some (spec_outputs ops ++
                    [RRange (N.of_nat (length vis))
                            (map (fun kb => (fst kb, snd kb, false)) vis ++ [completion])]) /\
              range_facts (spec_state ops) from to abort vis.
Proof. exact (cor_range mem_outputs mem_hyp mem_refines_hyp). Qed.
Print Assumptions c26_range_mem.

(* nearest-highest: the smallest stored number in [requested, last], 0 if there is none *)
Theorem c26_nearest_file : forall ops req last, file_hyp (ops ++ [ONearest req last]) ->
  exists r, file_outputs (ops ++ [ONearest req last]) = Some (spec_outputs ops ++ [RNum r]) /\
            nearest_facts (spec_state ops) req last r.
Proof. exact (cor_nearest file_outputs file_hyp file_refines_hyp). Qed.
Print Assumptions c26_nearest_file.

Theorem c26_nearest_mem : forall ops req last, mem_hyp (ops ++ [ONearest req last]) ->
  exists r, mem_outputs (ops ++ [ONearest req last]) = Some (spec_outputs ops ++ [RNum r]) /\
            nearest_facts (spec_state ops) req last r.
Proof. exact (cor_nearest mem_outputs mem_hyp mem_refines_hyp). Qed.
Print Assumptions c26_nearest_mem.

(* last sequence number: the largest stored number, 0 when nothing is stored (the control
   record does not count) *)
Theorem c26_last_file : forall ops, file_hyp (ops ++ [OLast]) ->
  exists l, file_outputs (ops ++ [OLast]) = Some (spec_outputs ops ++ [RNum l]) /\
            last_facts (spec_state ops) l.
Proof. exact (cor_last file_outputs file_hyp file_refines_hyp). Qed.
Print Assumptions c26_last_file.

Theorem c26_last_mem : forall ops, mem_hyp (ops ++ [OLast]) ->
  exists l, mem_outputs (ops ++ [OLast]) = Some (spec_outputs ops ++ [RNum l]) /\
            last_facts (spec_state ops) l.
Proof. exact (cor_last mem_outputs mem_hyp mem_refines_hyp). Qed.
Print Assumptions c26_last_mem.

(* not reopen_safe (F31): put(1); control put; reopen  =>  get(1) fails *)
Theorem c26_file_reopen_refuted :
  ops_wf f31_ops = true /\ zero_free f31_ops = true /\ reopen_safe f31_ops = false /\
  file_outputs f31_ops =
    Some [RBool true; RBool true; RBool true; RBytes (Some [77; 83; 71]); RBool true; RBytes None] /\
  c26_ok f31_ops (file_outputs f31_ops) = false.
Proof. repeat apply conj; vm_compute; reflexivity. Qed.
Print Assumptions c26_file_reopen_refuted.

(* not zero_free: with a control record present, a search or range starting at 0 finds key 0
   and answers "nothing stored" (the session layer rejects BeginSeqNo = 0 before calling) *)
Theorem c26_zero_request_refuted :
  ops_wf zero_ops = true /\ reopen_safe zero_ops = true /\
  zero_free zero_ops = false /\
  file_outputs zero_ops = Some [RBool true; RBool true; RNum 0; RRange 0 [completion]] /\
  mem_outputs zero_ops = Some [RBool true; RBool true; RNum 0; RRange 0 [completion]] /\
  spec_outputs zero_ops = [RBool true; RBool true; RNum 3; RRange 1 [(3, [65], false); completion]].
Proof. repeat apply conj; vm_compute; reflexivity. Qed.
Print Assumptions c26_zero_request_refuted.

(* Records of ANY length (no ops_wf): since a3cf082 a put longer than MaxMsgLen = 8192 is a refused
   put -- the file persister's results are the contract's results on [clip ops], the sequence in
   which every such put is replaced by a refused one; in particular no call overruns a buffer. *)
Theorem c26_file_refines_anylen : forall ops,
  forallb op_bounded ops = true -> N.of_nat (length ops) < LIM ->
  zero_free ops = true -> reopen_safe ops = true ->
  file_outputs ops = Some (spec_outputs (clip ops)).
Proof. exact c26_file_refines_anylen_lemma. Qed.
Print Assumptions c26_file_refines_anylen.

(* The code BEFORE a3cf082 (repaired): put accepted a record of MaxMsgLen + 1 bytes and get read
   it into char buff[8192] (None = overrun); since a3cf082 the put is refused, a later put of the
   same number is accepted; the memory persister has no limit. *)
Theorem c26_overlong_orig_refuted :
  zero_free overlong_ops = true /\ reopen_safe overlong_ops = true /\ ops_wf overlong_ops = false /\
  file_outputs_orig overlong_ops = None /\
  file_outputs overlong_ops = Some [RBool false; RBytes None; RBool true; RBytes (Some [66])] /\
  c26_ok_file overlong_ops (file_outputs overlong_ops) = true /\
  mem_outputs overlong_ops = Some (spec_outputs overlong_ops).
Proof. repeat apply conj; [vm_compute; reflexivity..|apply c26_mem_refines; reflexivity]. Qed.
Print Assumptions c26_overlong_orig_refuted.

(* Non-vacuity: an 18-operation history (accepted, duplicate and zero puts, a reopen, a search, an
   aborted and two complete ranges, the control record read, replaced and read again) meets the
   hypotheses of both refinement theorems. *)
Theorem c26_nonvacuous :
  file_hyp nv_ops /\ mem_hyp nv_ops /\
  spec_outputs nv_ops =
    [RBool true; RBool true; RBool true; RBool false; RBool false; RBool true; RBool true;
     RBytes (Some [1; 2]); RBytes None; RNum 9; RNum 5;
     RRange 2 [(2, [1; 2], false); (5, [], false); completion];
     RRange 3 [(2, [1; 2], false); (5, [], false); (9, [5; 6; 7], false); completion];
     RBool true; RRange 2 [(7, [8], false); (9, [5; 6; 7], false); completion];
     RCtl (Some (4, 9)); RBool true; RCtl (Some (6, 1))].
Proof. repeat apply conj; vm_compute; reflexivity. Qed.
Print Assumptions c26_nonvacuous.
