(* Property C09 -- "Date/time field codecs are calendar-correct inverses".
   Only theorem statements: each is closed by [exact] of a lemma proved in C09/, by a few lines
   that instantiate general theorems proved there, or, where it states a concrete witness, by
   evaluation in place; each is followed by Print Assumptions.
   Model: C09/DateTime.v (fix8 as pinned; [_orig] = time_to_epoch evaluated in int as before the
   repair 4d1009d).  Specification/oracle: C09/Spec_C09.v. *)
From Coq Require Import ZArith List Bool.
From F8 Require Import C09.DateTime C09.Spec_C09 C09.CalendarSweeps C09.DigitProofs C09.PrintProofs
  C09.ParseProofs C09.RoundtripProofs C09.LogProofs.
Import ListNotations.
Local Open Scope Z_scope.

(* The model's calendar (the stand-in for gmtime_r) agrees with the specification's calendar on
   every one of the 47482 days 1970-01-01 .. 2099-12-31: the date it gives is valid, is a date of
   1970..2099, and the specification maps it back to the day.  (By arithmetic: civil_of_days
   inverts the specification's day count on every day number, CalendarSweeps.civil_of_days_spec.) *)
Theorem c09_calendar : forall d, 0 <= d < DAYS ->
  let '(y, m, dd) := civil_of_days d in c09_civil_ok d y m dd = true /\ 1970 <= y <= 2099.
Proof. exact civil_of_days_ok. Qed.
Print Assumptions c09_calendar.

(* time_to_epoch is the inverse of the calendar: for every valid date of 1970..2099 and every time
   of day it returns the second count of that civil time. *)
Theorem c09_epoch_inverse : forall y m d h mi s,
  1970 <= y <= 2099 -> valid_date y m d = true -> 0 <= h < 24 -> 0 <= mi < 60 -> 0 <= s < 60 ->
  time_to_epoch (mk_tm y m d h mi s) 0 false
  = (days_from_civil y m d * 86400 + h * 3600 + mi * 60 + s, false).
Proof. intros. apply time_to_epoch_valid; auto. Qed.
Print Assumptions c09_epoch_inverse.

(* parse_decimal inverts format0: every width, every value that fits the width. *)
Theorem c09_digits : forall w n, 0 <= n < 10 ^ Z.of_nat w ->
  parse_decimal w (format0 n w) 0 false = Some (n, false, []).
Proof. exact digits_roundtrip. Qed.
Print Assumptions c09_digits.

(* The property, codec part: for EVERY nanosecond tick count of 1970-01-01 .. 2100-01-01 (so in
   particular every millisecond instant) the six printed texts (UTCTimestamp, UTCTimeOnly,
   UTCDateOnly, LocalMktDate, MonthYear 6 and 8) have the canonical shape and denote the instant's
   calendar components, and the string constructors give back exactly that component (instant
   truncated to ms, time of day, day, first of the month); no undefined operation is executed. *)
Theorem c09_roundtrip : forall t, in_range t = true ->
  c09_ok t (observe (roundtrip t)) = true /\ forallb (fun p => ub_free (snd p)) (roundtrip t) = true.
Proof. intros t Hr. apply roundtrip_gen_ok; [exact Hr|left; reflexivity]. Qed.
Print Assumptions c09_roundtrip.

(* The string constructors invert EVERY well-formed text of the range, not only the ones print()
   produces (17 and 21 character timestamps, 8 and 12 character times, dates, both MonthYear forms). *)
Theorem c09_parse : forall k s v, denote k s = Some v -> in_range v = true ->
  field_parse (mkind k) s = Ticks v false.
Proof. intros k s v H Hr. apply parse_follows_denote; [exact H|exact Hr|left; reflexivity]. Qed.
Print Assumptions c09_parse.

(* Robustness of the string constructors (since da4ab8c): whatever the characters are -- month
   00, 13, 99, non-digits, bytes >= 0x80 -- a text of at least min_text_len characters (16 for a
   timestamp, 7 for a time, 5 for the dates) always yields a field: nothing outside the NUL
   terminated text and outside time_to_epoch's table is read. *)
Theorem c09_parse_total_partial : forall wide k s, (min_text_len k <= length s)%nat ->
  exists t ub, field_parse_gen wide (mkind k) s = Ticks t ub.
Proof. exact parse_total_lemma. Qed.
Print Assumptions c09_parse_total_partial.

(* ... a shorter one is read past its end ("2014" as a UTCTimestamp: the parser reads 17 bytes
   whatever the length). *)
Theorem c09_parse_overrun_refuted : exists k s, is_now s = false /\ field_parse (mkind k) s = OOB.
Proof. exists S_TS, [50; 48; 49; 52]. vm_compute. split; reflexivity. Qed.
Print Assumptions c09_parse_overrun_refuted.

(* The code before the repair 4d1009d (time_to_epoch evaluated in int, [roundtrip_orig]) violated
   the property from 2038-01-19T03:14:08 on: signed overflow, the timestamp parses to a negative
   tick count ... *)
Theorem c09_y2038_orig_refuted : exists t, in_range t = true /\ c09_ok t (observe (roundtrip_orig t)) = false /\
  forallb (fun p => ub_free (snd p)) (roundtrip_orig t) = false.
Proof. exists (2147483648 * NS_SEC). vm_compute. repeat split. Qed.
Print Assumptions c09_y2038_orig_refuted.

(* ... and was right exactly up to there. *)
Theorem c09_roundtrip_orig_partial : forall t, 0 <= t < 2147483648 * NS_SEC ->
  c09_ok t (observe (roundtrip_orig t)) = true /\ forallb (fun p => ub_free (snd p)) (roundtrip_orig t) = true.
Proof. exact roundtrip_orig_partial_lemma. Qed.
Print Assumptions c09_roundtrip_orig_partial.

(* Log timestamps (GetTimeAsStringMS, gm form; with TZ=UTC also the localtime form): the text shows
   the calendar fields of the instant with seconds in 00..59 and is less than one unit of the last
   printed place away from it -- at precision 0 always; at precisions 1..9 whenever the second of
   the minute is below 59 or the fraction does not round up to a whole second (at nine places it
   never does).  The seconds value is the binary64 computation (secs%60) + nsecs/1e9 printed by
   printf, modelled exactly. *)
Theorem c09_log_partial : forall secs nsecs d, log_in_range secs nsecs d = true ->
  (d = 0%nat \/ secs mod 60 < 59 \/ 2 * nsecs + 10 ^ (9 - Z.of_nat d) < 2 * NS_SEC) ->
  c09_log_ok secs nsecs d (log_render secs nsecs d) = true.
Proof. exact log_partial_lemma. Qed.
Print Assumptions c09_log_partial.

(* ... and otherwise it can show second 60: 1970-01-01 00:00:59.9999996 at six places is printed
   as "1970-01-01 00:00:60.000000" (finding F16). *)
Theorem c09_log_seconds_refuted : exists secs nsecs d, log_in_range secs nsecs d = true /\
  log_seconds d (log_render secs nsecs d) = Some 60 /\ c09_log_ok secs nsecs d (log_render secs nsecs d) = false.
Proof. exists 59, 999999600, 6%nat. vm_compute. repeat split. Qed.
Print Assumptions c09_log_seconds_refuted.

(* Non-vacuity: 2000-02-29T23:59:59.999 meets the hypothesis of c09_roundtrip and yields the
   expected texts "20000229-23:59:59.999", "23:59:59.999", "20000229", "20000229", "200002",
   "20000229" with their components; "2000-02-29 23:59:59.500000" meets those of c09_log_partial. *)
Theorem c09_nonvacuous :
  in_range 951868799999000000 = true /\
  observe (roundtrip 951868799999000000) =
    [([50; 48; 48; 48; 48; 50; 50; 57; 45; 50; 51; 58; 53; 57; 58; 53; 57; 46; 57; 57; 57], Some 951868799999000000);
     ([50; 51; 58; 53; 57; 58; 53; 57; 46; 57; 57; 57], Some 86399999000000);
     ([50; 48; 48; 48; 48; 50; 50; 57], Some 951782400000000000);
     ([50; 48; 48; 48; 48; 50; 50; 57], Some 951782400000000000);
     ([50; 48; 48; 48; 48; 50], Some 949363200000000000);
     ([50; 48; 48; 48; 48; 50; 50; 57], Some 951782400000000000)] /\
  log_in_range 951868799 499999999 6 = true /\
  2 * 499999999 + 10 ^ (9 - Z.of_nat 6) < 2 * NS_SEC /\
  log_render 951868799 499999999 6 =
    [50; 48; 48; 48; 45; 48; 50; 45; 50; 57; 32; 50; 51; 58; 53; 57; 58; 53; 57; 46; 53; 48; 48; 48; 48; 48].
Proof. vm_compute. repeat split; reflexivity || discriminate. Qed.
Print Assumptions c09_nonvacuous.
