(* C19 "Inbound messages reach the application only when in sequence".

   Model: Sess.Session.process (+ enforce, compid_check, sequence_check, dispatch, the handlers), the shared
   session core tied byte for byte to runtime/session.cpp.  The general theorems are for EVERY schema `sc`,
   EVERY decode function `decode` (Message::factory), EVERY text `fl`, EVERY time `now`, EVERY session
   state `s` and EVERY inbound byte string `raw`.
     raw_seq raw     = the number Session::process scans from the raw bytes (first SOH "34=" since /repo 57dfe06,
                       up to the next SOH; before: first "34=" anywhere = raw_seq_with pat_34_orig)
     field_seq m     = the MsgSeqNum field of the decoded message
     delivered evs   = the events contain a DELIVER (handle_application passed the message to the router)
     checked m       = the message type is not Reject (3: handle_reject does not call enforce at all),
                       not SequenceReset (4) and not Logon (A): every other handler starts with enforce
     catch19 ..      = the catch (f8Exception&) block of process; `fatal_branch` says what it does for
                       force_logoff exceptions
   The ..._refuted theorems evaluate the model (decoder = Sess.SimpleCodec on the small schema
   Witness19.sc0, `proc raw s` = process sc0 dec0 fl0 T0 raw s, `run0 ops` = the history interpreter) and the
   oracle c19_ok; the same histories are replayed on the real code by the suite.
   Only theorem statements: each is closed by [exact] of a lemma proved in C19/, by a few lines that
   instantiate general theorems proved there, or, where it states a concrete witness, by evaluation in place;
   each is followed by Print Assumptions. *)
From Coq Require Import NArith ZArith List Bool String.
From F8 Require Import Sess.Bytes Sess.Msg Sess.Persist Sess.Session Sess.Wire
  Sess.SessLemmas Sess.SendLemmas Sess.SimpleCodec C19.Run19 C19.Spec_C19 C19.CodecDecode C19.Witness19 C19.DeliverProofs C19.ResendWire
  C19.GateProofs C19.WitnessProofs.
Import ListNotations.
Local Open Scope string_scope.
Local Open Scope list_scope.
Local Open Scope N_scope.

(* When the number scanned from the raw bytes is the decoded MsgSeqNum: a delivery happens only if the session
   is established, the CompIDs pass (they are not looked at in state logon_received) and the MsgSeqNum equals
   the expected number, or is lower with PossDupFlag set and OrigSendingTime not after SendingTime. *)
Theorem c19_delivery_partial :
  forall sc decode fl now raw s m r s' e,
  decode raw = DecOk m -> raw_seq raw = Some (field_seq m) ->
  process sc decode fl now raw s = (r, s', e) -> delivered e = true ->
  is_established (s_state s) = true /\
  (s_state s = st_logon_received \/ compid_pass s m = true) /\
  (field_seq m = s_next_recv s \/
   (field_seq m < s_next_recv s /\ possdup_of m = true /\ orig_after m = false)).
Proof.
  intros sc decode fl now raw s m r s' e D R P Dl.
  destruct (process_delivered sc decode fl now raw s _ m r s' e R D P Dl) as [A [B [_ C]]]. repeat split; assumption.
Qed.
Print Assumptions c19_delivery_partial.

(* The same without the hypothesis, on the number process really uses. *)
Theorem c19_delivery_rawseq :
  forall sc decode fl now raw s q m r s' e,
  raw_seq raw = Some q -> decode raw = DecOk m ->
  process sc decode fl now raw s = (r, s', e) -> delivered e = true ->
  is_established (s_state s) = true /\
  (s_state s = st_logon_received \/ compid_pass s m = true) /\
  beq (m_type m) mt_sequence_reset = false /\ inseq s q m.
Proof. exact process_delivered. Qed.
Print Assumptions c19_delivery_rawseq.

(* THE SCAN LEMMA (after the repair of F24): in a stream of tag=value tokens whose values contain no SOH the first
   SOH "34=" is the first token after the leading one whose tag is 34, and the number read is its value. *)
Theorem c19_scan_is_token :
  forall t0 toks, forallb tok_ok (t0 :: toks) = true ->
  raw_seq (enc_toks (t0 :: toks)) =
  match tok_get (dec T_MsgSeqNum) toks with Some v => Some (atoi_u v 0) | None => None end.
Proof. exact raw_seq_tokens. Qed.
Print Assumptions c19_scan_is_token.

(* c19_delivery_partial AT FULL STRENGTH, without the raw = field hypothesis: for every message that is a stream of
   tokens (values without SOH, tags canonical decimals: tok_ok19) and every decoder that takes the header's
   MsgSeqNum from the first token with tag 34 (seq_from_token; Sess.SimpleCodec is one: next theorem), the number
   process gates on IS the decoded MsgSeqNum, hence a delivery happens only in sequence.  What escapes is exactly
   a value containing SOH, i.e. the content of a data field: c19_34_data_refuted. *)
Theorem c19_delivery_tokens :
  forall sc decode fl now t0 toks s m r s' e,
  seq_from_token decode -> forallb tok_ok19 (t0 :: toks) = true ->
  decode (enc_toks (t0 :: toks)) = DecOk m ->
  process sc decode fl now (enc_toks (t0 :: toks)) s = (r, s', e) -> delivered e = true ->
  is_established (s_state s) = true /\
  (s_state s = st_logon_received \/ compid_pass s m = true) /\
  (field_seq m = s_next_recv s \/
   (field_seq m < s_next_recv s /\ possdup_of m = true /\ orig_after m = false)).
Proof.
  intros sc decode fl now t0 toks s m r s' e SF OK D P Dl.
  destruct (gate_is_msgseqnum decode t0 toks m SF OK D) as [[R _]|[R _]].
  - exact (c19_delivery_partial sc decode fl now _ s m r s' e D R P Dl).
  - destruct (process_delivered_inv sc decode fl now _ s r s' e P Dl) as [q [_ [R' _]]]. congruence.
Qed.
Print Assumptions c19_delivery_tokens.

Theorem c19_gate_is_msgseqnum :
  forall decode t0 toks m,
  seq_from_token decode -> forallb tok_ok19 (t0 :: toks) = true -> decode (enc_toks (t0 :: toks)) = DecOk m ->
  (raw_seq (enc_toks (t0 :: toks)) = Some (field_seq m) /\ get_field T_MsgSeqNum (m_hdr m) <> None) \/
  (raw_seq (enc_toks (t0 :: toks)) = None /\ get_field T_MsgSeqNum (m_hdr m) = None).
Proof. exact gate_is_msgseqnum. Qed.
Print Assumptions c19_gate_is_msgseqnum.

Theorem c19_simple_decode_seq_from_token :
  forall sc fl, In T_MsgSeqNum (sc_hdr_mand sc) -> seq_from_token (simple_decode sc fl).
Proof. exact simple_decode_seq_from_token. Qed.
Print Assumptions c19_simple_decode_seq_from_token.

(* A higher number (established session, CompIDs pass, checked type): never delivered; in state `continuous` the
   first thing put on the wire is send(generate_resend_request(expected, 0)); in every other state process
   takes the force_logoff branch on the untouched session: no ResendRequest, the message is not held. *)
Theorem c19_high_partial :
  forall sc decode fl now raw s m q,
  decode raw = DecOk m -> raw_seq raw = Some q -> checked m = true -> s_active s = true ->
  is_established (s_state s) = true -> compid_pass s m = true -> s_next_recv s < q ->
  (forall r s' e, process sc decode fl now raw s = (r, s', e) -> quiet e) /\
  (s_state s = st_continuous ->
   forall ok s1 e1, send sc now s (generate_resend_request sc (s_next_recv s) 0) 0 false = (ok, s1, e1) ->
   forall r s' e, process sc decode fl now raw s = (r, s', e) -> exists e2, e = (e1 ++ e2)%list) /\
  (s_state s <> st_continuous ->
   exists text, process sc decode fl now raw s = catch19 sc now q (Some (m_type m)) (inr (Exc text true), s, [])).
Proof. exact high_partial. Qed.
Print Assumptions c19_high_partial.

(* The same clause for state `continuous` in the oracle's own terms: with a schema that knows the header fields the
   session fills in and the ResendRequest (wf_schema, knows_rr), CompIDs without SOH (wf_sess), an open socket
   and no batch pending, the events of process start with ONE message on the wire, a ResendRequest (35=2) whose
   BeginSeqNo is the expected number, and contain no DELIVER. *)
Theorem c19_high_continuous_wire :
  forall sc decode fl now raw s m q,
  decode raw = DecOk m -> raw_seq raw = Some q -> checked m = true -> s_active s = true ->
  is_established (s_state s) = true -> compid_pass s m = true -> s_next_recv s < q ->
  s_state s = st_continuous ->
  wf_schema sc = true -> knows_rr sc -> wf_sess s = true -> s_closed s = false -> s_batch s = [] ->
  forall r s' e, process sc decode fl now raw s = (r, s', e) ->
  has_deliver e = false /\ exists w rest, e = EOut w :: rest /\ resend_from (s_next_recv s) [EOut w] = true.
Proof.
  intros sc decode fl now raw s m q D R C A Est Cp H St WS K WSS Cl B r s' e P.
  destruct (c19_high_partial sc decode fl now raw s m q D R C A Est Cp H) as [Qt [Hc _]].
  destruct (resend_request_wire sc now s (s_next_recv s) WS K WSS Cl B) as [s1 [w [Sd RF]]].
  split; [exact (Qt _ _ _ P)|]. destruct (Hc St _ _ _ Sd _ _ _ P) as [e2 Ee]. exists w, e2. split; assumption.
Qed.
Print Assumptions c19_high_continuous_wire.

(* A lower number without PossDupFlag, a duplicate whose OrigSendingTime is after its SendingTime, or wrong
   CompIDs under enforcement (established session, checked type): process takes the force_logoff branch on
   the untouched session (hence no delivery: see c19_fatal_branch). *)
Theorem c19_stop_partial :
  forall sc decode fl now raw s m q,
  decode raw = DecOk m -> raw_seq raw = Some q -> checked m = true -> s_active s = true ->
  is_established (s_state s) = true -> violation s q m ->
  exists text, process sc decode fl now raw s = catch19 sc now q (Some (m_type m)) (inr (Exc text true), s, []).
Proof.
  intros sc decode fl now raw s m q D R C A Est V. apply process_fatal; try assumption.
  apply verdict_violation; try assumption. apply checked_not_reset. exact C.
Qed.
Print Assumptions c19_stop_partial.

(* The force_logoff branch: process returns false and the session is shut down; in every state other than
   logon_received NOTHING is put on the wire (no Logout); in logon_received (and without silent_disconnect)
   exactly send(generate_logout(text)) is. *)
Theorem c19_fatal_branch :
  forall sc now q mt text s,
  (s_state s <> st_logon_received ->
   catch19 sc now q mt (inr (Exc text true), s, []) = (false, stop s, [])) /\
  (s_state s = st_logon_received -> pr_sd (s_par s) = false ->
   catch19 sc now q mt (inr (Exc text true), s, []) =
   (let '(_, sb, eb) := send sc now (w_state st_session_terminated s) (generate_logout sc (Some text)) 0 true in
    (false, stop (w_state st_logoff_sent sb), eb))) /\
  (forall r s' e, catch19 sc now q mt (inr (Exc text true), s, []) = (r, s', e) -> r = false /\ s_shutdown s' = true).
Proof. exact fatal_branch. Qed.
Print Assumptions c19_fatal_branch.

(* A message that fails decoding is never delivered; unless the exception forces logoff it is answered with
   send(generate_reject(raw number, text)), process returns true, the expected number is incremented and (since
   /repo beb4ce7) the control record is updated. *)
Theorem c19_decode_failure :
  forall sc decode fl now raw s q text force,
  decode raw = DecExc text force -> raw_seq raw = Some q ->
  (forall r s' e, process sc decode fl now raw s = (r, s', e) -> quiet e) /\
  (force = false ->
   process sc decode fl now raw s =
   (let '(_, s2, e2) := send sc now s (generate_reject sc q (Some text) None) 0 false in
    (true, update_persist_seqnums (w_next_recv (s_next_recv s + 1) s2), e2))) /\
  (force = true -> process sc decode fl now raw s = catch19 sc now q None (inr (Exc text true), s, [])).
Proof.
  intros sc decode fl now raw s q text force D R.
  rewrite (process_numbered sc decode fl now raw s q R), D. split; [|split].
  - intros r s' e P. apply catch19_events in P. destruct P as [e2 [E Q2]]. subst e. exact Q2.
  - intro F. subst force. apply catch19_reject.
  - intro F. subst force. reflexivity.
Qed.
Print Assumptions c19_decode_failure.

(* Whatever the bytes are: without a successfully decoded message there is no delivery. *)
Theorem c19_undecoded_never_delivered :
  forall sc decode fl now raw s r s' e,
  (forall m, decode raw <> DecOk m) -> process sc decode fl now raw s = (r, s', e) -> quiet e.
Proof.
  intros sc decode fl now raw s r s' e ND P. apply not_true_is_false. intro Dl.
  destruct (process_delivered_inv sc decode fl now raw s r s' e P Dl) as [q [m [_ [D _]]]]. exact (ND m D).
Qed.
Print Assumptions c19_undecoded_never_delivered.

(* Note: a message without any "34=" is answered with Reject(RefSeqNum = 0) AND the expected number is incremented. *)
Theorem c19_no34_note :
  forall sc decode fl now raw s,
  find_after pat_34 raw = None ->
  process sc decode fl now raw s =
  (let '(_, s2, e2) := send sc now s (generate_reject sc 0 (Some (fmt2 txt_invmsg raw txt_at fl)) None) 0 false in
   (true, update_persist_seqnums (w_next_recv (s_next_recv s + 1) s2), e2)).
Proof.
  intros sc decode fl now raw s F. rewrite (process_no34 sc decode fl now raw s F). apply catch19_reject.
Qed.
Print Assumptions c19_no34_note.

(* The converse for application messages: a decoded message of any type process sends to handle_application
   (app_type: everything but the seven one-character administrative types, in particular EVERY type of two or more
   characters whatever its first character) that is in sequence, on an established active session with passing
   CompIDs, IS delivered: the events of process are exactly one DELIVER of that type and number. *)
Theorem c19_in_sequence_delivered :
  forall sc decode fl now raw s m,
  decode raw = DecOk m -> raw_seq raw = Some (field_seq m) -> app_type (m_type m) = true -> s_active s = true ->
  is_established (s_state s) = true -> (s_state s = st_logon_received \/ compid_pass s m = true) ->
  (field_seq m = s_next_recv s \/
   (field_seq m < s_next_recv s /\ possdup_of m = true /\ orig_after m = false)) ->
  exists s', process sc decode fl now raw s =
             (mem_bytes (m_type m) (sc_routed sc), s', [EDeliver (m_type m) (field_seq m) (possdup_of m)]).
Proof.
  intros sc decode fl now raw s m D R A Act Est C I. apply process_pass; try assumption.
  apply verdict_pass. repeat split; try assumption. apply app_type_not_reset. exact A.
Qed.
Print Assumptions c19_in_sequence_delivered.

(* ... on a two-character application type that starts with the Heartbeat's character: delivered as "0X", the
   oracle accepts; the same trace without the DELIVER (the message swallowed by an admin handler) is rejected. *)
Theorem c19_twochar_witness :
  app_type (b "0X") = true /\ is_app sc0 (b "0X") = true /\
  decoded_seq raw_0x = Some 2 /\ raw_seq raw_0x = Some 2 /\ s_next_recv s_cont = 2 /\
  delivers_of (p_evs (proc raw_0x s_cont)) = [b "0X"] /\
  c19_ok sc0 lens0 ops_0x (run0 ops_0x) = true /\
  c19_ok sc0 lens0 ops_0x (run0c ops_0x) = true /\
  c19_ok sc0 lens0 ops_0x (drop_delivers (run0 ops_0x)) = false.
Proof. vm_compute. repeat split; reflexivity. Qed.
Print Assumptions c19_twochar_witness.

(* Zero-padded VALUES are inside the domain of c19_gate_is_msgseqnum / c19_delivery_tokens (tok_ok19 constrains the
   TAGS to canonical decimals and the values to be SOH-free): `34=010` is a token stream with tok_ok19, the gating
   number and the decoded MsgSeqNum are both 10 (the same decimal reading, atoi_u, of the same text); at expected 10
   it is delivered, at expected 8 it is NOT delivered and answered with ResendRequest(8..). *)
Theorem c19_padded_seqnum_witness :
  forallb tok_ok19 toks_pad = true /\ enc_toks toks_pad = raw_pad /\
  decoded_seq raw_pad = Some 10 /\ raw_seq raw_pad = Some 10 /\
  s_next_recv s_exp10 = 10 /\ delivers_of (p_evs (proc raw_pad s_exp10)) = [b "D"] /\
  s_next_recv s_exp8 = 8 /\ delivered (p_evs (proc raw_pad s_exp8)) = false /\
  resend_from 8 (p_evs (proc raw_pad s_exp8)) = true.
Proof. vm_compute. repeat split; reflexivity. Qed.
Print Assumptions c19_padded_seqnum_witness.

(* Once the session is shut down the reader loop hands nothing more to process (no delivery after the end). *)
Theorem c19_after_stop_nothing :
  forall sc decode fl now l s evs,
  is_shutdown s = true -> snd (reader_loop sc decode fl now l s evs) = evs.
Proof. exact after_stop_nothing. Qed.
Print Assumptions c19_after_stop_nothing.

(* F24 as it was before /repo 57dfe06 (search for "34=" anywhere, process_with .. pat_34_orig): `35=D|49=SRV|56=CLI|
   115=X34=2|34=7|...` in state continuous with expected number 2 was DELIVERED although its MsgSeqNum is 7; with the
   repaired search the same message is gated on 7: not delivered, ResendRequest(2..). *)
Theorem c19_34_orig_refuted :
  exists (s : sess) (raw : list N) (m : msg),
    dec0 raw = DecOk m /\ field_seq m = 7 /\ raw_seq_with pat_34_orig raw = Some 2 /\
    s_state s = st_continuous /\ s_next_recv s = 2 /\
    delivered (p_evs (proc_orig raw s)) = true /\
    raw_seq raw = Some 7 /\ delivered (p_evs (proc raw s)) = false /\ resend_from 2 (p_evs (proc raw s)) = true.
Proof. exists s_cont, raw_34, (decoded (dec0 raw_34)). vm_compute. repeat split; reflexivity. Qed.
Print Assumptions c19_34_orig_refuted.

(* F24, what is left: SOH "34=2" inside the content of a data field in front of the MsgSeqNum field
   (`...|90=6|91=X<SOH>34=2|34=7|...`, decoder = the Codec group's model of Message::factory, `proc_c`, `run0c`): the
   message is decoded (MsgSeqNum 7), gated on 2 and DELIVERED at expected 2; the oracle rejects the history. *)
Theorem c19_34_data_refuted :
  exists (s : sess) (raw : list N) (m : msg),
    dec0c raw = DecOk m /\ field_seq m = 7 /\ raw_seq raw = Some 2 /\
    s_state s = st_continuous /\ s_next_recv s = 2 /\
    delivered (p_evs (proc_c raw s)) = true /\
    exists ops, c19_ok sc0 lens0 ops (run0c ops) = false.
Proof.
  exists s_cont, raw_d34, (decoded (dec0c raw_d34)).
  repeat apply conj; [vm_compute; reflexivity ..|exists ops_d34; vm_compute; reflexivity].
Qed.
Print Assumptions c19_34_data_refuted.

(* F26.  A second message above the expected number while the resend is pending (state resend_request_sent): the
   session is stopped with nothing on the wire instead of the message being held. *)
Theorem c19_second_gap_refuted :
  exists (s : sess) (raw : list N) (m : msg),
    dec0 raw = DecOk m /\ raw_seq raw = Some (field_seq m) /\
    s_state s = st_resend_request_sent /\ s_next_recv s < field_seq m /\
    proc raw s = (false, stop s, []) /\
    exists ops, c19_ok sc0 lens0 ops (run0 ops) = false.
Proof.
  exists s_pending, (order_msg "6" []), (decoded (dec0 (order_msg "6" []))).
  repeat apply conj; [vm_compute; reflexivity ..|exists ops_second_gap; vm_compute; reflexivity].
Qed.
Print Assumptions c19_second_gap_refuted.

(* F25.  Once the session is continuous a too-low number, or a CompID violation under enforcement, stops the
   session WITHOUT any Logout on the wire. *)
Theorem c19_no_logout_refuted :
  (exists (s : sess) (raw : list N) (m : msg),
     dec0 raw = DecOk m /\ raw_seq raw = Some (field_seq m) /\
     s_state s = st_continuous /\ field_seq m < s_next_recv s /\ possdup_of m = false /\
     proc raw s = (false, stop s, []) /\
     exists ops, c19_ok sc0 lens0 ops (run0 ops) = false) /\
  (exists (s : sess) (raw : list N) (m : msg),
     dec0 raw = DecOk m /\ s_state s = st_continuous /\ pr_ec (s_par s) = true /\ compid_pass s m = false /\
     proc raw s = (false, stop s, []) /\
     exists ops, c19_ok sc0 lens0 ops (run0 ops) = false).
Proof.
  split.
  - exists s_cont3, (order_msg "2" []), (decoded (dec0 (order_msg "2" []))).
    repeat apply conj; [vm_compute; reflexivity ..|exists ops_low; vm_compute; reflexivity].
  - exists s_cont, raw_xxx, (decoded (dec0 raw_xxx)).
    repeat apply conj; [vm_compute; reflexivity ..|exists ops_compid; vm_compute; reflexivity].
Qed.
Print Assumptions c19_no_logout_refuted.

(* The no-"34=" note on a concrete message: Reject with RefSeqNum 0, expected number 2 -> 3 (the oracle accepts). *)
Theorem c19_no34_witness :
  raw_seq raw_no34 = None /\ s_next_recv s_cont = 2 /\
  p_ret (proc raw_no34 s_cont) = true /\ s_next_recv (p_sess (proc raw_no34 s_cont)) = 3 /\
  existsb (fun e => match e with
                    | EOut o => beq (val (fld T_MsgType (tokens o))) [51] && beq (val (fld T_RefSeqNum (tokens o))) [48]
                    | _ => false end) (p_evs (proc raw_no34 s_cont)) = true /\
  c19_ok sc0 lens0 ops_no34 (run0 ops_no34) = true.
Proof. vm_compute. repeat split; reflexivity. Qed.
Print Assumptions c19_no34_witness.

(* Non-vacuity: ordinary traffic meets the hypotheses of c19_delivery_partial and IS delivered (number 2 at
   expected 2; duplicate 2 with PossDupFlag and an earlier OrigSendingTime at expected 3); a gap is answered
   with ResendRequest(5..); a too-low Logon in state logon_received is answered with a Logout; the oracle
   accepts these histories; the side conditions of c19_high_continuous_wire hold for the witness schema/session; the hypotheses of
   c19_delivery_tokens (MsgSeqNum mandatory, a token stream with canonical tags) are met by the same ordinary message. *)
Theorem c19_delivery_nonvacuous :
  (decoded_seq (order_msg "2" []) = Some 2 /\ raw_seq (order_msg "2" []) = Some 2 /\ s_next_recv s_cont = 2 /\
   delivered (p_evs (proc (order_msg "2" []) s_cont)) = true /\
   decoded_seq (order_msg "2" dup_hdr) = Some 2 /\ raw_seq (order_msg "2" dup_hdr) = Some 2 /\ s_next_recv s_cont3 = 3 /\
   delivered (p_evs (proc (order_msg "2" dup_hdr) s_cont3)) = true) /\
  (c19_ok sc0 lens0 ops_good (run0 ops_good) = true /\
   has_deliver (nth_events 2 (run0 ops_good)) = true /\
   has_deliver (nth_events 3 (run0 ops_good)) = true /\
   has_deliver (nth_events 5 (run0 ops_good)) = false /\
   resend_from 5 (nth_events 5 (run0 ops_good)) = true /\
   c19_ok sc0 lens0 ops_logon_low (run0 ops_logon_low) = true /\
   has_out [53] (last_events (run0 ops_logon_low)) = true) /\
  (wf_schema sc0 = true /\ knows_rr sc0 /\ wf_sess s_cont = true /\ s_closed s_cont = false /\ s_batch s_cont = []) /\
  (In T_MsgSeqNum (sc_hdr_mand sc0) /\
   forallb tok_ok19 toks_order2 = true /\ enc_toks toks_order2 = order_msg "2" [] /\
   decoded_seq (enc_toks toks_order2) = Some 2 /\
   delivered (p_evs (proc (enc_toks toks_order2) s_cont)) = true).
Proof. exact (conj wdeliver (conj wgood (conj sc0_wire_ok wtokens))). Qed.
Print Assumptions c19_delivery_nonvacuous.
