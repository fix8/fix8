(* Property C13 -- "Schema compiler output implements the schema".
   Only theorem statements: each is closed by [exact] of a lemma proved in C13/..., by a few lines
   that instantiate general theorems proved there, or, where it states a concrete witness, by
   evaluation in place; each is followed by Print Assumptions.
   meta_of_schema (C13/Schema.v) is the SPECIFICATION of the tables f8c has to generate; the C++
   text generation is not modelled but validated per schema on every run (translation validation:
   the compiled output's tables are read back and compared with meta_of_schema on the same schema).
   f8c_meta (C14/GroupHash.v) is the model of what the pinned f8c actually emits. *)
From Coq Require Import NArith List Bool.
From F8 Require Import C13.SMap C13.Schema C13.WfMeta C13.WfProofs C13.Examples C13.Probe
                       C14.GroupHash C13.ConformProofs.
Import ListNotations.
Local Open Scope N_scope.

(* For every valid schema the specified metadata exists and is well-formed: field table, message
   table, component names, every realm and every trait table (at every nesting depth) strictly
   sorted with key = number; positions of a level pairwise different and within 1..n; behind
   every group trait a non-empty group class that has a first field (position 1), and only there;
   every message table entry has a trait tree; 8, 9, 35 in the header and 10 in the trailer are
   plain automatic traits that are not checked for presence.  These are the hypotheses the
   generic codec needs of its metadata. *)
Theorem c13_meta_wf : forall s, wf_schema s = true ->
  exists m, meta_of_schema s = Some m /\ wf_meta m = true.
Proof. exact meta_wf_lemma. Qed.
Print Assumptions c13_meta_wf.

(* The trait tree of every valid level (message, header, trailer, group body). *)
Theorem c13_own_node_wf : forall its, level_ok its = true -> wf_node (own_node its) = true.
Proof. exact wf_own_node_lemma. Qed.
Print Assumptions c13_own_node_wf.

(* Partial conformance of the pinned f8c (its model) to the specification: if (1) expanding the
   messages with f8precomp's depth-3 rule gives what the uniform rule gives, and (2) group_hash
   tells the schema's group definitions apart, f8c generates exactly the specified metadata
   (levels_shallow: no level nests FUEL = 64 deep, the bound of the modelled generator).
   Both premises are decidable and evaluated on every schema of the tie; their negations are
   the classifiers of the two listed findings. *)
Theorem c13_f8c_conforms_partial : forall s x,
  expand_schema false s = Some x ->
  expand_msgs true s = expand_msgs false s ->
  defs_injective (schema_defs x) = true -> levels_shallow x = true ->
  f8c_meta s = meta_of_schema s.
Proof. exact conforms_partial_lemma. Qed.
Print Assumptions c13_f8c_conforms_partial.

(* Refuted as stated: a valid schema with a required component nested in an optional one, used
   directly in a message, gets mandatory flags the schema does not ask for; a message omitting
   the optional component is then rejected by the generated decoder. *)
Theorem c13_nested_component_refuted :
  wf_schema ex_nested_comp = true
  /\ f8c_meta ex_nested_comp <> meta_of_schema ex_nested_comp
  /\ (exists mm ms h nm ns,
        f8c_meta ex_nested_comp = Some mm /\ meta_of_schema ex_nested_comp = Some ms
        /\ sm_find HEADER (mt_nodes ms) = Some h
        /\ sm_find OO (mt_nodes mm) = Some nm /\ sm_find OO (mt_nodes ms) = Some ns
        /\ probe_outcome (fun _ => false) h ns [PField 49; PField 56; PField 34; PField 52] [PField 2374] = 0
        /\ probe_outcome (fun _ => false) h nm [PField 49; PField 56; PField 34; PField 52] [PField 2374] = 3).
Proof. exact nested_component_refuted_lemma. Qed.
Print Assumptions c13_nested_component_refuted.

(* Non-vacuity: a schema with enumerations, a component used as required and as optional and a
   group (with a nested group) shared by two messages is valid, meets both premises of
   c13_f8c_conforms_partial, and its specified metadata (5 trait trees) is well-formed. *)
Theorem c13_nonvacuous :
  wf_schema ex_clean = true
  /\ (exists x, expand_schema false ex_clean = Some x
                /\ expand_msgs true ex_clean = expand_msgs false ex_clean
                /\ defs_injective (schema_defs x) = true /\ levels_shallow x = true
                /\ length (schema_defs x) = 4%nat)
  /\ (exists m, meta_of_schema ex_clean = Some m /\ wf_meta m = true /\ length (mt_nodes m) = 5%nat).
Proof. exact conforms_nonvacuous_lemma. Qed.
Print Assumptions c13_nonvacuous.
