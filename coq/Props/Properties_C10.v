(* Property C10 -- "Enumerated-value lookups describe only the actual value".
   Only theorem statements: each is closed by [exact] of a lemma proved in C10/RealmProofs.v
   (bisection lemmas in C12/BisectProofs.v), or, where it states a concrete witness or what the
   field wrappers unfold to, by evaluation in place; each is followed by Print Assumptions.
   Model: C10/Realm.v (RealmBase::is_valid / get_rlm_idx, the printer's description lookup) over
   the libstdc++ bisection model C12/Bisect.v;  oracle: C10/Spec_C10.v (linear scan). *)
From Coq Require Import Arith List Bool ZArith.
From F8 Require Import C12.Bisect C12.BisectProofs C10.Realm C10.Spec_C10 C10.RealmProofs.
Import ListNotations.

(* The comparators of the realm element types are strict total orders: signed char / int /
   (finite) double as integers under <, std::string under lexicographic byte order. *)
Theorem c10_orders : strict_total Z.ltb /\ strict_total str_ltb.
Proof. exact (conj Zltb_strict_total str_ltb_strict_total). Qed.
Print Assumptions c10_orders.

(* std::lower_bound is modelled, not assumed: on a sorted array it returns the number of
   elements smaller than the key (and never reads outside the array / runs out of fuel). *)
Theorem c10_lower_bound_count : forall (A : Type) (lt : A -> A -> bool), strict_total lt ->
  forall (l : list A) (v : A), sortedb lt l = true -> lower_bound lt l v = Some (count_lt lt l v).
Proof. exact (@o_lower_bound_sorted). Qed.
Print Assumptions c10_lower_bound_count.

(* No lookup on any realm, sorted or not, reads out of bounds or runs out of fuel. *)
Theorem c10_idx_total : forall (A : Type) (lt : A -> A -> bool) fixed k (S : list A) v,
  exists r, get_rlm_idx_gen lt fixed k S v = Some r.
Proof. exact (@idx_total). Qed.
Print Assumptions c10_idx_total.

(* Set realms: the validity check is membership. *)
Theorem c10_is_valid_set : forall (A : Type) (lt : A -> A -> bool), strict_total lt ->
  forall (S : list A) (v : A), sortedb lt S = true ->
  exists b, is_valid lt dt_set S v = Some b /\ (b = true <-> In v S).
Proof. exact (@is_valid_set_In). Qed.
Print Assumptions c10_is_valid_set.

(* Range realms: the validity check is range inclusion. *)
Theorem c10_is_valid_range : forall (lo hi v : Z) (b : bool),
  is_valid Z.ltb dt_range [lo; hi] v = Some b -> (b = true <-> (lo <= v <= hi)%Z).
Proof. exact is_valid_range_Z_lemma. Qed.
Print Assumptions c10_is_valid_range.

(* MAIN: set realms, the code since 63dae2a (lower_bound followed by an equality test).  An index
   is reported exactly for the members of the domain, and it is that member's position. *)
Theorem c10_idx_exact : forall (A : Type) (lt : A -> A -> bool), strict_total lt ->
  forall (S : list A) (v : A), sortedb lt S = true ->
  exists r, get_rlm_idx lt dt_set S v = Some r /\
            forall i, r = Some i <-> nth_error S i = Some v.
Proof. exact (@idx_exact). Qed.
Print Assumptions c10_idx_exact.

Theorem c10_idx_exists_iff_member : forall (A : Type) (lt : A -> A -> bool), strict_total lt ->
  forall (S : list A) (v : A), sortedb lt S = true ->
  exists r, get_rlm_idx lt dt_set S v = Some r /\ ((exists i, r = Some i) <-> In v S).
Proof. exact (@idx_exists_iff_member). Qed.
Print Assumptions c10_idx_exists_iff_member.

(* The printer (description chosen by that index): a description is shown exactly for members,
   and it is the one paired with the value. *)
Theorem c10_desc_exact : forall (A : Type) (lt : A -> A -> bool), strict_total lt ->
  forall (D : Type) (S : list A) (descs : list D) (v : A),
  sortedb lt S = true -> length descs = length S ->
  exists r, describe lt dt_set S descs v = Some r /\
            forall d, r = Some d <-> exists i, nth_error S i = Some v /\ nth_error descs i = Some d.
Proof. exact (@desc_exact). Qed.
Print Assumptions c10_desc_exact.

(* Against the oracle (Spec_C10, linear scan), for every value: index, description, validity. *)
Theorem c10_oracle_idx : forall (A : Type) (lt : A -> A -> bool), strict_total lt ->
  forall (S : list A) (v : A) r, sortedb lt S = true ->
  get_rlm_idx lt dt_set S v = Some r -> c10_idx_ok lt S v r = true.
Proof. exact (@model_idx_ok). Qed.
Print Assumptions c10_oracle_idx.

Theorem c10_oracle_desc : forall (A : Type) (lt : A -> A -> bool), strict_total lt ->
  forall (D : Type) (eqD : D -> D -> bool), (forall d, eqD d d = true) ->
  forall (S : list A) (descs : list D) (v : A) r,
  sortedb lt S = true -> length descs = length S ->
  describe lt dt_set S descs v = Some r -> c10_desc_ok lt eqD S descs v r = true.
Proof. exact (@model_desc_ok). Qed.
Print Assumptions c10_oracle_desc.

Theorem c10_oracle_valid : forall (A : Type) (lt : A -> A -> bool), strict_total lt ->
  forall (S : list A) (v : A) b, sortedb lt S = true ->
  is_valid lt dt_set S v = Some b -> c10_valid_ok lt dt_set S v b = true.
Proof. exact (@model_valid_ok). Qed.
Print Assumptions c10_oracle_valid.

(* The ORIGINAL routine (before 63dae2a: lower_bound's index with no equality test) violated the
   property: a non-member below the maximum got the index -- and description -- of the next
   larger member (Side '0' -> index 0 = BUY). *)
Theorem c10_idx_orig_refuted :
  exists (S : list Z) (v : Z) (i : nat) (y : Z),
    sortedb Z.ltb S = true /\ ~ In v S /\
    get_rlm_idx_orig Z.ltb dt_set S v = Some (Some i) /\ nth_error S i = Some y /\ y <> v /\
    c10_idx_ok Z.ltb S v (Some i) = false.
Proof.
  exists side_realm, 48%Z, 0, 49%Z. repeat split; try reflexivity; try discriminate.
  cbn. intuition discriminate.
Qed.
Print Assumptions c10_idx_orig_refuted.

(* The field object (Field<T,field>::is_valid / get_rlm_idx, one wrapper per specialisation): the
   realm function is applied to the WHOLE value of the field -- validity of a field with a set
   realm is membership of the whole value; a field without a realm is valid and has no index. *)
Theorem c10_field_is_valid : forall (A : Type) (lt : A -> A -> bool), strict_total lt ->
  forall (S : list A) (v : A), sortedb lt S = true ->
  exists b, field_is_valid lt (Some (dt_set, S)) v = Some b /\ (b = true <-> In v S).
Proof. exact (@is_valid_set_In). Qed.
Print Assumptions c10_field_is_valid.

Theorem c10_field_no_realm : forall (A : Type) (lt : A -> A -> bool) (v : A),
  field_is_valid lt None v = Some true /\ field_get_rlm_idx lt None v = Some None.
Proof. split; reflexivity. Qed.
Print Assumptions c10_field_no_realm.

Theorem c10_field_idx : forall (A : Type) (lt : A -> A -> bool) fixed k (S : list A) (v : A),
  field_get_rlm_idx_gen lt fixed (Some (k, S)) v = get_rlm_idx_gen lt fixed k S v.
Proof. reflexivity. Qed.
Print Assumptions c10_field_idx.

Theorem c10_oracle_field_valid : forall (A : Type) (lt : A -> A -> bool), strict_total lt ->
  forall (rlm : option (rkind * list A)) (v : A) b,
  match rlm with Some (dt_set, R) => sortedb lt R = true
               | Some (dt_range, R) => exists lo hi, R = [lo; hi] | None => True end ->
  field_is_valid lt rlm v = Some b -> c10_field_valid_ok lt rlm v b = true.
Proof. exact (@model_field_valid_ok). Qed.
Print Assumptions c10_oracle_field_valid.

(* REFUTED for range realms (still true of the code): the index is 0 (the lower bound's
   description) for every value, even one outside the range. *)
Theorem c10_idx_range_refuted :
  exists (lo hi v : Z),
    is_valid Z.ltb dt_range [lo; hi] v = Some false /\
    get_rlm_idx Z.ltb dt_range [lo; hi] v = Some (Some 0%nat) /\
    c10_idx_ok Z.ltb [lo; hi] v (Some 0%nat) = false.
Proof. exists 1%Z, 10%Z, 50%Z. repeat split; reflexivity. Qed.
Print Assumptions c10_idx_range_refuted.

(* Non-vacuity: the Side realm '1'..'9' is sorted; '5' is a member (index 4, its own description),
   'A' and '0' are not (no index, no description); a string realm likewise. *)
Theorem c10_nonvacuous :
  sortedb Z.ltb side_realm = true /\
  get_rlm_idx Z.ltb dt_set side_realm 53%Z = Some (Some 4%nat) /\
  get_rlm_idx Z.ltb dt_set side_realm 65%Z = Some None /\
  get_rlm_idx Z.ltb dt_set side_realm 48%Z = Some None /\
  describe Z.ltb dt_set side_realm [1; 2; 3; 4; 5; 6; 7; 8; 9]%Z 53%Z = Some (Some 5%Z) /\
  describe Z.ltb dt_set side_realm [1; 2; 3; 4; 5; 6; 7; 8; 9]%Z 48%Z = Some None /\
  is_valid Z.ltb dt_set side_realm 53%Z = Some true /\
  is_valid Z.ltb dt_set side_realm 48%Z = Some false /\
  sortedb str_ltb [[67]; [78]; [82]]%Z = true /\
  get_rlm_idx str_ltb dt_set [[67]; [78]; [82]]%Z [78%Z] = Some (Some 1%nat).
Proof. repeat split; reflexivity. Qed.
Print Assumptions c10_nonvacuous.
