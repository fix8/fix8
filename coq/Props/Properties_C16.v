(* Property C16 -- "Outbound sequence numbers are consecutive and persisted".
   Only theorem statements: each is closed by [exact] of a lemma proved in C16/C16Proofs.v, C16/C16Restart.v or
   C16/C16Control.v, or, where it states a concrete witness, by evaluation in place; each is followed by
   Print Assumptions.
   The oracle c16_ok (C16/Spec_C16.v) reads the wire as the receiver does: PossDup messages are skipped,
   a gap fill moves the expected number up to its NewSeqNo, every other message must carry exactly the
   expected number (canonical decimal) which then advances by one; after every operation that sent
   or processed something the file persister's control record must equal (next_send, next_recv). *)
From Coq Require Import NArith ZArith List Bool.
From F8 Require Import Sess.Bytes Sess.Msg Sess.Persist Sess.Session Sess.SimpleCodec Sess.Wire
  Sess.SessLemmas Sess.SendLemmas Sess.Demo C16.Spec_C16 C16.C16Proofs C16.C16Restart C16.C16Control.
Import ListNotations.
Local Open Scope N_scope.

(* c16_consecutive + c16_control_partial, for ALL histories of this shape (any length, any schema that
   knows the header fields the session adds, both roles, every persister, any start numbers):
   a START followed by plain operations -- SEND / BATCH of messages of any type but SequenceReset, with
   arbitrary SOH-free field contents, without custom sequence number, no_increment, preset MsgSeqNum or
   PossDupFlag; CLOCK -- satisfies the whole oracle: the new messages on the wire carry
   start, start+1, ... across single and batched sends, and after every send the control record is
   (next_send, next_recv). *)
Theorem c16_consecutive : forall (sc : schema) (p : startp) (t : option Z) (ops : list op),
  wf_schema sc = true -> wf_start p = true -> forallb plain_op ops = true ->
  c16_ok (OStart p t :: ops) (run_history sc (OStart p t :: ops)) = true.
Proof.
  exact (fun sc p t ops WS WP P => c16_restart_lemma sc p t ops WS WP (forallb_impl _ _ _ ops plain_op_restart P)).
Qed.
Print Assumptions c16_consecutive.

(* c16_restart: the same with RESTART anywhere in the history (a new session object on the same persister:
   the file persister is re-opened on its files, a memory persister is replaced by an empty one): the
   initiator continues with the sender number of the recovered control record (or the configured start
   number, or 1), the acceptor starts at 1, and every send keeps the control record current. *)
Theorem c16_restart : forall (sc : schema) (p : startp) (t : option Z) (ops : list op),
  wf_schema sc = true -> wf_start p = true -> forallb plain_or_restart ops = true ->
  c16_ok (OStart p t :: ops) (run_history sc (OStart p t :: ops)) = true.
Proof. exact c16_restart_lemma. Qed.
Print Assumptions c16_restart.

(* non-vacuity of c16_restart: two restarts on a file persister; the Logons of the second and third session
   instance carry 4 and 6, the numbers on the wire are 1..8, the control record ends at (9, 1). *)
Theorem c16_restart_nonvacuous :
  forallb plain_or_restart h_restart = true /\
  all_new_seqs (run_history demo_schema (OStart (demo_init PFile) None :: h_restart)) = map dec [1; 2; 3; 4; 5; 6; 7; 8] /\
  ctrl_and_seq (run_history demo_schema (OStart (demo_init PFile) None :: h_restart)) = Some (Some (9, 1), 9, 1).
Proof. vm_compute. repeat split. Qed.
Print Assumptions c16_restart_nonvacuous.

(* c16_unique: what acceptance by the numbering automaton means, for ANY list of wire events (of either
   side): the MsgSeqNums of the new (non-PossDup, non-gap-fill) messages are pairwise different. *)
Theorem c16_unique : forall (evs : list event) (e e' : N),
  num_events [] e evs = Some e' -> NoDup (new_seqs evs).
Proof. exact c16_unique_lemma. Qed.
Print Assumptions c16_unique.

(* ... and more precisely they are the canonical decimals of a strictly increasing sequence in [e, e'). *)
Theorem c16_increasing : forall (evs : list event) (e e' : N),
  num_events [] e evs = Some e' -> exists ns, new_seqs evs = map dec ns /\ increasing e ns e'.
Proof. exact num_events_increasing. Qed.
Print Assumptions c16_increasing.

(* c16_control_partial, inbound side: whenever Session::process returns through its normal path (no
   exception), for every decoder, message and state, the control record of a file persister equals
   (next_send, next_recv). *)
Theorem c16_control_inbound_partial :
  forall sc decode now seqnum m s b s1 e1,
  process_body sc decode now seqnum m s = (inl b, s1, e1) ->
  p_kind (s_per s1) = PFile ->
  p_get_ctrl (s_per s1) = Some (s_next_send s1, s_next_recv s1).
Proof. exact c16_process_control_lemma. Qed.
Print Assumptions c16_control_inbound_partial.

(* c16_control: the control clause at FULL strength for send-side histories, for every schema, role,
   persister and start parameters, with NO well-formedness hypothesis: a START followed by SEND / BATCH of ANY
   messages -- custom sequence number, no_increment, SequenceReset included; only MsgSeqNum and PossDupFlag
   must not be preset in the header (that is a retransmission, which persists nothing) -- TICK (the heartbeat
   supervisor with its own no_increment Logout), CLOCK and STOP: after every operation that put something on
   the wire the file persister's control record equals (next_send, next_recv). *)
Theorem c16_control : forall (sc : schema) (p : startp) (t : option Z) (ops : list op),
  forallb ctl_op ops = true ->
  c16_ctrl_ok (OStart p t :: ops) (run_history sc (OStart p t :: ops)) = true.
Proof. exact c16_control_lemma. Qed.
Print Assumptions c16_control.

(* c16_ctrl_ok is literally the control clause of the oracle. *)
Theorem c16_ok_implies_control : forall ops tr, c16_ok ops tr = true -> c16_ctrl_ok ops tr = true.
Proof. exact c16_ok_ctrl. Qed.
Print Assumptions c16_ok_implies_control.

(* c16_control_orig_refuted (F20, repaired by 8a992cc): the ORIGINAL send_process persisted
   (next_send + 1, next_recv) even when it then did not increment: control (3, 1) against the session's
   (2, 1) after a send with a custom sequence number, with no_increment, or of a SequenceReset; the code as
   it is writes (2, 1) in all three cases. *)
Theorem c16_control_orig_refuted :
  ctrl_vs_seq (send_process_orig demo_schema T0 st0 m_custom7) = (Some (3, 1), 2, 1) /\
  ctrl_vs_seq (send_process_orig demo_schema T0 st0 m_noinc1) = (Some (3, 1), 2, 1) /\
  ctrl_vs_seq (send_process_orig demo_schema T0 st0 m_seqreset) = (Some (3, 1), 2, 1) /\
  ctrl_vs_seq (send_process demo_schema T0 st0 m_custom7) = (Some (2, 1), 2, 1) /\
  ctrl_vs_seq (send_process demo_schema T0 st0 m_noinc1) = (Some (2, 1), 2, 1) /\
  ctrl_vs_seq (send_process demo_schema T0 st0 m_seqreset) = (Some (2, 1), 2, 1).
Proof. vm_compute. repeat split. Qed.
Print Assumptions c16_control_orig_refuted.

(* what remains true by design of the API: a NEW message sent with a custom sequence number carries that
   number (7 after the Logon's 1): the numbering clause fails although the control record (2, 1) is right. *)
Theorem c16_custom_refuted :
  all_new_seqs_of (run_history demo_schema h_custom) = map dec [1; 7] /\
  ctrl_and_seq (run_history demo_schema h_custom) = Some (Some (2, 1), 2, 1) /\
  c16_ok h_custom (run_history demo_schema h_custom) = false.
Proof. vm_compute. repeat split. Qed.
Print Assumptions c16_custom_refuted.

(* the session's own Logout (no_increment, heartbeat supervisor): since the repair the control record is
   (4, 2) = the session's numbers and the whole oracle accepts the history. *)
Theorem c16_own_logout_ok :
  ctrl_and_seq (run_history demo_schema h_supervisor) = Some (Some (4, 2), 4, 2) /\
  c16_ok h_supervisor (run_history demo_schema h_supervisor) = true.
Proof. vm_compute. split; reflexivity. Qed.
Print Assumptions c16_own_logout_ok.

(* c16_control_inbound: every way out of Session::process except the force_logoff path -- the normal return
   and, since /repo beb4ce7, the Reject path (an f8Exception without force_logoff thrown by the decoder or a
   handler) -- leaves the control record of a file persister equal to (next_send, next_recv).  The force_logoff
   path (sequence / CompID violation) is NOT repaired: known finding C16-force-logoff-control-stale. *)
Theorem c16_control_inbound : forall sc decode now seqnum mt m s,
  let r := process_body sc decode now seqnum m s in
  (match fst (fst r) with inr (Exc _ true) => False | _ => True end) ->
  let r' := process_catch sc now seqnum mt r in
  p_kind (s_per (snd (fst r'))) = PFile ->
  p_get_ctrl (s_per (snd (fst r'))) = Some (s_next_send (snd (fst r')), s_next_recv (snd (fst r'))).
Proof. exact c16_inbound_control_lemma. Qed.
Print Assumptions c16_control_inbound.

(* the same for a Reject caused before or outside process_body (the decoder's exception, a message without 34=). *)
Theorem c16_control_reject : forall sc now seqnum mt text s1 e1,
  let r := process_catch sc now seqnum mt (inr (Exc text false), s1, e1) in
  p_kind (s_per (snd (fst r))) = PFile ->
  p_get_ctrl (s_per (snd (fst r))) = Some (s_next_send (snd (fst r)), s_next_recv (snd (fst r))).
Proof. exact c16_reject_control_lemma. Qed.
Print Assumptions c16_control_reject.

(* c16_reject_orig_refuted (repaired by beb4ce7): the ORIGINAL catch block incremented next_recv without updating
   the control record: control (3, 1) against the session's (3, 2); the code as it is writes (3, 2). *)
Theorem c16_reject_orig_refuted :
  ctrl_vs_seq (process_catch_orig demo_schema T0 2 None (inr (Exc txt_x false), st0, [])) = (Some (3, 1), 3, 2) /\
  ctrl_vs_seq (process_catch demo_schema T0 2 None (inr (Exc txt_x false), st0, [])) = (Some (3, 2), 3, 2).
Proof. vm_compute. split; reflexivity. Qed.
Print Assumptions c16_reject_orig_refuted.

(* a history with a rejected inbound message (missing mandatory field) now satisfies the whole oracle. *)
Theorem c16_reject_ok :
  ctrl_and_seq (run_history demo_schema h_reject) = Some (Some (3, 3), 3, 3) /\
  c16_ok h_reject (run_history demo_schema h_reject) = true.
Proof. vm_compute. split; reflexivity. Qed.
Print Assumptions c16_reject_ok.

(* non-vacuity of c16_consecutive: singles, a batch of three and admin sends meet its hypotheses; the
   seven new messages carry 1..7 and the control record ends at (8, 1). *)
Theorem c16_nonvacuous :
  wf_schema demo_schema = true /\ wf_start (demo_init PFile) = true /\ forallb plain_op h_plain = true /\
  all_new_seqs (run_history demo_schema (OStart (demo_init PFile) None :: h_plain)) = map dec [1; 2; 3; 4; 5; 6; 7] /\
  ctrl_and_seq (run_history demo_schema (OStart (demo_init PFile) None :: h_plain)) = Some (Some (8, 1), 8, 1).
Proof. vm_compute. repeat split. Qed.
Print Assumptions c16_nonvacuous.
