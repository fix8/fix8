(* Property C06 -- "Length-prefixed data fields carry arbitrary bytes".
   Only theorem statements: each is closed by [exact] of a lemma proved in C06/TokenLemmas.v,
   C06/PairProofs.v or C06/Witness6.v, or, where it states a concrete witness, by evaluation in
   place; each is followed by Print Assumptions.
     extract_element_fixed_width, dec_loop, factory = the model of include/fix8/message.hpp and
                  runtime/message.cpp (coq/Codec/Extract.v, Decode.v)
     field_tok f v = the wire token  itoa(f) '=' v SOH
     c06_ok       = the property on observations (C06/Spec_C06.v)
   What is proved in general is one turn of the decode loop on a pair with data tag = length tag + 1
   in a message-level table (header, body, trailer) and content without NUL; the property is FALSE
   (finding F14) for SignatureLength(93)/Signature(89), inside repeating groups, and for content
   with NUL. *)
From Coq Require Import NArith ZArith List Bool String.
From F8 Require Import Codec.Bytes Codec.Meta Codec.Extract Codec.Decode Codec.Encode Codec.Render Codec.Example
                       C05.Spec_C05 C05.Obs C06.Spec_C06 C06.Pairs C06.TokenLemmas C06.PairProofs C06.Witness6.
Import ListNotations.
Local Open Scope N_scope.

(* The primitive: on  tag '=' content <anything>  with the announced size = the length of the
   content, extract_element_fixed_width returns the tag, the content UNCHANGED -- for arbitrary
   content bytes: SOH, '=', NUL, >= 0x80 -- and the number of bytes up to and including the
   separator position.  (Induction on the tag digits; the content is cut off by its length.)  The bounds are those
   of the bounded extractor: lenN tag < tcap (room for the terminating NUL) and lenN content <
   vcap = val[FIX8_MAX_FLD_LENGTH], i.e. contents of at most 2047 bytes. *)
Theorem c06_fixed_width_exact :
  forall (tag content rest : list N) (sz tcap vcap : N),
    all_digits tag -> lenN tag < tcap -> lenN content < vcap ->
    lenN tag + 1 + lenN content <= sz ->
    extract_element_fixed_width (tag ++ EQC :: content ++ rest) sz (lenN content) tcap vcap
    = XOk tag content (lenN tag + 1 + lenN content + 1).
Proof. exact xfw_exact. Qed.
Print Assumptions c06_fixed_width_exact.

(* One turn of MessageBase::decode's loop (strict or permissive, any schema, any object state,
   any position in the string) standing at a pair  L=<n>|L+1=<content>|  with n = the decimal
   length of the content <= 2047, L a Length field not yet present, L+1 a data field of the same
   table: both fields are stored
   -- the data field with value [cstr content], i.e. the content up to its first NUL -- and the
   loop continues with the rest of the string exactly behind the pair ("the fields after it
   decode correctly"), whatever bytes the content consists of. *)
Theorem c06_header_body_step :
  forall (c : ctx) (cp : caps) (from : list N) (fsize : N) (permissive : bool) (gfuel : nat),
  cap_tag cp = MAX_FLD_LENGTH -> cap_val cp = MAX_FLD_LENGTH ->
  forall fuel m off pos lvp lvo tb L content rest trL trD tyL tyD,
  let n := lenN content in
  let tok1 := field_tok L (itoa_N n) in
  let tok2 := field_tok (L + 1) content in
  skipN off from = tok1 ++ tok2 ++ rest ->
  off + lenN tok1 + lenN tok2 <= fsize ->
  n <= MAX_FLD_LENGTH - 1 ->
  L + 1 < 65536 -> L <> Common_BodyLength ->
  find_trait (mb_fp m) L = Some trL -> t_present trL = false -> t_ftype trL = ft_Length -> t_group trL = false ->
  find_trait (mb_fp m) (L + 1) = Some trD -> t_ftype trD = ft_data -> t_group trD = false ->
  find_be (c_fields c) L = Some tyL -> find_be (c_fields c) (L + 1) = Some tyD ->
  let pos1 := (pos + 1) mod 4294967296 in
  let pos2 := (pos1 + 1) mod 4294967296 in
  let m1 := mark_present (add_field_decoder m L pos1 (itoa_N n)) L in
  let m3 := mark_present (add_field_decoder m1 (L + 1) pos2 (cstr content)) (L + 1) in
  skipN (off + lenN tok1 + lenN tok2) from = rest /\
  exists tb2,
    dec_loop c cp from fsize permissive gfuel (S fuel) m off pos lvp lvo tb =
    dec_loop c cp from fsize permissive gfuel fuel m3 (off + lenN tok1 + lenN tok2) pos2 lvp lvo tb2.
Proof. exact dec_pair_step. Qed.
Print Assumptions c06_header_body_step.

(* The same under the side conditions of the property: content without NUL, neither tag decoded
   before.  Then the _fields map of the object the loop continues with holds the Length text and the
   content itself.  (Before /repo ce1e2cc extract_element_fixed_width did not NUL-terminate tag[]:
   stale digits of the previous tag made the pairing depend on both tags having the same number of
   digits.) *)
Theorem c06_header_body_partial :
  forall (c : ctx) (cp : caps) (from : list N) (fsize : N) (permissive : bool) (gfuel : nat),
  cap_tag cp = MAX_FLD_LENGTH -> cap_val cp = MAX_FLD_LENGTH ->
  forall fuel m off pos lvp lvo tb L content rest trL trD tyL tyD,
  let n := lenN content in
  let tok1 := field_tok L (itoa_N n) in
  let tok2 := field_tok (L + 1) content in
  no_nul content ->
  skipN off from = tok1 ++ tok2 ++ rest ->
  off + lenN tok1 + lenN tok2 <= fsize ->
  n <= MAX_FLD_LENGTH - 1 ->
  L + 1 < 65536 -> L <> Common_BodyLength ->
  find_trait (mb_fp m) L = Some trL -> t_present trL = false -> t_ftype trL = ft_Length -> t_group trL = false ->
  find_trait (mb_fp m) (L + 1) = Some trD -> t_ftype trD = ft_data -> t_group trD = false ->
  find_be (c_fields c) L = Some tyL -> find_be (c_fields c) (L + 1) = Some tyD ->
  map_find L (mb_fields m) = None -> map_find (L + 1) (mb_fields m) = None ->
  exists m3 pos2 tb2,
    dec_loop c cp from fsize permissive gfuel (S fuel) m off pos lvp lvo tb =
    dec_loop c cp from fsize permissive gfuel fuel m3 (off + lenN tok1 + lenN tok2) pos2 lvp lvo tb2 /\
    skipN (off + lenN tok1 + lenN tok2) from = rest /\
    map_find L (mb_fields m3) = Some (itoa_N n) /\
    map_find (L + 1) (mb_fields m3) = Some content.
Proof. exact dec_pair_step_no_nul. Qed.
Print Assumptions c06_header_body_partial.

(* Refutations (finding F14), each with in_domain = true, the decoder ACCEPTING the message and
   c06_ok = false on the model's result:
   (a) SignatureLength(93)/Signature(89): the test "lasttv + 1 != tv" rejects the pair, decoding
       falls back to SOH-delimited extraction: 93=3|89=a|b| gives Signature = "a";
   (b) inside a repeating group (354/355 in group 73) decode_group has no Length handling:
       355=a|9999=b gives EncodedText = "a";
   (c) a NUL in the content (95=3|96=a\0b|): the value is handed to the field constructor as a
       C string: RawData = "a" (the field after the pair is still decoded). *)
Theorem c06_refuted :
  (in_domain (pairs_of_ctx ex6_ctx) x_trl = true /\ c06_run ex6_ctx x_trl w_trl = false /\
   trl_fields ex6_ctx w_trl = Some [(10, bs "014"); (89, bs "a"); (93, bs "3")]) /\
  (in_domain (pairs_of_ctx ex6_ctx) x_grp = true /\ c06_run ex6_ctx x_grp w_grp = false /\
   match factory ex6_ctx real_caps w_grp false false with
   | Ok m => match mb_groups (m_body m) with
             | [(73, [e])] => mb_fields e = [(11, bs "id"); (354, bs "8"); (355, bs "a")]
             | _ => False end
   | _ => False end) /\
  (in_domain (pairs_of_ctx ex6_ctx) x_nul = true /\ c06_run ex6_ctx x_nul w_nul = false /\
   body_fields ex6_ctx w_nul = Some [(58, bs "after"); (95, bs "3"); (96, bs "a")]).
Proof. vm_compute. repeat split; reflexivity. Qed.
Print Assumptions c06_refuted.

(* Non-vacuity: on the example schema the body pair 95/96 with content a|=|b followed by
   58=after, and the header pair 90/91 with content ||| are in the property's domain and decode
   with c06_ok = true; and the hypotheses of c06_header_body_partial are met by the body decoder
   standing at offset 35 of that message. *)
Theorem c06_nonvacuous :
  pairs_of_ctx ex6_ctx = [(90, 91); (93, 89); (95, 96); (354, 355)] /\
  in_domain (pairs_of_ctx ex6_ctx) x_body = true /\ c06_run ex6_ctx x_body w_body = true /\
  in_domain (pairs_of_ctx ex6_ctx) x_hdr = true /\ c06_run ex6_ctx x_hdr w_hdr = true /\
  body_fields ex6_ctx w_body = Some [(58, bs "after"); (95, bs "5"); (96, bs "a|=|b")].
Proof. vm_compute. repeat split; reflexivity. Qed.
Print Assumptions c06_nonvacuous.

Theorem c06_step_nonvacuous :
  exists m3 pos2 tb2,
    dec_loop ex6_ctx real_caps inst_from (lenN inst_from) false (dec_fuel inst_from) 3 inst_m 35 0 None 0 [] =
    dec_loop ex6_ctx real_caps inst_from (lenN inst_from) false (dec_fuel inst_from) 2 m3 49 pos2 None 0 tb2 /\
    skipN 49 inst_from = bs "58=after|10=229|" /\
    map_find 95 (mb_fields m3) = Some (bs "5") /\
    map_find 96 (mb_fields m3) = Some inst_content.
Proof. exact c06_step_instance_lemma. Qed.
Print Assumptions c06_step_nonvacuous.
