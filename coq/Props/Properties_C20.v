(* Property C20 "Sequence gaps are recovered with a conformant counterparty".
   Vocabulary (coq/C20):  Peer.run_with_peer = the session model coq/Sess driven against the executable
   specification of a conformant counterparty; Spec_C20.c20_ok = the property on the resulting history and
   trace; Classify.bitem = one inbound message as the session classifies it (application / Heartbeat / Reject /
   SequenceReset-GapFill with its number, PossDupFlag, NewSeqNo); BurstProofs.is_item decode s raw it = "the raw
   bytes carry that number (Session::process' scan for 34=) and decode to such a message with the CompIDs s
   expects"; tiles pos l past = "the items cover the numbers pos .. past-1 consecutively";
   aligned s pos = state continuous and next expected number pos; ahead s pos = state resend_request_sent or
   continuous and next expected number pos+1; good s = reader running, session active, not shut down, past the logon phase;
   dels / retl = the DELIVER events / the return values of Session::process in an event list.
   The stream theorems hold for EVERY schema, EVERY decoder, EVERY session configuration and persister.
   Only theorem statements: each is closed by [exact] of a lemma proved in C20/, by a few lines that
   instantiate general theorems proved there, or, where it states a concrete witness, by evaluation in place;
   each is followed by Print Assumptions. *)
From Coq Require Import NArith ZArith List Bool.
From F8 Require Import Sess.Bytes Sess.Msg Sess.Persist Sess.Session Sess.SimpleCodec Sess.Wire
  C20.Scenario C20.Peer C20.Spec_C20 C20.Classify C20.SessFacts C20.BurstProofs C20.HistoryProofs C20.CheckProofs
  C20.PeerProofs C20.Example C20.WitnessProofs.
Import ListNotations.
Local Open Scope N_scope.

(* The property is FALSE of fix8 (finding F26).  Witness: Logon 1, message 2 arrives, 3 and 4 are lost, 5 arrives:
   ResendRequest(3,0) goes out but process still increments the expected number to 4; the conformant replay of
   3,4,5 (PossDupFlag=Y) is accepted as "low" and leaves 7; the counterparty's next message 6 is refused
   (process returns false, the session stops) and 7 is never read: not alive, 6 and 7 not delivered, not aligned.
   States: logon_sent, continuous, continuous, resend_request_sent from then on. *)
Theorem c20_refuted :
  exists acts, let '(ops, tr) := run_with_peer mini (simple_decode mini []) [] acts in
    c20_ok mini acts ops tr = false /\ alive ops tr = false /\ Spec_C20.delivered mini acts tr = false /\
    Spec_C20.aligned acts tr = false /\ c20_class ops tr = 2 /\
    recvs tr = [1; 2; 3; 4; 7; 7; 7] /\ states tr = [5; 1; 1; 12; 12; 12; 12].
Proof. exists w_replay_only. vm_compute. repeat split. Qed.
Print Assumptions c20_refuted.

(* Second witness: an acceptor expecting 1 receives the counterparty's Logon numbered 4: InvalidMsgSequence in
   state logon_received, a Logout goes out and the session stops (states wait_for_logon, logoff_sent). *)
Theorem c20_logon_refuted :
  exists acts, let '(ops, tr) := run_with_peer mini (simple_decode mini []) [] acts in
    c20_ok mini acts ops tr = false /\ alive ops tr = false /\ c20_class ops tr = 1 /\
    recvs tr = [1; 1; 1] /\ states tr = [3; 7; 7].
Proof. exists w_high_logon. vm_compute. repeat split. Qed.
Print Assumptions c20_logon_refuted.

(* Third witness: a Reject (35=3) is handed to the default handle_reject without any sequence check.  3 is
   lost, the Reject numbered 4 arrives: no ResendRequest, the expected number simply becomes 4; when 5 arrives the
   session asks for 4.. only.  Application message 3 is never requested and never delivered, although the session
   stays alive and ends "aligned". *)
Theorem c20_reject_refuted :
  exists acts, let '(ops, tr) := run_with_peer mini (simple_decode mini []) [] acts in
    c20_ok mini acts ops tr = false /\ alive ops tr = true /\ Spec_C20.delivered mini acts tr = false /\
    Spec_C20.aligned acts tr = true /\ c20_class ops tr = 3 /\
    deliveries [68] 3 (all_events tr) = [] /\ recvs tr = [1; 2; 3; 4; 5; 6; 7].
Proof. exists w_reject_reveals. vm_compute. repeat split. Qed.
Print Assumptions c20_reject_refuted.

(* ... for every session state, every number and every decoder: a Reject is answered with false, writes nothing,
   delivers nothing and increments the expected number, whatever its MsgSeqNum. *)
Theorem c20_reject_unchecked :
  forall sc decode fl now raw q m s,
  arrives decode raw q m -> m_type m = mt_reject ->
  exists s', process sc decode fl now raw s = (false, s', []) /\ post s s' (s_state s) (s_next_recv s + 1).
Proof. intros. eexists. split; [eapply process_reject; eassumption|apply settle_post, cfg_refl]. Qed.
Print Assumptions c20_reject_unchecked.

(* The refutation is not an accident of the witness.  For EVERY gap -- the session aligned at pos, any message
   (application or Heartbeat) numbered q > pos arrives -- and EVERY burst of retransmissions covering pos .. q
   that contains no GapFill (a counterparty that replays everything), the session delivers the replayed
   application messages but is left expecting q+2, and the counterparty's next new application message, correctly
   numbered q+1, ends the session: process returns false, shutdown, the message is never delivered. *)
Theorem c20_refuted_every_gap :
  forall sc decode fl now g rawg burst braws t rawn l s evs pos q,
  good s -> BurstProofs.aligned s pos -> is_item decode s rawg g -> reveals g q -> pos < q ->
  Forall2 (is_item decode s) braws burst -> tiles pos burst (q + 1) -> forallb item_dup burst = true ->
  has_gap burst = false ->
  is_item decode s rawn (BApp t (q + 1) false) ->
  exists s' evs',
    reader_loop sc decode fl now (rawg :: braws ++ rawn :: l) s evs = (s', evs ++ evs')%list /\
    s_shutdown s' = true /\ s_reader s' = false /\ s_next_recv s' = q + 2 /\
    dels evs' = item_dels burst /\ retl evs' = (1%Z :: item_rets sc burst ++ [0%Z])%list.
Proof. exact gap_without_gapfill_dies. Qed.
Print Assumptions c20_refuted_every_gap.

(* One gap, all sizes and positions: the message that reveals the gap is not delivered (RET 1, ResendRequest);
   the burst is processed message by message with the invariant "expected = position + 1, state
   resend_request_sent" until the first GapFill, "expected = position, state continuous" after it.  With a
   GapFill anywhere in the burst -- in particular a final one whose NewSeqNo is the counterparty's next number --
   the session ends aligned at q+1; without, one ahead.  Every application message of the burst is delivered. *)
Theorem c20_gap_and_burst :
  forall sc decode fl now g rawg burst braws l s evs pos q,
  good s -> BurstProofs.aligned s pos -> is_item decode s rawg g -> reveals g q -> pos < q ->
  Forall2 (is_item decode s) braws burst -> tiles pos burst (q + 1) -> forallb item_dup burst = true ->
  exists s' evs',
    reader_loop sc decode fl now (rawg :: braws ++ l) s evs = reader_loop sc decode fl now l s' (evs ++ evs')%list /\
    good s' /\ cfg s s' /\ (if has_gap burst then BurstProofs.aligned s' (q + 1) else ahead s' (q + 1)) /\
    dels evs' = item_dels burst /\ retl evs' = (1%Z :: item_rets sc burst).
Proof. exact gap_and_burst. Qed.
Print Assumptions c20_gap_and_burst.

(* The burst alone, from ANY running state that is one ahead -- resend_request_sent, or continuous when the message
   that revealed the gap was the counterparty's own ResendRequest and the session has meanwhile SERVED it
   (resend_request_received -> continuous wipes out "our resend is outstanding"): retransmissions below the expected
   number are accepted on their PossDupFlag alone, whatever the state; the first GapFill re-aligns. *)
Theorem c20_burst_one_ahead :
  forall sc decode fl now items raws l s evs pos past,
  Forall2 (is_item decode s) raws items -> tiles pos items past -> good s -> ahead s pos -> dup_until_gap items ->
  exists s' evs',
    reader_loop sc decode fl now (raws ++ l) s evs = reader_loop sc decode fl now l s' (evs ++ evs')%list /\
    good s' /\ cfg s s' /\ (if has_gap items then BurstProofs.aligned s' past else ahead s' past) /\
    dels evs' = item_dels items /\ retl evs' = item_rets sc items.
Proof. exact run_ahead. Qed.
Print Assumptions c20_burst_one_ahead.

(* Gap revealed by the counterparty's ResendRequest (both sides lost messages).  The episode grammar of
   c20_gapfill_partial does NOT include this revealing step (`reveals` admits application messages and Heartbeats: what
   handle_resend_request does to the state depends on the session's own store -- with F21's empty record it stays in
   resend_request_received for good); it is covered by c20_burst_one_ahead plus this witness: the session has sent 2,
   the counterparty's 3 is lost, its ResendRequest [2,0] numbered 4 arrives: the session sends ResendRequest(3,0), serves
   the request from its file persister and is left in state CONTINUOUS expecting 4 = one ahead of 3; the burst
   (replay 3, GapFill 4->5) meets the hypotheses of c20_burst_one_ahead for that state; the run satisfies c20_ok
   (expected numbers 1,2,3,3,4,5,6,7; every state after the Logon is continuous). *)
Theorem c20_rr_reveals_example :
  (let '(ops, tr) := run_with_peer mini (simple_decode mini []) [] w_rr_reveals in
   c20_ok mini w_rr_reveals ops tr = true /\ c20_class ops tr = 0 /\
   recvs tr = [1; 2; 3; 3; 4; 5; 6; 7] /\ states tr = [5; 1; 1; 1; 1; 1; 1; 1]) /\
  (exists s, s_after_rr = Some s /\ good s /\ ahead s 3 /\ s_state s = st_continuous /\
             Forall2 (is_item dec_mini s) (chunks_at w_rr_reveals 5) burst_rr /\ tiles 3 burst_rr (4 + 1) /\
             forallb item_dup burst_rr = true /\ has_gap burst_rr = true).
Proof. split; [vm_compute; repeat split|apply ahead_check_sound; vm_compute; reflexivity]. Qed.
Print Assumptions c20_rr_reveals_example.

(* c20_gapfill_partial: whole streams.  A stream is a sequence of episodes: one message in sequence, or a message
   above the expected number followed by the burst answering the ResendRequest.  HYPOTHESIS (in eps_ok): every
   burst contains a GapFill.  Then the session stays alive (good), ends in state continuous expecting exactly
   the number after the stream (= the counterparty's next number), and the deliveries are exactly the application
   messages of the in-sequence episodes and of the bursts: every lost application message is delivered. *)
Theorem c20_gapfill_partial :
  forall sc decode fl now eps l s evs pos past,
  good s -> BurstProofs.aligned s pos -> eps_ok decode s pos eps past ->
  exists s' evs',
    reader_loop sc decode fl now (flat_map ep_raws eps ++ l) s evs = reader_loop sc decode fl now l s' (evs ++ evs')%list /\
    good s' /\ cfg s s' /\ BurstProofs.aligned s' past /\
    dels evs' = flat_map ep_dels eps /\ retl evs' = flat_map (ep_rets sc) eps.
Proof. exact history_recovers. Qed.
Print Assumptions c20_gapfill_partial.

(* c20_nogap: no losses.  Every stream of consecutively numbered messages (application, Heartbeat, Reject,
   unsolicited GapFill), of any length, keeps the session aligned; the deliveries are exactly its application
   messages, in order, each once (their numbers are pairwise distinct), with the PossDupFlag they carry. *)
Theorem c20_nogap :
  forall sc decode fl now items raws l s evs pos past,
  Forall2 (is_item decode s) raws items -> tiles pos items past -> good s -> BurstProofs.aligned s pos ->
  (exists s' evs',
    reader_loop sc decode fl now (raws ++ l) s evs = reader_loop sc decode fl now l s' (evs ++ evs')%list /\
    good s' /\ cfg s s' /\ BurstProofs.aligned s' past /\ dels evs' = item_dels items /\ retl evs' = item_rets sc items) /\
  NoDup (map del_seq (item_dels items)).
Proof. intros. split; [eapply run_aligned; eassumption|eapply item_dels_nodup; eassumption]. Qed.
Print Assumptions c20_nogap.

(* The hypotheses of c20_gap_and_burst are met by real bytes: the counterparty specification's own messages for
   "3 lost, Heartbeat 4 lost, 5 arrives" (burst = replay 3, GapFill 4->5, replay 5), decoded by Sess.SimpleCodec,
   against the model's session state after Logon and message 2. *)
Theorem c20_gapfill_nonvacuous :
  exists s rawg,
    s_at3 = Some s /\ chunks_at w_with_gapfill 3 = [rawg] /\
    good s /\ BurstProofs.aligned s 3 /\
    is_item dec_mini s rawg (BApp [68] 5 false) /\
    Forall2 (is_item dec_mini s) (chunks_at w_with_gapfill 4) burst_w /\
    tiles 3 burst_w (5 + 1) /\ forallb item_dup burst_w = true /\ has_gap burst_w = true.
Proof. apply gap_check_sound. vm_compute. reflexivity. Qed.
Print Assumptions c20_gapfill_nonvacuous.

(* ... and on that scenario the run of the counterparty specification against the session model satisfies c20_ok
   (expected numbers 1,2,3,4,6,7,8: resynchronised by the GapFill); without loss every message is delivered
   exactly once, never PossDup. *)
Theorem c20_gapfill_example :
  (let '(ops, tr) := run_with_peer mini (simple_decode mini []) [] w_with_gapfill in
   c20_ok mini w_with_gapfill ops tr = true /\ c20_class ops tr = 0 /\
   recvs tr = [1; 2; 3; 4; 6; 7; 8] /\ states tr = [5; 1; 1; 12; 1; 1; 1]) /\
  (let '(ops, tr) := run_with_peer mini (simple_decode mini []) [] w_no_loss in
   c20_ok mini w_no_loss ops tr = true /\ c20_exact mini w_no_loss tr = true /\ c20_class ops tr = 0).
Proof. split; vm_compute; repeat split. Qed.
Print Assumptions c20_gapfill_example.

(* run_with_peer is the session model of coq/Sess on the history it records: for every schema and scenario the
   trace it returns is Sess.Wire.run_history of the operations it returns (the history given to the real session). *)
Theorem c20_run_is_session_model :
  forall sc acts, let '(ops, tr) := run_with_peer sc (simple_decode sc []) [] acts in tr = run_history sc ops.
Proof. exact run_with_peer_is_run_history. Qed.
Print Assumptions c20_run_is_session_model.

(* The counterparty specification's answer to a ResendRequest has the shape the stream theorems assume: for remembered
   messages numbered consecutively n .. past-1 (after an open gap-fill run starting at g < n, if any) and ANY decisions,
   the burst built by Peer.replay_items -- application messages and chosen Rejects replayed, everything else covered by
   SequenceReset-GapFills -- tiles the range exactly, and every item carries PossDupFlag. *)
Theorem c20_peer_burst_tiles :
  forall l gs past d n,
  consec l n past -> (match gs with Some g => g < n | None => True end) ->
  tiles (match gs with Some g => g | None => n end) (map shape (fst (replay_items l gs past d))) past /\
  forallb item_dup (map shape (fst (replay_items l gs past d))) = true.
Proof. exact replay_items_tiles. Qed.
Print Assumptions c20_peer_burst_tiles.
