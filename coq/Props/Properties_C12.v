(* Property C12 -- "Metadata lookup tables behave as exact maps".
   Only theorem statements: each is closed by [exact] of a lemma proved in C12/TablesProofs.v or
   C12/PresortedProofs.v (bisection lemmas in C12/BisectProofs.v), by a few lines that instantiate
   general theorems proved there, or, where it states a concrete witness, by evaluation in place;
   each is followed by Print Assumptions.
   Models: C12/Bisect.v (libstdc++ lower_bound / upper_bound / equal_range), C12/Tables.v
   (GeneratedTable::_find, F8MetaCntx::_flu/find_be, FieldTrait_Hash_Array find, reverse maps),
   C12/Presorted.v (presorted_set state machine);  oracle: C12/Spec_C12.v. *)
From Coq Require Import Arith List Bool ZArith.
From F8 Require Import C12.Bisect C12.BisectProofs C12.Tables C12.Presorted C12.Spec_C12
                       C12.TablesProofs C12.PresortedProofs.
Import ListNotations.

(* The bisection algorithms are modelled and proved, not assumed: on a strictly sorted array
   equal_range returns (number of smaller elements, number of not-larger elements); the range is
   one element wide exactly for members. *)
Theorem c12_equal_range_count : forall (A : Type) (lt : A -> A -> bool), strict_total lt ->
  forall (l : list A) (v : A), sortedb lt l = true ->
  equal_range lt l v = Some (count_lt lt l v, count_le lt l v).
Proof. exact (@o_equal_range_sorted). Qed.
Print Assumptions c12_equal_range_count.

Theorem c12_equal_range_member : forall (A : Type) (lt : A -> A -> bool), strict_total lt ->
  forall (l : list A) (v : A), sortedb lt l = true ->
  exists a b, equal_range lt l v = Some (a, b) /\ a = count_lt lt l v /\
              (In v l -> nth_error l a = Some v /\ b = a + 1) /\ (~ In v l -> b = a).
Proof. exact (@o_equal_range_member). Qed.
Print Assumptions c12_equal_range_member.

(* GeneratedTable::_find / find_ptr (message table under strcmp, field table under <):
   on a table sorted by key, find_ptr k yields v exactly when (k, v) is a pair of the table. *)
Theorem c12_generated_exact : forall (K : Type) (ltK : K -> K -> bool), strict_total ltK ->
  forall (V : Type) (T : list (K * V)) (k : K), sortedb ltK (map fst T) = true ->
  exists r, gt_find_ptr ltK T k = Some r /\ forall v, r = Some v <-> In (k, v) T.
Proof. exact (@gt_find_ptr_exact). Qed.
Print Assumptions c12_generated_exact.

Theorem c12_generated_index_exact : forall (K : Type) (ltK : K -> K -> bool), strict_total ltK ->
  forall (keys : list K) (k : K), sortedb ltK keys = true ->
  exists r, gt_find ltK keys k = Some r /\ forall i, r = Some i <-> nth_error keys i = Some k.
Proof. exact (@gt_find_exact). Qed.
Print Assumptions c12_generated_index_exact.

(* F8MetaCntx::find_be over the direct-index array _flu built by the constructor. *)
Theorem c12_flu_exact : forall (keys : list Z) (k : Z),
  sortedb Z.ltb keys = true -> nonneg_keys keys = true -> keys <> [] ->
  nth_error keys (length keys - 1) <> Some 0%Z ->
  exists r, find_be keys k = Some r /\ forall i, r = Some i <-> nth_error keys i = Some k.
Proof. exact find_be_exact. Qed.
Print Assumptions c12_flu_exact.

(* The hash-array find of a message's / group's field-trait set. *)
Theorem c12_ftha_exact : forall (keys : list Z) (k : Z),
  sortedb Z.ltb keys = true -> nonneg_keys keys = true -> keys <> [] ->
  exists r, ftha_find keys keys k = Some r /\ forall i, r = Some i <-> nth_error keys i = Some k.
Proof.
  intros keys k Hs Hn Hne. pose proof (ftha_find_exact keys [] k Hs Hn Hne) as H.
  rewrite app_nil_r in H. exact H.
Qed.
Print Assumptions c12_ftha_exact.

(* Reverse name lookups (fields: an empty name finds nothing; messages: no such test). *)
Theorem c12_reverse_exact : forall (ce : bool) (names : list (list Z)) (n : list Z),
  NoDup names -> (ce = true -> n <> []) ->
  forall j, reverse_find ce names n = Some j <-> nth_error names j = Some n.
Proof. exact reverse_find_exact. Qed.
Print Assumptions c12_reverse_exact.

(* An exact index is what the oracle accepts (so the models above meet it on sorted tables). *)
Theorem c12_lookup_oracle : forall (K : Type) (ltK : K -> K -> bool), strict_total ltK ->
  forall (eqK : K -> K -> bool), (forall a b, eqK a b = true <-> a = b) ->
  forall (keys : list K) (k : K) r, sortedb ltK keys = true ->
  gt_find ltK keys k = Some r -> c12_lookup_ok eqK keys k r = true.
Proof. exact (@gt_find_ok). Qed.
Print Assumptions c12_lookup_oracle.

(* presorted_set, any history: starting from any state satisfying the invariant
   (no hash array, _sz <= _rsz, 0 < _rsz, block of _rsz slots, first _sz slots strictly sorted)
   every operation succeeds without an access outside the allocated block, ALL answers -- including
   the iterator returned by insert -- and the sizes are those of the sorted list of unique keys,
   and size <= rsize throughout. *)
Theorem c12_presorted_invariant : forall (ops : list op) (s : pset), ps_wf s ->
  exists s' rs, ps_run s ops = Some (s', rs) /\ ps_wf s' /\
    map fst rs = spec_run (abs s) ops /\
    Forall (fun x => snd (fst x) <= snd x) rs.
Proof. exact ps_run_refines. Qed.
Print Assumptions c12_presorted_invariant.

(* ... in particular for a set built by the array constructor from a sorted table with ANY reserve
   (0 included: calc_reserve keeps at least one slot since 432f45d), and for the explicit
   constructor with any size and reserve (an empty set with room, since a311e58). *)
Theorem c12_presorted_refines : forall (tab : list elem) (reserve : nat) (ops : list op),
  keys_sorted tab = true ->
  exists s' rs, ps_run (ps_init_array tab reserve) ops = Some (s', rs) /\
    map fst rs = spec_run tab ops /\
    Forall (fun x => snd (fst x) <= snd x) rs.
Proof. exact presorted_refines_lemma. Qed.
Print Assumptions c12_presorted_refines.

Theorem c12_presorted_explicit_refines : forall (sz reserve : nat) (ops : list op),
  exists s' rs, ps_run (ps_init_explicit sz reserve) ops = Some (s', rs) /\
    map fst rs = spec_run [] ops /\
    Forall (fun x => snd (fst x) <= snd x) rs.
Proof. intros sz reserve ops. exact (run_detached ops _ (proj1 (init_explicit_wf sz reserve))). Qed.
Print Assumptions c12_presorted_explicit_refines.

(* Sets built by the hash-array constructor (every message's field-trait set; since b713cdd the
   first insert detaches the hash array and positions come from the sorted array).  Constructor
   precondition: a non-empty table strictly sorted by non-negative key.  PARTIAL in the history:
   [hist_ok HIntact tab ops] = while the hash array is still attached, find(key, answer) is only
   asked for present keys and no lookup happens between a clear() and the next insert; every
   history is allowed from the first insert on. *)
Theorem c12_presorted_hash_partial : forall (tab : list elem) (ops : list op),
  keys_sorted tab = true -> nonneg_keys (map fst tab) = true -> tab <> [] ->
  hist_ok HIntact tab ops = true ->
  exists s' rs, ps_run (ps_init_hash tab) ops = Some (s', rs) /\
    map fst rs = spec_run tab ops /\
    Forall (fun x => snd (fst x) <= snd x) rs.
Proof. exact presorted_hash_refines_lemma. Qed.
Print Assumptions c12_presorted_hash_partial.

(* the same from any reachable state: detached (ps_wf), hash array attached, or cleared while attached *)
Theorem c12_presorted_general : forall (ops : list op) (s : pset) (m : hmode),
  inv s m -> hist_ok m (abs s) ops = true ->
  exists s' rs, ps_run s ops = Some (s', rs) /\ map fst rs = spec_run (abs s) ops /\
                Forall (fun x => snd (fst x) <= snd x) rs.
Proof. exact ps_run_refines_gen. Qed.
Print Assumptions c12_presorted_general.

(* REFUTED (what the repairs do not cover): with the hash array attached find(key, answer) reports a
   null position for an absent key, and after clear() the stale hash array still finds a cleared key. *)
Theorem c12_hash_residual_refuted :
  let s := ps_init_hash [(1, 0); (5, 0); (9, 0)]%Z in
  ps_step s (OFindA 2%Z) = Some (s, RFindA None false) /\
  fst (spec_step [(1, 0); (5, 0); (9, 0)]%Z (OFindA 2%Z)) = [(1, 0); (5, 0); (9, 0)]%Z /\
  snd (spec_step [(1, 0); (5, 0); (9, 0)]%Z (OFindA 2%Z)) = RFindA (Some 1) false /\
  (exists s1 rs, ps_run s [OClear; OFind 5%Z] = Some (s1, rs) /\
                 map fst rs = [(RClear, 0); (RFind (Some 1), 0)] /\
                 spec_run [(1, 0); (5, 0); (9, 0)]%Z [OClear; OFind 5%Z] = [(RClear, 0); (RFind None, 0)]).
Proof. cbn zeta. repeat split; try reflexivity. eexists _, _. repeat split; vm_compute; reflexivity. Qed.
Print Assumptions c12_hash_residual_refuted.

(* With c12_presorted_refines: the oracle accepts every history of a set built by the array
   constructor. *)
Theorem c12_presorted_oracle : forall (tab : list elem) (reserve : nat) (ops : list op),
  keys_sorted tab = true ->
  exists s' rs, ps_run (ps_init_array tab reserve) ops = Some (s', rs) /\ c12_ps_ok tab ops (map fst rs) = true.
Proof.
  intros tab reserve ops Hs. destruct (presorted_refines_lemma tab reserve ops Hs) as [s' [rs [Hrun [Hmap _]]]].
  exists s', rs. split; [exact Hrun|]. unfold c12_ps_ok. rewrite Hmap. apply outs_eqb_refl.
Qed.
Print Assumptions c12_presorted_oracle.

(* insert (code since 5f81ca8): the iterator returned is never stale, and the position it reports
   holds exactly the inserted element in the new state. *)
Theorem c12_insert_never_stale : forall s e s' ok pos stale,
  ps_wf s -> ps_insert s e = Some (s', RInsert ok pos stale) -> stale = false.
Proof. exact insert_never_stale_lemma. Qed.
Print Assumptions c12_insert_never_stale.

Theorem c12_insert_position : forall s e s' pos,
  ps_wf s -> ps_insert s e = Some (s', RInsert true pos false) ->
  exists i, pos = Some i /\ nth_error (abs s') i = Some e /\ i < p_sz s'.
Proof. exact insert_position. Qed.
Print Assumptions c12_insert_position.

(* The ORIGINAL insert (before 5f81ca8) returned an iterator into the block it had just deleted
   exactly when it had to grow; witness: a full two-element set, insert of a third key. *)
Theorem c12_insert_stale_orig_char : forall s e s' ok pos stale,
  ps_wf s -> ps_insert_orig s e = Some (s', RInsert ok pos stale) ->
  (stale = true <-> (ok = true /\ p_sz s <> 0 /\ p_sz s = p_rsz s)).
Proof. exact insert_orig_stale_lemma. Qed.
Print Assumptions c12_insert_stale_orig_char.

Theorem c12_insert_stale_orig_refuted :
  ps_wf full_set /\
  (exists s', ps_insert_orig full_set (3, 0)%Z = Some (s', RInsert true (Some 2) true)) /\
  (exists s', ps_insert full_set (3, 0)%Z = Some (s', RInsert true (Some 2) false) /\
              nth_error (abs s') 2 = Some (3, 0)%Z).
Proof. split; [exact full_set_wf|]. split; eexists; [|split]; vm_compute; reflexivity. Qed.
Print Assumptions c12_insert_stale_orig_refuted.

(* The three constructor defects as they were before the repairs (kept as witnesses), each next to
   the current behaviour: reserve 0 on an empty set (before 432f45d: _rsz = 0, the first insert
   writes past a zero-length block); insert of a new key into a hash-built set (before b713cdd: null
   position and uninitialised _rsz); the explicit constructor with a size (before a311e58: _sz = sz
   over a null array). *)
Theorem c12_reserve0_orig_refuted :
  ps_insert (ps_init_explicit_orig 0 0) (1, 0)%Z = None /\
  (exists s', ps_insert (ps_init_explicit 0 0) (1, 0)%Z = Some (s', RInsert true (Some 0) false)).
Proof. split; [reflexivity | eexists; vm_compute; reflexivity]. Qed.
Print Assumptions c12_reserve0_orig_refuted.

Theorem c12_hash_insert_orig_refuted :
  ps_insert_gen true (ps_init_hash_orig [(1, 0); (5, 0)]%Z) (2, 0)%Z = None /\
  (exists s', ps_insert (ps_init_hash [(1, 0); (5, 0)]%Z) (2, 0)%Z = Some (s', RInsert true (Some 1) false) /\
              abs s' = [(1, 0); (2, 0); (5, 0)]%Z).
Proof. split; [reflexivity | eexists; split; vm_compute; reflexivity]. Qed.
Print Assumptions c12_hash_insert_orig_refuted.

Theorem c12_explicit_size_orig_refuted :
  ps_find (ps_init_explicit_orig 3 30) 1%Z = None /\ ps_find (ps_init_explicit 3 30) 1%Z = Some None.
Proof. split; reflexivity. Qed.
Print Assumptions c12_explicit_size_orig_refuted.

(* Non-vacuity: a concrete history with hits, misses, a duplicate insert, a range insert that
   stops at a duplicate, clear and re-insert. *)
Theorem c12_nonvacuous :
  let tab := [(1, 10); (4, 40); (9, 90)]%Z in
  let ops := [OFind 4; OFind 5; OFindA 5; OInsert (5, 50); OInsert (4, 41); OAt 2; OAt 9;
              OInsertRange [(2, 20); (7, 70); (2, 21); (8, 80)]; OFind 8; OClear; OFind 1; OInsert (3, 30); OFind 3]%Z in
  keys_sorted tab = true /\
  exists s' rs, ps_run (ps_init_array tab 30) ops = Some (s', rs) /\
    map (fun x => fst (fst x)) rs =
      [RFind (Some 1); RFind None; RFindA (Some 2) false; RInsert true (Some 2) false;
       RInsert false None false; RAt (Some (5, 50)%Z); RAt None; RRange; RFind None; RClear; RFind None;
       RInsert true (Some 0) false; RFind (Some 0)].
Proof. cbn zeta. split; [reflexivity|]. eexists _, _. split; vm_compute; reflexivity. Qed.
Print Assumptions c12_nonvacuous.
