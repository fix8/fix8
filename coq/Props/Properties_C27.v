(* Property C27 -- "File persister survives process crashes without corruption".
   Only theorem statements: each is closed by [exact] of a lemma proved in C27/CrashProofs.v, by a
   few lines that instantiate general theorems proved there, or, where it states a concrete
   witness, by evaluation in place; each is followed by Print Assumptions.

   Model (C27/Crash.v on top of C26/FilePersist.v): the disk is (index bytes, data bytes); every
   API call is compiled to the lseek/write calls of filepersist.cpp in program order; the process
   dies after [k] completed calls and the disk keeps exactly their effect (TRUSTED, not proved:
   each call is atomic and durable, none is reordered); reopening replays the index file.
   [c27_result pre k after] = (number of operations of [pre] that had returned, their results,
   the results of [after] on the reopened store).  [c27_ok] (C27/Spec_C27.v) is the property: the
   answers after the reopen are those of the store contract started from the state after the
   completed operations (or after the operation in progress as well): completed messages
   byte-identical, no number returns bytes never stored for it, control record = last completed,
   further stores accepted and retrievable. *)
From Coq Require Import PeanoNat NArith List Bool.
From F8 Require Import C26.SMap C26.PersistSpec C26.MemPersist C26.FilePersist C26.FileProofs
  C26.SpecProofs C27.Crash C27.Spec_C27 C27.CrashProofs.
Import ListNotations.
Local Open Scope N_scope.

(* For control-first histories (never_lost: the control record is never written over a message's
   index entry; negation = F31, not repaired) and EVERY crash point k -- between API calls, inside
   a control put, inside a get, and at every call boundary inside a message put, including
   between its data write and its index write (tree since a892b9a) -- all four clauses hold,
   whatever is done afterwards ([after]: any reads and further stores). *)
Theorem c27_atomic_partial : forall pre k after,
  ops_wf (pre ++ OReopen :: after) = true -> zero_free (pre ++ OReopen :: after) = true ->
  never_lost pre = true -> no_reopen after = true ->
  c27_ok pre after (c27_result pre k after) = true.
Proof. exact c27_atomic_partial_lemma. Qed.
Print Assumptions c27_atomic_partial.

(* in particular every crash point between two API calls *)
Theorem c27_between_ops_partial : forall pre k after,
  ops_wf (pre ++ OReopen :: after) = true -> zero_free (pre ++ OReopen :: after) = true ->
  never_lost pre = true -> no_reopen after = true ->
  crash_between file_empty pre k = true ->
  c27_ok pre after (c27_result pre k after) = true.
Proof. intros pre k after Hw Hz Hl Ha _. exact (c27_atomic_partial_lemma pre k after Hw Hz Hl Ha). Qed.
Print Assumptions c27_between_ops_partial.

(* F31 -- not never_lost: put(1,"MSG-ONE"); control put (2,1); put(2,"MSG-TWO"); all three
   return; no crash inside anything (k = 10 = all calls); reopen: get(1) fails.  The control
   write at index offset 0 overwrote message 1's index entry.  Every other hypothesis holds. *)
Theorem c27_control_refuted :
  ops_wf (f31_pre ++ OReopen :: f31_after) = true /\ zero_free (f31_pre ++ OReopen :: f31_after) = true /\
  no_reopen f31_after = true /\ crash_between file_empty f31_pre 10 = true /\
  never_lost f31_pre = false /\
  c27_result f31_pre 10 f31_after =
    Some (3%nat, [RBool true; RBool true; RBool true],
          [RCtl (Some (2, 1)); RBytes None; RBytes (Some [77; 83; 71; 45; 84; 87; 79])]) /\
  c27_ok f31_pre f31_after (c27_result f31_pre 10 f31_after) = false.
Proof. repeat apply conj; vm_compute; reflexivity. Qed.
Print Assumptions c27_control_refuted.

(* F32, the code BEFORE a892b9a (repaired; index record written before the data): the process dies
   after the third call of put(2,"BBBBBB"); after the reopen get(2) failed, put(2,..) was refused
   (2 "occupied"), and after put(3,"CCCCCCCC") get(2) returned "CCCCCC" -- bytes never stored under
   2.  The repaired order on the same input: 2 is absent, put(2,"DD") is accepted and returned. *)
Theorem c27_order_orig_refuted :
  ops_wf (f32_pre ++ OReopen :: f32_after) = true /\ zero_free (f32_pre ++ OReopen :: f32_after) = true /\
  no_reopen f32_after = true /\ never_lost f32_pre = true /\
  crash_torn file_empty f32_pre 9 = true /\
  c27_result_orig f32_pre 9 f32_after =
    Some (2%nat, [RBool true; RBool true],
          [RBytes None; RBool false; RBool true; RBytes (Some [67; 67; 67; 67; 67; 67])]) /\
  c27_ok f32_pre f32_after (c27_result_orig f32_pre 9 f32_after) = false /\
  c27_result f32_pre 9 f32_after =
    Some (2%nat, [RBool true; RBool true],
          [RBytes None; RBool true; RBool true; RBytes (Some [68; 68])]).
Proof. repeat apply conj; vm_compute; reflexivity. Qed.
Print Assumptions c27_order_orig_refuted.

(* Non-vacuity: a control-first history killed BETWEEN the data write and the index write of
   put(2,[13;14]) meets all hypotheses of c27_atomic_partial and is not a between-calls point: the
   orphan bytes are in the data file, 2 is absent, the last completed control record (5,6) and the
   completed message are there, and the further stores are accepted and returned. *)
Theorem c27_nonvacuous :
  ops_wf (nv_pre ++ OReopen :: nv_after) = true /\ zero_free (nv_pre ++ OReopen :: nv_after) = true /\
  never_lost nv_pre = true /\ no_reopen nv_after = true /\
  crash_torn file_empty nv_pre 11 = true /\ crash_between file_empty nv_pre 11 = false /\
  option_map (fun o => d_dat (o_disk o)) (c27_model nv_pre 11 nv_after) = Some [10; 11; 12; 13; 14] /\
  c27_result nv_pre 11 nv_after =
    Some (3%nat, [RBool true; RBool true; RBool true],
          [RCtl (Some (5, 6)); RBytes (Some [10; 11; 12]); RBytes None; RBool true; RBool true;
           RCtl (Some (7, 8)); RBytes (Some [15])]).
Proof. repeat apply conj; vm_compute; reflexivity. Qed.
Print Assumptions c27_nonvacuous.

(* The hypotheses do not restrict control values below the range of the API type: sender/target
   8193 (larger than any message size), 2^31 (a negative int32 in the index record's _size field)
   and 2^32-1 are admitted, and the control record after the reopen is the last completed one. *)
Theorem c27_control_range_nonvacuous :
  ops_wf (cb_pre ++ OReopen :: cb_after) = true /\ zero_free (cb_pre ++ OReopen :: cb_after) = true /\
  never_lost cb_pre = true /\ no_reopen cb_after = true /\
  crash_between file_empty cb_pre 8 = true /\
  c27_result cb_pre 8 cb_after =
    Some (3%nat, [RBool true; RBool true; RBool true],
          [RCtl (Some (65536, 2147483648)); RBytes (Some [1; 2]); RBool true;
           RCtl (Some (8192, 4294967295))]) /\
  c27_result cb_pre 2 cb_after =
    Some (1%nat, [RBool true],
          [RCtl (Some (4294967295, 8193)); RBytes None; RBool true; RCtl (Some (8192, 4294967295))]).
Proof. repeat apply conj; vm_compute; reflexivity. Qed.
Print Assumptions c27_control_range_nonvacuous.
