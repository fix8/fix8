From Coq Require Import NArith PeanoNat List Bool Lia Btauto.
From F8 Require Import C13.SMap C13.SMapProofs C13.Schema C13.SchemaProofs C13.Probe C14.GroupHash.
Import ListNotations.
Local Open Scope N_scope.

(* rothash is affine over GF(2): rot_l is additive, the value and KROT are xor-ed in.
   [by_bits]: identities between xor/and combinations, bit by bit. *)
Ltac by_bits := apply N.bits_inj; intro; repeat (rewrite N.lxor_spec || rewrite N.land_spec); btauto.

Lemma rot_l_lxor : forall a b, rot_l (N.lxor a b) = N.lxor (rot_l a) (rot_l b).
Proof. intros a b. unfold rot_l. rewrite N.shiftr_lxor, !N.shiftl_lxor. by_bits. Qed.

Lemma rot_l_0 : rot_l 0 = 0.
Proof. reflexivity. Qed.

(* so the collisions of two-member definitions {a, b}, {c, d} can be solved for d *)
Lemma pair_collision_iff_lemma : forall a b c d,
  rothash (rothash 0 a) b = rothash (rothash 0 c) d <-> d = N.lxor (rot_l (N.lxor a c)) b.
Proof.
  intros a b c d. unfold rothash. rewrite rot_l_0, !N.lxor_0_l, !rot_l_lxor. split; intro H.
  - apply N.lxor_eq. apply N.lxor_eq_0_iff in H. rewrite <- H. by_bits.
  - subst d. by_bits.
Qed.

Lemma rothash_value_injective_lemma : forall r v1 v2, rothash r v1 = rothash r v2 -> v1 = v2.
Proof.
  intros r v1 v2 H. unfold rothash in H. apply N.lxor_eq.
  apply N.lxor_eq_0_iff in H. rewrite <- H. by_bits.
Qed.

Lemma lt_pow2_land : forall a n, a < 2 ^ n <-> N.land a (N.ones n) = a.
Proof.
  intros a n. rewrite N.land_ones. split; [apply N.mod_small|].
  intros <-. apply N.mod_lt, N.pow_nonzero. discriminate.
Qed.

Lemma lxor_lt_pow2 : forall a b n, a < 2 ^ n -> b < 2 ^ n -> N.lxor a b < 2 ^ n.
Proof.
  intros a b n Ha Hb. apply lt_pow2_land in Ha, Hb. apply lt_pow2_land. rewrite <- Ha, <- Hb. by_bits.
Qed.

Lemma shiftr_lt_pow2 : forall a n k, a < 2 ^ n -> N.shiftr a k < 2 ^ n.
Proof.
  intros a n k H. rewrite N.shiftr_div_pow2. eapply N.le_lt_trans; [|exact H].
  assert (2 ^ k <> 0) by (apply N.pow_nonzero; discriminate). apply N.div_le_upper_bound; [assumption | nia].
Qed.

Lemma rothash_bound_lemma : forall r v, r < W32 -> v < W32 -> rothash r v < W32.
Proof.
  intros r v Hr Hv. change W32 with (2 ^ 32) in *. unfold rothash, rot_l. change M32 with (N.ones 32).
  repeat apply lxor_lt_pow2; try assumption.
  - apply shiftr_lt_pow2. assumption.
  - apply lt_pow2_land. by_bits.
  - apply lt_pow2_land. by_bits.
  - reflexivity.
Qed.

(* the inner fix of ritem_eqb is gdef_eqb *)
Lemma ritem_eqb_group : forall n1 r1 c1 s1 n2 r2 c2 s2,
  ritem_eqb (RGroup n1 r1 c1 s1) (RGroup n2 r2 c2 s2)
  = (n1 =? n2) && Bool.eqb r1 r2 && key_eqb c1 c2 && gdef_eqb s1 s2.
Proof. reflexivity. Qed.

Lemma gdef_eqb_eq_if : forall l1, Forall (fun x => forall y, ritem_eqb x y = true -> x = y) l1 ->
  forall l2, gdef_eqb l1 l2 = true -> l1 = l2.
Proof.
  induction 1 as [|x l1 Px _ IH]; intros [|y l2] H; cbn in H; try discriminate; [reflexivity|].
  apply andb_true_iff in H. destruct H. f_equal; auto.
Qed.

Lemma ritem_eqb_eq : forall a b, ritem_eqb a b = true -> a = b.
Proof.
  induction a as [n t r c|n r c sub IH] using ritem_ind2; intros [n2 t2 r2 c2|n2 r2 c2 sub2] H; try discriminate.
  - cbn in H. repeat (apply andb_true_iff in H; destruct H as [H ?]).
    apply N.eqb_eq in H. apply N.eqb_eq in H2. apply eqb_prop in H1. apply key_eqb_eq in H0. subst. reflexivity.
  - rewrite ritem_eqb_group in H. repeat (apply andb_true_iff in H; destruct H as [H ?]).
    apply N.eqb_eq in H. apply eqb_prop in H2. apply key_eqb_eq in H1. apply (gdef_eqb_eq_if _ IH) in H0.
    subst. reflexivity.
Qed.

Lemma gdef_eqb_eq : forall l1 l2, gdef_eqb l1 l2 = true -> l1 = l2.
Proof. intro l1. apply gdef_eqb_eq_if. apply Forall_forall. intros x _. apply ritem_eqb_eq. Qed.

Definition gm_ok (gm : gmap) : Prop :=
  ssorted (sm_keys gm) /\ forall k cg, In (k, cg) gm -> ssorted (sm_keys cg).

Lemma gm_ok_nil : gm_ok [].
Proof. split; [constructor | intros k cg []]. Qed.

Lemma gm_ins_ok : forall gm d, gm_ok gm -> gm_ok (gm_ins gm d).
Proof.
  intros gm d [S A]. unfold gm_ins. destruct (sm_find [fst d] gm) as [cg|] eqn:F.
  - split.
    + rewrite sm_set_keys. assumption.
    + intros k cg' I. apply sm_set_In in I. destruct I as [I|[E1 E2]]; [eapply A; eauto|].
      cbn in E2. subst cg'. apply sm_ins_sorted. apply sm_find_In in F. eapply A; eauto.
  - split.
    + apply sm_ins_sorted. assumption.
    + intros k cg' I. apply sm_ins_In in I. destruct I as [E|I]; [|eapply A; eauto].
      inversion E; subst. cbn. repeat constructor.
Qed.

Lemma gm_find_ins : forall gm d n h, gm_ok gm ->
  gm_find (gm_ins gm d) n h =
  if (fst d =? n) && (group_hash (snd d) =? h)
  then match gm_find gm n h with Some x => Some x | None => Some (snd d) end
  else gm_find gm n h.
Proof.
  intros gm [n0 sub] n h [S A]. cbn [fst snd]. unfold gm_find, gm_ins. cbn [fst snd].
  set (h0 := group_hash sub).
  destruct (sm_find [n0] gm) as [cg|] eqn:F0.
  - assert (Scg : ssorted (sm_keys cg)) by (apply sm_find_In in F0; eapply A; eauto).
    destruct (N.eqb_spec n0 n) as [->|NE]; cbn [andb].
    + rewrite sm_find_set_same by (unfold sm_mem; rewrite F0; reflexivity). rewrite F0.
      destruct (N.eqb_spec h0 h) as [->|HE].
      * apply sm_find_ins_same. assumption.
      * apply sm_find_ins_other. congruence.
    + rewrite sm_find_set_other by congruence. reflexivity.
  - destruct (N.eqb_spec n0 n) as [->|NE]; cbn [andb].
    + rewrite sm_find_ins_same by assumption. rewrite F0. cbn.
      rewrite key_eqb_single. rewrite (N.eqb_sym h h0). destruct (h0 =? h); reflexivity.
    + rewrite sm_find_ins_other by congruence. reflexivity.
Qed.

Lemma gm_find_fold : forall defs gm n h, gm_ok gm ->
  gm_find (fold_left gm_ins defs gm) n h =
  match gm_find gm n h with Some x => Some x | None => first_def (keyed defs) n h end.
Proof.
  induction defs as [|d defs IH]; intros gm n h OK.
  - cbn. destruct (gm_find gm n h); reflexivity.
  - cbn [fold_left]. rewrite IH by (apply gm_ins_ok; assumption). rewrite gm_find_ins by assumption.
    change (keyed (d :: defs)) with ((fst d, group_hash (snd d), snd d) :: keyed defs).
    cbn [first_def fst snd].
    destruct ((fst d =? n) && (group_hash (snd d) =? h)); destruct (gm_find gm n h); reflexivity.
Qed.

Lemma gm_find_build : forall defs n h, gm_find (build_gm defs) n h = first_def (keyed defs) n h.
Proof. intros. unfold build_gm. rewrite gm_find_fold by apply gm_ok_nil. reflexivity. Qed.

Lemma first_def_find : forall kl n h,
  first_def kl n h = option_map snd (find (fun d => (fst (fst d) =? n) && (snd (fst d) =? h)) kl).
Proof.
  induction kl as [|d kl IH]; cbn; intros n h; [reflexivity|].
  destruct ((fst (fst d) =? n) && (snd (fst d) =? h)); [reflexivity | apply IH].
Qed.

Lemma first_def_inj : forall kl n h s, kinj kl = true -> In (n, h, s) kl -> first_def kl n h = Some s.
Proof.
  intros kl n h s K I. rewrite first_def_find. destruct (find _ kl) as [d|] eqn:F.
  - (* the first definition under the key has the same key as s, so it is s *)
    apply find_some in F. destruct F as [Id E]. unfold kinj in K. rewrite forallb_forall in K.
    specialize (K _ Id). rewrite forallb_forall in K. specialize (K _ I).
    unfold same_key in K. cbn [fst snd] in K. rewrite E in K. cbn. f_equal. apply gdef_eqb_eq. exact K.
  - pose proof (find_none _ _ F _ I) as E. cbn in E. rewrite !N.eqb_refl in E. discriminate.
Qed.

Lemma level_depth_In : forall its x, In x its -> (item_depth x <= level_depth its)%nat.
Proof.
  induction its as [|y its IH]; cbn; intros x H; [contradiction|].
  destruct H as [E|H]; [subst; apply Nat.le_max_l|].
  etransitivity; [apply IH; assumption | apply Nat.le_max_r].
Qed.

Lemma item_depth_group : forall n r c sub, item_depth (RGroup n r c sub) = S (level_depth sub).
Proof. reflexivity. Qed.

Lemma own_groups_In : forall its k sub, In (k, sub) (own_groups its) ->
  exists n r c, k = [n] /\ In (RGroup n r c sub) its.
Proof.
  intros its k sub H. unfold own_groups in H. apply sm_of_list_In, in_flat_map in H.
  destruct H as [[n t r c|n r c s] [I E]]; [contradiction|].
  destruct E as [E|[]]. inversion E; subst. exists n, r, c. auto.
Qed.

Lemma subs_map_own : forall its,
  map (fun kd : key * gdef => (fst kd, own_node (snd kd))) (own_groups its) = sm_of_list (flat_map item_sub its).
Proof.
  intro its. unfold own_groups. rewrite (sm_of_list_map own_node). f_equal.
  induction its as [|x its IH]; [reflexivity|].
  cbn [flat_map]. rewrite map_app. f_equal; [destruct x; reflexivity | exact IH].
Qed.

Lemma level_defs_group : forall its n r c sub, In (RGroup n r c sub) its ->
  In (n, sub) (level_defs its) /\ incl (level_defs sub) (level_defs its).
Proof.
  intros its n r c sub I. unfold level_defs. split.
  - apply in_flat_map. exists (RGroup n r c sub). split; [assumption|]. cbn. apply in_or_app. right. left. reflexivity.
  - intros d Hd. apply in_flat_map. exists (RGroup n r c sub). split; [assumption|]. cbn. apply in_or_app. left. assumption.
Qed.

Lemma keyed_In : forall defs n sub, In (n, sub) defs -> In (n, group_hash sub, sub) (keyed defs).
Proof. intros defs n sub I. unfold keyed. apply in_map_iff. exists (n, sub). split; [reflexivity | assumption]. Qed.

(* one group of a level in f8c_node: looked up under (count field, hash of the level's own
   definition), generated from what is found *)
Definition resolve_group (gm : gmap) (f : nat) (kd : key * gdef) (acc : option (list (key * mnode)))
  : option (list (key * mnode)) :=
  match acc, fst kd with
  | Some l, [n] =>
      match gm_find gm n (group_hash (snd kd)) with
      | Some d => match f8c_node f gm d with
                  | Some nd => Some ((fst kd, nd) :: l)
                  | None => None end
      | None => None
      end
  | _, _ => None
  end.

Lemma f8c_node_S : forall f gm its, f8c_node (S f) gm its =
  match fold_right (resolve_group gm f) (Some []) (own_groups its) with
  | Some subs => Some (MNode (level_traits its) subs)
  | None => None
  end.
Proof. reflexivity. Qed.

(* The one fact behind both soundness theorems: if every group definition below [its] is found
   under its own key, generation resolves every group to the message's own definition. *)
Lemma f8c_node_found : forall gm fuel its,
  (forall n sub, In (n, sub) (level_defs its) -> gm_find gm n (group_hash sub) = Some sub) ->
  (level_depth its < fuel)%nat -> f8c_node fuel gm its = Some (own_node its).
Proof.
  intro gm. induction fuel as [|f IH]; intros its FD D; [lia|].
  rewrite f8c_node_S. unfold own_node. rewrite <- subs_map_own.
  assert (G : forall l, incl l (own_groups its) ->
     fold_right (resolve_group gm f) (Some []) l
     = Some (map (fun kd : key * gdef => (fst kd, own_node (snd kd))) l)).
  { induction l as [|[k sub] l IHl]; intro HI; [reflexivity|].
    cbn [fold_right map fst snd]. rewrite IHl by (intros kd Hkd; apply HI; right; assumption).
    destruct (own_groups_In its k sub (HI _ (or_introl eq_refl))) as [n [r [c [-> I]]]].
    destruct (level_defs_group its n r c sub I) as [I1 I2]. unfold resolve_group. cbn [fst snd].
    rewrite (FD _ _ I1), IH; [reflexivity | intros; apply FD, I2; assumption|].
    pose proof (level_depth_In its _ I) as L. rewrite item_depth_group in L. lia. }
  rewrite G by apply incl_refl. reflexivity.
Qed.

Definition x_level (x : xschema) (its : list ritem) : Prop :=
  its = x_header x \/ its = x_trailer x \/ exists m, In (m, its) (x_msgs x).

Lemma x_level_defs : forall x its, x_level x its -> incl (level_defs its) (schema_defs x).
Proof.
  intros x its L d Hd. unfold schema_defs. rewrite !in_app_iff, in_flat_map.
  destruct L as [->|[->|[m I]]]; [left | right; left | right; right; exists (m, its)]; auto.
Qed.

Lemma sound_if_injective_lemma : forall (x : xschema) (its : list ritem),
  defs_injective (schema_defs x) = true -> x_level x its -> (level_depth its < FUEL)%nat ->
  f8c_node FUEL (build_gm (schema_defs x)) its = Some (own_node its).
Proof.
  intros x its INJ L D. apply f8c_node_found; [|assumption].
  intros n sub I. rewrite gm_find_build. apply first_def_inj; [assumption|].
  apply keyed_In, (x_level_defs x its L). assumption.
Qed.

Lemma existsb_false : forall {A : Type} (f : A -> bool) l, existsb f l = false -> forall x, In x l -> f x = false.
Proof.
  intros A f l H x I. destruct (f x) eqn:E; [|reflexivity].
  rewrite <- H. symmetry. apply existsb_exists. eauto.
Qed.

Lemma sound_if_no_clash_lemma : forall fuel all its,
  msg_clash all its = false -> (level_depth its < fuel)%nat ->
  f8c_node fuel (build_gm all) its = Some (own_node its).
Proof.
  intros fuel all its NC D. apply f8c_node_found; [|assumption].
  intros n sub I. rewrite gm_find_build.
  pose proof (existsb_false _ _ NC (n, sub) I) as H. cbn [fst snd] in H.
  destruct (first_def (keyed all) n (group_hash sub)) as [d'|]; [|discriminate].
  apply negb_false_iff, gdef_eqb_eq in H. subst. reflexivity.
Qed.

Lemma level_keys_iff : forall its k,
  In k (sm_keys (level_traits its)) <-> exists n, In n (map item_num its) /\ k = [n].
Proof.
  intros its k. split.
  - intro I. apply in_map_iff in I. destruct I as [[k' t] [E I]]. cbn in E. subst k'.
    apply level_traits_In in I. destruct I as [[i x] [I [E _]]]. apply number_from_In in I.
    exists (item_num x). split; [apply in_map; tauto | assumption].
  - intros [n [I ->]]. apply in_map_iff in I. destruct I as [x [<- I]].
    apply sm_mem_keys, level_traits_mem. assumption.
Qed.

Lemma level_nums_keys : forall its, level_nums its = map (fun k => hd 0 k) (sm_keys (level_traits its)).
Proof.
  intro its. unfold level_nums, sm_keys. rewrite map_map.
  apply map_ext_in. intros [k t] I. cbn. apply level_traits_key in I. subst k. reflexivity.
Qed.

(* group_hash sees a definition only through the SET of its member numbers and the map
   count field -> hash of the first nested group with that count field: not the order of the
   members, their required flags, their types or the component they came from *)
Lemma group_hash_ext : forall l1 l2,
  (forall n, In n (map item_num l1) <-> In n (map item_num l2)) ->
  sm_of_list (flat_map item_hash l1) = sm_of_list (flat_map item_hash l2) ->
  group_hash l1 = group_hash l2.
Proof.
  intros l1 l2 E H. unfold group_hash. rewrite H, !level_nums_keys. do 3 f_equal.
  apply ssorted_ext; try apply level_traits_sorted.
  intro k. rewrite !level_keys_iff.
  split; intros [n [I ->]]; exists n; (split; [apply E; exact I | reflexivity]).
Qed.

Lemma flat_item_hash : forall l, forallb (fun x => negb (is_group x)) l = true -> flat_map item_hash l = [].
Proof.
  induction l as [|x l IH]; cbn; intro H; [reflexivity|].
  apply andb_true_iff in H. destruct H as [H1 H2]. rewrite IH by assumption.
  destruct x; [reflexivity | discriminate].
Qed.

(* group_hash(pp.second) in f8c: a nested group enters with the hash of its body, not its count field *)
Lemma item_hash_group_lemma : forall n r c sub, item_hash (RGroup n r c sub) = [([n], group_hash sub)].
Proof. reflexivity. Qed.

(* The schemas of the witnesses of Properties_C14.v. *)
(* message A: Text, NoThings{Account(Y), Big(N)};   message B: NoThings{AdvId(Y), BeginSeqNo(Y)}, Text *)
Definition wA : list ritem :=
  [RField 58 15 false []; RGroup 5000 false [] [RField 1 15 true []; RField 24676 15 false []]].
Definition wB : list ritem :=
  [RGroup 5000 true [] [RField 2 15 true []; RField 7 4 true []]; RField 58 15 false []].
Definition wHdr : mnode := MNode [] [].

(* same members, other order (C) / other required flags (D) than the first definition (A') *)
Definition wA' : list ritem :=
  [RGroup 5001 false [] [RField 11 15 true []; RField 12 1 true []; RField 13 7 false []]].
Definition wC : list ritem :=
  [RGroup 5001 false [] [RField 13 7 true []; RField 11 15 false []; RField 12 1 false []]].
Definition wD : list ritem :=
  [RGroup 5001 false [] [RField 11 15 true []; RField 12 1 false []; RField 13 7 true []]].

(* three messages: M1 and M2 use NoLegs with the same definition (nested NoSub inside), M3 uses
   NoLegs with other members (another hash) and NoSub on its own with another definition *)
Definition nvLegs : ritem :=
  RGroup 555 true [] [RField 600 15 true []; RGroup 556 false [] [RField 601 1 true []; RField 602 11 false []];
                      RField 603 10 false []].
Definition nvX : xschema :=
  mkX [] [] [RField 8 15 true []; RField 9 2 true []; RField 35 15 true []] [RField 10 15 true []]
      [ (mkMsg [77] [65] false [], [RField 58 15 false []; nvLegs]);
        (mkMsg [78] [66] false [], [nvLegs; RField 59 15 true []]);
        (mkMsg [79] [67] false [], [RGroup 555 false [] [RField 600 15 true []; RField 604 1 false []];
                                    RGroup 556 true [] [RField 602 11 true []]]) ].

(* NoAllocs{79, 80, NoMiscFees{137, 138}} and NoAllocs{79, 80, NoMiscFees{137, 139}}: same direct members,
   different nested members.  The pinned f8c prints "hash: 0x7a05739b" and "hash: 0x7a05739a" for them. *)
Definition nhA : list ritem :=
  [RField 79 15 false []; RField 80 1 false []; RGroup 136 false [] [RField 137 15 false []; RField 138 15 false []]].
Definition nhB : list ritem :=
  [RField 79 15 false []; RField 80 1 false []; RGroup 136 false [] [RField 137 15 false []; RField 139 15 false []]].
Definition nhMsgA : list ritem := [RField 70 15 true []; RGroup 78 false [] nhA].
Definition nhMsgB : list ritem := [RField 70 15 true []; RGroup 78 false [] nhB].
