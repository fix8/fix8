(* C06: computed witnesses on the example schema ex6_ctx (C06/Pairs.v).  The same shapes are in
   known_findings.d/C06.json against the real code on the FIX42UTEST schema. *)
From Coq Require Import NArith ZArith List Bool String Lia.
From F8 Require Import Codec.Bytes Codec.Meta Codec.Extract Codec.Decode Codec.Encode Codec.Render Codec.Example
                       C05.Spec_C05 C05.Obs C06.Spec_C06 C06.Pairs C06.TokenLemmas C06.PairProofs.
Import ListNotations.
Local Open Scope N_scope.
Local Open Scope string_scope.

Definition fx : list N := bs "FIX.4.2".
Definition fl (l : list (N * string)) : list (N * list N) := map (fun p => (fst p, bs (snd p))) l.
Definition x_hdr0 : onode := ON (fl [(34, "7"); (49, "A"); (56, "B")]) [] [].
Definition hdr_toks : list (list N) := map bs ["35=B"; "49=A"; "56=B"; "34=7"].

(* body pair 95/96 (data tag = length tag + 1): content with SOH and '=', a field after it *)
Definition w_body : list N := mkwire fx (hdr_toks ++ map bs ["95=5"; "96=a|=|b"; "58=after"])%list.
Definition x_body : omsg := mkO x_hdr0 (ON (fl [(58, "after"); (95, "5"); (96, "a|=|b")]) [] []) (ON [] [] []).
(* header pair 90/91: content consisting of SOHs only *)
Definition w_hdr : list N := mkwire fx (hdr_toks ++ map bs ["90=3"; "91=|||"; "58=after"])%list.
Definition x_hdr : omsg :=
  mkO (ON (fl [(34, "7"); (49, "A"); (56, "B"); (90, "3"); (91, "|||")]) [] []) (ON (fl [(58, "after")]) [] []) (ON [] [] []).
(* (a) trailer pair SignatureLength(93) / Signature(89): 89 <> 93 + 1 *)
Definition w_trl : list N := mkwire fx (hdr_toks ++ map bs ["58=x"; "93=3"; "89=a|b"])%list.
Definition x_trl : omsg := mkO x_hdr0 (ON (fl [(58, "x")]) [] []) (ON (fl [(89, "a|b"); (93, "3")]) [] []).
(* (b) pair 354/355 inside the repeating group 73 *)
Definition w_grp : list N := mkwire fx (hdr_toks ++ map bs ["73=1"; "11=id"; "354=8"; "355=a|9999=b"])%list.
Definition x_grp : omsg :=
  mkO x_hdr0 (ON (fl [(73, "1")]) [(73, [ON (fl [(11, "id"); (354, "8"); (355, "a|9999=b")]) [] []])] []) (ON [] [] []).
(* (c) NUL in the content of the body pair *)
Definition nul_content : list N := [97; 0; 98].
Definition w_nul : list N := mkwire fx (hdr_toks ++ [bs "95=3"; (bs "96=" ++ nul_content)%list; bs "58=after"])%list.
Definition x_nul : omsg :=
  mkO x_hdr0 (ON [(58, bs "after"); (95, bs "3"); (96, nul_content)] [] []) (ON [] [] []).

Definition body_fields (c : ctx) (w : list N) : option (list (N * list N)) :=
  match factory c real_caps w false false with Ok m => Some (mb_fields (m_body m)) | _ => None end.
Definition trl_fields (c : ctx) (w : list N) : option (list (N * list N)) :=
  match factory c real_caps w false false with Ok m => Some (mb_fields (m_trl m)) | _ => None end.

(* the hypotheses of dec_pair_step_no_nul are satisfiable: the body decoder of ex6_ctx standing
   at "95=5|96=a|=|b|58=after|10=229|" (offset 35 of w_body) *)
Definition inst_from : list N := w_body.
Definition inst_m : mbase := m_body (mk_message ex6_ctx (mkMD [66] false ex6_body) false).
Definition inst_content : list N := bs "a|=|b".

Lemma c06_step_instance_lemma :
  exists m3 pos2 tb2,
    dec_loop ex6_ctx real_caps inst_from (lenN inst_from) false (dec_fuel inst_from) 3 inst_m 35 0 None 0 [] =
    dec_loop ex6_ctx real_caps inst_from (lenN inst_from) false (dec_fuel inst_from) 2 m3 49 pos2 None 0 tb2 /\
    skipN 49 inst_from = bs "58=after|10=229|" /\
    map_find 95 (mb_fields m3) = Some (bs "5") /\
    map_find 96 (mb_fields m3) = Some inst_content.
Proof.
  destruct (dec_pair_step_no_nul ex6_ctx real_caps inst_from (lenN inst_from) false (dec_fuel inst_from)
              eq_refl eq_refl 2 inst_m 35 0 None 0 [] 95 inst_content (bs "58=after|10=229|")
              (tr 95 2 1 false false false false) (tr 96 28 2 false false false false) 2 28)
    as (m3 & pos2 & tb2 & H); try reflexivity; try discriminate.   (* the closed premises, by evaluation *)
  - repeat constructor.
  - exists m3, pos2, tb2. exact H.
Qed.
