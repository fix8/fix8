(* extract_element_fixed_width on  tag '=' content <anything>  for ARBITRARY content bytes of the
   announced length (xfw_exact).  (extract_element on  tag '=' value SOH rest  is
   Codec.Lemmas.xe_exact.) *)
From Coq Require Import NArith ZArith List Bool Lia.
From F8 Require Import Codec.Bytes Codec.Meta Codec.Extract Codec.Lemmas.
Import ListNotations.
Local Open Scope N_scope.

(* the byte classes of Codec.Lemmas under the names this property's statements use *)
Definition all_digits (l : list N) : Prop := Forall (fun b => is_digit b = true) l.
Definition no_soh (l : list N) : Prop := Forall (fun b => (b =? SOH) = false) l.
Definition no_nul (l : list N) : Prop := Forall (fun b => (b =? 0) = false) l.

Lemma lenN_length {A} (a : list A) : lenN a = N.of_nat (length a).
Proof. exact (Codec.Lemmas.lenN_length a). Qed.

Lemma itoa_nonempty n : itoa_N n <> [].
Proof. exact (Codec.Lemmas.itoa_nonempty n). Qed.

(* the content is taken by its announced length: ANY bytes (SOH, '=', NUL, ...), and whatever
   follows is not even looked at *)
Theorem xfw_exact : forall tag content rest sz tcap vcap,
  all_digits tag -> lenN tag < tcap -> lenN content < vcap ->
  lenN tag + 1 + lenN content <= sz ->
  extract_element_fixed_width (tag ++ EQC :: content ++ rest) sz (lenN content) tcap vcap
  = XOk tag content (lenN tag + 1 + lenN content + 1).
Proof.
  intros tag content rest sz tcap vcap Ht Htc Hvc Hsz. unfold extract_element_fixed_width.
  rewrite (proj2 (N.ltb_lt 0 tcap)), (proj2 (N.ltb_lt 0 vcap)) by lia. cbn [andb].
  rewrite xfw_digits, !N.add_0_l, (proj2 (N.ltb_lt (lenN tag) tcap)) by (trivial || lia). cbn [xfw_loop].
  rewrite (proj2 (N.ltb_lt (lenN tag) sz)) by lia.
  change (is_digit EQC) with false. change (EQC =? EQC) with true.
  rewrite (proj2 (N.ltb_lt (lenN content) vcap)), (proj2 (N.ltb_ge sz (lenN tag + 1 + lenN content))) by lia.
  cbn [negb orb]. rewrite firstN_app, N.ltb_irrefl, app_nil_r, rev_involutive. reflexivity.
Qed.
