(* One turn of MessageBase::decode's loop on a Length/data pair
   L=<n> SOH (L+1)=<content> SOH: whatever bytes the content consists of, both fields are stored
   and the loop continues exactly behind the pair. *)
From Coq Require Import NArith ZArith List Bool Lia.
From F8 Require Import Codec.Bytes Codec.Meta Codec.Extract Codec.Decode Codec.Lemmas C06.TokenLemmas.
Import ListNotations.
Local Open Scope N_scope.

Definition field_tok (f : N) (v : list N) : list N := itoa_N f ++ EQC :: v ++ [SOH].
Lemma field_tok_app f v X : field_tok f v ++ X = itoa_N f ++ EQC :: v ++ SOH :: X.
Proof. unfold field_tok. rewrite <- app_assoc. cbn [app]. rewrite <- app_assoc. reflexivity. Qed.
Lemma field_tok_len f v : lenN (field_tok f v) = lenN (itoa_N f) + 1 + lenN v + 1.
Proof. unfold field_tok. rewrite lenN_app. cbn [lenN]. rewrite lenN_app. cbn [lenN]. lia. Qed.

Lemma itoa_len_bound n : n < 4294967296 -> lenN (itoa_N n) <= 33.
Proof.
  intros H. pose proof (itoa_len_le 9 n) as B. change (10 ^ N.of_nat 10) with 10000000000 in B.
  specialize (B ltac:(lia)). lia.
Qed.

Lemma cstr_known_app d X : no_nul d -> cstr_known (d ++ 0 :: X) = Some d.
Proof.
  induction 1 as [|x d Hx Hd IH]; cbn [app cstr_known]; [reflexivity|]. rewrite Hx, IH. reflexivity.
Qed.

Lemma find_trait_upd_other v ts f g : f <> g ->
  find_trait (upd_trait (set_present v) ts f) g = find_trait ts g.
Proof.
  intros Hne. rewrite find_trait_upd by reflexivity. destruct (N.eqb_spec g f); [congruence | reflexivity].
Qed.

Lemma fp_mark_add m f p v : mb_fp (mark_present (add_field_decoder m f p v) f) = upd_trait (set_present true) (mb_fp m) f.
Proof. destruct m; reflexivity. Qed.

Section Pair.
Variable c : ctx. Variable cp : caps. Variable from : list N. Variable fsize : N.
Variable permissive : bool. Variable gfuel : nat.
Hypothesis Hct : cap_tag cp = MAX_FLD_LENGTH.
Hypothesis Hcv : cap_val cp = MAX_FLD_LENGTH.

Theorem dec_pair_step : forall fuel m off pos lvp lvo tb L content rest trL trD tyL tyD,
  let n := lenN content in
  let tok1 := field_tok L (itoa_N n) in
  let tok2 := field_tok (L + 1) content in
  skipN off from = tok1 ++ tok2 ++ rest ->
  off + lenN tok1 + lenN tok2 <= fsize ->
  n <= MAX_FLD_LENGTH - 1 ->
  L + 1 < 65536 -> L <> Common_BodyLength ->
  find_trait (mb_fp m) L = Some trL -> t_present trL = false -> t_ftype trL = ft_Length -> t_group trL = false ->
  find_trait (mb_fp m) (L + 1) = Some trD -> t_ftype trD = ft_data -> t_group trD = false ->
  find_be (c_fields c) L = Some tyL -> find_be (c_fields c) (L + 1) = Some tyD ->
  let pos1 := (pos + 1) mod 4294967296 in
  let pos2 := (pos1 + 1) mod 4294967296 in
  let m1 := mark_present (add_field_decoder m L pos1 (itoa_N n)) L in
  let m3 := mark_present (add_field_decoder m1 (L + 1) pos2 (cstr content)) (L + 1) in
  skipN (off + lenN tok1 + lenN tok2) from = rest /\
  exists tb2,
    dec_loop c cp from fsize permissive gfuel (S fuel) m off pos lvp lvo tb =
    dec_loop c cp from fsize permissive gfuel fuel m3 (off + lenN tok1 + lenN tok2) pos2 lvp lvo tb2.
Proof.
  intros fuel m off pos lvp lvo tb L content rest trL trD tyL tyD n tok1 tok2
         Hfrom Hsz Hn HL HL9 HtL HpL HtyL HgL HtD HtyD HgD HbL HbD pos1 pos2 m1 m3.
  pose proof (itoa_digits n) as Dn. pose proof (itoa_digits L) as DL. pose proof (itoa_digits (L + 1)) as DD.
  assert (Bn : lenN (itoa_N n) <= 33) by (apply itoa_len_bound; unfold MAX_FLD_LENGTH in Hn; lia).
  assert (BL : lenN (itoa_N L) <= 33) by (apply itoa_len_bound; lia).
  assert (BD : lenN (itoa_N (L + 1)) <= 33) by (apply itoa_len_bound; lia).
  pose proof (field_tok_len L (itoa_N n)) as Len1. fold tok1 in Len1.
  pose proof (field_tok_len (L + 1) content) as Len2. fold tok2 in Len2. fold n in Len2.
  unfold MAX_FLD_LENGTH in *.
  split.
  { rewrite <- N.add_assoc, skipN_add, Hfrom. rewrite app_assoc, <- lenN_app. apply skipN_app. }
  cbn [dec_loop].
  rewrite (proj2 (N.leb_le off fsize)) by lia.
  unfold tok_at. rewrite Hfrom. unfold tok1 at 1. rewrite field_tok_app.
  rewrite xe_exact by (try assumption; try (apply digits_no_soh; assumption); try lia).
  rewrite atoi_u16_itoa by lia. rewrite HtL, HpL, HbL.
  unfold opt_group at 1. rewrite HgL. cbn [andb].
  rewrite HtyL. change (ft_Length =? ft_Length) with true. cbn [negb orb].
  rewrite (proj2 (N.eqb_neq L Common_BodyLength)), atoi_u32_itoa by (assumption || lia).
  rewrite (proj2 (N.ltb_ge (MAX_FLD_LENGTH - 1) n)) by (unfold MAX_FLD_LENGTH; lia).
  rewrite skipN_add, Hfrom. fold tok1. rewrite <- Len1, skipN_app.
  unfold tok2 at 1. rewrite field_tok_app.
  change (SOH :: rest) with ([SOH] ++ rest).
  fold n.
  rewrite xfw_exact by (try assumption; lia).
  assert (Etb : cstr_known (tagbuf_after_fw (itoa_N (L + 1)) (tagbuf_after (itoa_N L) tb)) = Some (itoa_N (L + 1))).
  { unfold tagbuf_after_fw. apply cstr_known_app. apply digits_no_nul. assumption. }
  rewrite Etb. rewrite atoi_u16_itoa by lia.
  rewrite cstr_no_nul by (apply digits_no_nul; assumption).
  fold pos1. fold m1.
  assert (Ef : find_trait (mb_fp m1) (L + 1) = Some trD).
  { unfold m1. rewrite fp_mark_add, find_trait_upd_other by lia. assumption. }
  rewrite Ef, HtyD. change (ft_data =? ft_data) with true. rewrite N.eqb_refl. cbn [negb orb].
  rewrite HbD. unfold opt_group. rewrite HgD. cbn [andb]. fold pos2. fold m3.
  eexists. rewrite Len2. reflexivity.
Qed.
End Pair.

Lemma map_find_insert_same {A} k (v : A) l : map_find k l = None -> map_find k (map_insert k v l) = Some v.
Proof. exact (Codec.Lemmas.map_find_insert_same k v l). Qed.
Lemma map_find_insert_other {A} k g (v : A) l : g <> k -> map_find g (map_insert k v l) = map_find g l.
Proof. exact (Codec.Lemmas.map_find_insert_other g k v l). Qed.
Lemma fields_mark_add m f p v : mb_fields (mark_present (add_field_decoder m f p v) f) = map_insert f v (mb_fields m).
Proof. destruct m; reflexivity. Qed.

Lemma pair_fields m L p1 p2 lv dv :
  map_find L (mb_fields m) = None -> map_find (L + 1) (mb_fields m) = None ->
  let m3 := mark_present (add_field_decoder (mark_present (add_field_decoder m L p1 lv) L) (L + 1) p2 dv) (L + 1) in
  map_find L (mb_fields m3) = Some lv /\ map_find (L + 1) (mb_fields m3) = Some dv.
Proof.
  intros HL HD m3. unfold m3. rewrite !fields_mark_add. split.
  - rewrite map_find_insert_other by lia. apply map_find_insert_same. assumption.
  - apply map_find_insert_same. rewrite map_find_insert_other by lia. assumption.
Qed.

(* content without NUL: the stored value IS the content *)
Corollary dec_pair_step_no_nul c cp from fsize permissive gfuel :
  cap_tag cp = MAX_FLD_LENGTH -> cap_val cp = MAX_FLD_LENGTH ->
  forall fuel m off pos lvp lvo tb L content rest trL trD tyL tyD,
  let n := lenN content in
  let tok1 := field_tok L (itoa_N n) in
  let tok2 := field_tok (L + 1) content in
  no_nul content ->
  skipN off from = tok1 ++ tok2 ++ rest ->
  off + lenN tok1 + lenN tok2 <= fsize ->
  n <= MAX_FLD_LENGTH - 1 ->
  L + 1 < 65536 -> L <> Common_BodyLength ->
  find_trait (mb_fp m) L = Some trL -> t_present trL = false -> t_ftype trL = ft_Length -> t_group trL = false ->
  find_trait (mb_fp m) (L + 1) = Some trD -> t_ftype trD = ft_data -> t_group trD = false ->
  find_be (c_fields c) L = Some tyL -> find_be (c_fields c) (L + 1) = Some tyD ->
  map_find L (mb_fields m) = None -> map_find (L + 1) (mb_fields m) = None ->
  exists m3 pos2 tb2,
    dec_loop c cp from fsize permissive gfuel (S fuel) m off pos lvp lvo tb =
    dec_loop c cp from fsize permissive gfuel fuel m3 (off + lenN tok1 + lenN tok2) pos2 lvp lvo tb2 /\
    skipN (off + lenN tok1 + lenN tok2) from = rest /\
    map_find L (mb_fields m3) = Some (itoa_N n) /\
    map_find (L + 1) (mb_fields m3) = Some content.
Proof.
  intros Hct Hcv fuel m off pos lvp lvo tb L content rest trL trD tyL tyD n tok1 tok2 Hnn
         Hfrom Hsz Hn HL HL9 HtL HpL HtyL HgL HtD HtyD HgD HbL HbD HfL HfD.
  destruct (dec_pair_step c cp from fsize permissive gfuel Hct Hcv fuel m off pos lvp lvo tb L content rest
              trL trD tyL tyD) as [Hr [tb2 Hs]]; trivial.
  rewrite (cstr_no_nul content Hnn) in Hs.
  eexists _, _, tb2. split; [exact Hs|]. split; [exact Hr|]. apply pair_fields; assumption.
Qed.
