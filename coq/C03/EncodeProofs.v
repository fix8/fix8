(* Message::encode(f8String&); the inputs of the refutation witnesses of
   Properties_C03.v (findings F06, F07, F08, on the example schema of Codec/Example.v) with what
   the extractors and the encoder do on them; the old and the new fast_atoi<int>. *)
From Coq Require Import NArith ZArith List Bool Lia String Ascii.
From F8 Require Import Codec.Bytes Codec.Meta Codec.Extract Codec.Decode Codec.Encode Codec.Render Codec.Example Codec.Lemmas
                       C03.Bounds C03.ExtractProofs C03.FactoryProofs.
Import ListNotations.
Local Open Scope N_scope.

Lemma len_digits_range n : 1 <= len_digits n <= 7.
Proof. unfold len_digits. repeat match goal with |- context [if ?b then _ else _] => destruct b end; lia. Qed.

Lemma parts_pre_len c m pre body cs m' :
  msg_encode_parts c m = Ok (pre, body, cs, m') -> lenN pre = preamble_sz c + len_digits (lenN body).
Proof.
  unfold msg_encode_parts. intros H.
  destruct (mb_encode c (set_value (m_hdr m) Common_MsgType (m_type m))) as [hb| | | |]; try discriminate.
  destruct (mb_encode c (m_body m)) as [bb| | | |]; try discriminate.
  destruct (mb_encode c (m_trl m)) as [tb| | | |]; try discriminate.
  cbn [bind] in H. cbv zeta in H.
  destruct (map_find Common_BeginString (mb_fields (set_value (m_hdr m) Common_MsgType (m_type m)))); [|discriminate].
  match type of H with match ?x with _ => _ end = _ => destruct x; [|discriminate] end.
  match type of H with (if negb (?a =? ?b) then _ else _) = _ => destruct (a =? b) eqn:E; [|discriminate] end.
  cbn [negb] in H.
  match type of H with match ?x with _ => _ end = _ => destruct x; [|discriminate] end.
  match type of H with match ?x with _ => _ end = _ => destruct x as [[ck hh]|]; [|discriminate] end.
  apply N.eqb_eq in E. injection H; intros; subst pre body. exact E.
Qed.

(* output[] holds FIX8_MAX_MSG_LENGTH + HEADER_CALC_OFFSET bytes; the body is written from output + 32
   and the preamble in front of it, so what decides is the length without the preamble, whose
   BodyLength text has k = 1..7 digits *)
Lemma encode_str_spec c m bytes m' : msg_encode c m = Ok (bytes, m') ->
  exists k, 1 <= k <= 7 /\
    msg_encode_str c real_caps m =
    if MAX_MSG_LENGTH + preamble_sz c + k <=? lenN bytes then OOB site_encode_buf else Ok (bytes, m').
Proof.
  unfold msg_encode, msg_encode_str.
  destruct (msg_encode_parts c m) as [[[[pre body] cs] m'']| | | |] eqn:E; cbn [bind]; try discriminate.
  intros H. injection H as <- <-. exists (len_digits (lenN body)). split; [apply len_digits_range|].
  rewrite !lenN_app, (parts_pre_len _ _ _ _ _ _ E).
  cbn [real_caps cap_out]. unfold MAX_MSG_LENGTH, HEADER_CALC_OFFSET.
  match goal with |- (if ?overrun then _ else _) = (if ?long then _ else _) => replace long with overrun end;
    [reflexivity|].
  apply Bool.eq_true_iff_eq. rewrite N.ltb_lt, N.leb_le. lia.
Qed.

Lemma c03_encode_safe_partial_lemma c m bytes m' :
  msg_encode c m = Ok (bytes, m') -> lenN bytes <= MAX_MSG_LENGTH ->
  msg_encode_str c real_caps m = Ok (bytes, m').
Proof.
  intros H Hl. destruct (encode_str_spec _ _ _ _ H) as (k & Hk & ->).
  destruct (N.leb_spec (MAX_MSG_LENGTH + preamble_sz c + k) (lenN bytes)); [lia|reflexivity].
Qed.

Lemma encode_str_overflow c m bytes m' :
  msg_encode c m = Ok (bytes, m') -> MAX_MSG_LENGTH + preamble_sz c + 7 <= lenN bytes ->
  msg_encode_str c real_caps m = OOB site_encode_buf.
Proof.
  intros H Hl. destruct (encode_str_spec _ _ _ _ H) as (k & Hk & ->).
  destruct (N.leb_spec (MAX_MSG_LENGTH + preamble_sz c + k) (lenN bytes)); [reflexivity|lia].
Qed.

(* The witnesses' inputs are of the form  prefix ++ n equal bytes ++ suffix;  what the extractors do
   on them follows from the token theorems of ExtractProofs, what the repaired factory does from
   c03_decode_safe_lemma: nothing of the size of a buffer is evaluated. *)
Fixpoint bytes_of_string (s : string) : list N :=
  match s with
  | EmptyString => []
  | String a r => (let b := N_of_ascii a in if b =? 124 then SOH else b) :: bytes_of_string r
  end.
Definition xs (n : N) : list N := repeat 120 (N.to_nat n).     (* n times 'x' *)

Local Open Scope string_scope.
Definition hb_pre : list N := bytes_of_string "8=FIX.4.2|9=5|35=0|49=A|56=B|34=7|112=".
Definition tail10 : list N := bytes_of_string "|10=000|".
(* a Heartbeat whose TestReqID has n bytes *)
Definition hb_val (n : N) : list N := hb_pre ++ xs n ++ tail10.
(* a message whose MsgType has n bytes *)
Definition long_mtype (n : N) : list N :=
  bytes_of_string "8=FIX.4.2|9=5|35=" ++ xs n ++ bytes_of_string "|49=A|56=B|34=7|10=000|".
(* F08: garbage right after the count of a group whose class has no mandatory member *)
Definition hang_msg : list N :=
  bytes_of_string "8=FIX.4.2|9=5|35=E|49=A|56=B|34=7|66=L1|73=1|11=O1|78=1|A=1|10=000|".
Local Close Scope string_scope.
(* ... and what is left of it after the count 78=1 *)
Definition hang_tail : list N := bytes_of_string "A=1|"%string.

Local Open Scope string_scope.
Definition val_token (n : N) : list N := bytes_of_string "112=" ++ xs n ++ [SOH].
Definition mtype_token (n : N) : list N := bytes_of_string "35=" ++ xs n ++ [SOH].
Definition tag_token (n : N) : list N := repeat 56 (N.to_nat n) ++ bytes_of_string "=F|".
(* a Length field (93, trailer) followed by n digits / by a tag longer than its own *)
Definition fw_digits (n : N) : list N :=
  bytes_of_string "8=FIX.4.2|9=5|35=0|49=A|56=B|34=7|93=1|" ++ repeat 57 (N.to_nat n) ++ bytes_of_string "=x|10=000|".
Definition fw_uninit : list N := bytes_of_string "8=FIX.4.2|9=5|35=0|49=A|56=B|34=7|93=1|8989=x|10=000|".
Local Close Scope string_scope.
(* the token behind the Length field of fw_digits *)
Definition digits_tok (n : N) : list N := repeat 57 (N.to_nat n) ++ bytes_of_string "=x|"%string.

(* a message whose MsgType is mt, for the pseudo rows "header" / "trailer" of the message table *)
Definition pseudo_msg (mt : string) : list N :=
  bytes_of_string ("8=FIX.4.2|9=5|35=" ++ mt ++ "|49=A|56=B|34=7|10=000|")%string.

Lemma xs_len n : lenN (xs n) = n.
Proof. apply lenN_repeat. Qed.
Lemma xs_no_soh n : no_soh (xs n).
Proof. apply Forall_repeat. reflexivity. Qed.

Lemma ex_ctx_wf : c03_wf ex_ctx = true.
Proof. reflexivity. Qed.

Lemma ex_safe bytes : is_bytes bytes = true -> lenN bytes < 4294967296 ->
  safe (factory ex_ctx real_caps bytes false false).
Proof. apply c03_decode_safe_lemma. exact ex_ctx_wf. Qed.

Lemma ex_safe_padded a c n b :
  is_bytes a = true -> c < 256 -> is_bytes b = true -> lenN a + n + lenN b < 4294967296 ->
  safe (factory ex_ctx real_caps (a ++ repeat c (N.to_nat n) ++ b) false false).
Proof.
  intros Ha Hc Hb Hl. apply ex_safe.
  - rewrite !is_bytes_app, Ha, Hb, is_bytes_repeat by exact Hc. reflexivity.
  - rewrite !lenN_app, lenN_repeat. lia.
Qed.

(* a token that is the whole input *)
Lemma token_orig d l nd nl tcap vcap :
  forallb is_digit d = true -> lenN d = nd -> no_soh l -> lenN l = nl ->
  extract_element_orig (d ++ EQC :: l ++ [SOH]) (lenN (d ++ EQC :: l ++ [SOH])) tcap vcap =
  if nd <=? tcap then
    if nl <=? vcap then zero_write nd nl tcap vcap (XOk d l (nd + nl + 2)) else XOOB site_val_write
  else XOOB site_tag_write.
Proof.
  intros Hd Hn Hl Hm. apply (extract_element_orig_token d l []); trivial using N.le_refl.
  apply Forall_forall, forallb_forall, Hd.
Qed.

Lemma token_new d l nd nl tcap vcap :
  forallb is_digit d = true -> lenN d = nd -> no_soh l -> lenN l = nl -> 0 < tcap -> 0 < vcap ->
  if (nd <? tcap) && (nl <? vcap)
  then extract_element (d ++ EQC :: l ++ [SOH]) (lenN (d ++ EQC :: l ++ [SOH])) tcap vcap = XOk d l (nd + nl + 2)
  else exists t v, extract_element (d ++ EQC :: l ++ [SOH]) (lenN (d ++ EQC :: l ++ [SOH])) tcap vcap = XFail t v.
Proof.
  intros Hd Hn Hl Hm. apply (extract_element_token d l []); trivial using N.le_refl.
  apply Forall_forall, forallb_forall, Hd.
Qed.

Lemma digits_tok_len n : lenN (digits_tok n) = n + 3.
Proof. unfold digits_tok. rewrite lenN_app, lenN_repeat. reflexivity. Qed.

Lemma nines_digits k : all_digits (repeat 57 k).
Proof. apply Forall_repeat. reflexivity. Qed.

Lemma fw_orig_digits_tok n : MAX_FLD_LENGTH < n ->
  extract_element_fixed_width_orig (digits_tok n) (lenN (digits_tok n)) 1 MAX_FLD_LENGTH MAX_FLD_LENGTH = XOOB site_tag_write.
Proof.
  intros Hn. rewrite digits_tok_len.
  apply xfw_orig_digits_overflow; rewrite ?lenN_repeat; try lia. apply nines_digits.
Qed.

Lemma fw_digits_tok n :
  extract_element_fixed_width (digits_tok n) (lenN (digits_tok n)) 1 MAX_FLD_LENGTH MAX_FLD_LENGTH =
  if n <? MAX_FLD_LENGTH then XOk (repeat 57 (N.to_nat n)) [120] (n + 3) else XFail [] [].
Proof.
  rewrite digits_tok_len. unfold extract_element_fixed_width, digits_tok. change (0 <? MAX_FLD_LENGTH) with true. cbn [andb].
  rewrite xfw_digits, lenN_repeat, !N.add_0_l by first [apply nines_digits | reflexivity | rewrite lenN_repeat; lia].
  destruct (n <? MAX_FLD_LENGTH); [|reflexivity].
  change (bytes_of_string "=x|") with [EQC; 120; SOH]. cbn [xfw_loop].
  rewrite (proj2 (N.ltb_lt n (n + 3))), (proj2 (N.ltb_ge (n + 3) (n + 1 + 1))) by lia.
  rewrite app_nil_r, rev_involutive. cbn. f_equal. lia.
Qed.

(* F07: the Heartbeat of Example.v with TestReqID v *)
Definition hb_with (v : list N) : message :=
  let m := mk_message ex_ctx (mkMD [48] true ex_heartbeat) true in
  mkMsg (m_type m) (ex_hdr_fields (m_hdr m)) (addf (m_body m) 112 v) (m_trl m).

Lemma hb_body_bytes v : mb_encode ex_ctx (m_body (hb_with v)) = Ok ([49; 49; 50; 61] ++ v ++ [SOH]).
Proof. cbn. rewrite !app_nil_r. reflexivity. Qed.

(* The encoder is run on a value v of which only the length is known.  Everything but the checksum
   is then a small closed computation; the checksum of 9000 bytes is not computed (calc_chksum walks
   the block from its start for every byte it reads): it exists because the block consists of bytes.
   Evaluation therefore stops at calc_chksum, and at fmt_chksum of its unknown result. *)
Local Opaque Chksum.calc_chksum fmt_chksum.
Lemma hb_encode v : is_bytes v = true -> lenN v = 9000 ->
  exists b m', msg_encode ex_ctx (hb_with v) = Ok (b, m') /\ 9000 <= lenN b.
Proof.
  intros Hb Hl. unfold msg_encode, msg_encode_parts. rewrite hb_body_bytes.
  change (mb_encode ex_ctx (m_trl (hb_with v))) with (@Ok (list N) []).
  change (mb_encode ex_ctx (set_value (m_hdr (hb_with v)) Common_MsgType (m_type (hb_with v))))
    with (Ok (bytes_of_string "35=0|49=A|56=B|34=7|")).
  cbn [bind].
  set (body := _ ++ _ ++ []).
  assert (Hlen : lenN body = 9025) by (unfold body; rewrite !lenN_app, Hl; reflexivity).
  assert (Hbody : is_bytes body = true) by (unfold body; rewrite !is_bytes_app, Hb; reflexivity).
  clearbody body. rewrite Hlen.
  match goal with |- exists b m', bind ?T _ = _ /\ _ => let T' := eval lazy in T in change T with T' end.
  match goal with |- context [Chksum.calc_chksum ?a ?b ?c ?d] => destruct (Chksum.calc_chksum a b c d) as [[ck hh]|] eqn:Ec end.
  - do 2 eexists. split; [reflexivity|]. rewrite !lenN_app, Hlen. lia.
  - exfalso. revert Ec. apply (chksum_whole (bytes_of_string "8=FIX.4.2|9=9025|" ++ body)).
    + rewrite is_bytes_app, Hbody. reflexivity.
    + rewrite lenN_app, Hlen. reflexivity.
Qed.
Local Transparent Chksum.calc_chksum fmt_chksum.

Lemma c03_encode_overflow_refuted_lemma :
  exists c m, (exists b m', msg_encode c m = Ok (b, m') /\ MAX_MSG_LENGTH + HEADER_CALC_OFFSET <= lenN b) /\
              msg_encode_str c real_caps m = OOB site_encode_buf.
Proof.
  destruct (hb_encode (xs 9000) (is_bytes_repeat 120 _ eq_refl) (xs_len _)) as (b & m' & E & Hl).
  exists ex_ctx, (hb_with (xs 9000)). split.
  - exists b, m'. split; [exact E|]. unfold MAX_MSG_LENGTH, HEADER_CALC_OFFSET. lia.
  - apply (encode_str_overflow _ _ b m' E). change (MAX_MSG_LENGTH + preamble_sz ex_ctx + 7) with 8212. lia.
Qed.

(* non-vacuity: an encoded message with nested groups *)
Definition ex_list_bytes : list N := match msg_encode ex_ctx ex_list with Ok (b, _) => b | _ => [] end.

(* fast_atoi<int> (F09): the int accumulation of /repo a8219b1 (atoi_*_orig) against the unsigned
   one of 1965750 *)
Lemma atoi_digits_safe (neg : bool) : forall (l : list N) (r : Z),
  forallb is_digit l = true ->
  (0 <= (if neg then - r else r))%Z ->
  (((if neg then - r else r) + 1) * 10 ^ Z.of_nat (List.length l) <= 2147483648)%Z ->
  fst (fold_left (atoi_ub_step neg) l (false, r)) = false.
Proof.
  induction l as [|ch l IH]; intros r Hd H0 Hb; [reflexivity|].
  cbn [forallb] in Hd. apply andb_true_iff in Hd. destruct Hd as [Hc Hd].
  assert (Hdig : (0 <= schar ch - 48 <= 9)%Z).
  { unfold is_digit in Hc. apply andb_true_iff in Hc. destruct Hc as [H1 H2].
    apply N.leb_le in H1. apply N.leb_le in H2. unfold schar.
    destruct (ch <? 128) eqn:E; [lia|apply N.ltb_ge in E; lia]. }
  cbn [List.length] in Hb. rewrite Nat2Z.inj_succ, Z.pow_succ_r in Hb by lia.
  assert (Hp : (0 < 10 ^ Z.of_nat (List.length l))%Z) by (apply Z.pow_pos_nonneg; lia).
  cbn [fold_left]. unfold atoi_ub_step at 2.
  assert (Hm : in_i32 (r * 10) = true).
  { unfold in_i32. apply andb_true_iff. split; [apply Z.leb_le|apply Z.ltb_lt]; destruct neg; nia. }
  rewrite Hm. cbn [negb].
  set (d := (schar ch - 48)%Z) in *.
  assert (Hs : in_i32 (if neg then r * 10 - d else r * 10 + d) = true).
  { unfold in_i32. apply andb_true_iff. split; [apply Z.leb_le|apply Z.ltb_lt]; destruct neg; nia. }
  rewrite Hs. apply IH; [exact Hd| |]; destruct neg; nia.
Qed.

Lemma c03_fast_atoi_orig_safe_partial_lemma s : small_int_text s = true -> atoi_ub_orig s = false.
Proof.
  unfold small_int_text, atoi_ub_orig, atoi_run_orig. destruct (cstr s) as [|c rest]; [reflexivity|].
  assert (Hpow : forall l : list N, lenN l <= 9 -> (10 ^ Z.of_nat (List.length l) <= 1000000000)%Z).
  { intros l Hl. rewrite lenN_length in Hl. change 1000000000%Z with (10 ^ 9)%Z.
    apply Z.pow_le_mono_r; lia. }
  destruct (c =? 45); intros H; apply andb_true_iff in H; destruct H as [Hd Hl]; apply N.leb_le in Hl.
  - apply (atoi_digits_safe true); [exact Hd|cbn; lia|]. pose proof (Hpow _ Hl). cbn [Z.opp]. lia.
  - apply (atoi_digits_safe false); [exact Hd|lia|]. pose proof (Hpow _ Hl). lia.
Qed.

Lemma to_i32_mod s : in_i32 s = true -> to_i32 (s mod two32) = s.
Proof.
  unfold in_i32, to_i32, two32, two31. intros H. apply andb_true_iff in H. destruct H as [H1 H2].
  apply Z.leb_le in H1. apply Z.ltb_lt in H2. rewrite Z.mod_mod by lia.
  destruct (Z.ltb_spec (s mod 4294967296) 2147483648); Z.div_mod_to_equations; lia.
Qed.

Lemma atoi_ub_sticky (neg : bool) : forall (l : list N) (r v : Z), fold_left (atoi_ub_step neg) l (true, r) <> (false, v).
Proof.
  induction l as [|c l IH]; intros r v; [discriminate|]. cbn [fold_left atoi_ub_step]. apply IH.
Qed.

Lemma atoi_fold_agree (neg : bool) : forall (l : list N) (r v : Z),
  in_i32 r = true ->
  fold_left (atoi_ub_step neg) l (false, r) = (false, v) ->
  in_i32 v = true /\
  (fold_left (if neg then atoi_step_neg two32 else atoi_step two32) l (r mod two32) = v mod two32)%Z.
Proof.
  induction l as [|ch l IH]; intros r v Hr H.
  - cbn in H. injection H as <-. split; [exact Hr|reflexivity].
  - cbn [fold_left] in H |- *. unfold atoi_ub_step at 2 in H.
    destruct (in_i32 (r * 10)); cbn [negb] in H; [|exfalso; exact (atoi_ub_sticky _ _ _ _ H)].
    set (d := (schar ch - 48)%Z) in *.
    destruct (in_i32 (if neg then r * 10 - d else r * 10 + d)) eqn:Es; [|exfalso; exact (atoi_ub_sticky _ _ _ _ H)].
    destruct (IH _ _ Es H) as [Hv IHe]. split; [exact Hv|]. rewrite <- IHe. f_equal.
    destruct neg; unfold atoi_step_neg, atoi_step; fold d.
    + rewrite Zminus_mod, Zmult_mod_idemp_l, <- Zminus_mod. reflexivity.
    + replace (r mod two32 * 10 + schar ch - 48)%Z with (r mod two32 * 10 + d)%Z by (unfold d; lia).
      rewrite Zplus_mod, Zmult_mod_idemp_l, <- Zplus_mod. reflexivity.
Qed.

Lemma atoi_run_agree neg l v : fold_left (atoi_ub_step neg) l (false, 0%Z) = (false, v) ->
  to_i32 (fold_left (if neg then atoi_step_neg two32 else atoi_step two32) l 0%Z) = v.
Proof.
  intros E. destruct (atoi_fold_agree neg l 0%Z v eq_refl E) as [Hv H].
  change (0 mod two32)%Z with 0%Z in H. rewrite H. apply to_i32_mod. exact Hv.
Qed.

Lemma c03_fast_atoi_agree_lemma s : atoi_ub_orig s = false -> atoi_val s = atoi_val_orig s.
Proof.
  unfold atoi_ub_orig, atoi_val_orig, atoi_val, atoi_run_orig, fast_atoi_i32.
  destruct (cstr s) as [|c rest]; [reflexivity|].
  destruct (c =? 45).
  - destruct (fold_left (atoi_ub_step true) rest (false, 0%Z)) as [ub v] eqn:E. cbn [fst snd]. intros ->.
    exact (atoi_run_agree true _ _ E).
  - destruct (fold_left (atoi_ub_step false) (c :: rest) (false, 0%Z)) as [ub v] eqn:E. cbn [fst snd]. intros ->.
    exact (atoi_run_agree false _ _ E).
Qed.

Lemma c03_fast_atoi_safe_lemma : forall s, atoi_ub s = false.
Proof. reflexivity. Qed.
