(* The decoding loops.  One induction on the fuel for the three mutually recursive functions of
   decode_group (dg_all) and one for MessageBase::decode's loop (dec_loop_good), over a predicate on
   results (rgood) that says at once: no OOB (the extractors are bounded, and site_null_group is
   excluded because the schema tables are closed), no Diverge, and no Fuel when the fuel covers the
   remaining input: every turn of every loop consumes at least two bytes of it. *)
From Coq Require Import NArith ZArith List Bool Lia.
From F8 Require Import Codec.Bytes Codec.Meta Codec.Extract Codec.Decode Codec.Lemmas
                       C03.Bounds C03.ExtractProofs.
Import ListNotations.
Local Open Scope N_scope.

Lemma gm_ok_unfold ts subs d :
  gm_ok (GM ts subs d) = closed_b ts subs && negb (existsb t_present ts) && subs_ok subs.
Proof.
  cbn [gm_ok]. f_equal. unfold subs_ok.
  induction subs as [|[k g] r IH]; [reflexivity|]. cbn [forallb snd]. rewrite <- IH. reflexivity.
Qed.

Lemma find_sub_ok : forall ss f g, subs_ok ss = true -> find_sub ss f = Some g -> gm_ok g = true.
Proof.
  unfold subs_ok. induction ss as [|[k g'] r IH]; intros f g H Hf; [discriminate|].
  cbn [forallb snd] in H. apply andb_true_iff in H. destruct H as [H1 H2].
  cbn [find_sub] in Hf. destruct (k =? f); [injection Hf as <-; exact H1|]. exact (IH _ _ H2 Hf).
Qed.

Lemma find_trait_in : forall ts f tr, find_trait ts f = Some tr -> In tr ts /\ t_fnum tr = f.
Proof.
  induction ts as [|x r IH]; intros f tr H; [discriminate|].
  cbn [find_trait] in H. destruct (t_fnum x =? f) eqn:E.
  - injection H as <-. apply N.eqb_eq in E. split; [left; reflexivity|exact E].
  - destruct (IH _ _ H) as [H1 H2]. split; [right; exact H1|exact H2].
Qed.

Lemma closed_find ts subs f tr :
  closed_b ts subs = true -> find_trait ts f = Some tr -> t_group tr = true ->
  is_some (find_sub subs f) = true.
Proof.
  intros Hc Hf Hg. destruct (find_trait_in _ _ _ Hf) as [Hin Hn].
  unfold closed_b in Hc. rewrite forallb_forall in Hc. specialize (Hc _ Hin).
  rewrite Hg, Hn in Hc. exact Hc.
Qed.

Lemma present_find ts f tr : find_trait ts f = Some tr -> t_present tr = true -> existsb t_present ts = true.
Proof.
  intros Hf Hp. destruct (find_trait_in _ _ _ Hf) as [Hin _].
  apply existsb_exists. exists tr. auto.
Qed.

Lemma closed_upd v subs : forall ts f, closed_b (upd_trait (set_present v) ts f) subs = closed_b ts subs.
Proof.
  unfold closed_b. induction ts as [|x r IH]; intros f; [reflexivity|].
  cbn [upd_trait]. destruct (t_fnum x =? f); cbn [forallb]; [reflexivity|]. rewrite IH. reflexivity.
Qed.

(* the invariant of an object under decoding *)
Definition mb_ok (m : mbase) : bool := closed_b (mb_fp m) (mb_subs m) && subs_ok (mb_subs m).

Lemma mb_ok_field m f p v : mb_ok (mark_present (add_field_decoder m f p v) f) = mb_ok m.
Proof.
  destruct m. unfold mb_ok, mark_present, add_field_decoder.
  cbn [mb_fp mb_subs with_fp with_pos with_fields mb_fields mb_pos]. rewrite closed_upd. reflexivity.
Qed.

Lemma mb_ok_unknown m u : mb_ok (with_unknown m u) = mb_ok m.
Proof. destruct m. reflexivity. Qed.

Lemma mb_ok_groups m g : mb_ok (with_groups m g) = mb_ok m.
Proof. destruct m. reflexivity. Qed.

Lemma mb_subs_field m f p v : mb_subs (mark_present (add_field_decoder m f p v) f) = mb_subs m.
Proof. destruct m. reflexivity. Qed.

Lemma mb_ok_closed m f tr : mb_ok m = true -> find_trait (mb_fp m) f = Some tr ->
  t_group tr = true -> is_some (find_sub (mb_subs m) f) = true.
Proof.
  unfold mb_ok. intros H. apply andb_true_iff in H. destruct H as [H _]. apply closed_find. exact H.
Qed.

Lemma mb_ok_group_elem gm : gm_ok gm = true ->
  mb_ok (create_group gm false) = true /\
  existsb t_present (mb_fp (create_group gm false)) = false.
Proof.
  destruct gm as [ts subs d]. rewrite gm_ok_unfold. intros H.
  apply andb_true_iff in H. destruct H as [H H4]. apply andb_true_iff in H. destruct H as [H1 H2].
  unfold mb_ok, create_group. cbn [mb_fp mb_subs g_traits g_subs].
  rewrite H1, H4. split; [reflexivity|]. apply negb_true_iff in H2. exact H2.
Qed.

Section Good.
Variable bd : bool.   (* true: OOB is excluded as well (its users then assume fsize <= |from|) *)

Definition rgood {A} (nofuel : Prop) (post : A -> Prop) (r : res A) : Prop :=
  match r with
  | Ok a => post a
  | Exc _ => True
  | OOB s => bd = false
  | Diverge => False
  | Fuel => ~ nofuel
  end.

Lemma rgood_weaken {A} (P P' : Prop) (Q Q' : A -> Prop) r :
  rgood P Q r -> (P' -> P) -> (forall a, Q a -> Q' a) -> rgood P' Q' r.
Proof. destruct r; cbn; auto. Qed.

Lemma rgood_bind {A B} (P P' : Prop) (Q : A -> Prop) (Q' : B -> Prop) r (k : A -> res B) :
  rgood P Q r -> (P' -> P) -> (forall a, Q a -> rgood P' Q' (k a)) -> rgood P' Q' (bind r k).
Proof. destruct r; cbn; auto. Qed.
End Good.

(* off' - off <= L - off and not off' <= L: nothing is assumed about off, and beyond L there is no
   advance *)
Definition adv_in (L off off' : N) : Prop := off <= off' /\ off' - off <= L - off.
Definition post_elem (L : N) (grp : mbase) (off : N) (x : mbase * N * N * stop) : Prop :=
  let '(_, _, off', why) := x in
  adv_in L off off' /\ (why = SDup -> off + 2 <= off' \/ existsb t_present (mb_fp grp) = true).
Definition post_grp (L : N) (off : N) (x : mbase * N) : Prop :=
  let '(m', off') := x in adv_in L off off' /\ mb_ok m' = true.

Section Loops.
Variable c : ctx.
Variable cp : caps.
Variable from : list N.
Variable fsize : N.
Hypothesis Hct : MAX_FLD_LENGTH <= cap_tag cp.
Hypothesis Hcv : MAX_FLD_LENGTH <= cap_val cp.
Variable bd : bool.
Hypothesis Hfs : bd = true -> fsize <= lenN from.

Lemma cap_tag_pos : 0 < cap_tag cp.
Proof. apply (N.lt_le_trans _ MAX_FLD_LENGTH); [reflexivity|exact Hct]. Qed.
Lemma cap_val_pos : 0 < cap_val cp.
Proof. apply (N.lt_le_trans _ MAX_FLD_LENGTH); [reflexivity|exact Hcv]. Qed.

Notation adv := (adv_in (lenN from)).
Notation post_elem := (post_elem (lenN from)).
Notation post_grp := (post_grp (lenN from)).

Lemma adv_refl off : adv off off.
Proof. unfold adv_in. lia. Qed.
Lemma adv_trans a b d : adv a b -> adv b d -> adv a d.
Proof. unfold adv_in. lia. Qed.

Lemma tok_at_cases off :
  (exists tag val r, tok_at cp from fsize off = XOk tag val r /\ 2 <= r /\ r <= lenN from - off)
  \/ (exists t v, tok_at cp from fsize off = XFail t v)
  \/ (bd = false /\ exists s, tok_at cp from fsize off = XOOB s).
Proof.
  unfold tok_at. destruct (extract_element (skipN off from) (fsize - off) (cap_tag cp) (cap_val cp)) as [t v r|t v|s] eqn:E.
  - left. exists t, v, r. split; [reflexivity|]. apply extract_element_ok in E. rewrite lenN_skipN in E. lia.
  - right. left. eauto.
  - right. right. destruct bd eqn:Eb; [|eauto]. exfalso. revert E.
    apply extract_element_safe; [exact cap_tag_pos|exact cap_val_pos|].
    rewrite lenN_skipN. pose proof (Hfs eq_refl). lia.
Qed.

Definition group_good (fuel : nat) : Prop := forall m f off,
  mb_ok m = true -> is_some (find_sub (mb_subs m) f) = true ->
  rgood bd (2 * (lenN from - off) + 3 <= N.of_nat fuel) (post_grp off) (decode_group c cp from fsize fuel m f off).

(* dg_all uses it with its induction hypothesis, dec_loop_good with decode_group_good *)
Lemma field_group_good fuel m tr tv pos v off :
  group_good fuel -> mb_ok m = true -> find_trait (mb_fp m) tv = Some tr ->
  rgood bd (2 * (lenN from - off) + 3 <= N.of_nat fuel) (post_grp off)
        (opt_group c cp from fsize fuel (mark_present (add_field_decoder m tv pos v) tv) tr tv v off).
Proof.
  intros IH Hok Ef. unfold opt_group.
  destruct (t_group tr && has_group_count_c c tv v) eqn:Eg.
  - apply andb_true_iff in Eg. destruct Eg as [Eg _].
    apply IH; [rewrite mb_ok_field; exact Hok|]. rewrite mb_subs_field. exact (mb_ok_closed _ _ _ Hok Ef Eg).
  - split; [apply adv_refl|]. rewrite mb_ok_field. exact Hok.
Qed.

Lemma dg_all : forall fuel,
  (forall grp pos off, mb_ok grp = true ->
     rgood bd (2 * (lenN from - off) + 1 <= N.of_nat fuel) (post_elem grp off)
           (dg_elem c cp from fsize fuel grp pos off)) /\
  (forall gm els off, gm_ok gm = true ->
     rgood bd (2 * (lenN from - off) + 2 <= N.of_nat fuel) (fun x => adv off (snd x))
           (dg_loop c cp from fsize fuel gm els off)) /\
  group_good fuel.
Proof.
  induction fuel as [|fuel' IH].
  { unfold group_good. repeat split; intros; cbn [dg_elem dg_loop decode_group rgood]; lia. }
  destruct IH as (IH1 & IH2 & IH3).
  split; [|split].
  - intros grp pos off Hok. rewrite dg_elem_S.
    destruct (off <? fsize); [|split; [apply adv_refl|discriminate]].
    destruct (tok_at_cases off) as [(tag & val & r & Ht & Hr2 & HrR)|[(t & v & Ht)|(Hbd & s & Ht)]]; rewrite Ht;
      [|split; [apply adv_refl|discriminate]|exact Hbd].
    cbv zeta. set (tv := fast_atoi_u32 tag mod 65536).
    destruct (find_trait (mb_fp grp) tv) as [tr|] eqn:Ef.
    2:{ destruct (pos =? 0); [exact I|split; [apply adv_refl|discriminate]]. }
    destruct (t_present tr) eqn:Ep.
    { split; [apply adv_refl|]. intros _. right. exact (present_find _ _ _ Ef Ep). }
    destruct ((pos =? 0) && negb (getPos tr =? 1)); [exact I|].
    destruct (find_be (c_fields c) tv); [|split; [apply adv_refl|discriminate]].
    eapply rgood_bind; [exact (field_group_good _ _ _ _ _ _ _ IH3 Hok Ef)|lia|].
    intros [g2 off2] [Ha2 Hg2].
    eapply rgood_weaken; [exact (IH1 g2 (pos + 1) off2 Hg2)|unfold adv_in in Ha2; lia|].
    intros [[[g3 p3] o3] w3] [Ha3 _]. split; [|intros _; left]; unfold adv_in in *; lia.
  - intros gm els off Hgm. rewrite dg_loop_S.
    destruct (off <? fsize); [|apply adv_refl].
    destruct (mb_ok_group_elem gm Hgm) as (Hok & Hnp).
    eapply rgood_bind; [exact (IH1 (create_group gm false) 0 off Hok)|lia|].
    intros [[[grp pos] off'] why] [Ha Hd].
    destruct (mb_fields grp); [exact Ha|].
    destruct (find_missing (mb_fp grp)); [exact I|].
    destruct why; try exact Ha.
    (* the element stopped at a tag it already has: it was empty at the start, so it consumed a token *)
    destruct (Hd eq_refl) as [Hd2|Hd2]; [|rewrite Hnp in Hd2; discriminate].
    eapply rgood_weaken; [exact (IH2 gm (els ++ [grp]) off' Hgm)|unfold adv_in in Ha; lia|].
    intros [els2 off2] Ha2. exact (adv_trans _ _ _ Ha Ha2).
  - intros m f off Hok Hsub. rewrite decode_group_S.
    destruct (find_sub (mb_subs m) f) as [gm|] eqn:Es; [|discriminate].
    assert (Hgm : gm_ok gm = true).
    { unfold mb_ok in Hok. apply andb_true_iff in Hok. destruct Hok as [_ Hok]. exact (find_sub_ok _ _ _ Hok Es). }
    eapply rgood_bind; [exact (IH2 gm _ off Hgm)|lia|].
    intros [els off'] Ha. split; [exact Ha|]. rewrite mb_ok_groups. exact Hok.
Qed.

Lemma decode_group_good fuel : group_good fuel.
Proof. exact (proj2 (proj2 (dg_all fuel))). Qed.

Variable permissive : bool.
Variable gfuel : nat.
Hypothesis Hg : 2 * lenN from <= N.of_nat gfuel + 1.

Lemma dec_finish_good P pm m off pos lvp lvo :
  rgood bd P (fun _ : mbase * N => True) (dec_finish pm m off pos lvp lvo).
Proof. unfold dec_finish. destruct (find_missing (mb_fp m)); exact I. Qed.

Lemma dec_loop_good : forall fuel m off pos lvp lvo tb,
  mb_ok m = true ->
  rgood bd (lenN from - off + 1 <= N.of_nat fuel) (fun _ => True)
        (dec_loop c cp from fsize permissive gfuel fuel m off pos lvp lvo tb).
Proof.
  induction fuel as [|fuel' IH]; intros m off pos lvp lvo tb Hok; [cbn; lia|].
  cbn [dec_loop].
  destruct (off <=? fsize); [|apply dec_finish_good].
  destruct (tok_at_cases off) as [(tag & val & r & Ht & Hr2 & HrR)|[(t & v & Ht)|(Hbd & s & Ht)]]; rewrite Ht;
    [|apply dec_finish_good|exact Hbd].
  (* every continuation of the loop starts at an offset >= off + r *)
  assert (Hnext : forall m' off' pos' lvp' lvo' tb', mb_ok m' = true -> off + r <= off' ->
            rgood bd (lenN from - off + 1 <= N.of_nat (S fuel')) (fun _ => True)
                  (dec_loop c cp from fsize permissive gfuel fuel' m' off' pos' lvp' lvo' tb')).
  { intros m' off' pos' lvp' lvo' tb' Hm' Ho'.
    eapply rgood_weaken; [apply (IH m' off' pos' lvp' lvo' tb' Hm')| |auto]. lia. }
  set (tv := fast_atoi_u16 tag) in *.
  destruct (find_trait (mb_fp m) tv) as [tr|] eqn:Ef.
  2:{ destruct permissive; [|apply dec_finish_good].
      destruct lvp; apply Hnext; try (rewrite mb_ok_unknown; exact Hok); lia. }
  destruct (t_present tr).
  { destruct (t_auto tr); [apply Hnext; [exact Hok|lia]|exact I]. }
  destruct (find_be (c_fields c) tv); [|exact I].
  set (pos1 := (pos + 1) mod 4294967296).
  eapply rgood_bind; [exact (field_group_good _ _ _ _ pos1 _ _ (decode_group_good gfuel) Hok Ef)|lia|].
  intros [m2 off2] [[Ho2 _] Hm2].
  destruct (negb (t_ftype tr =? ft_Length) || (tv =? Common_BodyLength)) eqn:El.
  { apply Hnext; [exact Hm2|lia]. }
  destruct (MAX_FLD_LENGTH - 1 <? fast_atoi_u32 val) eqn:Evs; [exact I|].
  destruct (extract_element_fixed_width (skipN off2 from) (fsize - off2) (fast_atoi_u32 val) (cap_tag cp) (cap_val cp))
    as [tag2 val2 result2|t2 v2|s2] eqn:Efw.
  3:{ destruct bd eqn:Eb; [|reflexivity]. exfalso. revert Efw.
      apply extract_fw_safe; [exact cap_tag_pos|exact cap_val_pos|].
      rewrite lenN_skipN. pose proof (Hfs eq_refl). lia. }
  2:{ exact I. }
  destruct (cstr_known (tagbuf_after_fw tag2 (tagbuf_after tag tb))) as [tagstr|] eqn:Eck;
    [|exfalso; exact (cstr_known_terminated _ _ Eck)].
  set (tv2 := fast_atoi_u16 tagstr).
  destruct (find_trait (mb_fp m2) tv2) as [tr2|] eqn:Ef2.
  2:{ destruct permissive; [|apply dec_finish_good].
      destruct lvp; apply Hnext; try (rewrite mb_ok_unknown; exact Hm2); lia. }
  destruct (negb (t_ftype tr2 =? ft_data) || negb (tv + 1 =? tv2)).
  { apply Hnext; [exact Hm2|lia]. }
  destruct (find_be (c_fields c) tv2); [|exact I].
  eapply rgood_bind; [exact (field_group_good _ _ _ _ _ _ _ (decode_group_good gfuel) Hm2 Ef2)|lia|].
  intros [m4 off4] [[Ho4 _] Hm4].
  apply Hnext; [exact Hm4|lia].
Qed.

End Loops.
