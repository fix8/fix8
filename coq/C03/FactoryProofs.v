(* Message::decode and Message::factory on top of the loop lemmas, and the lemmas
   Properties_C03.v closes with. *)
From Coq Require Import NArith ZArith List Bool Lia.
From F8 Require Import Codec.Bytes Codec.Meta Codec.Extract Codec.Decode Codec.Lemmas
                       C07.Chksum C07.Spec_C07 C07.ChksumProofs
                       C03.Bounds C03.ExtractProofs C03.DecodeProofs.
Import ListNotations.
Local Open Scope N_scope.

Lemma fold_init_ok : forall init m, mb_ok m = true -> mb_ok (fold_left add_init init m) = true.
Proof.
  induction init as [|[p [f v]] r IH]; intros m H; [exact H|].
  cbn [fold_left]. apply IH. unfold add_init. rewrite mb_ok_field. exact H.
Qed.

Lemma create_group_ok g deep : part_ok g = true -> mb_ok (create_group g deep) = true.
Proof. intros Hp. unfold part_ok in Hp. unfold mb_ok, create_group. cbn [mb_fp mb_subs]. exact Hp. Qed.

Lemma mk_part_ok g init deep : part_ok g = true -> mb_ok (mk_part g init deep) = true.
Proof. intros Hp. unfold mk_part. apply fold_init_ok. apply create_group_ok; assumption. Qed.

Lemma list_eqb_nil a : list_eqb a [] = true -> a = [].
Proof. destruct a; [reflexivity|discriminate]. Qed.

Lemma find_msg_in : forall ms ty md, find_msg ms ty = Some md -> In md ms /\ list_eqb (md_type md) ty = true.
Proof.
  induction ms as [|x r IH]; intros ty md H; [discriminate|].
  cbn [find_msg] in H. destruct (list_eqb (md_type x) ty) eqn:E.
  - injection H as <-. split; [left; reflexivity|exact E].
  - destruct (IH _ _ H) as [H1 H2]. split; [right; exact H1|exact H2].
Qed.

Lemma ctx_ok_parts c md : c03_wf c = true -> In md (c_msgs c) ->
  mb_ok (mk_part (c_header c) (c_hdr_init c) true) = true /\
  mb_ok (create_group (md_meta md) false) = true /\
  mb_ok (mk_part (c_trailer c) (c_trl_init c) true) = true /\
  md_type md <> [].
Proof.
  unfold c03_wf. intros Hw Hin.
  apply andb_true_iff in Hw. destruct Hw as [Hw Hm]. apply andb_true_iff in Hw. destruct Hw as [Hh Ht].
  rewrite forallb_forall in Hm. specialize (Hm _ Hin). apply andb_true_iff in Hm. destruct Hm as [Hm Hty].
  repeat split.
  - apply mk_part_ok; exact Hh.
  - apply create_group_ok; exact Hm.
  - apply mk_part_ok; exact Ht.
  - destruct (md_type md); [discriminate|discriminate].
Qed.

Section Top.
Variable bd : bool.
Variable c : ctx.
Variable from : list N.
Hypothesis Hlen : bd = true -> lenN from < 4294967296.

Lemma fsize_le ignore : bd = true -> ignore <= lenN from ->
  (lenN from + 4294967296 - ignore) mod 4294967296 <= lenN from.
Proof.
  intros Hb Hi. pose proof (Hlen Hb).
  replace (lenN from + 4294967296 - ignore) with ((lenN from - ignore) + 1 * 4294967296) by lia.
  rewrite N.mod_add by lia. rewrite N.mod_small by lia. lia.
Qed.

Lemma mbase_decode_good m off ignore pm :
  (bd = true -> ignore <= lenN from) -> mb_ok m = true ->
  rgood bd True (fun _ : mbase * N => True) (mbase_decode c real_caps from m off ignore pm).
Proof.
  intros Hi Hok. unfold mbase_decode, mb_decode.
  eapply rgood_weaken.
  - apply (dec_loop_good c real_caps from _ ltac:(apply N.le_refl) ltac:(apply N.le_refl) bd).
    + intros Hb. apply fsize_le; auto.
    + unfold dec_fuel. rewrite lenN_length. lia.
    + exact Hok.
  - intros _. unfold dec_fuel. rewrite lenN_length. lia.
  - auto.
Qed.

Lemma msg_decode_good msg off ignore pm :
  (bd = true -> ignore <= lenN from) ->
  mb_ok (m_hdr msg) = true -> mb_ok (m_body msg) = true -> mb_ok (m_trl msg) = true ->
  rgood bd True (fun _ : message * N => True) (msg_decode c real_caps from msg off ignore pm).
Proof.
  intros Hi Hh Hb Ht. unfold msg_decode.
  eapply rgood_bind; [exact (mbase_decode_good (m_hdr msg) off 0 pm ltac:(intros; lia) Hh)|trivial|]. intros [h hlen] _.
  eapply rgood_bind; [exact (mbase_decode_good (m_body msg) hlen 0 pm ltac:(intros; lia) Hb)|trivial|]. intros [b blen] _.
  eapply rgood_bind; [exact (mbase_decode_good (m_trl msg) blen ignore pm Hi Ht)|trivial|]. intros [t tlen] _. exact I.
Qed.
End Top.

Lemma is_bytes_app a b : is_bytes (a ++ b) = is_bytes a && is_bytes b.
Proof. apply forallb_app. Qed.

Lemma is_bytes_repeat c k : c < 256 -> is_bytes (repeat c k) = true.
Proof. intros H. apply forallb_forall. intros y Hy. apply repeat_spec in Hy. subst y. apply N.ltb_lt. exact H. Qed.

Lemma bytes_ok_map l : is_bytes l = true -> bytes_ok (map Z.of_N l) = true.
Proof.
  unfold bytes_ok, is_bytes. induction l as [|x r IH]; intros H; [reflexivity|].
  cbn [forallb] in H. apply andb_true_iff in H. destruct H as [H1 H2]. apply N.ltb_lt in H1.
  cbn [map forallb]. rewrite (IH H2), andb_true_r.
  apply andb_true_iff. split; [apply Z.leb_le|apply Z.ltb_lt]; lia.
Qed.

Lemma calc_chksum_some mem sz off len elen :
  elen_of true sz off len = elen -> is_bytes mem = true ->
  (0 <= off)%Z -> (0 <= elen)%Z -> (off + elen <= Z.of_N (lenN mem))%Z ->
  calc_chksum (map Z.of_N mem) sz off len <> None.
Proof.
  intros He Hb Ho Hel Hin.
  destruct (chk_run true (map Z.of_N mem) sz off len elen He (bytes_ok_map mem Hb) Ho Hel) as (h & Hr & _).
  - rewrite map_length, <- nat_N_Z, <- lenN_length. exact Hin.
  - unfold calc_chksum. rewrite Hr. discriminate.
Qed.

Lemma chksum_whole mem : is_bytes mem = true -> lenN mem < 4294967296 ->
  calc_chksum (map Z.of_N mem) (Z.of_N (lenN mem)) 0 (-1) <> None.
Proof.
  intros Hb Hl. apply calc_chksum_some with (elen := Z.of_N (lenN mem)); [|exact Hb|lia..].
  unfold elen_of. cbn [Z.eqb Pos.eqb]. rewrite Z.sub_0_r. apply Z.mod_small. unfold W64. lia.
Qed.

Lemma cstr_nil_of_nil l : l = [] -> cstr l = [].
Proof. intros ->. reflexivity. Qed.

Lemma factory_good bd c bytes nc pm :
  c03_wf c = true ->
  (bd = true -> is_bytes bytes = true /\ lenN bytes < 4294967296) ->
  rgood bd True (fun _ : message => True) (factory c real_caps bytes nc pm).
Proof.
  intros Hc Hb. unfold factory.
  destruct (extract_header_ok bytes) as [[[hlen len] mtype] Eh]. rewrite Eh. cbn [bind].
  destruct (hlen =? 0); [exact I|].
  destruct (find_msg (c_msgs c) (cstr mtype)) as [md|] eqn:Em; [|exact I].
  destruct (find_msg_in _ _ _ Em) as [Hin Heq].
  destruct (ctx_ok_parts c md Hc Hin) as (Hh & Hbd & Ht & Hty).
  (* the message class has a non-empty MsgType, so a third header token was seen: >= 7 bytes *)
  assert (H7 : 7 <= lenN bytes).
  { apply (extract_header_len _ _ _ _ _ _ _ _ Eh). intros ->. apply Hty. apply list_eqb_nil. exact Heq. }
  assert (Hlen : bd = true -> lenN bytes < 4294967296) by (intros E; apply (Hb E)).
  eapply rgood_bind;
    [exact (msg_decode_good bd c bytes Hlen (mk_message c md false) hlen 7 pm (fun _ => H7) Hh Hbd Ht)|trivial|].
  intros [msg1 tl] _. cbv zeta.
  destruct (lenN bytes <? 7) eqn:E7; [apply N.ltb_lt in E7; lia|].
  destruct (negb (nthN bytes (lenN bytes - 7) =? 49) || negb (nthN bytes (lenN bytes - 7 + 1) =? 48)); [exact I|].
  destruct nc; [exact I|].
  destruct (calc_chksum (map Z.of_N (bytes ++ [0])) (Z.of_N (lenN bytes)) 0 (Z.of_N (lenN bytes) - 7)) as [[mchk hh]|] eqn:Ec.
  - match goal with |- context [if ?b then _ else _] => destruct b end; exact I.
  - cbv beta iota delta [rgood]. destruct bd; [|reflexivity]. exfalso.
    destruct (Hb eq_refl) as [H1 H3]. revert Ec.
    apply calc_chksum_some with (elen := (Z.of_N (lenN bytes) - 7)%Z).
    + unfold elen_of. rewrite (proj2 (Z.eqb_neq _ (-1))) by lia. apply Z.mod_small. unfold W64. lia.
    + rewrite is_bytes_app, H1. reflexivity.
    + lia.
    + lia.
    + rewrite lenN_app. cbn [lenN]. lia.
Qed.

Lemma c03_decode_safe_lemma c bytes nc pm :
  c03_wf c = true -> is_bytes bytes = true -> lenN bytes < 4294967296 ->
  safe (factory c real_caps bytes nc pm).
Proof.
  intros Hw Hb Hl.
  pose proof (factory_good true c bytes nc pm Hw (fun _ => conj Hb Hl)) as H.
  destruct (factory c real_caps bytes nc pm); cbn in H |- *; try exact I; try exact H; try discriminate.
  tauto.
Qed.

(* at bd = false: for every list, not even of bytes *)
Lemma c03_decode_total_lemma c bytes nc pm :
  c03_wf c = true -> factory c real_caps bytes nc pm <> Fuel /\ factory c real_caps bytes nc pm <> Diverge.
Proof.
  intros Hw.
  pose proof (factory_good false c bytes nc pm Hw ltac:(discriminate)) as H.
  split; intros E; rewrite E in H; cbn in H; tauto.
Qed.

Lemma c03_factory_orig_safe_lemma c bytes nc pm :
  c03_wf c = true -> is_bytes bytes = true -> lenN bytes < 4294967296 -> c03_pseudo real_caps bytes = false ->
  safe (c03_factory_orig c real_caps bytes nc pm).
Proof. intros Hw Hb Hl Hp. unfold c03_factory_orig. rewrite Hp. apply c03_decode_safe_lemma; assumption. Qed.
