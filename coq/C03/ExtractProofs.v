(* extract_element and extract_element_fixed_width: the repaired loops write inside their buffers on
   every input; what the original and the repaired extract_element return on a token
   "digits = value SOH", whatever the lengths; extract_header. *)
From Coq Require Import NArith ZArith List Bool Lia.
From F8 Require Import Codec.Bytes Codec.Meta Codec.Extract Codec.Decode Codec.Lemmas C03.Bounds.
Import ListNotations.
Local Open Scope N_scope.

Lemma lenN_cons {A} (x : A) l : lenN (x :: l) = N.succ (lenN l).
Proof. reflexivity. Qed.

Lemma skipN_nil {A} n : @skipN A n [] = [].
Proof. reflexivity. Qed.

Lemma skipN_add {A} (l : list A) : forall a b, skipN (a + b) l = skipN b (skipN a l).
Proof. intros a b. apply Lemmas.skipN_add. Qed.

Lemma lenN_skipN {A} (l : list A) : forall n, lenN (skipN n l) = lenN l - n.
Proof.
  induction l as [|x r IH]; intros n; [reflexivity|].
  destruct n as [|n] using N.peano_ind.
  - rewrite skipN_0. lia.
  - rewrite skipN_succ, IH, lenN_cons. lia.
Qed.

Lemma lenN_firstN {A} (l : list A) : forall n, n <= lenN l -> lenN (firstN n l) = n.
Proof.
  induction l as [|x r IH]; intros n Hn; [cbn in *; lia|].
  destruct n as [|n] using N.peano_ind; [reflexivity|].
  rewrite lenN_cons in Hn. rewrite firstN_succ, lenN_cons, IH by lia. reflexivity.
Qed.

Lemma lenN_repeat {A} (c : A) n : lenN (repeat c (N.to_nat n)) = n.
Proof. rewrite lenN_length, repeat_length. apply N2Nat.id. Qed.

Lemma Forall_repeat {A} (P : A -> Prop) c k : P c -> Forall P (repeat c k).
Proof. intros H. apply Forall_forall. intros y Hy. apply repeat_spec in Hy. subst y. exact H. Qed.

Lemma zero_write_ok nt nv tcap vcap k : nt < tcap -> nv < vcap -> zero_write nt nv tcap vcap k = k.
Proof.
  intros H1 H2. unfold zero_write.
  rewrite (proj2 (N.ltb_lt nt tcap) H1), (proj2 (N.ltb_lt nv vcap) H2). reflexivity.
Qed.

Lemma zero_write_not_ok nt nv tcap vcap t v t' v' r : zero_write nt nv tcap vcap (XFail t v) <> XOk t' v' r.
Proof. unfold zero_write. destruct (negb (nt <? tcap)); [discriminate|]. destruct (negb (nv <? vcap)); discriminate. Qed.

Lemma zero_write_ok_inv nt nv tcap vcap t v r t' v' r' :
  zero_write nt nv tcap vcap (XOk t v r) = XOk t' v' r' -> r' = r /\ t' = t.
Proof.
  unfold zero_write. destruct (negb (nt <? tcap)); [discriminate|].
  destruct (negb (nv <? vcap)); [discriminate|]. intros H. injection H. auto.
Qed.

Lemma xe_safe tcap vcap : forall from sz ii inval tag val nt nv,
  nt < tcap -> nv < vcap -> sz <= ii + lenN from ->
  forall s, xe_loop from sz ii inval tag val nt nv tcap vcap <> XOOB s.
Proof.
  induction from as [|c rest IH]; intros sz ii inval tag val nt nv Hnt Hnv Hsz s.
  - cbn [xe_loop]. destruct (ii <? sz) eqn:E.
    + apply N.ltb_lt in E. cbn in Hsz. lia.
    + rewrite zero_write_ok by lia. discriminate.
  - cbn [xe_loop]. destruct (ii <? sz) eqn:E; [|rewrite zero_write_ok by lia; discriminate].
    rewrite lenN_cons in Hsz.
    destruct inval.
    + destruct (c =? SOH); [rewrite zero_write_ok by lia; discriminate|].
      destruct (nv + 1 <? vcap) eqn:En; [|rewrite zero_write_ok by lia; discriminate].
      apply N.ltb_lt in En. apply IH; lia.
    + destruct (is_digit c).
      * destruct (nt + 1 <? tcap) eqn:En; [|rewrite zero_write_ok by lia; discriminate].
        apply N.ltb_lt in En. apply IH; lia.
      * destruct (c =? EQC); [|rewrite zero_write_ok by lia; discriminate].
        apply IH; lia.
Qed.

Lemma xe_consumed : forall from sz ii inval tag val nt nv tcap vcap t v r,
  xe_loop from sz ii inval tag val nt nv tcap vcap = XOk t v r ->
  (if inval then ii + 1 else ii + 2) <= r /\ r <= ii + lenN from /\ r <= sz /\
  ii + lenN t + (if inval then 1 else 2) <= r + lenN tag.
Proof.
  induction from as [|c rest IH]; intros sz ii inval tag val nt nv tcap vcap t v r H.
  - cbn [xe_loop] in H. destruct (ii <? sz); [discriminate|]. now apply zero_write_not_ok in H.
  - cbn [xe_loop] in H. destruct (ii <? sz) eqn:E; [|now apply zero_write_not_ok in H].
    apply N.ltb_lt in E. rewrite lenN_cons.
    destruct inval.
    + destruct (c =? SOH).
      * apply zero_write_ok_inv in H. destruct H as [-> ->]. rewrite lenN_rev. lia.
      * destruct (nv + 1 <? vcap); [|now apply zero_write_not_ok in H].
        apply IH in H. cbn beta iota in H. lia.
    + destruct (is_digit c).
      * destruct (nt + 1 <? tcap); [|now apply zero_write_not_ok in H].
        apply IH in H. cbn beta iota in H. rewrite lenN_cons in H. lia.
      * destruct (c =? EQC); [|now apply zero_write_not_ok in H].
        apply IH in H. cbn beta iota in H. lia.
Qed.

Lemma extract_element_ok from sz tcap vcap t v r :
  extract_element from sz tcap vcap = XOk t v r -> 2 <= r /\ r <= lenN from /\ r <= sz /\ lenN t + 2 <= r.
Proof. unfold extract_element. intros H. apply xe_consumed in H. cbn beta iota in H. cbn [lenN] in H. lia. Qed.

Lemma extract_element_safe tcap vcap from sz :
  0 < tcap -> 0 < vcap -> sz <= lenN from -> forall s, extract_element from sz tcap vcap <> XOOB s.
Proof. intros Ht Hv Hsz. unfold extract_element. apply xe_safe; lia. Qed.

Lemma extract_element_nil sz tcap vcap t v : extract_element [] sz tcap vcap = XFail t v -> v = [].
Proof.
  unfold extract_element. cbn [xe_loop]. destruct (0 <? sz); [discriminate|].
  unfold zero_write. destruct (negb (0 <? tcap)); [discriminate|]. destruct (negb (0 <? vcap)); [discriminate|].
  intros H. injection H as _ <-. reflexivity.
Qed.

(* A token "digits = value SOH" within the sz bytes.  The original copies tag and value unchecked:
   out of bounds once one of them is longer than its buffer, and at exactly tcap digits or vcap
   bytes it is the terminating NUL (zero_write) that lands one past the end.  The repaired loop
   succeeds iff both fit together with their NUL.  The lengths nd, nl are parameters of their own
   so that an instance at parts of known length (repeat c n) reduces to its outcome by evaluating
   the comparisons alone. *)
Lemma lenN_token {A} (d l : list A) e s : lenN (d ++ e :: l ++ [s]) = lenN d + lenN l + 2.
Proof. rewrite lenN_app, lenN_cons, lenN_app. cbn [lenN]. lia. Qed.

Lemma xe_orig_digits tcap vcap sz val nv rest : forall d ii tag nt,
  all_digits d -> ii + lenN d <= sz -> nt <= tcap ->
  xe_loop_orig (d ++ rest) sz ii false tag val nt nv tcap vcap =
  if nt + lenN d <=? tcap
  then xe_loop_orig rest sz (ii + lenN d) false (rev d ++ tag) val (nt + lenN d) nv tcap vcap
  else XOOB site_tag_write.
Proof.
  induction d as [|c d IH]; intros ii tag nt Hd Hi Hn.
  - cbn [app lenN rev]. rewrite !N.add_0_r, (proj2 (N.leb_le nt tcap)) by lia. reflexivity.
  - inversion Hd as [|? ? Hc Hd']; subst. rewrite lenN_cons in *.
    cbn [app xe_loop_orig]. rewrite Hc, (proj2 (N.ltb_lt ii sz)) by lia.
    destruct (nt <? tcap) eqn:E.
    + apply N.ltb_lt in E. rewrite IH by (trivial || lia).
      cbn [rev]. rewrite <- app_assoc, <- !N.add_assoc, !N.add_1_l. reflexivity.
    + apply N.ltb_ge in E. rewrite (proj2 (N.leb_gt (nt + N.succ (lenN d)) tcap)) by lia. reflexivity.
Qed.

Lemma xe_orig_value tcap vcap sz tag nt rest : forall l ii val nv,
  no_soh l -> ii + lenN l <= sz -> nv <= vcap ->
  xe_loop_orig (l ++ rest) sz ii true tag val nt nv tcap vcap =
  if nv + lenN l <=? vcap
  then xe_loop_orig rest sz (ii + lenN l) true tag (rev l ++ val) nt (nv + lenN l) tcap vcap
  else XOOB site_val_write.
Proof.
  induction l as [|c l IH]; intros ii val nv Hl Hi Hn.
  - cbn [app lenN rev]. rewrite !N.add_0_r, (proj2 (N.leb_le nv vcap)) by lia. reflexivity.
  - inversion Hl as [|? ? Hc Hl']; subst. rewrite lenN_cons in *.
    cbn [app xe_loop_orig]. rewrite Hc, (proj2 (N.ltb_lt ii sz)) by lia.
    destruct (nv <? vcap) eqn:E.
    + apply N.ltb_lt in E. rewrite IH by (trivial || lia).
      cbn [rev]. rewrite <- app_assoc, <- !N.add_assoc, !N.add_1_l. reflexivity.
    + apply N.ltb_ge in E. rewrite (proj2 (N.leb_gt (nv + N.succ (lenN l)) vcap)) by lia. reflexivity.
Qed.

Theorem extract_element_orig_token d l rest nd nl sz tcap vcap :
  all_digits d -> lenN d = nd -> no_soh l -> lenN l = nl -> lenN (d ++ EQC :: l ++ [SOH]) <= sz ->
  extract_element_orig (d ++ EQC :: l ++ SOH :: rest) sz tcap vcap =
  if nd <=? tcap then
    if nl <=? vcap then zero_write nd nl tcap vcap (XOk d l (nd + nl + 2)) else XOOB site_val_write
  else XOOB site_tag_write.
Proof.
  intros Hd <- Hl <- Hsz. rewrite lenN_token in Hsz. unfold extract_element_orig.
  rewrite xe_orig_digits, !N.add_0_l by (trivial || lia). destruct (lenN d <=? tcap); [|reflexivity].
  cbn [xe_loop_orig]. change (is_digit EQC) with false. rewrite N.eqb_refl, (proj2 (N.ltb_lt _ sz)) by lia.
  rewrite xe_orig_value, !N.add_0_l by (trivial || lia). destruct (lenN l <=? vcap); [|reflexivity].
  cbn [xe_loop_orig]. rewrite N.eqb_refl, (proj2 (N.ltb_lt _ sz)) by lia.
  rewrite !app_nil_r, !rev_involutive. f_equal. f_equal. lia.
Qed.

Lemma xe_digits_fail tcap vcap sz val nv rest : forall d ii tag nt,
  all_digits d -> ii + lenN d <= sz -> nt < tcap -> nv < vcap -> tcap <= nt + lenN d ->
  exists t v, xe_loop (d ++ rest) sz ii false tag val nt nv tcap vcap = XFail t v.
Proof.
  induction d as [|c d IH]; intros ii tag nt Hd Hi Hn Hv Ho; rewrite ?lenN_cons in *; [cbn [lenN] in Ho; lia|].
  inversion Hd as [|? ? Hc Hd']; subst.
  cbn [app xe_loop]. rewrite Hc, (proj2 (N.ltb_lt ii sz)) by lia.
  destruct (nt + 1 <? tcap) eqn:E.
  - apply N.ltb_lt in E. apply IH; trivial; lia.
  - rewrite zero_write_ok by assumption. eauto.
Qed.

Lemma xe_value_fail tcap vcap sz tag nt rest : forall l ii val nv,
  no_soh l -> ii + lenN l <= sz -> nt < tcap -> nv < vcap -> vcap <= nv + lenN l ->
  exists t v, xe_loop (l ++ rest) sz ii true tag val nt nv tcap vcap = XFail t v.
Proof.
  induction l as [|c l IH]; intros ii val nv Hl Hi Hn Hv Ho; rewrite ?lenN_cons in *; [cbn [lenN] in Ho; lia|].
  inversion Hl as [|? ? Hc Hl']; subst.
  cbn [app xe_loop]. rewrite Hc, (proj2 (N.ltb_lt ii sz)) by lia.
  destruct (nv + 1 <? vcap) eqn:E.
  - apply N.ltb_lt in E. apply IH; trivial; lia.
  - rewrite zero_write_ok by assumption. eauto.
Qed.

Theorem extract_element_token d l rest nd nl sz tcap vcap :
  all_digits d -> lenN d = nd -> no_soh l -> lenN l = nl -> lenN (d ++ EQC :: l ++ [SOH]) <= sz ->
  0 < tcap -> 0 < vcap ->
  if (nd <? tcap) && (nl <? vcap)
  then extract_element (d ++ EQC :: l ++ SOH :: rest) sz tcap vcap = XOk d l (nd + nl + 2)
  else exists t v, extract_element (d ++ EQC :: l ++ SOH :: rest) sz tcap vcap = XFail t v.
Proof.
  intros Hd <- Hl <- Hsz Ht Hv. rewrite lenN_token in Hsz.
  destruct (N.ltb_spec (lenN d) tcap) as [Hdt|Hdt]; cbn [andb].
  2:{ apply xe_digits_fail; trivial; lia. }
  destruct (N.ltb_spec (lenN l) vcap) as [Hlv|Hlv].
  { rewrite xe_exact by (trivial || lia). f_equal. lia. }
  unfold extract_element. rewrite xe_digits, !N.add_0_l by (trivial || lia).
  cbn [xe_loop]. change (is_digit EQC) with false. rewrite N.eqb_refl, (proj2 (N.ltb_lt _ sz)) by lia.
  apply xe_value_fail; trivial; lia.
Qed.

(* extract_element_fixed_width as repaired by /repo ce1e2cc: bounded digits, val_sz test,
   terminated tag *)
Lemma xfw_safe tcap vcap val_sz : forall from sz ii tag nt,
  sz <= ii + lenN from -> forall s, xfw_loop from sz ii val_sz tag nt tcap vcap <> XOOB s.
Proof.
  induction from as [|c rest IH]; intros sz ii tag nt Hsz s.
  - cbn [xfw_loop]. destruct (ii <? sz) eqn:E; [|discriminate].
    apply N.ltb_lt in E. cbn in Hsz. lia.
  - cbn [xfw_loop]. destruct (ii <? sz) eqn:E; [|discriminate].
    rewrite lenN_cons in Hsz.
    destruct (is_digit c).
    + destruct (nt + 1 <? tcap); [|discriminate]. apply IH. lia.
    + destruct (negb (c =? EQC) || negb (val_sz <? vcap) || (sz <? ii + 1 + val_sz)) eqn:Eb; [discriminate|].
      apply orb_false_iff in Eb. destruct Eb as [_ Eb]. apply N.ltb_ge in Eb.
      rewrite lenN_firstN by lia. rewrite N.ltb_irrefl. discriminate.
Qed.

Lemma extract_fw_safe tcap vcap from sz val_sz :
  0 < tcap -> 0 < vcap -> sz <= lenN from ->
  forall s, extract_element_fixed_width from sz val_sz tcap vcap <> XOOB s.
Proof.
  intros Ht Hv Hsz s. unfold extract_element_fixed_width.
  rewrite (proj2 (N.ltb_lt 0 tcap) Ht), (proj2 (N.ltb_lt 0 vcap) Hv). cbn [andb].
  apply xfw_safe. lia.
Qed.

Lemma xfw_orig_digits_overflow tcap vcap sz val_sz rest : forall d ii tag nt,
  all_digits d -> ii + lenN d <= sz -> nt <= tcap -> tcap < nt + lenN d ->
  xfw_loop_orig (d ++ rest) sz ii val_sz tag nt tcap vcap = XOOB site_tag_write.
Proof.
  induction d as [|c d IH]; intros ii tag nt Hd Hi Hn Ho; rewrite ?lenN_cons in *; [cbn [lenN] in Ho; lia|].
  inversion Hd as [|? ? Hc Hd']; subst.
  cbn [app xfw_loop_orig]. rewrite Hc, (proj2 (N.ltb_lt ii sz)) by lia.
  destruct (nt <? tcap) eqn:E; [|reflexivity]. apply N.ltb_lt in E. apply IH; trivial; lia.
Qed.

Lemma cstr_known_terminated : forall d r, cstr_known (d ++ 0 :: r) <> None.
Proof.
  induction d as [|x d IH]; intros r; cbn [app cstr_known].
  - rewrite N.eqb_refl. discriminate.
  - destruct (x =? 0); [discriminate|]. specialize (IH r). destruct (cstr_known (d ++ 0 :: r)); [discriminate|contradiction].
Qed.

Lemma extract_header_ok bytes :
  exists a, extract_header bytes (cap_htag real_caps) (cap_hval real_caps) (cap_len real_caps) (cap_mtype real_caps) = Ok a.
Proof.
  cbn [real_caps cap_htag cap_hval cap_len cap_mtype]. unfold extract_header.
  destruct (extract_element bytes (lenN bytes) MAX_MSGTYPE_FIELD_LEN MAX_FLD_LENGTH) as [tag1 val1 r1| |s1] eqn:E1;
    [|eauto|exfalso; revert E1; apply extract_element_safe; [reflexivity|reflexivity|lia]].
  destruct (negb (hd_is tag1 56)); [eauto|].
  destruct (extract_element (skipN r1 bytes) (lenN bytes - r1) MAX_MSGTYPE_FIELD_LEN MAX_MSGTYPE_FIELD_LEN)
    as [tag2 val2 r2| |s2] eqn:E2;
    [|eauto|exfalso; revert E2; apply extract_element_safe; [reflexivity|reflexivity|rewrite lenN_skipN; lia]].
  destruct (negb (hd_is tag2 57)); [eauto|].
  destruct (extract_element (skipN (r1 + r2) bytes) (lenN bytes - (r1 + r2)) MAX_MSGTYPE_FIELD_LEN MAX_MSGTYPE_FIELD_LEN)
    as [tag3 val3 r3| |s3] eqn:E3;
    [|eauto|exfalso; revert E3; apply extract_element_safe; [reflexivity|reflexivity|rewrite lenN_skipN; lia]].
  destruct (negb (hd_is tag3 51 && hd_is (tl tag3) 53)); eauto.
Qed.

Lemma hd_is_len l c : hd_is l c = true -> 1 <= lenN l.
Proof. destruct l; [discriminate|]. intros _. rewrite lenN_cons. lia. Qed.

(* a MsgType text (even a partial one) comes from a third token: the input has >= 7 bytes *)
Lemma extract_header_len bytes tcap vcap lencap mtcap hlen len mtype :
  extract_header bytes tcap vcap lencap mtcap = Ok (hlen, len, mtype) -> mtype <> [] -> 7 <= lenN bytes.
Proof.
  unfold extract_header. intros H Hm.
  destruct (extract_element bytes (lenN bytes) tcap vcap) as [tag1 val1 r1| |s1] eqn:E1; try discriminate.
  2:{ injection H as _ _ <-. contradiction. }
  destruct (hd_is tag1 56) eqn:H1; cbn [negb] in H; [|injection H as _ _ <-; contradiction].
  apply extract_element_ok in E1. apply hd_is_len in H1.
  destruct (extract_element (skipN r1 bytes) (lenN bytes - r1) tcap lencap) as [tag2 val2 r2| |s2] eqn:E2; try discriminate.
  2:{ injection H as _ _ <-. contradiction. }
  destruct (hd_is tag2 57) eqn:H2; cbn [negb] in H; [|injection H as _ _ <-; contradiction].
  apply extract_element_ok in E2. apply hd_is_len in H2. rewrite lenN_skipN in E2.
  destruct (extract_element (skipN (r1 + r2) bytes) (lenN bytes - (r1 + r2)) tcap mtcap) as [tag3 val3 r3|t3 v3|s3] eqn:E3;
    try discriminate.
  - apply extract_element_ok in E3. rewrite lenN_skipN in E3. lia.
  - injection H as _ _ <-.
    destruct (skipN (r1 + r2) bytes) as [|x rest] eqn:Es.
    + apply extract_element_nil in E3. contradiction.
    + assert (Hl : lenN (skipN (r1 + r2) bytes) = N.succ (lenN rest)) by (rewrite Es; reflexivity).
      rewrite lenN_skipN in Hl. lia.
Qed.
