(* C18: the replay plan satisfies the ORACLE (Spec_C18.replay_ok) for every store and range, provided that
   End = 0 or nothing is stored beyond End (the remaining defect: the final gap fill overreaches). *)
From Coq Require Import NArith ZArith List Bool Lia.
From F8 Require Import Sess.Bytes Sess.Msg Sess.Persist Sess.Session Sess.SessLemmas.
From F8 Require Import C18.Spec_C18 C18.Replay C18.ReplayProofs C18.PlanProofs.
Import ListNotations.
Local Open Scope N_scope.

(* how the oracle sees a plan item once it is on the wire *)
Definition abs1 (p : pitem) (i : item) : Prop :=
  match p with
  | PGap a ns => i = IGap a ns
  | PMsg k raw => exists t, i = IMsg t /\ faithful k (tokens raw) t = true
  end.

(* the numbers from .. hi that the oracle walks *)
Definition nums (from hi : N) : list N := nrange from (N.to_nat (hi + 1 - from)).

Lemma nums_cons : forall from hi, from <= hi -> nums from hi = from :: nums (from + 1) hi.
Proof.
  intros from hi L. unfold nums. replace (N.to_nat (hi + 1 - from)) with (S (N.to_nat (hi + 1 - (from + 1)))) by lia. reflexivity.
Qed.
Lemma nums_nil : forall from hi, hi < from -> nums from hi = [].
Proof. intros from hi L. unfold nums. replace (N.to_nat (hi + 1 - from)) with O by lia. reflexivity. Qed.

Lemma last_newseq_app : forall a b d, last_newseq (a ++ b) d = last_newseq b (last_newseq a d).
Proof. induction a as [|x a IH]; intros b d; [reflexivity|]. cbn [app last_newseq]. destruct x; apply IH. Qed.

Section Walk.
Variable st : list (N * bytes).
Variable hi : N.

Lemma walk_skip : forall k from cover its,
  (forall x, from <= x < k -> x <= hi -> store_get x st = None) -> from <= k -> k <= cover ->
  walk st (nums from hi) cover true its = walk st (nums k hi) cover true its.
Proof.
  intros k from cover its. remember (N.to_nat (k - from)) as d eqn:D. revert from D.
  induction d as [|d IH]; intros from D H R C; [replace from with k by lia; reflexivity|].
  destruct (N.le_gt_cases from hi) as [L|L]; [|rewrite !nums_nil by lia; reflexivity].
  rewrite nums_cons by exact L. cbn [walk]. rewrite (H from) by lia.
  replace (from <? cover) with true by (symmetry; apply N.ltb_lt; lia).
  apply IH; [lia|intros x X; apply H; lia|lia|exact C].
Qed.

(* a run of numbers without stored message, announced by one gap fill from its first number *)
Lemma walk_gap : forall k from cover its,
  (forall x, from <= x < k -> x <= hi -> store_get x st = None) -> from < k -> from <= hi -> cover <= from ->
  walk st (nums from hi) cover false (IGap from k :: its) = walk st (nums k hi) k true its.
Proof.
  intros k from cover its H R L C. rewrite nums_cons by exact L. cbn [walk]. rewrite (H from) by lia.
  replace (from <? cover) with false by (symmetry; apply N.ltb_ge; exact C).
  rewrite N.eqb_refl. replace (from <? k) with true by (symmetry; apply N.ltb_lt; lia). cbn [andb].
  apply walk_skip; [intros x X; apply H; lia|lia|apply N.le_refl].
Qed.

Lemma walk_msg : forall k raw t cover pg its,
  store_get k st = Some raw -> faithful k (tokens raw) t = true -> cover <= k <= hi ->
  walk st (nums k hi) cover pg (IMsg t :: its) = walk st (nums (k + 1) hi) cover false its.
Proof.
  intros k raw t cover pg its G F R. rewrite nums_cons by lia. cbn [walk]. rewrite G, F.
  replace (k <? cover) with false by (symmetry; apply N.ltb_ge; lia). reflexivity.
Qed.

(* the loop's items are consumed by the walk, which then stands behind the last record *)
Lemma walk_fill : forall recs lo cover its rest,
  sorted_from lo recs = true -> cover <= lo + 1 ->
  (forall x, lo < x <= hi -> store_get x st = store_get x recs) ->
  (forall k raw, In (k, raw) recs -> k <= hi) ->
  Forall2 abs1 (fill lo recs) its ->
  exists cover',
    walk st (nums (lo + 1) hi) cover false (its ++ rest) = walk st (nums (reach lo recs + 1) hi) cover' false rest /\
    cover' <= reach lo recs + 1.
Proof.
  induction recs as [|[k0 raw0] r IH]; intros lo cover its rest S C AG HI AB.
  - inversion AB; subst. exists cover. split; [reflexivity|exact C].
  - apply sorted_from_cons in S. destruct S as [S1 S2]. cbn [fill reach] in *.
    apply Forall2_app_inv_l in AB. destruct AB as (gi & mi & AG1 & AM & ->).
    inversion AM as [|p i ps is A1 A2]; subst. destruct A1 as (t & -> & FT). rewrite <- app_assoc. cbn [app].
    pose proof (HI k0 raw0 (or_introl eq_refl)) as K0.
    assert (G0 : store_get k0 st = Some raw0) by (rewrite AG by lia; cbn [store_get]; rewrite N.eqb_refl; reflexivity).
    assert (GAP : forall x, lo + 1 <= x < k0 -> x <= hi -> store_get x st = None).
    { intros x X _. rewrite AG by lia. cbn [store_get]. replace (k0 =? x) with false by (symmetry; apply N.eqb_neq; lia).
      apply (store_get_below r k0); [exact S2|lia]. }
    assert (AG' : forall x, k0 < x <= hi -> store_get x st = store_get x r).
    { intros x X. rewrite AG by lia. cbn [store_get]. replace (k0 =? x) with false by (symmetry; apply N.eqb_neq; lia). reflexivity. }
    assert (HI' : forall k raw, In (k, raw) r -> k <= hi) by (intros k raw I; apply (HI k raw); right; exact I).
    destruct (lo + 1 <? k0) eqn:G.
    + apply N.ltb_lt in G. inversion AG1 as [|p i ps is' G1 G2]; subst. inversion G2; subst. cbn [abs1] in G1. subst i. cbn [app].
      rewrite (walk_gap k0) by (assumption || lia). rewrite (walk_msg k0 raw0) by (assumption || lia).
      apply (IH k0 k0 is rest S2); (assumption || lia).
    + apply N.ltb_ge in G. inversion AG1; subst. cbn [app]. replace (lo + 1) with k0 in * by lia.
      rewrite (walk_msg k0 raw0) by (assumption || lia).
      apply (IH k0 cover is rest S2); (assumption || lia).
Qed.
End Walk.

Lemma gap_skips : forall st a k,
  (forall k' raw', In (k', raw') st -> ~ (a <= k' < k)) -> gap_skips_nothing st (IGap a k) = true.
Proof.
  intros st a k H. apply forallb_forall. intros [k' raw'] I. cbn [fst]. specialize (H k' raw' I).
  apply negb_true_iff, andb_false_iff. destruct (a <=? k') eqn:Q; [right; apply N.leb_le in Q; apply N.ltb_ge; lia|left; reflexivity].
Qed.

Lemma loop_items_skip : forall st pits its,
  (forall a k, In (PGap a k) pits -> forall k' raw', In (k', raw') st -> ~ (a <= k' < k)) ->
  Forall2 abs1 pits its -> forallb (gap_skips_nothing st) its = true.
Proof.
  intros st pits its H F. induction F as [|p i ps is A F IH]; [reflexivity|].
  cbn [forallb]. rewrite IH by (intros; eapply H; [right|]; eassumption). rewrite andb_true_r.
  destruct p as [a k|k raw]; cbn [abs1] in A; [subst i|destruct A as (t & -> & _); reflexivity].
  apply gap_skips, H. left. reflexivity.
Qed.

(* what is stored was sent (below n); of that, the oracle's upper end hi and the plan's finish_of admit the same *)
Lemma range_end : forall st n e k raw, store_wf st = true -> keys_below n st = true -> In (k, raw) st ->
  k < n /\ (k <= (if (e =? 0) || (n <=? e) then n - 1 else e) <-> k <= finish_of st e).
Proof.
  intros st n e k raw WF KB I. unfold keys_below in KB. rewrite forallb_forall in KB. specialize (KB _ I). apply N.ltb_lt in KB.
  cbn [fst] in KB. split; [exact KB|]. pose proof (store_last_ge st 0 k raw WF I). unfold finish_of.
  destruct (e =? 0); cbn [orb]; [lia|]. destruct (n <=? e) eqn:Q; [apply N.leb_le in Q|]; lia.
Qed.

Theorem plan_replay_ok : forall st n b e items,
  store_wf st = true -> keys_below n st = true ->
  0 < b -> (e = 0 \/ b <= e) ->
  nothing_stored_beyond st n e = true ->
  Forall2 abs1 (fst (plan st n b e)) items ->
  replay_ok st n b e items (snd (plan st n b e)) = true.
Proof.
  intros st n b e items WF KB B0 RNG NB AB. rewrite (plan_fill st n b e B0 WF) in *. cbn [fst snd] in *.
  set (finish := finish_of st e) in *. set (recs := after (b - 1) finish st) in *.
  set (x := reach (b - 1) recs) in *. set (ns := if n <=? x + 1 then x + 1 + 1 else n) in *.
  pose proof (plan_recs_sorted st b finish WF) as SR. fold recs in SR.
  destruct (reach_max recs (b - 1) SR) as [XB XK]. fold x in XB, XK.
  assert (XNS : x + 1 < ns /\ n <= ns) by (unfold ns; destruct (n <=? x + 1) eqn:Q; [apply N.leb_le in Q|apply N.leb_gt in Q]; lia).
  assert (INR : forall k raw, In (k, raw) recs <-> In (k, raw) st /\ b - 1 < k <= finish) by (intros; apply after_in).
  set (hi := if (e =? 0) || (n <=? e) then n - 1 else e).
  assert (RE : forall k raw, In (k, raw) st -> k < n /\ (k <= hi <-> k <= finish)) by (intros; eapply range_end; eassumption).
  assert (RHI : forall k raw, In (k, raw) recs -> k <= hi).
  { intros k raw I. apply INR in I. destruct I as [I1 I2]. apply RE in I1. lia. }
  assert (AGR : forall y, b - 1 < y <= hi -> store_get y st = store_get y recs).
  { intros y Y. unfold recs. rewrite store_get_after. replace (b - 1 <? y) with true by (symmetry; apply N.ltb_lt; lia).
    destruct (y <=? finish) eqn:Q; [reflexivity|]. apply N.leb_gt in Q. cbn [andb].
    destruct (store_get y st) eqn:G; [|reflexivity]. apply store_get_some_in, RE in G. lia. }
  assert (UX : forall y, x + 1 <= y < ns -> y <= hi -> store_get y st = None).
  { intros y Y1 Y2. rewrite AGR by lia. destruct (store_get y recs) eqn:G; [|reflexivity].
    apply store_get_some_in in G. specialize (XK _ _ G). lia. }
  apply Forall2_app_inv_l in AB. destruct AB as (its & gl & AB1 & AB2 & ->).
  inversion AB2 as [|p i ps is G1 G2]; subst. inversion G2; subst. cbn [abs1] in G1. subst i.
  (* no gap fill skips a stored message: those of the loop, and the final one (here nothing_stored_beyond is used) *)
  assert (SKL : forallb (gap_skips_nothing st) its = true).
  { apply (loop_items_skip st (fill (b - 1) recs)); [|exact AB1]. intros a k I. apply (plan_gaps_exact st b finish a k B0 WF I). }
  assert (SKIP : gap_skips_nothing st (IGap (x + 1) ns) = true).
  { apply gap_skips. intros k raw I Q. destruct (RE _ _ I) as [KN FI].
    destruct (N.le_gt_cases k hi) as [K2|K2].
    - assert (J : In (k, raw) recs) by (apply INR; split; [exact I|lia]). specialize (XK _ _ J). lia.
    - unfold hi in K2. unfold nothing_stored_beyond in NB. destruct (e =? 0); cbn [orb] in *; [lia|].
      destruct (n <=? e); [lia|]. rewrite forallb_forall in NB. specialize (NB _ I). cbn [fst] in NB.
      apply negb_true_iff, andb_false_iff in NB. destruct NB as [NB|NB]; apply N.ltb_ge in NB; lia. }
  unfold replay_ok. fold hi.
  rewrite forallb_app, SKL, last_newseq_app. cbn [forallb last_newseq andb]. rewrite SKIP, N.eqb_refl, andb_true_r. cbn [andb].
  replace (if b <=? hi then nrange b (N.to_nat (hi + 1 - b)) else []) with (nums (b - 1 + 1) hi)
    by (replace (b - 1 + 1) with b by lia; destruct (b <=? hi) eqn:Q; [reflexivity|apply N.leb_gt in Q; apply nums_nil; exact Q]).
  destruct (walk_fill st hi recs (b - 1) 0 its [IGap (x + 1) ns] SR ltac:(lia) AGR RHI AB1) as (cover' & E & C'). fold x in E, C'.
  rewrite E. destruct (N.le_gt_cases (x + 1) hi) as [L|L].
  - (* the final gap fill starts inside the range and covers the rest of it *)
    rewrite (walk_gap st hi ns) by (assumption || lia). rewrite nums_nil; [reflexivity|].
    unfold hi. destruct ((e =? 0) || (n <=? e)) eqn:Q; [lia|].
    apply orb_false_iff in Q. destruct Q as [_ Q]. apply N.leb_gt in Q. lia.
  - rewrite nums_nil by exact L. cbn [walk forallb tail_ok].
    replace (hi <? x + 1) with true by (symmetry; apply N.ltb_lt; exact L).
    replace (x + 1 <? ns) with true by (symmetry; apply N.ltb_lt; apply XNS). reflexivity.
Qed.
