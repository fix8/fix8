(* C18: the store as the replay iterates over it (sorted_from, after, store_next) and the replay plan over those
   records; lists only, no session. *)
From Coq Require Import NArith ZArith List Bool Lia.
From F8 Require Import Sess.Bytes Sess.Msg Sess.Persist Sess.Session Sess.SessLemmas C18.Replay.
Import ListNotations.
Local Open Scope N_scope.

Lemma sorted_from_cons : forall lo a w l, sorted_from lo ((a, w) :: l) = true <-> lo < a /\ sorted_from a l = true.
Proof. intros. cbn [sorted_from]. rewrite andb_true_iff, N.ltb_lt. reflexivity. Qed.

Lemma sorted_from_lt : forall l lo k v, sorted_from lo l = true -> In (k, v) l -> lo < k.
Proof.
  induction l as [|[a w] l IH]; intros lo k v S I; [destruct I|].
  apply sorted_from_cons in S. destruct S as [S1 S2].
  destruct I as [I|I]; [inversion I; subst; exact S1|]. specialize (IH _ _ _ S2 I). lia.
Qed.

Lemma sorted_from_weaken : forall l lo lo', sorted_from lo l = true -> lo' <= lo -> sorted_from lo' l = true.
Proof.
  destruct l as [|[a w] l]; intros lo lo' S L; [reflexivity|].
  apply sorted_from_cons in S. apply sorted_from_cons. split; [lia|apply S].
Qed.

Lemma after_cons : forall cur finish a w l,
  after cur finish ((a, w) :: l) = if (cur <? a) && (a <=? finish) then (a, w) :: after cur finish l else after cur finish l.
Proof. reflexivity. Qed.

Lemma after_shift : forall l lo cur cur' finish, sorted_from lo l = true -> cur <= lo -> cur' <= lo ->
  after cur finish l = after cur' finish l.
Proof.
  intros l lo cur cur' finish S L L'. apply filter_ext_in. intros [k v] I. cbn [fst].
  pose proof (sorted_from_lt _ _ _ _ S I) as Q.
  replace (cur <? k) with true by (symmetry; apply N.ltb_lt; lia).
  replace (cur' <? k) with true by (symmetry; apply N.ltb_lt; lia). reflexivity.
Qed.

Lemma after_nil_above : forall l lo cur finish, sorted_from lo l = true -> finish <= lo -> after cur finish l = [].
Proof.
  induction l as [|[a w] l IH]; intros lo cur finish S L; [reflexivity|].
  apply sorted_from_cons in S. destruct S as [S1 S2]. rewrite after_cons.
  replace (a <=? finish) with false by (symmetry; apply N.leb_gt; lia). rewrite andb_false_r.
  apply (IH a); [exact S2|lia].
Qed.

(* what ++itr reaches is the head of the records still to come, the first one above cur *)
Lemma store_next_after : forall l lo cur finish, sorted_from lo l = true ->
  match store_next cur l with
  | None => after cur finish l = []
  | Some (k, raw) => cur < k /\ In (k, raw) l /\
      after cur finish l = (if finish <? k then [] else (k, raw) :: after k finish l) /\
      after (k - 1) finish l = after cur finish l
  end.
Proof.
  induction l as [|[a w] l IH]; intros lo cur finish S; [reflexivity|].
  apply sorted_from_cons in S. destruct S as [S1 S2]. cbn [store_next]. rewrite after_cons.
  destruct (cur <? a) eqn:C.
  - apply N.ltb_lt in C. split; [exact C|]. split; [left; reflexivity|]. cbn [andb]. split.
    + destruct (finish <? a) eqn:F.
      * apply N.ltb_lt in F. replace (a <=? finish) with false by (symmetry; apply N.leb_gt; lia).
        apply (after_nil_above l a); [exact S2|lia].
      * apply N.ltb_ge in F. replace (a <=? finish) with true by (symmetry; apply N.leb_le; lia).
        rewrite after_cons, N.ltb_irrefl. f_equal. apply (after_shift l a); [exact S2|lia|lia].
    + rewrite after_cons, (after_shift l a (a - 1) cur finish S2) by lia.
      replace (a - 1 <? a) with true by (symmetry; apply N.ltb_lt; lia). reflexivity.
  - apply N.ltb_ge in C. cbn [andb]. specialize (IH a cur finish S2).
    destruct (store_next cur l) as [[k raw]|]; [|exact IH].
    destruct IH as (I1 & I2 & I3 & I4). split; [exact I1|]. split; [right; exact I2|]. split.
    + rewrite I3, after_cons. replace (k <? a) with false by (symmetry; apply N.ltb_ge; lia). reflexivity.
    + rewrite after_cons. replace (k - 1 <? a) with false by (symmetry; apply N.ltb_ge; lia). exact I4.
Qed.

Lemma after_length : forall l lo cur finish, sorted_from lo l = true ->
  N.of_nat (length (after cur finish l)) <= finish - cur.
Proof.
  induction l as [|[a w] l IH]; intros lo cur finish S; [cbn; lia|].
  apply sorted_from_cons in S. destruct S as [S1 S2]. rewrite after_cons.
  destruct ((cur <? a) && (a <=? finish)) eqn:C; [|apply (IH a cur finish S2)].
  apply andb_true_iff in C. destruct C as [C1 C2]. apply N.ltb_lt in C1. apply N.leb_le in C2.
  cbn [length]. rewrite Nat2N.inj_succ, (after_shift l a cur a finish S2) by lia.
  specialize (IH a a finish S2). lia.
Qed.

Lemma after_length_le : forall l cur finish, (length (after cur finish l) <= length l)%nat.
Proof.
  intros. induction l as [|[a w] l IH]; [apply le_n|]. rewrite after_cons.
  destruct ((cur <? a) && (a <=? finish)); cbn [length]; lia.
Qed.

Lemma after_empty_range : forall l b finish, 0 < b -> finish < b -> after (b - 1) finish l = [].
Proof.
  intros l b finish B F. induction l as [|[k v] l IH]; [reflexivity|]. rewrite after_cons, IH.
  destruct (b - 1 <? k) eqn:C1; [|reflexivity]. apply N.ltb_lt in C1.
  replace (k <=? finish) with false by (symmetry; apply N.leb_gt; lia). reflexivity.
Qed.

Lemma after_in : forall st cur finish k raw, In (k, raw) (after cur finish st) <-> In (k, raw) st /\ cur < k <= finish.
Proof.
  intros. unfold after. rewrite filter_In. cbn [fst]. rewrite andb_true_iff, N.ltb_lt, N.leb_le. tauto.
Qed.

Lemma after_sorted : forall st lo cur finish, sorted_from lo st = true -> sorted_from (N.max lo cur) (after cur finish st) = true.
Proof.
  induction st as [|[a w] l IH]; intros lo cur finish S; [reflexivity|].
  apply sorted_from_cons in S. destruct S as [S1 S2]. rewrite after_cons. specialize (IH a cur finish S2).
  destruct ((cur <? a) && (a <=? finish)) eqn:C.
  - apply andb_true_iff in C. destruct C as [C1 C2]. apply N.ltb_lt in C1.
    apply sorted_from_cons. split; [lia|]. replace (N.max a cur) with a in IH by lia. exact IH.
  - eapply sorted_from_weaken; [exact IH|].
    destruct (cur <? a) eqn:Q; [apply N.ltb_lt in Q|apply N.ltb_ge in Q]; lia.
Qed.

Lemma plan_recs_in : forall l b finish k raw, 0 < b ->
  In (k, raw) (after (b - 1) finish l) <-> In (k, raw) l /\ b <= k <= finish.
Proof. intros. rewrite after_in. split; intros (P & Q); (split; [exact P|lia]). Qed.

Lemma plan_recs_sorted : forall st b finish, store_wf st = true -> sorted_from (b - 1) (after (b - 1) finish st) = true.
Proof. intros st b finish WF. rewrite <- (N.max_0_l (b - 1)) at 1. apply after_sorted. exact WF. Qed.

Lemma store_get_some_in : forall st k raw, store_get k st = Some raw -> In (k, raw) st.
Proof.
  induction st as [|[a w] l IH]; intros k raw H; [discriminate|].
  cbn [store_get] in H. destruct (a =? k) eqn:E.
  - apply N.eqb_eq in E. inversion H; subst. left. reflexivity.
  - right. apply IH. exact H.
Qed.

Lemma store_get_below : forall l lo x, sorted_from lo l = true -> x <= lo -> store_get x l = None.
Proof.
  intros l lo x S L. destruct (store_get x l) eqn:E; [|reflexivity].
  apply store_get_some_in in E. pose proof (sorted_from_lt _ _ _ _ S E). lia.
Qed.

Lemma store_get_after : forall st cur finish x,
  store_get x (after cur finish st) = if (cur <? x) && (x <=? finish) then store_get x st else None.
Proof.
  induction st as [|[a w] l IH]; intros cur finish x; [destruct ((cur <? x) && (x <=? finish)); reflexivity|].
  rewrite after_cons. cbn [store_get]. destruct (a =? x) eqn:E.
  - apply N.eqb_eq in E. subst a.
    destruct ((cur <? x) && (x <=? finish)) eqn:P; [cbn [store_get]; rewrite N.eqb_refl; reflexivity|rewrite IH, P; reflexivity].
  - destruct ((cur <? a) && (a <=? finish)); [cbn [store_get]; rewrite E|]; apply IH.
Qed.

Lemma store_last_ge : forall st lo k raw, sorted_from lo st = true -> In (k, raw) st -> k <= store_last st.
Proof.
  induction st as [|[a w] l IH]; intros lo k raw S I; [destruct I|].
  apply sorted_from_cons in S. destruct S as [S1 S2].
  destruct l as [|[a' w'] l'].
  - destruct I as [I|[]]. inversion I; subst. cbn. lia.
  - change (store_last ((a, w) :: (a', w') :: l')) with (store_last ((a', w') :: l')).
    destruct I as [I|I]; [|eapply IH; eauto].
    inversion I; subst. assert (J : In (a', w') ((a', w') :: l')) by (left; reflexivity).
    pose proof (sorted_from_lt _ _ _ _ S2 J). specialize (IH k a' w' S2 J). lia.
Qed.

Lemma resent_app : forall a b, resent (a ++ b) = (resent a ++ resent b)%list.
Proof. intros. unfold resent. apply flat_map_app. Qed.
Lemma gaps_app : forall a b, gaps (a ++ b) = (gaps a ++ gaps b)%list.
Proof. intros. unfold gaps. apply flat_map_app. Qed.

Lemma resent_gap_before : forall b last k, resent (gap_before b last k) = [].
Proof. intros. unfold gap_before. destruct (negb (last =? 0)); [destruct (last + 1 <? k)|destruct (b <? k)]; reflexivity. Qed.

(* complete and in order: what is resent is the list of records handed to the loop *)
Lemma resent_plan_loop : forall recs b last, resent (fst (plan_loop b last recs)) = recs.
Proof.
  induction recs as [|[k raw] r IH]; intros b last; [reflexivity|].
  cbn [plan_loop]. specialize (IH b k). destruct (plan_loop b k r) as [items last']. cbn [fst] in *.
  rewrite resent_app, resent_gap_before. cbn [app resent flat_map]. fold (resent items). rewrite IH. reflexivity.
Qed.

Theorem resent_plan : forall st n b e,
  resent (fst (plan st n b e)) = after (b - 1) (finish_of st e) st.
Proof.
  intros. unfold plan.
  pose proof (resent_plan_loop (after (b - 1) (finish_of st e) st) b 0) as H.
  destruct (plan_loop b 0 (after (b - 1) (finish_of st e) st)) as [items last]. cbn [fst] in H.
  destruct (plan_final n b last) as [g nseq] eqn:PF. cbn [fst].
  rewrite resent_app, H. unfold plan_final in PF. destruct (last =? 0); inversion PF; subst; cbn; apply app_nil_r.
Qed.

(* the plan, told by the number lo the replay has dealt with last (Begin - 1 at the start) *)
Fixpoint fill (lo : N) (recs : list (N * bytes)) : list pitem :=
  match recs with
  | [] => []
  | (k, raw) :: r => ((if lo + 1 <? k then [PGap (lo + 1) k] else []) ++ PMsg k raw :: fill k r)%list
  end.
Fixpoint reach (lo : N) (recs : list (N * bytes)) : N :=
  match recs with [] => lo | (k, _) :: r => reach k r end.

Definition lo_of (b last : N) : N := if last =? 0 then b - 1 else last.

Lemma plan_loop_fill : forall recs b last, 0 < b -> sorted_from (lo_of b last) recs = true ->
  fst (plan_loop b last recs) = fill (lo_of b last) recs /\
  lo_of b (snd (plan_loop b last recs)) = reach (lo_of b last) recs.
Proof.
  induction recs as [|[k raw] r IH]; intros b last B S; [split; reflexivity|].
  apply sorted_from_cons in S. destruct S as [S1 S2].
  assert (K : lo_of b k = k) by (unfold lo_of; replace (k =? 0) with false by (symmetry; apply N.eqb_neq; lia); reflexivity).
  cbn [plan_loop fill reach]. specialize (IH b k B). rewrite K in IH. destruct (IH S2) as [IH1 IH2].
  destruct (plan_loop b k r) as [items last']. cbn [fst snd] in *. rewrite IH1, IH2. split; [|reflexivity]. f_equal.
  unfold gap_before, lo_of. destruct (last =? 0); [replace (b - 1 + 1) with b by lia|]; reflexivity.
Qed.

Theorem plan_fill : forall st n b e, 0 < b -> store_wf st = true ->
  let recs := after (b - 1) (finish_of st e) st in
  let x := reach (b - 1) recs + 1 in
  let ns := if n <=? x then x + 1 else n in
  plan st n b e = ((fill (b - 1) recs ++ [PGap x ns])%list, ns).
Proof.
  intros st n b e B WF recs x ns. unfold plan. fold recs.
  destruct (plan_loop_fill recs b 0 B (plan_recs_sorted st b _ WF)) as [F R].
  destruct (plan_loop b 0 recs) as [items last]. cbn [fst snd] in *. change (lo_of b 0) with (b - 1) in *.
  subst items. unfold plan_final, ns, x. rewrite <- R. unfold lo_of.
  destruct (last =? 0); [replace (b - 1 + 1) with b by lia|replace (last + 2) with (last + 1 + 1) by lia]; reflexivity.
Qed.

Lemma reach_max : forall recs lo, sorted_from lo recs = true ->
  lo <= reach lo recs /\ forall k raw, In (k, raw) recs -> lo < k <= reach lo recs.
Proof.
  induction recs as [|[k0 raw0] r IH]; intros lo S; [split; [apply N.le_refl|intros k raw []]|].
  apply sorted_from_cons in S. destruct S as [S1 S2]. destruct (IH k0 S2) as [A B]. cbn [reach]. split; [lia|].
  intros k raw [I|I]; [inversion I; subst; lia|]. specialize (B _ _ I). lia.
Qed.

(* scenarios #2/#3: a gap fill of the loop announces exactly one hole, from its first number a (where the replay
   stands) to the next record k *)
Theorem fill_gaps_exact : forall recs lo a k,
  sorted_from lo recs = true -> In (PGap a k) (fill lo recs) ->
  lo < a /\ a < k /\ (exists raw, In (k, raw) recs) /\
  (forall k' raw', In (k', raw') recs -> ~ (a <= k' < k)) /\
  (a = lo + 1 \/ exists raw', In (a - 1, raw') recs).
Proof.
  induction recs as [|[k0 raw0] r IH]; intros lo a k S I; [destruct I|].
  apply sorted_from_cons in S. destruct S as [S1 S2]. cbn [fill] in I. apply in_app_or in I. destruct I as [I|[I|I]].
  - destruct (lo + 1 <? k0) eqn:G; [|destruct I]. apply N.ltb_lt in G. destruct I as [I|[]]. inversion I; subst a k.
    split; [lia|]. split; [exact G|]. split; [exists raw0; left; reflexivity|]. split; [|left; reflexivity].
    intros k' raw' [J|J]; [inversion J; subst; lia|]. pose proof (sorted_from_lt _ _ _ _ S2 J). lia.
  - discriminate.
  - destruct (IH k0 a k S2 I) as (A1 & A2 & (raw & A3) & A4 & A5).
    split; [lia|]. split; [exact A2|]. split; [exists raw; right; exact A3|]. split.
    + intros k' raw' [J|J]; [inversion J; subst; lia|]. eapply A4; eauto.
    + right. destruct A5 as [A5|(raw' & A5)]; [exists raw0; left; subst a; f_equal; lia|exists raw'; right; exact A5].
Qed.

(* the same about the store, for the records of a range *)
Theorem plan_gaps_exact : forall st b finish a k, 0 < b -> store_wf st = true ->
  In (PGap a k) (fill (b - 1) (after (b - 1) finish st)) ->
  b <= a /\ a < k /\ (exists raw, In (k, raw) st /\ k <= finish) /\
  (forall k' raw', In (k', raw') st -> ~ (a <= k' < k)) /\ (a = b \/ exists raw', In (a - 1, raw') st).
Proof.
  intros st b finish a k B0 WF I.
  destruct (fill_gaps_exact _ _ a k (plan_recs_sorted st b finish WF) I) as (A1 & A2 & (raw & A3) & A4 & A5).
  pose proof (fun k0 raw0 => plan_recs_in st b finish k0 raw0 B0) as INR.
  split; [lia|]. split; [exact A2|]. apply INR in A3. split; [exists raw; split; apply A3|]. split.
  - intros k' raw' J Q. apply (A4 k' raw'); [apply INR; split; [exact J|lia]|exact Q].
  - destruct A5 as [A5|(raw' & A5)]; [left; lia|right; exists raw'; apply INR in A5; apply A5].
Qed.

Theorem plan_ends : forall st n b e,
  exists items x, fst (plan st n b e) = (items ++ [PGap x (snd (plan st n b e))])%list.
Proof.
  intros. unfold plan. destruct (plan_loop b 0 _) as [items last].
  unfold plan_final. destruct (last =? 0); cbn [fst snd]; eexists; eexists; reflexivity.
Qed.

(* scenario #3 *)
Theorem plan_starts_with_gap : forall st n b e k raw rest,
  after (b - 1) (finish_of st e) st = (k, raw) :: rest -> b < k ->
  exists items, fst (plan st n b e) = PGap b k :: PMsg k raw :: items.
Proof.
  intros st n b e k raw rest A L. unfold plan. rewrite A. cbn [plan_loop].
  destruct (plan_loop b k rest) as [items last]. destruct (plan_final n b last) as [g nseq]. cbn [fst].
  unfold gap_before. cbn [N.eqb negb]. replace (b <? k) with true by (symmetry; apply N.ltb_lt; exact L).
  eexists. cbn [app]. reflexivity.
Qed.
