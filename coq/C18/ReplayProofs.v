(* C18: handle_resend_request of the session model is enforce followed by the replay plan, item by item
   (answer_plan and its siblings for the other branches). *)
From Coq Require Import NArith ZArith List Bool Lia.
From F8 Require Import Sess.Bytes Sess.Msg Sess.Persist Sess.Session Sess.SessLemmas Sess.ProcessLemmas
                       C18.Replay C18.PlanProofs.
Import ListNotations.
Local Open Scope N_scope.

Lemma add_hdr'_custom : forall sc t v m, m_custom (add_hdr' sc t v m) = m_custom m.
Proof. exact SessLemmas.add_hdr'_custom. Qed.
Lemma add_hdr'_noinc : forall sc t v m, m_noinc (add_hdr' sc t v m) = m_noinc m.
Proof. exact SessLemmas.add_hdr'_noinc. Qed.
Lemma add_hdr'_eob : forall sc t v m, m_eob (add_hdr' sc t v m) = m_eob m.
Proof. exact SessLemmas.add_hdr'_eob. Qed.

(* the shape of every message the session builds itself (gap fill, Reject, ResendRequest) *)
Definition fresh (ty : bytes) (c : N) (m : msg) : Prop := exists b, m = mkMsg ty [] b c false true.

Lemma add_body'_fresh : forall sc t v ty c m, fresh ty c m -> fresh ty c (add_body' sc t v m).
Proof.
  intros sc t v ty c m [b ->]. apply add_body'_ind; [|intro p]; eexists; reflexivity.
Qed.

Lemma gsr_fresh : forall sc ns g, fresh mt_sequence_reset 0 (generate_sequence_reset sc ns g).
Proof. intros. unfold generate_sequence_reset. destruct g; repeat apply add_body'_fresh; exists []; reflexivity. Qed.

Lemma gsr_noinc : forall sc ns g, m_noinc (generate_sequence_reset sc ns g) = false.
Proof. intros. destruct (gsr_fresh sc ns g) as [b ->]. reflexivity. Qed.

Lemma gap_msg_fresh : forall sc c ns, fresh mt_sequence_reset c (gap_msg sc c ns).
Proof.
  intros. unfold gap_msg. destruct (gsr_fresh sc ns true) as [b ->].
  destruct (c =? 0) eqn:Z; [apply N.eqb_eq in Z; subst c|]; exists b; reflexivity.
Qed.

Lemma grr_fresh : forall sc b e, fresh mt_resend_request 0 (generate_resend_request sc b e).
Proof. intros. unfold generate_resend_request. repeat apply add_body'_fresh. exists []. reflexivity. Qed.

Lemma p_put_ctrl_attached : forall p a b, (if p_attached p then p_put_ctrl p a b else p) = p_put_ctrl p a b.
Proof. intros. unfold p_attached, p_put_ctrl. destruct (p_kind p); reflexivity. Qed.
Section P.
Variable sc : schema.
Variable now : Z.
Definition touch (s : sess) : sess := w_batch [] (w_last_sent now s).

Lemma stamp_stamped : forall s m, fresh_hdr m = true -> stamp sc now s m = (stamped sc now s (out_seq s m) m, false).
Proof.
  intros s m F. apply andb_true_iff in F. destruct F as [H34 H43]. apply negb_true_iff in H34, H43.
  assert (E : has_field T_MsgSeqNum (m_hdr (addressed sc s m)) = false).
  { unfold has_field in *. rewrite addressed_get by discriminate. exact H34. }
  unfold stamp, stamped, out_seq, addressed in *. cbv zeta. rewrite H43, E. reflexivity.
Qed.

Lemma stamp_fresh : forall s ty c m, fresh ty c m ->
  stamp sc now s m =
  (add_hdr' sc T_SendingTime (fmt_time now)
     (add_hdr' sc T_MsgSeqNum (dec (if c =? 0 then s_next_send s else c))
        (add_hdr' sc T_TargetCompID (s_tgt s) (add_hdr' sc T_SenderCompID (s_snd s) m))), false).
Proof.
  intros s ty c m [b ->]. rewrite stamp_stamped by reflexivity. unfold stamped, addressed. cbn [m_hdr has_field get_field].
  rewrite has_after_add_other by discriminate. reflexivity.
Qed.

(* what the replay leaves untouched, and all that it reads: stamp and wire look at the parameters, the CompIDs
   and next_send, send_process at closed and batch, the loop at the store, `replaying` at the persister kind *)
Definition core (s : sess) :=
  (s_par s, s_snd s, s_tgt s, s_closed s, s_batch s, s_next_send s, s_next_recv s, p_store (s_per s), p_kind (s_per s)).

Lemma core_eq : forall s s', core s' = core s ->
  s_par s' = s_par s /\ s_snd s' = s_snd s /\ s_tgt s' = s_tgt s /\ s_closed s' = s_closed s /\
  s_batch s' = s_batch s /\ s_next_send s' = s_next_send s /\ s_next_recv s' = s_next_recv s /\
  p_store (s_per s') = p_store (s_per s) /\ p_kind (s_per s') = p_kind (s_per s).
Proof. intros s s' H. unfold core in H. injection H as H1 H2 H3 H4 H5 H6 H7 H8 H9. repeat split; assumption. Qed.

Lemma stamp_core : forall s s' m, core s' = core s -> stamp sc now s' m = stamp sc now s m.
Proof.
  intros s s' m H. destruct (core_eq s s' H) as (H1 & H2 & H3 & _ & _ & H6 & _).
  unfold stamp. rewrite H1, H2, H3, H6. reflexivity.
Qed.
Lemma core_store : forall s s', core s' = core s -> p_store (s_per s') = p_store (s_per s).
Proof. intros s s' H. apply (core_eq s s' H). Qed.
Lemma core_send : forall s s', core s' = core s -> s_next_send s' = s_next_send s.
Proof. intros s s' H. apply (core_eq s s' H). Qed.

Lemma core_touch : forall s, s_batch s = [] -> core (touch s) = core s.
Proof. intros s H. unfold core, touch. cbn. rewrite H. reflexivity. Qed.

Definition after_gap (s : sess) : sess :=
  let s1 := touch s in
  w_per (p_put_ctrl (s_per s1) (s_next_send s1) (s_next_recv s1)) s1.

Lemma core_after_gap : forall s, s_batch s = [] -> core (after_gap s) = core s.
Proof.
  intros s H. unfold core, after_gap, touch. cbn. rewrite H, p_put_ctrl_store, p_put_ctrl_kind. reflexivity.
Qed.

Section Answer.
Variable decode : bytes -> decode_result.

Definition replaying (s : sess) : Prop :=
  s_closed s = false /\ s_batch s = [] /\ pr_asa (s_par s) = false /\ p_attached (s_per s) = true.

Lemma replaying_core : forall s s', core s' = core s -> replaying s -> replaying s'.
Proof.
  intros s s' H (A & B & C & D). destruct (core_eq s s' H) as (H1 & _ & _ & H4 & H5 & _ & _ & _ & H9).
  unfold replaying. rewrite H1, H4, H5. repeat split; try assumption.
  unfold p_attached in *. rewrite H9. exact D.
Qed.

Hypothesis W : nosoh (sc_begin sc) = true.
Hypothesis ADM : is_admin sc mt_sequence_reset = true.

Definition out (s : sess) (l : list pitem) : list event := map EOut (map (wire sc decode now s) l).

Lemma send_fresh : forall s ty c m, fresh ty c m -> s_closed s = false -> s_batch s = [] ->
  send_process sc now s m =
  (let enc := encode sc (fst (stamp sc now s m)) in (true, persisted sc m enc (touch s), [EOut enc])).
Proof.
  intros s ty c m [b ->] Hc Hb. rewrite send_process_fresh, stamp_stamped by reflexivity.
  cbn [m_eob fst]. rewrite Hc, Hb. cbn [app]. rewrite out_events_encode by exact W. reflexivity.
Qed.

Lemma wire_core : forall s s' it, core s' = core s -> wire sc decode now s' it = wire sc decode now s it.
Proof. intros s s' it H. unfold wire. destruct it; [|destruct (decode raw)]; rewrite ?(stamp_core s s') by exact H; reflexivity. Qed.
Lemma out_core : forall s s' l, core s' = core s -> out s' l = out s l.
Proof. intros. unfold out. f_equal. apply map_ext. intro it. apply wire_core. assumption. Qed.
Lemma out_app : forall s a b, out s (a ++ b) = (out s a ++ out s b)%list.
Proof. intros. unfold out. rewrite !map_app. reflexivity. Qed.

(* a gap fill is a new admin message that does not move next_send: only the control record is written *)
Lemma do_send_gap : forall s c ns,
  s_closed s = false -> s_batch s = [] ->
  do_send sc now (generate_sequence_reset sc ns true) c false s = (inl true, after_gap s, out s [PGap c ns]).
Proof.
  intros s c ns A B. unfold do_send, send, out, wire. fold (gap_msg sc c ns). cbn [map].
  pose proof (gap_msg_fresh sc c ns) as F. rewrite (send_fresh s _ _ _ F A B). destruct F as [b ->].
  unfold persisted, increments. cbn [m_type m_custom m_noinc].
  rewrite ADM, beq_refl, !andb_false_r, p_put_ctrl_attached. reflexivity.
Qed.

(* a stored message carries its number: send_process takes it for a duplicate and writes nothing *)
Lemma send_stored : forall s m,
  s_closed s = false -> s_batch s = [] -> pr_asa (s_par s) = false ->
  has_field T_MsgSeqNum (m_hdr m) = true -> m_eob m = true ->
  send_process sc now s m = (true, touch s, [EOut (encode sc (fst (stamp sc now s m)))]).
Proof.
  intros s m Hc Hb A H He.
  assert (E : has_field T_MsgSeqNum (m_hdr (addressed sc s m)) = true).
  { unfold has_field in *. rewrite addressed_get by discriminate. exact H. }
  unfold send_process, stamp, addressed in *. cbv zeta. rewrite E, A, He, Hb, Hc.
  destruct (has_field T_PossDupFlag (m_hdr m)); cbn [fst]; rewrite out_events_encode by exact W; reflexivity.
Qed.

Definition resend (raw : bytes) : M bool :=
  match decode raw with DecOk m => do_send sc now m 0 false | DecExc text force => throw text force end.

Lemma resend_one : forall s k raw,
  replaying s -> resendable decode (k, raw) = true -> resend raw s = (inl true, touch s, out s [PMsg k raw]).
Proof.
  intros s k raw (A & B & C & D) R. unfold resendable in R. unfold resend, out, wire. cbn [snd map] in *.
  destruct (decode raw) as [m|]; [|discriminate]. apply andb_true_iff in R. destruct R as [R1 R2].
  unfold do_send, send. cbn [N.eqb]. rewrite send_stored by assumption. reflexivity.
Qed.

(* one statement for every branch of retrans_record and retrans_record_orig: gap is what the branch sends first *)
Lemma callback_plan : forall s (gap : M unit) g k raw,
  replaying s -> resendable decode (k, raw) = true ->
  (gap = ret tt /\ g = []) \/
  (exists c, gap = bind (do_send sc now (generate_sequence_reset sc k true) c false) (fun _ => ret tt) /\ g = [PGap c k]) ->
  exists s', bind gap (fun _ => resend raw) s = (inl true, s', out s (g ++ [PMsg k raw])) /\ core s' = core s.
Proof.
  intros s gap g k raw R D [[-> ->]|(c & -> & ->)]; assert (B : s_batch s = []) by apply R.
  - rewrite bind_ret, (resend_one s k raw R D). exists (touch s). split; [reflexivity|apply core_touch; exact B].
  - pose proof (core_after_gap s B) as C. unfold bind. rewrite do_send_gap by apply R. unfold ret.
    rewrite (resend_one _ k raw (replaying_core _ _ C R) D), (out_core s (after_gap s)) by exact C.
    exists (touch (after_gap s)). split; [reflexivity|]. rewrite core_touch by reflexivity. exact C.
Qed.

Lemma retrans_record_plan : forall s b last k raw,
  replaying s -> resendable decode (k, raw) = true ->
  exists s', retrans_record sc decode now b last k raw s =
             (inl true, s', out s (gap_before b last k ++ [PMsg k raw]))
             /\ core s' = core s.
Proof.
  intros s b last k raw R D. unfold retrans_record, gap_before. fold (resend raw).
  destruct (negb (last =? 0)); [destruct (last + 1 <? k)|destruct (b <? k)]; apply callback_plan; eauto.
Qed.

(* a gap fill sent without custom number takes next_send: the same bytes as with custom number next_send,
   since the custom number is read by stamp only *)
Lemma add_hdr'_set_custom : forall t v c m, add_hdr' sc t v (set_custom c m) = set_custom c (add_hdr' sc t v m).
Proof. intros. unfold add_hdr', add_hdr. destruct (assoc t (sc_hdr sc)); reflexivity. Qed.

Lemma wire_gap_0 : forall s k, wire sc decode now s (PGap 0 k) = wire sc decode now s (PGap (s_next_send s) k).
Proof.
  intros s k. unfold wire. rewrite (stamp_fresh s _ _ _ (gap_msg_fresh sc 0 k)), (stamp_fresh s _ _ _ (gap_msg_fresh sc _ k)).
  unfold gap_msg. cbn [N.eqb fst]. destruct (s_next_send s =? 0); [reflexivity|].
  rewrite !add_hdr'_set_custom. reflexivity.
Qed.

(* the callback as it was before /repo 930506b (F22): both gap fills carry next_send *)
Lemma retrans_record_orig_plan : forall s b last k raw,
  replaying s -> resendable decode (k, raw) = true ->
  exists s', retrans_record_orig sc decode now b last k raw s =
             (inl true, s', out s (gap_before_orig (s_next_send s) b last k ++ [PMsg k raw]))
             /\ core s' = core s.
Proof.
  intros s b last k raw R D. unfold retrans_record_orig, gap_before_orig. fold (resend raw). rewrite bind_get.
  destruct (negb (last =? 0)); [destruct (last + 1 <? k)|destruct (b <? k)].
  1, 2, 4: apply callback_plan; eauto.
  unfold out. cbn [app map]. rewrite <- wire_gap_0. apply (callback_plan s _ [PGap 0 k]); eauto.
Qed.

Section Loop.
Variable s0 : sess.
Variable lo b finish : N.
Hypothesis R0 : replaying s0.
Hypothesis SORT : sorted_from lo (p_store (s_per s0)) = true.
Hypothesis DEC : forallb (resendable decode) (p_store (s_per s0)) = true.

Lemma retrans_loop_plan : forall fuel s last cur,
  core s = core s0 ->
  (length (after cur finish (p_store (s_per s0))) < fuel)%nat ->
  exists s', retrans_loop sc decode now fuel b finish last cur s =
             (inl (snd (plan_loop b last (after cur finish (p_store (s_per s0))))), s',
              out s0 (fst (plan_loop b last (after cur finish (p_store (s_per s0))))))
             /\ core s' = core s0.
Proof.
  induction fuel as [|f IH]; intros s last cur C F; [lia|].
  cbn [retrans_loop]. rewrite bind_get. unfold p_next_after. rewrite (core_store _ _ C).
  pose proof (store_next_after (p_store (s_per s0)) lo cur finish SORT) as SN.
  destruct (store_next cur (p_store (s_per s0))) as [[k raw]|];
    [destruct SN as (S1 & S2 & S3 & _); rewrite S3 in *; destruct (finish <? k)|rewrite SN];
    try (exists s; split; [reflexivity|exact C]).
  cbn [length] in F.
  assert (RK : resendable decode (k, raw) = true) by (rewrite forallb_forall in DEC; apply DEC; exact S2).
  destruct (retrans_record_plan s b last k raw (replaying_core _ _ C R0) RK) as (s1 & E1 & C1).
  rewrite C in C1. destruct (IH s1 k k C1 ltac:(lia)) as (s2 & E2 & C2).
  unfold bind. rewrite E1, E2. exists s2. split; [|exact C2].
  cbn [plan_loop]. destruct (plan_loop b k (after k finish (p_store (s_per s0)))) as [items last'].
  cbn [fst snd]. rewrite (out_core s0 s), <- out_app, <- app_assoc by exact C. reflexivity.
Qed.
End Loop.

(* in either branch one gap fill, then the state is set back to continuous *)
Lemma retrans_final_plan : forall s0 s b n last,
  replaying s0 -> core s = core s0 ->
  exists s', retrans_final sc now b n last s = (inl tt, s', out s0 [fst (plan_final n b last)]) /\
    s_next_send s' = snd (plan_final n b last) /\ s_state s' = st_continuous /\
    p_store (s_per s') = p_store (s_per s0).
Proof.
  intros s0 s b n last R C. destruct (replaying_core _ _ C R) as (A & B & _). rewrite <- (core_store _ _ C).
  unfold retrans_final, plan_final. destruct (last =? 0); cbv zeta;
    unfold bind; rewrite do_send_gap, (out_core s0 s) by assumption; unfold set_state, modify;
    (eexists; split; [reflexivity|]); cbn; rewrite p_put_ctrl_store; auto.
Qed.

Definition req_begin (m : msg) : N := int_field (get_field T_BeginSeqNo (m_body m)).
Definition req_end (m : msg) : N := int_field (get_field T_EndSeqNo (m_body m)).
Definition range_bad (b e : N) : bool := ((e <? b) && negb (e =? 0)) || (b =? 0).

Lemma range_ok : forall b e, range_bad b e = false -> 0 < b /\ (e = 0 \/ b <= e).
Proof.
  intros b e H. unfold range_bad in H. apply orb_false_iff in H. destruct H as [H1 H2]. apply N.eqb_neq in H2.
  split; [lia|]. destruct (e =? 0) eqn:Z; [left; apply N.eqb_eq; exact Z|right].
  rewrite andb_true_r in H1. apply N.ltb_ge. exact H1.
Qed.

(* with a persister: whichever way the code takes -- no record from Begin on, an empty range, or the loop -- it
   amounts to the loop's items followed by the final callback *)
Lemma replay_run : forall s1 b finish n,
  0 < b -> replaying s1 -> store_wf (p_store (s_per s1)) = true ->
  forallb (resendable decode) (p_store (s_per s1)) = true -> N.of_nat (length (p_store (s_per s1))) <= 100000 ->
  exists s2, core s2 = core s1 /\
    match p_first_from (s_per s1) b with
    | None => retrans_final sc now b n 0
    | Some start =>
      if finish <? b then retrans_final sc now b n 0
      else bind (retrans_loop sc decode now (S (N.to_nat (N.min (finish + 1 - start) 100000))) b finish 0 (start - 1))
                (fun last => retrans_final sc now b n last)
    end (w_state st_resend_request_received s1) =
    (let '(l, last) := plan_loop b 0 (after (b - 1) finish (p_store (s_per s1))) in
     let '(x, s', e) := retrans_final sc now b n last s2 in (x, s', out s1 l ++ e)%list).
Proof.
  intros s1 b finish n B0 R WF DEC LEN. set (st := p_store (s_per s1)) in *.
  set (s13 := w_state st_resend_request_received s1).
  assert (NIL : after (b - 1) finish st = [] -> exists s2, core s2 = core s1 /\
            retrans_final sc now b n 0 s13 =
            (let '(l, last) := plan_loop b 0 (after (b - 1) finish st) in
             let '(x, s', e) := retrans_final sc now b n last s2 in (x, s', out s1 l ++ e)%list)).
  { intros ->. exists s13. split; [reflexivity|]. cbn [plan_loop]. destruct (retrans_final sc now b n 0 s13) as [[x s'] e]. reflexivity. }
  unfold p_first_from. fold st. replace (b =? 0) with false by (symmetry; apply N.eqb_neq; lia).
  pose proof (store_next_after st 0 (b - 1) finish WF) as SN.
  destruct (store_next (b - 1) st) as [[a raw]|] eqn:NX; [|exact (NIL SN)].
  destruct SN as (S1 & S2 & _ & SH). destruct (finish <? b) eqn:FB.
  { apply NIL. apply N.ltb_lt in FB. apply after_empty_range; assumption. }
  assert (FU : (length (after (a - 1) finish st) < S (N.to_nat (N.min (finish + 1 - a) 100000)))%nat).
  { pose proof (after_length st 0 (a - 1) finish WF). pose proof (after_length_le st (a - 1) finish). lia. }
  destruct (retrans_loop_plan s1 0 b finish R WF DEC _ s13 0 (a - 1) eq_refl FU) as (s2 & E2 & C2).
  fold st in E2. rewrite SH in E2. exists s2. split; [exact C2|]. unfold bind. rewrite E2.
  destruct (plan_loop b 0 (after (b - 1) finish st)) as [l last]. reflexivity.
Qed.

(* handle_resend_request is enforce, then a look at the state and the range.  s1, e1 = the state and the events
   enforce leaves (e.g. our own ResendRequest and resend_request_sent when the request's number is ahead); the
   hypotheses are about s1, so that the theorems hold in EVERY state other than resend_request_received. *)
Theorem answer_plan : forall s seqnum m r s1 e1,
  enforce sc now seqnum m s = (inl r, s1, e1) ->
  (s_state s1 =? st_resend_request_received) = false ->
  range_bad (req_begin m) (req_end m) = false ->
  replaying s1 ->
  store_wf (p_store (s_per s1)) = true ->
  forallb (resendable decode) (p_store (s_per s1)) = true ->
  N.of_nat (length (p_store (s_per s1))) <= 100000 ->
  exists s',
    handle_resend_request sc decode now seqnum m s =
      (inl true, s', (e1 ++ out s1 (fst (plan (p_store (s_per s1)) (s_next_send s1) (req_begin m) (req_end m))))%list) /\
    s_next_send s' = snd (plan (p_store (s_per s1)) (s_next_send s1) (req_begin m) (req_end m)) /\
    s_state s' = st_continuous /\
    p_store (s_per s') = p_store (s_per s1).
Proof.
  intros s seqnum m r s1 e1 ENF ST RB R WF DEC LEN. destruct (range_ok _ _ RB) as [B0 _].
  unfold handle_resend_request. unfold bind at 1. rewrite ENF, bind_get, ST. cbn [negb].
  fold (req_begin m) (req_end m) (range_bad (req_begin m) (req_end m)). rewrite RB.
  replace (p_attached (s_per s1)) with true by (symmetry; apply R). cbn [negb].
  change (if req_end m =? 0 then p_last (s_per s1) else req_end m) with (finish_of (p_store (s_per s1)) (req_end m)).
  destruct (replay_run s1 (req_begin m) (finish_of (p_store (s_per s1)) (req_end m)) (s_next_send s1) B0 R WF DEC LEN)
    as (s2 & C2 & RUN).
  unfold bind at 1. unfold set_state. rewrite bind_modify, RUN. unfold plan.
  destruct (plan_loop (req_begin m) 0 _) as [l last].
  destruct (retrans_final_plan s1 s2 (req_begin m) (s_next_send s1) last R C2) as (s' & E & REST).
  rewrite E. destruct (plan_final (s_next_send s1) (req_begin m) last) as [g nseq].
  exists s'. split; [|exact REST]. unfold ret. cbn [fst snd app]. rewrite !app_nil_r, out_app. reflexivity.
Qed.

(* without a persister (scenarios #7/#8) *)
Theorem answer_nopersister : forall s seqnum m r s1 e1,
  enforce sc now seqnum m s = (inl r, s1, e1) ->
  (s_state s1 =? st_resend_request_received) = false ->
  range_bad (req_begin m) (req_end m) = false ->
  s_closed s1 = false -> s_batch s1 = [] -> p_attached (s_per s1) = false ->
  exists s',
    handle_resend_request sc decode now seqnum m s =
      (inl true, s', (e1 ++ out s1 (fst (plan_nopersister (s_next_send s1) (req_begin m))))%list) /\
    s_next_send s' = snd (plan_nopersister (s_next_send s1) (req_begin m)) /\
    s_state s' = s_state s1.
Proof.
  intros s seqnum m r s1 e1 ENF ST RB A B D.
  unfold handle_resend_request. unfold bind at 1. rewrite ENF, bind_get, ST. cbn [negb].
  fold (req_begin m) (req_end m) (range_bad (req_begin m) (req_end m)). rewrite RB, D. cbn [negb].
  unfold bind. rewrite do_send_gap by assumption. unfold modify, ret, plan_nopersister. cbn [fst snd app].
  eexists. split; [rewrite !app_nil_r; reflexivity|]. split; reflexivity.
Qed.

Definition reject_msg (seqnum : N) (m : msg) : msg :=
  generate_reject sc seqnum (Some txt_badrange) (match m_type m with [] => None | x => Some x end).

Lemma reject_fresh : forall seqnum m, fresh mt_reject 0 (reject_msg seqnum m).
Proof.
  intros. unfold reject_msg, generate_reject. destruct (m_type m); repeat apply add_body'_fresh; exists []; reflexivity.
Qed.

Theorem answer_reject : forall s seqnum m r s1 e1,
  enforce sc now seqnum m s = (inl r, s1, e1) ->
  (s_state s1 =? st_resend_request_received) = false ->
  range_bad (req_begin m) (req_end m) = true ->
  s_closed s1 = false -> s_batch s1 = [] ->
  exists s',
    handle_resend_request sc decode now seqnum m s =
      (inl true, s', (e1 ++ [EOut (encode sc (fst (stamp sc now s1 (reject_msg seqnum m))))])%list) /\
    s_next_send s' = s_next_send s1 + 1 /\
    s_state s' = s_state s1.
Proof.
  intros s seqnum m r s1 e1 ENF ST RB A B. pose proof (reject_fresh seqnum m) as F.
  unfold handle_resend_request. unfold bind at 1. rewrite ENF, bind_get, ST. cbn [negb].
  fold (req_begin m) (req_end m) (range_bad (req_begin m) (req_end m)). rewrite RB.
  unfold handle_outbound_reject.
  replace (generate_reject sc seqnum (Some txt_badrange) _) with (reject_msg seqnum m)
    by (unfold reject_msg; destruct (m_type m); reflexivity).
  unfold bind, do_send, send. cbn [N.eqb]. rewrite (send_fresh s1 _ _ _ F A B). destruct F as [b ->].
  unfold ret. eexists. split; [cbn [app]; reflexivity|]. split; reflexivity.
Qed.

Theorem answer_busy : forall s seqnum m r s1 e1,
  enforce sc now seqnum m s = (inl r, s1, e1) ->
  (s_state s1 =? st_resend_request_received) = true ->
  handle_resend_request sc decode now seqnum m s = (inl true, s1, e1).
Proof.
  intros s seqnum m r s1 e1 ENF ST. unfold handle_resend_request. unfold bind at 1. rewrite ENF, bind_get, ST.
  cbn [negb]. unfold ret. rewrite app_nil_r. reflexivity.
Qed.

Definition after_new (s : sess) : sess :=
  let s1 := touch s in
  w_next_send (s_next_send s + 1) (w_per (p_put_ctrl (s_per s1) (s_next_send s + 1) (s_next_recv s)) s1).

Lemma core_after_new : forall s, s_batch s = [] -> core (after_new s) = core (w_next_send (s_next_send s + 1) s).
Proof. intros s H. unfold core, after_new, touch. cbn. rewrite H, p_put_ctrl_store, p_put_ctrl_kind. reflexivity. Qed.

Theorem enforce_ahead : forall s seqnum m,
  s_state s = st_continuous ->
  compid_check m s = (inl tt, s, []) ->
  beq (m_type m) mt_sequence_reset = false ->
  s_next_recv s < seqnum ->
  s_closed s = false -> s_batch s = [] ->
  is_admin sc mt_resend_request = true ->
  enforce sc now seqnum m s =
    (inl true, w_state st_resend_request_sent (after_new s),
     [EOut (encode sc (fst (stamp sc now s (generate_resend_request sc (s_next_recv s) 0))))]).
Proof.
  intros s seqnum m ST CC NT LT CL BA ADM2. pose proof (grr_fresh sc (s_next_recv s) 0) as F.
  unfold enforce. rewrite bind_get, ST.
  change (is_established st_continuous) with true. change (st_continuous =? st_logon_received) with false. cbn [negb].
  unfold bind at 1. rewrite CC, NT. cbn [negb].
  unfold sequence_check, bind, get. rewrite ST.
  replace (s_next_recv s <? seqnum) with true by (symmetry; apply N.ltb_lt; exact LT).
  change (st_continuous =? st_continuous) with true. unfold do_send, send. cbn [N.eqb].
  rewrite (send_fresh s _ _ _ F CL BA). destruct F as [b ->]. unfold persisted, increments.
  cbn [m_type m_custom m_noinc N.eqb negb andb beq mt_resend_request mt_sequence_reset].
  rewrite ADM2, p_put_ctrl_attached. reflexivity.
Qed.
End Answer.

End P.
