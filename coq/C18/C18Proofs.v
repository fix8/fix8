(* C18: the property theorems, assembled from what the session does (ReplayProofs: answer_plan and its siblings),
   what the plan is (PlanProofs), what its items look like on the wire (FaithProofs) and what the oracle makes of
   them (OracleProofs). *)
From Coq Require Import NArith ZArith List Bool Lia.
From F8 Require Import Sess.Bytes Sess.Msg Sess.Persist Sess.Session Sess.SessLemmas.
From F8 Require Import C18.Spec_C18 C18.Replay C18.ReplayProofs C18.PlanProofs C18.FaithProofs C18.Exact C18.OracleProofs.
Import ListNotations.
Local Open Scope N_scope.

(* the standing hypotheses.  ready: enforce lets the ResendRequest m through without side effect (in sequence,
   CompIDs right), the session is not already replaying, its socket is open and nothing is batched *)
Definition ready (sc : schema) (decode : bytes -> decode_result) (now : Z) (s : sess) (seqnum : N) (m : msg) : Prop :=
  (exists r, enforce sc now seqnum m s = (inl r, s, [])) /\
  (s_state s =? st_resend_request_received) = false /\
  s_closed s = false /\ s_batch s = [].

(* ready_store: always_seqnum_assign is off and a persister is attached whose store is well-formed (ascending
   keys), holds only records the replay can decode, and no more of them than the loop has fuel for
   (Session.handle_resend_request caps the iteration at 100000 records) *)
Definition ready_store (decode : bytes -> decode_result) (s : sess) : Prop :=
  pr_asa (s_par s) = false /\ p_attached (s_per s) = true /\
  store_wf (p_store (s_per s)) = true /\
  forallb (resendable decode) (p_store (s_per s)) = true /\
  N.of_nat (length (p_store (s_per s))) <= 100000.

Section T.
Variable sc : schema.
Variable decode : bytes -> decode_result.
Variable now : Z.

Notation st s := (p_store (s_per s)).
Notation the_plan s m := (plan (p_store (s_per s)) (s_next_send s) (req_begin m) (req_end m)).

Lemma forallb_record_resendable : forall l, forallb (record_ok decode) l = true -> forallb (resendable decode) l = true.
Proof.
  intros l. apply forallb_impl. intros [k raw] H. destruct (record_ok_stored decode k raw H) as (m & st & SD).
  unfold resendable. cbn [snd]. rewrite (sd_dec _ _ _ _ _ SD), (has_get_some _ _ _ (sd_seq _ _ _ _ _ SD)), (sd_eob _ _ _ _ _ SD). reflexivity.
Qed.

(* s1, e1: what enforce leaves, as in ReplayProofs.answer_plan; s1 = s, e1 = [] for a request that passes untouched *)
Lemma answer_plan_ready : forall s seqnum m r s1 e1,
  schema_ok sc = true ->
  enforce sc now seqnum m s = (inl r, s1, e1) ->
  (s_state s1 =? st_resend_request_received) = false -> s_closed s1 = false -> s_batch s1 = [] ->
  ready_store decode s1 ->
  range_bad (req_begin m) (req_end m) = false ->
  exists s',
    handle_resend_request sc decode now seqnum m s =
      (inl true, s', (e1 ++ out sc now decode s1 (fst (the_plan s1 m)))%list) /\
    s_next_send s' = snd (the_plan s1 m) /\ s_state s' = st_continuous /\ st s' = st s1.
Proof.
  intros s seqnum m r s1 e1 SOK ENF ST CL BA (ASA & ATT & WF & DEC & LEN) RB.
  destruct (sok_parts sc SOK) as (W & _ & _ & _ & _ & _ & _ & ADM & _).
  exact (answer_plan sc now decode W ADM s seqnum m r s1 e1 ENF ST RB (conj CL (conj BA (conj ASA ATT))) WF DEC LEN).
Qed.

Theorem resent_any : forall s seqnum m r s1 e1,
  schema_ok sc = true ->
  enforce sc now seqnum m s = (inl r, s1, e1) ->
  (s_state s1 =? st_resend_request_received) = false -> s_closed s1 = false -> s_batch s1 = [] ->
  ready_store decode s1 ->
  forallb (record_ok decode) (st s1) = true ->
  range_bad (req_begin m) (req_end m) = false ->
  exists s' items,
    handle_resend_request sc decode now seqnum m s = (inl true, s', (e1 ++ out sc now decode s1 items)%list) /\
    (* complete *)
    (forall k raw, In (k, raw) (resent items) <->
                   In (k, raw) (st s1) /\ req_begin m <= k <= finish_of (st s1) (req_end m)) /\
    (* ordered *)
    sorted_from (req_begin m - 1) (resent items) = true /\
    (* faithful *)
    Forall (fun kr => faithful_wire sc decode now (fst kr) (snd kr) (wire sc decode now s1 (PMsg (fst kr) (snd kr))))
           (resent items).
Proof.
  intros s seqnum m r s1 e1 SOK ENF ST CL BA RS RO RB.
  destruct (answer_plan_ready s seqnum m r s1 e1 SOK ENF ST CL BA RS RB) as (s' & E & _).
  destruct RS as (ASA & _ & WF & _).
  exists s', (fst (the_plan s1 m)). split; [exact E|]. destruct (range_ok _ _ RB) as [B0 _].
  rewrite resent_plan. split; [|split].
  - intros k raw. apply plan_recs_in. exact B0.
  - apply plan_recs_sorted. exact WF.
  - apply Forall_forall. intros [k raw] I. cbn [fst snd].
    apply wire_resend_faithful; [exact SOK|exact ASA|].
    apply after_in in I. rewrite forallb_forall in RO. apply RO. apply I.
Qed.

Theorem gapfill_any : forall s seqnum m r s1 e1,
  schema_ok sc = true -> nosoh (s_snd s1) = true -> nosoh (s_tgt s1) = true ->
  enforce sc now seqnum m s = (inl r, s1, e1) ->
  (s_state s1 =? st_resend_request_received) = false -> s_closed s1 = false -> s_batch s1 = [] ->
  ready_store decode s1 ->
  range_bad (req_begin m) (req_end m) = false ->
  exists s' loop_items final,
    handle_resend_request sc decode now seqnum m s =
      (inl true, s', (e1 ++ out sc now decode s1 (loop_items ++ [final]))%list) /\
    forall a k, In (PGap a k) loop_items ->
      parse_out (wire sc decode now s1 (PGap a k)) = IGap a k /\
      req_begin m <= a /\ a < k /\
      (exists raw, In (k, raw) (st s1) /\ k <= finish_of (st s1) (req_end m)) /\
      (forall k' raw', In (k', raw') (st s1) -> ~ (a <= k' < k)) /\
      (a = req_begin m \/ exists raw', In (a - 1, raw') (st s1)).
Proof.
  intros s seqnum m r s1 e1 SOK N1 N2 ENF ST CL BA RS RB.
  destruct (answer_plan_ready s seqnum m r s1 e1 SOK ENF ST CL BA RS RB) as (s' & E & _).
  destruct RS as (_ & _ & WF & _).
  destruct (range_ok _ _ RB) as [B0 _]. rewrite (plan_fill _ _ _ _ B0 WF) in E. cbn [fst] in E.
  eexists. eexists. eexists. split; [exact E|].
  intros a k I. pose proof (plan_gaps_exact _ _ _ a k B0 WF I) as G. split; [|exact G].
  apply (wire_gap_parse_pos sc decode now SOK s1); [exact N1|exact N2|lia].
Qed.

(* F22 as it was before /repo 930506b *)
Theorem gapfill_seq_orig_refuted : forall s b k raw,
  schema_ok sc = true -> nosoh (s_snd s) = true -> nosoh (s_tgt s) = true ->
  s_closed s = false -> s_batch s = [] -> pr_asa (s_par s) = false -> p_attached (s_per s) = true ->
  resendable decode (k, raw) = true -> b < k ->
  exists s' w evs,
    retrans_record_orig sc decode now b 0 k raw s = (inl true, s', EOut w :: evs) /\
    parse_out w = IGap (s_next_send s) k.
Proof.
  intros s b k raw SOK N1 N2 CL BA ASA ATT RK L.
  destruct (sok_parts sc SOK) as (W & _ & _ & _ & _ & _ & _ & ADM & _).
  destruct (retrans_record_orig_plan sc now decode W ADM s b 0 k raw ltac:(repeat split; assumption) RK) as (s' & E & _).
  unfold gap_before_orig in E. cbn [N.eqb negb] in E. replace (b <? k) with true in E by (symmetry; apply N.ltb_lt; exact L).
  eexists. eexists. eexists. split; [exact E|].
  rewrite (wire_gap_parse sc decode now SOK s) by assumption.
  unfold gap_seq. destruct (s_next_send s =? 0) eqn:Z; [apply N.eqb_eq in Z; rewrite Z|]; reflexivity.
Qed.

Theorem nopersister_any : forall s seqnum m r s1 e1,
  schema_ok sc = true -> nosoh (s_snd s1) = true -> nosoh (s_tgt s1) = true ->
  enforce sc now seqnum m s = (inl r, s1, e1) ->
  (s_state s1 =? st_resend_request_received) = false -> s_closed s1 = false -> s_batch s1 = [] ->
  p_attached (s_per s1) = false ->
  range_bad (req_begin m) (req_end m) = false ->
  exists s' w,
    handle_resend_request sc decode now seqnum m s = (inl true, s', (e1 ++ [EOut w])%list) /\
    parse_out w = IGap (req_begin m) (N.max (req_begin m + 1) (s_next_send s1)) /\
    s_next_send s' = N.max (req_begin m + 1) (s_next_send s1) /\ s_state s' = s_state s1.
Proof.
  intros s seqnum m r s1 e1 SOK N1 N2 ENF ST CL BA ATT RB.
  destruct (sok_parts sc SOK) as (W & _ & _ & _ & _ & _ & _ & ADM & _).
  destruct (answer_nopersister sc now decode W ADM s seqnum m r s1 e1 ENF ST RB CL BA ATT) as (s' & E & NS & STS).
  destruct (range_ok _ _ RB) as [B0 _]. unfold plan_nopersister in *. cbn [fst snd] in *.
  replace (if s_next_send s1 <=? req_begin m then req_begin m + 1 else s_next_send s1)
    with (N.max (req_begin m + 1) (s_next_send s1)) in *
    by (destruct (s_next_send s1 <=? req_begin m) eqn:Q; [apply N.leb_le in Q|apply N.leb_gt in Q]; lia).
  eexists. eexists. split; [exact E|]. split; [|split; assumption].
  apply (wire_gap_parse_pos sc decode now SOK s1); [exact N1|exact N2|lia].
Qed.

Theorem replay_plan_any_state : forall s seqnum m r s1 e1,
  schema_ok sc = true -> nosoh (s_snd s1) = true -> nosoh (s_tgt s1) = true ->
  enforce sc now seqnum m s = (inl r, s1, e1) ->
  (s_state s1 =? st_resend_request_received) = false ->
  s_closed s1 = false -> s_batch s1 = [] -> ready_store decode s1 ->
  range_bad (req_begin m) (req_end m) = false ->
  exists s' evs w a,
    handle_resend_request sc decode now seqnum m s = (inl true, s', (e1 ++ evs ++ [EOut w])%list) /\
    (evs ++ [EOut w])%list = out sc now decode s1 (fst (the_plan s1 m)) /\
    parse_out w = IGap a (s_next_send s') /\
    s_next_send s' = snd (the_plan s1 m) /\ s_state s' = st_continuous /\ st s' = st s1.
Proof.
  intros s seqnum m r s1 e1 SOK N1 N2 ENF ST CL BA RS RB.
  destruct (answer_plan_ready s seqnum m r s1 e1 SOK ENF ST CL BA RS RB) as (s' & E & NS & STC & STO).
  destruct (plan_ends (st s1) (s_next_send s1) (req_begin m) (req_end m)) as (items & x & P).
  exists s', (out sc now decode s1 items), (wire sc decode now s1 (PGap x (snd (the_plan s1 m)))), (gap_seq s1 x).
  split; [rewrite E, P, out_app; reflexivity|]. split; [rewrite P, out_app; reflexivity|].
  split; [rewrite (wire_gap_parse sc decode now SOK s1) by assumption; rewrite NS; reflexivity|]. auto.
Qed.

Theorem replay_plan_ahead : forall s seqnum m,
  nosoh (sc_begin sc) = true -> is_admin sc mt_sequence_reset = true -> is_admin sc mt_resend_request = true ->
  s_state s = st_continuous ->
  compid_check m s = (inl tt, s, []) ->
  beq (m_type m) mt_sequence_reset = false ->
  s_next_recv s < seqnum ->
  s_closed s = false -> s_batch s = [] -> ready_store decode s ->
  range_bad (req_begin m) (req_end m) = false ->
  exists s' s1,
    s_state s1 = st_resend_request_sent /\ s_next_send s1 = s_next_send s + 1 /\
    handle_resend_request sc decode now seqnum m s =
      (inl true, s',
       (EOut (encode sc (fst (stamp sc now s (generate_resend_request sc (s_next_recv s) 0)))) ::
        out sc now decode s1 (fst (plan (st s) (s_next_send s + 1) (req_begin m) (req_end m))))) /\
    s_next_send s' = snd (plan (st s) (s_next_send s + 1) (req_begin m) (req_end m)) /\
    s_state s' = st_continuous /\ st s' = st s.
Proof.
  intros s seqnum m W ADM ADM2 ST CC NT LT CL BA (ASA & ATT & WF & DEC & LEN) RB.
  pose proof (enforce_ahead sc now W s seqnum m ST CC NT LT CL BA ADM2) as ENF.
  set (s1 := w_state st_resend_request_sent (after_new now s)) in *.
  (* s1 is s with next_send + 1, as far as the replay can see *)
  assert (C1 : core s1 = core (w_next_send (s_next_send s + 1) s)) by (rewrite <- (core_after_new now s BA); reflexivity).
  assert (R1 : replaying s1) by (apply (replaying_core _ _ C1); repeat split; assumption).
  pose proof (core_store _ _ C1) as PS. pose proof (core_send _ _ C1) as NS. cbn [s_per s_next_send w_next_send] in PS, NS.
  destruct (answer_plan sc now decode W ADM s seqnum m true s1 _ ENF eq_refl RB R1) as (s' & E & REST);
    try (rewrite PS; assumption).
  rewrite PS, NS in *. exists s', s1. split; [reflexivity|]. split; [exact NS|]. split; [exact E|exact REST].
Qed.

End T.

Section E2E.
Variable sc : schema.
Variable decode : bytes -> decode_result.
Variable now : Z.
Hypothesis SOK : schema_ok sc = true.

Theorem answer_ok_any : forall s seqnum m r s1 e1,
  nosoh (s_snd s1) = true -> nosoh (s_tgt s1) = true ->
  enforce sc now seqnum m s = (inl r, s1, e1) ->
  (s_state s1 =? st_resend_request_received) = false -> s_closed s1 = false -> s_batch s1 = [] ->
  pr_asa (s_par s1) = false -> p_attached (s_per s1) = true ->
  store_wf (p_store (s_per s1)) = true -> N.of_nat (length (p_store (s_per s1))) <= 100000 ->
  forallb (record_ok decode) (p_store (s_per s1)) = true ->
  forallb (exact_ok sc decode) (p_store (s_per s1)) = true ->
  keys_below (s_next_send s1) (p_store (s_per s1)) = true ->
  range_bad (req_begin m) (req_end m) = false ->
  nothing_stored_beyond (p_store (s_per s1)) (s_next_send s1) (req_end m) = true ->
  exists s' evs,
    handle_resend_request sc decode now seqnum m s = (inl true, s', (e1 ++ evs)%list) /\
    answer_ok (p_store (s_per s1)) seqnum (s_next_send s1) (req_begin m) (req_end m) (outs evs) (s_next_send s') = true.
Proof.
  intros s0 seqnum m r s e1 N1 N2 ENF ST CL BA ASA ATT WF LEN RO EX KB RB NB.
  destruct (answer_plan_ready sc decode now s0 seqnum m r s e1 SOK ENF ST CL BA
              (conj ASA (conj ATT (conj WF (conj (forallb_record_resendable decode _ RO) LEN)))) RB) as (s' & E & NS & _).
  exists s'. eexists. split; [exact E|].
  destruct (range_ok _ _ RB) as [B0 B1].
  unfold answer_ok. change (range_invalid (req_begin m) (req_end m)) with (range_bad (req_begin m) (req_end m)).
  rewrite RB, NS. apply plan_replay_ok; try assumption.
  (* item by item: what the oracle parses from the wire is the plan item *)
  rewrite (plan_fill _ _ _ _ B0 WF). cbn [fst app].
  set (recs := after (req_begin m - 1) (finish_of (p_store (s_per s)) (req_end m)) (p_store (s_per s))).
  assert (GAP : forall a k, parse_out (wire sc decode now s (PGap (a + 1) k)) = IGap (a + 1) k).
  { intros a k. apply (wire_gap_parse_pos sc decode now SOK s); [exact N1|exact N2|lia]. }
  assert (MSG : forall k raw, In (k, raw) recs -> abs1 (PMsg k raw) (parse_out (wire sc decode now s (PMsg k raw)))).
  { intros k raw I. apply after_in in I. destruct I as [I _]. rewrite forallb_forall in RO, EX.
    apply (wire_resend_oracle sc decode now SOK s k raw ASA (RO _ I) (EX _ I)). }
  unfold out, outs. rewrite !map_app, flat_map_app. apply Forall2_app; [|repeat constructor; apply GAP].
  clearbody recs. generalize (req_begin m - 1). induction recs as [|[k raw] l IH]; intro lo; [constructor|].
  cbn [fill]. rewrite !map_app, flat_map_app. apply Forall2_app.
  - destruct (lo + 1 <? k); repeat constructor. apply GAP.
  - constructor; [apply MSG; left; reflexivity|]. apply IH. intros k' raw' I. apply MSG. right. exact I.
Qed.
End E2E.
