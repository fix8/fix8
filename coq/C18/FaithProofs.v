(* C18: what the replayed bytes say -- the resent message is the stored one plus PossDupFlag and
   OrigSendingTime, in the words of the theorem (faithful_wire) and in those of the ORACLE (Spec_C18.faithful);
   the gap fill parses, with the oracle's parser, to its MsgSeqNum / NewSeqNo. *)
From Coq Require Import NArith ZArith List Bool Lia.
From F8 Require Sess.SendLemmas.
From F8 Require Import Sess.Bytes Sess.Msg Sess.Persist Sess.Session Sess.SessLemmas.
From F8 Require Import C18.Replay C18.ReplayProofs C18.Spec_C18 C18.Exact.
Import ListNotations.
Local Open Scope N_scope.

Lemma get_hdr_add_same : forall sc t v m, hdr_has sc t = true -> NoDup (tags (m_hdr m)) ->
  get_field t (m_hdr (add_hdr' sc t v m)) = Some v.
Proof.
  intros sc t v m H ND. unfold hdr_has in H. destruct (assoc t (sc_hdr sc)) eqn:E; [|discriminate].
  eapply add_hdr'_get_same; eassumption.
Qed.

Lemma has_get_some : forall t l v, get_field t l = Some v -> has_field t l = true.
Proof. intros t l v H. unfold has_field. rewrite H. reflexivity. Qed.

Lemma get_field_nosoh : forall t l v, vals_ok l = true -> get_field t l = Some v -> nosoh v = true.
Proof.
  induction l as [|f l IH]; intros v V G; [discriminate|].
  cbn [vals_ok forallb get_field] in *. apply andb_true_iff in V. destruct V as [V1 V2].
  destruct (f_tag f =? t); [inversion G; subst; exact V1|apply IH; assumption].
Qed.

Lemma toks_eq_eq : forall a b, toks_eq a b = true -> a = b.
Proof.
  induction a as [|[t v] a IH]; destruct b as [|[t' v'] b]; cbn [toks_eq]; intro H; try discriminate; [reflexivity|].
  apply andb_true_iff in H. destruct H as [H H3]. apply andb_true_iff in H. destruct H as [H1 H2].
  apply beq_eq in H1. apply beq_eq in H2. subst. f_equal. apply IH. exact H3.
Qed.
Lemma toks_eq_refl : forall a, toks_eq a a = true.
Proof. induction a as [|[t v] a IH]; [reflexivity|]. cbn [toks_eq]. rewrite !beq_refl, IH. reflexivity. Qed.

(* dropping tags from the tokens of a field list is a filter on the fields *)
Definition dropf (V : list N) (l : list field) : list field :=
  filter (fun f => negb (existsb (N.eqb (f_tag f)) V)) l.

Lemma tag_in_ftok : forall V f, tag_in V (ftok f) = existsb (N.eqb (f_tag f)) V.
Proof.
  intros V f. unfold tag_in, ftok, tagb. cbn [fst]. induction V as [|g V IH]; [reflexivity|].
  cbn [existsb]. rewrite beq_dec, IH. reflexivity.
Qed.

Lemma drop_tags_ftok : forall V l, drop_tags V (map ftok l) = map ftok (dropf V l).
Proof.
  intros V l. unfold drop_tags, dropf. induction l as [|f l IH]; [reflexivity|].
  cbn [map filter]. rewrite tag_in_ftok, IH. destruct (existsb (N.eqb (f_tag f)) V); reflexivity.
Qed.

Lemma drop_tags_app : forall V a b, drop_tags V (a ++ b) = (drop_tags V a ++ drop_tags V b)%list.
Proof. intros. apply filter_app. Qed.
Lemma drop_tags_cons : forall V t v l,
  drop_tags V ((dec t, v) :: l) = if existsb (N.eqb t) V then drop_tags V l else (dec t, v) :: drop_tags V l.
Proof.
  intros. unfold drop_tags. cbn [filter]. change (dec t, v) with (ftok (mkF 0 t v)) at 1. rewrite tag_in_ftok. cbn [f_tag].
  destruct (existsb (N.eqb t) V); reflexivity.
Qed.

(* add_field moves or inserts the one field with its tag: invisible once that tag is dropped *)
Lemma dropf_insert : forall V f l, existsb (N.eqb (f_tag f)) V = true -> dropf V (insert_field f l) = dropf V l.
Proof.
  intros V f l H. unfold dropf. induction l as [|g l IH]; cbn [insert_field filter].
  - rewrite H. reflexivity.
  - destruct (f_pos g <=? f_pos f); cbn [filter]; [rewrite IH; reflexivity|rewrite H; reflexivity].
Qed.
Lemma dropf_remove : forall V t l, existsb (N.eqb t) V = true -> dropf V (remove_field t l) = dropf V l.
Proof.
  intros V t l H. unfold dropf. induction l as [|g l IH]; cbn [remove_field filter]; [reflexivity|].
  destruct (f_tag g =? t) eqn:E.
  - apply N.eqb_eq in E. rewrite E, H. reflexivity.
  - cbn [filter]. rewrite IH. reflexivity.
Qed.
Lemma dropf_hdr_add : forall sc V t v m, existsb (N.eqb t) V = true -> dropf V (m_hdr (add_hdr' sc t v m)) = dropf V (m_hdr m).
Proof.
  intros sc V t v m H. destruct (add_hdr'_cases sc t v m) as [[-> _]|(p & _ & ->)]; [reflexivity|].
  cbn [m_hdr]. unfold add_field.
  destruct (get_pos t (m_hdr m)); rewrite dropf_insert by exact H; [apply dropf_remove; exact H|reflexivity].
Qed.

Lemma dropf_volatile : forall l, has_field T_PossDupFlag l = false -> has_field T_OrigSendingTime l = false ->
  dropf volatile_resent l = dropf volatile_stored l.
Proof.
  intros l H1 H2. apply filter_ext_in. intros f I. f_equal. unfold volatile_resent, volatile_stored. cbn [existsb].
  assert (N : forall t, has_field t l = false -> (f_tag f =? t) = false).
  { intros t H. apply N.eqb_neq. intros <-. apply (in_map f_tag) in I. apply has_field_in in I. congruence. }
  rewrite (N _ H1), (N _ H2), !orb_false_r. reflexivity.
Qed.

Section F.
Variable sc : schema.
Variable decode : bytes -> decode_result.
Variable now : Z.
Hypothesis SOK : schema_ok sc = true.

Lemma sok_parts :
  nosoh (sc_begin sc) = true /\ hdr_has sc T_MsgSeqNum = true /\ hdr_has sc T_PossDupFlag = true /\
  hdr_has sc T_SendingTime = true /\ hdr_has sc T_OrigSendingTime = true /\ hdr_has sc T_SenderCompID = true /\
  hdr_has sc T_TargetCompID = true /\ is_admin sc mt_sequence_reset = true /\
  body_has sc mt_sequence_reset T_NewSeqNo = true /\ body_has sc mt_sequence_reset T_GapFillFlag = true.
Proof.
  pose proof SOK as K. unfold schema_ok in K. repeat (apply andb_true_iff in K; destruct K as [K ?]). repeat split; assumption.
Qed.

Definition resent_msg (m : msg) (st : bytes) : msg :=
  add_hdr' sc T_SendingTime (fmt_time now) (add_hdr' sc T_OrigSendingTime st (add_hdr' sc T_PossDupFlag s_Y m)).

(* a stored record as send_process left it *)
Record stored (k : N) (raw : bytes) (m : msg) (st : bytes) : Prop := {
  sd_dec : decode raw = DecOk m;
  sd_eob : m_eob m = true;
  sd_seq : get_field T_MsgSeqNum (m_hdr m) = Some (dec k);
  sd_time : get_field T_SendingTime (m_hdr m) = Some st;
  sd_snd : has_field T_SenderCompID (m_hdr m) = true;
  sd_tgt : has_field T_TargetCompID (m_hdr m) = true;
  sd_nodup : has_field T_PossDupFlag (m_hdr m) = false;
  sd_noorig : has_field T_OrigSendingTime (m_hdr m) = false;
  sd_tags : NoDup (tags (m_hdr m));
  sd_type : nosoh (m_type m) = true;
  sd_hdr : vals_ok (m_hdr m) = true;
  sd_body : vals_ok (m_body m) = true
}.

Lemma record_ok_stored : forall k raw, record_ok decode (k, raw) = true -> exists m st, stored k raw m st.
Proof.
  intros k raw RO. unfold record_ok in RO. cbn [fst snd] in RO. destruct (decode raw) as [m|] eqn:DE; [|discriminate].
  repeat (apply andb_true_iff in RO; destruct RO as [RO ?]).
  destruct (get_field T_MsgSeqNum (m_hdr m)) as [v34|] eqn:G34; [|discriminate].
  destruct (get_field T_SendingTime (m_hdr m)) as [st|] eqn:G52;
    [|match goal with H : has_field T_SendingTime _ = true |- _ => unfold has_field in H; rewrite G52 in H; discriminate end].
  repeat match goal with H : negb _ = true |- _ => apply negb_true_iff in H end.
  match goal with H : beq v34 _ = true |- _ => apply beq_eq in H; subst v34 end.
  exists m, st. constructor; try assumption. apply SendLemmas.nodupb_NoDup. assumption.
Qed.

(* what goes out for it; the last conjunct says that the other header fields keep their order *)
Lemma resent_wire : forall s k raw m st,
  pr_asa (s_par s) = false -> stored k raw m st ->
  wire sc decode now s (PMsg k raw) = encode sc (resent_msg m st) /\
  wf_msg sc (resent_msg m st) = true /\
  m_type (resent_msg m st) = m_type m /\ m_body (resent_msg m st) = m_body m /\
  get_field T_PossDupFlag (m_hdr (resent_msg m st)) = Some s_Y /\
  get_field T_OrigSendingTime (m_hdr (resent_msg m st)) = Some st /\
  get_field T_SendingTime (m_hdr (resent_msg m st)) = Some (fmt_time now) /\
  (forall t, t <> T_PossDupFlag -> t <> T_OrigSendingTime -> t <> T_SendingTime ->
             get_field t (m_hdr (resent_msg m st)) = get_field t (m_hdr m)) /\
  dropf volatile_resent (m_hdr (resent_msg m st)) = dropf volatile_resent (m_hdr m).
Proof.
  intros s k raw m st A [DE EOB G34 G52 H49 H56 H43 H122 ND NT VH VB].
  destruct sok_parts as (W & S34 & S43 & S52 & S122 & _).
  assert (ND1 : NoDup (tags (m_hdr (add_hdr' sc T_PossDupFlag s_Y m)))) by (apply add_hdr'_nodup; exact ND).
  assert (ND2 : NoDup (tags (m_hdr (add_hdr' sc T_OrigSendingTime st (add_hdr' sc T_PossDupFlag s_Y m)))))
    by (apply add_hdr'_nodup; exact ND1).
  split.
  { unfold wire, stamp. rewrite DE, H49, H56, (has_get_some _ _ _ G34), H43, A. lazy beta iota zeta. cbn [fst].
    rewrite add_hdr'_get_other, G52 by discriminate. reflexivity. }
  unfold resent_msg. rewrite !add_hdr'_type, !add_hdr'_body. repeat split.
  - unfold wf_msg. rewrite !add_hdr'_type, !add_hdr'_body, W, NT, VB. cbn [andb]. rewrite andb_true_r.
    apply add_hdr'_vals; [apply fmt_time_nosoh|]. apply add_hdr'_vals; [exact (get_field_nosoh _ _ _ VH G52)|].
    apply add_hdr'_vals; [reflexivity|exact VH].
  - rewrite !add_hdr'_get_other by discriminate. apply get_hdr_add_same; assumption.
  - rewrite add_hdr'_get_other by discriminate. apply get_hdr_add_same; assumption.
  - apply get_hdr_add_same; assumption.
  - intros t T1 T2 T3. rewrite !add_hdr'_get_other by assumption. reflexivity.
  - rewrite !dropf_hdr_add by reflexivity. reflexivity.
Qed.

(* the tokens of a resent record: exactly the decoded stored message, with the header hdr4 *)
Definition faithful_wire (k : N) (raw w : bytes) : Prop :=
  exists m hdr4 len chk,
    decode raw = DecOk m /\
    tokens w = ([(dec 8, sc_begin sc); (dec 9, len); (dec T_MsgType, m_type m)] ++
                map ftok hdr4 ++ map ftok (m_body m) ++ [(dec 10, chk)])%list /\
    get_field T_MsgSeqNum hdr4 = Some (dec k) /\
    get_field T_PossDupFlag hdr4 = Some s_Y /\
    get_field T_OrigSendingTime hdr4 = get_field T_SendingTime (m_hdr m) /\
    get_field T_SendingTime hdr4 = Some (fmt_time now) /\
    (forall t, t <> T_PossDupFlag -> t <> T_OrigSendingTime -> t <> T_SendingTime ->
               get_field t hdr4 = get_field t (m_hdr m)).

Lemma wire_resend_faithful : forall s k raw,
  pr_asa (s_par s) = false -> record_ok decode (k, raw) = true ->
  faithful_wire k raw (wire sc decode now s (PMsg k raw)).
Proof.
  intros s k raw A RO. destruct (record_ok_stored k raw RO) as (m & st & SD).
  destruct (resent_wire s k raw m st A SD) as (E & WF & TY & BD & Q43 & Q122 & Q52 & QO & _).
  exists m, (m_hdr (resent_msg m st)), (dec (N.of_nat (length (payload (resent_msg m st))))), (pad 3 (chk_of sc (resent_msg m st))).
  split; [apply SD|]. split; [rewrite E, tokens_encode by exact WF; unfold msg_toks; rewrite TY, BD; reflexivity|].
  split; [rewrite QO by discriminate; apply SD|]. rewrite (sd_time _ _ _ _ SD). auto.
Qed.

(* the same in the oracle's words, for a decoder that is exact on the stored string *)
Lemma wire_resend_oracle : forall s k raw,
  pr_asa (s_par s) = false -> record_ok decode (k, raw) = true -> exact_ok sc decode (k, raw) = true ->
  exists t, parse_out (wire sc decode now s (PMsg k raw)) = IMsg t /\ faithful k (tokens raw) t = true.
Proof.
  intros s k raw A RO EX. destruct (record_ok_stored k raw RO) as (m & st & SD).
  destruct (resent_wire s k raw m st A SD) as (E & WF & TY & BD & Q43 & Q122 & Q52 & QO & DR).
  destruct SD as [DE EOB G34 G52 H49 H56 H43 H122 ND NT VH VB].
  (* the stored string, as exact_ok describes it *)
  unfold exact_ok in EX. cbn [snd] in EX. rewrite DE in EX.
  destruct (tokens raw) as [|[t8 v8] [|[t9 v9] [|[t35 ty] rest]]] eqn:TR; try discriminate.
  repeat (apply andb_true_iff in EX; destruct EX as [EX ?]).
  repeat match goal with H : negb _ = true |- _ => apply negb_true_iff in H end.
  destruct (rev rest) as [|[t10 c] rrest] eqn:RR; [discriminate|].
  match goal with H : _ && toks_eq _ _ = true |- _ => apply andb_true_iff in H; destruct H as [RV1 RV2] end.
  apply toks_eq_eq in RV2. apply (f_equal (@rev _)) in RR. rewrite rev_involutive in RR. cbn [rev] in RR. rewrite RV2 in RR.
  repeat match goal with H : beq _ _ = true |- _ => apply beq_eq in H end. subst t8 v8 t9 t35 ty t10 rest.
  exists (tokens (wire sc decode now s (PMsg k raw))). rewrite E. split.
  { unfold parse_out, item_of_toks, tagb. rewrite tok_get_encode_type, TY by exact WF.
    match goal with H : beq (m_type m) mt_sequence_reset = false |- _ => unfold mt_sequence_reset in H; rewrite H end. reflexivity. }
  unfold faithful, tagb.
  (* the fields the oracle looks up *)
  rewrite !tok_get_encode by (exact WF || discriminate). rewrite QO, G34, Q122, Q43 by discriminate.
  cbn [app tok_get]. rewrite !beq_dec. cbn [N.eqb T_MsgType T_SendingTime Pos.eqb].
  rewrite <- app_assoc, tok_get_fields, G52, !beq_refl. cbn [flag_set s_Y N.eqb Pos.eqb andb].
  (* the remaining fields, in order *)
  rewrite tokens_encode by exact WF. unfold msg_toks. rewrite TY, BD. cbn [app].
  rewrite !drop_tags_cons, !drop_tags_app, !drop_tags_cons, !drop_tags_ftok.
  rewrite DR, (dropf_volatile (m_hdr m)), (dropf_volatile (m_body m)) by assumption.
  cbn [existsb volatile_resent volatile_stored N.eqb Pos.eqb orb T_MsgType T_SendingTime T_PossDupFlag T_OrigSendingTime].
  rewrite N.eqb_refl. apply toks_eq_refl.
Qed.

(* the number a gap fill goes out with: a custom number 0 means "none", and send_process takes next_send *)
Definition gap_seq (s : sess) (a : N) : N := if a =? 0 then s_next_send s else a.

Lemma gap_seq_pos : forall s a, a <> 0 -> gap_seq s a = a.
Proof. intros s a H. unfold gap_seq. apply N.eqb_neq in H. rewrite H. reflexivity. Qed.

Lemma gap_msg_body : forall a ns,
  get_field T_NewSeqNo (m_body (gap_msg sc a ns)) = Some (dec ns) /\
  get_field T_GapFillFlag (m_body (gap_msg sc a ns)) = Some s_Y /\
  vals_ok (m_body (gap_msg sc a ns)) = true.
Proof.
  intros a ns. destruct sok_parts as (_ & _ & _ & _ & _ & _ & _ & _ & B36 & B123).
  assert (E : m_body (gap_msg sc a ns) = m_body (generate_sequence_reset sc ns true)).
  { unfold gap_msg. destruct (a =? 0); reflexivity. }
  rewrite E. unfold generate_sequence_reset, add_body', add_body. cbn [new_msg m_type].
  unfold body_has in B36, B123. unfold mt_sequence_reset in *.
  destruct (find_def [52] (sc_msgs sc)) as [d|] eqn:FD; [|congruence].
  destruct (assoc T_NewSeqNo (d_pos d)) as [p36|]; [|congruence]. cbn [m_type]. rewrite FD.
  destruct (assoc T_GapFillFlag (d_pos d)) as [p123|]; [|congruence]. cbn [m_body].
  repeat split.
  - rewrite get_add_other by discriminate. apply get_add_same. constructor.
  - apply get_add_same. apply nodup_add. constructor.
  - apply vals_ok_add; [reflexivity|]. apply vals_ok_add; [apply clean_nosoh, dec_clean|reflexivity].
Qed.

Lemma wire_gap_parse : forall s a ns,
  nosoh (s_snd s) = true -> nosoh (s_tgt s) = true ->
  parse_out (wire sc decode now s (PGap a ns)) = IGap (gap_seq s a) ns.
Proof.
  intros s a ns N1 N2. destruct sok_parts as (W & S34 & _ & _ & _ & _ & _ & _ & _).
  destruct (gap_msg_body a ns) as (G36 & G123 & GV).
  unfold wire. rewrite (stamp_fresh sc now s _ _ _ (gap_msg_fresh sc a ns)). cbn [fst]. fold (gap_seq s a).
  destruct (gap_msg_fresh sc a ns) as [b E]. rewrite E in *. cbn [m_body] in *.
  set (m2 := add_hdr' sc T_TargetCompID (s_tgt s) (add_hdr' sc T_SenderCompID (s_snd s) _)).
  set (m4 := add_hdr' sc T_SendingTime _ _).
  assert (TY : m_type m4 = mt_sequence_reset) by (subst m4 m2; rewrite !add_hdr'_type; reflexivity).
  assert (BD : m_body m4 = b) by (subst m4 m2; rewrite !add_hdr'_body; reflexivity).
  assert (WF : wf_msg sc m4 = true).
  { unfold wf_msg. rewrite W, TY, BD, GV, andb_true_r. subst m4 m2.
    apply add_hdr'_vals; [apply fmt_time_nosoh|]. apply add_hdr'_vals; [apply clean_nosoh, dec_clean|].
    apply add_hdr'_vals; [exact N2|]. apply add_hdr'_vals; [exact N1|reflexivity]. }
  assert (H34 : get_field T_MsgSeqNum (m_hdr m4) = Some (dec (gap_seq s a))).
  { subst m4. rewrite add_hdr'_get_other by discriminate. apply get_hdr_add_same; [exact S34|].
    subst m2. do 2 apply add_hdr'_nodup. constructor. }
  assert (HN : forall t, t <> T_SendingTime -> t <> T_MsgSeqNum -> t <> T_TargetCompID -> t <> T_SenderCompID ->
               get_field t (m_hdr m4) = None).
  { intros t T1 T2 T3 T4. subst m4 m2. rewrite !add_hdr'_get_other by assumption. reflexivity. }
  unfold parse_out, item_of_toks, num_tok, tagb.
  rewrite tok_get_encode_type, TY by exact WF. cbn [beq mt_sequence_reset N.eqb andb].
  rewrite !tok_get_encode by (try exact WF; discriminate).
  rewrite H34, !HN, BD, G36, G123 by discriminate. cbn [flag_set s_Y N.eqb]. rewrite !undec_dec. reflexivity.
Qed.

Lemma wire_gap_parse_pos : forall s a ns,
  nosoh (s_snd s) = true -> nosoh (s_tgt s) = true -> a <> 0 ->
  parse_out (wire sc decode now s (PGap a ns)) = IGap a ns.
Proof. intros s a ns N1 N2 A. rewrite wire_gap_parse, gap_seq_pos by assumption. reflexivity. Qed.

End F.
