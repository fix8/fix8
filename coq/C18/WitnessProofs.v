(* C18: concrete witnesses (computed with the full session model on the schema of Witness.v). *)
From Coq Require Import NArith ZArith List Bool.
From F8 Require Import Sess.Bytes Sess.Msg Sess.Persist Sess.Session Sess.SimpleCodec Sess.Wire Sess.SessLemmas.
From F8 Require Import C18.Spec_C18 C18.Replay C18.ReplayProofs C18.Witness.
Import ListNotations.
Local Open Scope N_scope.

(* the judged items of the last step of the model's trace *)
Definition answer_items (sc : schema) (line : bytes) : list item :=
  outs (st_events (last (run_history sc (parse_history line)) (mkStep [] None))).

(* a message cut down to its MsgType and MsgSeqNum tokens, so that a witness can be written out *)
Definition brief (it : item) : item :=
  match it with IMsg t => IMsg (filter (fun tv => beq (fst tv) (dec T_MsgSeqNum) || beq (fst tv) (dec T_MsgType)) t) | x => x end.

Definition world_after (sc : schema) (ops : list op) : world :=
  fold_left (fun w o => fst (snapshot (fst (run_op sc w o)))) ops world0.

(* the hypotheses of the general theorems are met by a non-trivial state *)
Definition w_f22 : world := world_after schema0 (parse_history line_f22_prefix).
Definition s_f22 : sess :=
  match w_sess w_f22 with Some s => s | None => new_session default_sp (p_empty PNone) end.
Definition m_f22 : msg :=
  match dec_fn schema0 req_f22 with DecOk m => m | DecExc _ _ => new_msg [] end.

(* ... and those of the oracle-level theorem answer_ok_partial, by a state with two stored messages *)
Definition w_good : world := world_after schema0 (parse_history line_good_prefix).
Definition s_good : sess :=
  match w_sess w_good with Some s => s | None => new_session default_sp (p_empty PNone) end.
Definition m_good : msg :=
  match dec_fn schema0 req_good with DecOk m => m | DecExc _ _ => new_msg [] end.

(* requests that arrive in a state other than continuous: the states after each operation *)
Definition states_of (line : bytes) : list N :=
  map (fun s => match st_snap s with Some sn => sn_state sn | None => 0 end) (run_history schema0 (parse_history line)).
(* the same trace with the OUT events of the last step removed: what a session that silently drops the request prints *)
Definition drop_answer (tr : trace) : trace :=
  match rev tr with
  | l :: r => rev (mkStep (filter (fun e => match e with EOut _ => false | _ => true end) (st_events l)) (st_snap l) :: r)
  | [] => []
  end.
Definition judged_ok_dropped_bad (line : bytes) : bool * N * bool :=
  (c18_ok_line line (run_line schema0 line), c18_judged_line line (run_line schema0 line),
   c18_ok (parse_history line) (drop_answer (run_history schema0 (parse_history line)))).

(* In the statements as written each component runs the model and parses its trace anew; here and in judged_shared
   the shared parts are bound by `let`, so that an evaluator, and the kernel checking the result again, does each once. *)
Lemma ok_and_judged : forall line n,
  (let ops := parse_history line in
   let r := parse_trace (run_line schema0 line) in (c18_ok ops r, c18_judged ost0 ops r)) = (true, n) ->
  c18_ok_line line (run_line schema0 line) = true /\ c18_judged_line line (run_line schema0 line) = n.
Proof. intros line n H. cbv zeta in H. injection H as H1 H2. split; assumption. Qed.

Lemma judged_shared : forall line, judged_ok_dropped_bad line =
  (let ops := parse_history line in
   let tr := run_history schema0 ops in
   let r := parse_trace (render_trace tr) in
   (c18_ok ops r, c18_judged ost0 ops r, c18_ok ops (drop_answer tr))).
Proof. reflexivity. Qed.

Theorem states_judged :
  judged_ok_dropped_bad line_ahead = (true, 1, false) /\
  judged_ok_dropped_bad line_testreq = (true, 1, false) /\ nth 7 (states_of line_testreq) 0 = st_test_request_sent /\
  judged_ok_dropped_bad line_sent = (true, 1, false) /\ nth 7 (states_of line_sent) 0 = st_resend_request_sent /\
  map brief (answer_items schema0 line_ahead) =
    [IMsg [(dec T_MsgType, [50]); (dec T_MsgSeqNum, dec 4)];
     IMsg [(dec T_MsgType, [68]); (dec T_MsgSeqNum, dec 2)]; IMsg [(dec T_MsgType, [68]); (dec T_MsgSeqNum, dec 3)];
     IGap 4 5].
Proof. rewrite !judged_shared. repeat apply conj; vm_compute; reflexivity. Qed.

(* F22 before the repair: what the oracle's parser reads from the first event of the callback as it was
   (Session.retrans_record_orig) for the first record of s_f22 *)
Definition orig_first_item : item :=
  match p_store (s_per s_f22) with
  | (k, raw) :: _ =>
    match retrans_record_orig schema0 (dec_fn schema0) (w_now w_f22) (req_begin m_f22) 0 k raw s_f22 with
    | (_, _, EOut w :: _) => parse_out w
    | _ => IBad
    end
  | [] => IBad
  end.
