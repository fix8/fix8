(* C20: what the executable classification of C20/Classify.v (`item_of`, `items_of`, `tilesb`) accepts
   satisfies the hypotheses of the stream theorems. *)
From Coq Require Import NArith ZArith List Bool Lia.
From F8 Require Import Sess.Bytes Sess.Msg Sess.Persist Sess.Session Sess.SessLemmas C20.Peer C20.Classify C20.SessFacts C20.BurstProofs.
Import ListNotations.
Local Open Scope N_scope.

Section Check.
Variable decode : bytes -> decode_result.

Lemma item_of_sound : forall s raw it, item_of decode s raw = Some it -> is_item decode s raw it.
Proof.
  intros s raw it. unfold item_of.
  destruct (raw_seq raw) as [q|] eqn:RS; [|discriminate].
  destruct (decode raw) as [m|] eqn:DE; [|discriminate].
  assert (AR : arrives decode raw q m) by (split; assumption).
  destruct (beq (m_type m) mt_reject) eqn:E1.
  { intro H. inversion H; subst. apply beq_eq in E1. exists m. split; assumption. }
  destruct (cid_ok s m) eqn:C; cbn [negb]; [|discriminate].
  destruct (beq (m_type m) mt_sequence_reset) eqn:E2.
  { destruct (get_field T_NewSeqNo (m_body m)) as [v|] eqn:NS; [|discriminate].
    intro H. inversion H; subst. apply beq_eq in E2. exists m, v. repeat split; assumption. }
  destruct (possdup m && negb (time_ok m)) eqn:PT; [discriminate|].
  assert (TO : possdup m = true -> time_ok m = true).
  { intro P. rewrite P in PT. cbn in PT. apply negb_false_iff in PT. exact PT. }
  destruct (beq (m_type m) mt_heartbeat) eqn:E3.
  { intro H. inversion H; subst. apply beq_eq in E3. exists m. repeat split; assumption. }
  destruct (is_session_type (m_type m)) eqn:E4; [discriminate|].
  intro H. inversion H; subst. exists m. repeat split; assumption.
Qed.

Lemma items_of_sound : forall s raws items, items_of decode s raws = Some items -> Forall2 (is_item decode s) raws items.
Proof.
  induction raws as [|raw raws IH]; intros items H; cbn [items_of] in H.
  - inversion H. constructor.
  - destruct (item_of decode s raw) as [it|] eqn:E1; [|discriminate].
    destruct (items_of decode s raws) as [l|] eqn:E2; [|discriminate].
    inversion H; subst. constructor; [apply item_of_sound; exact E1|apply IH; reflexivity].
Qed.

End Check.

Lemma tilesb_sound : forall l pos past, tilesb pos l past = true -> tiles pos l past.
Proof.
  induction l as [|it l IH]; intros pos past H; cbn [tilesb tiles] in *; [apply N.eqb_eq; exact H|].
  destruct it; rewrite !andb_true_iff, N.eqb_eq, ?N.ltb_lt in H; intuition.
Qed.

Lemma bitem_eqb_eq : forall a b, bitem_eqb a b = true -> a = b.
Proof.
  intros a b H. destruct a, b; cbn [bitem_eqb] in H; try discriminate;
    rewrite ?andb_true_iff, ?beq_eq, ?N.eqb_eq, ?Bool.eqb_true_iff in H; intuition congruence.
Qed.
Lemma bitems_eqb_eq : forall a b, bitems_eqb a b = true -> a = b.
Proof.
  induction a as [|x a IH]; intros [|y b] H; cbn [bitems_eqb] in H; try discriminate; [reflexivity|].
  apply andb_true_iff in H. destruct H as [H1 H2]. apply bitem_eqb_eq in H1. apply IH in H2. congruence.
Qed.

Lemma ready_at_sound : forall s pos, ready_at s pos = true -> good s /\ aligned s pos.
Proof.
  intros s pos H. unfold ready_at in H. rewrite !andb_true_iff, negb_true_iff, !N.eqb_eq in H.
  destruct H as ((((R & A) & Sh) & St) & Nr). repeat split; try assumption. left. exact St.
Qed.
