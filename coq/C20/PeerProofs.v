(* C20: run_with_peer IS the session model of coq/Sess driven by the history it records: the trace it returns
   equals Sess.Wire.run_history of the operations it returns; and the counterparty's answer to a ResendRequest
   (Peer.replay_items) has the shape the stream theorems ask for: it tiles the range and carries PossDupFlag
   throughout. *)
From Coq Require Import NArith ZArith List Bool Lia.
From F8 Require Import Sess.Bytes Sess.Msg Sess.Persist Sess.Session Sess.SimpleCodec Sess.Wire C20.Scenario C20.Peer
  C20.Classify C20.SessFacts C20.BurstProofs.
Import ListNotations.
Local Open Scope N_scope.

Section Tie.
Variable sc : schema.

Notation dec0 := (simple_decode sc []).

Lemma step_op_wire : forall w o, step_op sc dec0 [] w o = run_op sc w o.
Proof.
  intros w o. unfold step_op. destruct o; try reflexivity.
  destruct (w_sess w) as [s|] eqn:E; [|reflexivity].
  cbn [run_op]. rewrite E. reflexivity.
Qed.

(* the trace so far is Sess.Wire's trace of the history so far, and continues from the world the run holds *)
Definition ops_of (r : rst) : list op := rev (map snd (r_ops r)).
Definition tied (r : rst) : Prop :=
  forall l, run_ops sc world0 (ops_of r ++ l) = (rev (r_tr r) ++ run_ops sc (r_w r) l)%list.

Lemma tied_exec : forall r txt o r1 evs, tied r -> exec sc dec0 [] r txt o = (r1, evs) -> tied r1.
Proof.
  intros r txt o r1 evs T E. unfold exec in E. rewrite step_op_wire in E.
  destruct (run_op sc (r_w r) o) as [w1 ev1] eqn:R. destruct (snapshot w1) as [w2 sn] eqn:S.
  inversion E; subst. intro l. unfold ops_of. cbn [r_w r_ops r_tr map snd rev]. fold (ops_of r).
  rewrite <- !app_assoc. cbn [app]. rewrite (T (o :: l)). cbn [run_ops]. rewrite R, S. reflexivity.
Qed.

Lemma tied_react : forall fuel r evs, tied r -> tied (react sc dec0 [] fuel r evs).
Proof.
  induction fuel as [|f IH]; intros r evs T; cbn [react]; [exact T|].
  destruct (first_resend evs) as [[b e]|]; [|exact T].
  destruct (replay (r_pe r) b e) as [items d]. destruct items as [|i items]; [exact T|].
  match goal with |- tied (let '(r1, evs1) := ?X in _) => destruct X as [r1 evs1] eqn:E end.
  apply IH. eapply tied_exec; [|exact E]. exact T.
Qed.

Lemma tied_peer_send : forall r lost t body, tied r -> tied (peer_send sc dec0 [] r lost t body).
Proof.
  intros r lost t body T. unfold peer_send. destruct lost; [exact T|].
  match goal with |- tied (let '(r2, evs) := ?X in _) => destruct X as [r2 evs] eqn:E end.
  apply tied_react. eapply tied_exec; [|exact E]. exact T.
Qed.

Lemma tied_do_act : forall r a, tied r -> tied (do_act sc dec0 [] r a).
Proof.
  intros r a T. destruct a; cbn [do_act]; try exact T; try (apply tied_peer_send; exact T);
    try (apply tied_peer_send; destruct y; exact T).
  match goal with |- tied (let '(r1, evs) := ?X in _) => destruct X as [r1 evs] eqn:E end.
  apply tied_react. eapply tied_exec; [|exact E]. exact T.
Qed.

Lemma tied_fold : forall acts r, tied r -> tied (fold_left (do_act sc dec0 []) acts r).
Proof. induction acts as [|a acts IH]; intros r T; cbn [fold_left]; [exact T|]. apply IH. apply tied_do_act. exact T. Qed.

Theorem run_with_peer_is_run_history : forall acts,
  let '(ops, tr) := run_with_peer sc dec0 [] acts in tr = run_history sc ops.
Proof.
  intros acts. unfold run_with_peer, run_acts, run_history.
  assert (T : tied (fold_left (do_act sc dec0 []) acts rst0)) by (apply tied_fold; intro l; reflexivity).
  specialize (T []). rewrite !app_nil_r in T. symmetry. exact T.
Qed.

End Tie.


(* how the session classifies an item of the burst *)
Definition shape (i : item) : bitem :=
  match i with
  | IResend pm => if is_reject_type (pm_type pm) then BRej (pm_seq pm) else BApp (pm_type pm) (pm_seq pm) true
  | IGapFill g n => BGap g n
  end.

Fixpoint consec (l : list pmsg) (n past : N) : Prop :=
  match l with
  | [] => n = past
  | pm :: l' => pm_seq pm = n /\ consec l' (n + 1) past
  end.

Lemma tiles_resend : forall pm r past, tiles (pm_seq pm + 1) r past -> tiles (pm_seq pm) (shape (IResend pm) :: r) past.
Proof. intros pm r past T. unfold shape. destruct (is_reject_type (pm_type pm)); split; (reflexivity || exact T). Qed.
Lemma dup_resend : forall pm, item_dup (shape (IResend pm)) = true.
Proof. intro pm. unfold shape. destruct (is_reject_type (pm_type pm)); reflexivity. Qed.

Lemma replay_items_tiles : forall l gs past d n,
  consec l n past -> (match gs with Some g => g < n | None => True end) ->
  tiles (match gs with Some g => g | None => n end) (map shape (fst (replay_items l gs past d))) past /\
  forallb item_dup (map shape (fst (replay_items l gs past d))) = true.
Proof.
  induction l as [|pm l IH]; intros gs past d n C G; cbn [replay_items consec] in *.
  - subst n. destruct gs as [g|]; cbn [fst map shape tiles forallb item_dup]; repeat split; assumption.
  - destruct C as [Q C]. subst n. assert (L : pm_seq pm < pm_seq pm + 1) by lia.
    destruct (if is_reject_type (pm_type pm) then pop d else (negb (is_session_type (pm_type pm)), d)) as [resend d1].
    destruct resend.
    + (* replayed, after closing the open gap-fill run *)
      specialize (IH None past d1 _ C I). destruct (replay_items l None past d1) as [r d2]. cbn [fst] in *.
      destruct IH as [T D]. apply (tiles_resend pm) in T.
      destruct gs as [g|]; cbn [app map forallb]; rewrite dup_resend, D; [|split; [exact T|reflexivity]].
      split; [|reflexivity]. split; [reflexivity|]. split; [exact G|exact T].
    + (* gap-filled: the run opens, goes on, or is split here *)
      destruct gs as [g|]; [|exact (IH (Some (pm_seq pm)) past d1 _ C L)].
      destruct (pop d1) as [split d2]. destruct split; [|apply (IH (Some g) past d2 _ C); lia].
      specialize (IH (Some (pm_seq pm)) past d2 _ C L).
      destruct (replay_items l (Some (pm_seq pm)) past d2) as [r d3]. cbn [fst map shape tiles forallb item_dup] in *.
      destruct IH as [T D]. split; [|exact D]. split; [reflexivity|]. split; [exact G|exact T].
Qed.
