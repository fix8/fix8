(* C20: what Sess.Session.process does with a message classified by its decoded form; what enforce answers
   is taken from C19.DeliverProofs.enforce_outcome. *)
From Coq Require Import NArith ZArith List Bool Lia.
From F8 Require Import Sess.Bytes Sess.Msg Sess.Persist Sess.Session Sess.SessLemmas Sess.ProcessLemmas
  C19.Run19 C19.DeliverProofs C20.Peer C20.Classify.
Import ListNotations.
Local Open Scope N_scope.

(* the part of the session state the inbound sequence logic reads, which sends never touch *)
Definition cfg (s s' : sess) : Prop :=
  s_active s' = s_active s /\ s_reader s' = s_reader s /\ s_shutdown s' = s_shutdown s /\ s_closed s' = s_closed s /\
  s_snd s' = s_snd s /\ s_tgt s' = s_tgt s /\ s_par s' = s_par s /\ s_role s' = s_role s.
Definition frame (s s' : sess) : Prop :=
  s_state s' = s_state s /\ s_next_recv s' = s_next_recv s /\ cfg s s'.

Lemma cfg_refl : forall s, cfg s s.
Proof. intro; repeat split. Qed.
Lemma cfg_trans : forall a b c, cfg a b -> cfg b c -> cfg a c.
Proof. unfold cfg; intros a b c H1 H2; intuition congruence. Qed.
Lemma frame_refl : forall s, frame s s.
Proof. intro; repeat split. Qed.
Lemma frame_cfg : forall a b, frame a b -> cfg a b.
Proof. unfold frame; tauto. Qed.

Definition recv_only (s s' : sess) : Prop := cfg s s' /\ s_next_send s' = s_next_send s /\ s_batch s' = s_batch s.
Lemma recv_only_trans : forall a b c, recv_only a b -> recv_only b c -> recv_only a c.
Proof. unfold recv_only, cfg; intros a b c H1 H2; intuition congruence. Qed.

Definition dels (evs : list event) : list (bytes * N * bool) :=
  flat_map (fun e => match e with EDeliver t q pd => [(t, q, pd)] | _ => [] end) evs.
Lemma dels_app : forall a b, dels (a ++ b) = (dels a ++ dels b)%list.
Proof. intros. unfold dels. apply flat_map_app. Qed.
Definition retl (evs : list event) : list Z :=
  flat_map (fun e => match e with ERet z => [z] | _ => [] end) evs.
Lemma retl_app : forall a b, retl (a ++ b) = (retl a ++ retl b)%list.
Proof. intros. unfold retl. apply flat_map_app. Qed.
Definition outs_only (evs : list event) : Prop := dels evs = [] /\ retl evs = [].
Lemma outs_only_nil : outs_only [].
Proof. split; reflexivity. Qed.
Lemma outs_only_app : forall a b, outs_only a -> outs_only b -> outs_only (a ++ b).
Proof. unfold outs_only. intros a b [A1 A2] [B1 B2]. rewrite dels_app, retl_app, A1, A2, B1, B2. split; reflexivity. Qed.

Section Facts.
Variable sc : schema.

Lemma out_events_outs : forall b, outs_only (out_events b).
Proof.
  intros b. unfold out_events. destruct (frames b) as [ms rest].
  apply outs_only_app.
  - induction ms; [apply outs_only_nil|]. destruct IHms as [A B]. split; cbn; assumption.
  - destruct rest; split; reflexivity.
Qed.

Lemma send_frame : forall now s m c n ok s' e, send sc now s m c n = (ok, s', e) -> frame s s' /\ outs_only e.
Proof.
  intros until e. unfold send. intro H.
  destruct (send_process_writes _ _ _ _ _ _ _ H) as [[E ->]|(buf & _ & E & ->)]; rewrite E;
    (split; [repeat split|]); [apply outs_only_nil|apply out_events_outs].
Qed.

End Facts.

Section Inbound.
Variable sc : schema.
Variable decode : bytes -> decode_result.
Variable fl : bytes.
Variable now : Z.

Notation "x <- a ;; b" := (bind a (fun x => b)) (at level 61, a at next level, right associativity).
Notation "a ;;; b" := (bind a (fun _ => b)) (at level 61, right associativity).

Lemma sequence_check_high_other : forall s m q,
  s_next_recv s < q -> s_state s <> st_continuous ->
  exists txt, sequence_check sc now q m s = (inr (Exc txt true), s, []).
Proof.
  intros s m q L St. unfold sequence_check. rewrite bind_get.
  rewrite (proj2 (N.ltb_lt _ _) L).
  apply N.eqb_neq in St. rewrite St. eexists. reflexivity.
Qed.

(* the states in which the session is past the logon phase and runs the sequence rules *)
Definition running (s : sess) : Prop := s_state s = st_continuous \/ s_state s = st_resend_request_sent.

Lemma running_est : forall s, running s -> is_established (s_state s) = true /\ (s_state s =? st_logon_received) = false.
Proof. intros s [H|H]; rewrite H; split; reflexivity. Qed.

(* C19's verdict on the gate (DeliverProofs.verdict_of, enforce_outcome) is stated in Run19's reading of a message.
   Classify's is the same: raw_seq, cid_ok and possdup are Run19's raw_seq, compid_pass and possdup_of by
   conversion, and time_ok is the negation of orig_after. *)
Lemma time_ok_orig : forall m, time_ok m = negb (orig_after m).
Proof.
  intro m. unfold time_ok, orig_after.
  destruct (get_field T_OrigSendingTime (m_hdr m)); [destruct (get_field T_SendingTime (m_hdr m))|]; reflexivity.
Qed.

Definition passes (s : sess) (q : N) (m : msg) : Prop :=
  q = s_next_recv s \/ (q < s_next_recv s /\ possdup m = true /\ time_ok m = true).

Lemma passes_inseq : forall s q m, passes s q m -> inseq s q m.
Proof.
  intros s q m [E|(L & P & T)]; [left; exact E|right]. split; [exact L|]. split; [exact P|].
  rewrite time_ok_orig in T. apply negb_true_iff. exact T.
Qed.

Lemma enforce_seqreset : forall s m q,
  running s -> cid_ok s m = true -> beq (m_type m) mt_sequence_reset = true ->
  enforce sc now q m s = (inl true, s, []).
Proof.
  intros s m q R C T. destruct (running_est s R) as [E1 E2]. pose proof (enforce_outcome sc now q m s) as O.
  replace (verdict_of s q m) with Refuse in O; [exact O|].
  unfold verdict_of, seq_verdict. change (compid_pass s m) with (cid_ok s m). rewrite E1, E2, C, T. reflexivity.
Qed.

Lemma enforce_pass : forall s m q,
  running s -> cid_ok s m = true -> beq (m_type m) mt_sequence_reset = false -> passes s q m ->
  enforce sc now q m s = (inl false, s, []).
Proof.
  intros s m q R C T P. pose proof (enforce_outcome sc now q m s) as O.
  replace (verdict_of s q m) with Pass in O; [exact O|]. symmetry. apply verdict_pass.
  split; [apply running_est; exact R|]. split; [right; exact C|]. split; [exact T|apply passes_inseq; exact P].
Qed.

End Inbound.

(* A message that is handled without anything being sent leaves the session as it was but for the state, the
   expected number and the control record that follows them. *)
Definition settle (st nr : N) (s : sess) : sess := update_persist_seqnums (w_next_recv nr (w_state st s)).

Lemma settle_spec : forall st nr s,
  s_state (settle st nr s) = st /\ s_next_recv (settle st nr s) = nr /\ recv_only s (settle st nr s).
Proof. intros. unfold settle, update_persist_seqnums. destruct (p_attached _); repeat split. Qed.

Lemma settle_same : forall s nr, settle (s_state s) nr s = update_persist_seqnums (w_next_recv nr s).
Proof. intros [] nr. reflexivity. Qed.

Section Proc.
Variable sc : schema.
Variable decode : bytes -> decode_result.
Variable fl : bytes.
Variable now : Z.

Notation "x <- a ;; b" := (bind a (fun x => b)) (at level 61, a at next level, right associativity).
Notation "a ;;; b" := (bind a (fun _ => b)) (at level 61, right associativity).

Definition arrives (raw : bytes) (q : N) (m : msg) : Prop := raw_seq raw = Some q /\ decode raw = DecOk m.

Definition live (s : sess) : Prop := s_active s = true /\ s_shutdown s = false /\ running s.

Definition post (s s' : sess) (st nr : N) : Prop := s_state s' = st /\ s_next_recv s' = nr /\ cfg s s'.

Lemma settle_post : forall s s1 st nr, cfg s s1 -> post s (settle st nr s1) st nr.
Proof.
  intros s s1 st nr C. destruct (settle_spec st nr s1) as (S1 & S2 & S3 & _).
  split; [exact S1|]. split; [exact S2|]. eapply cfg_trans; eassumption.
Qed.

Lemma process_dispatch_ok : forall {raw q m s r s1 e1},
  arrives raw q m -> dispatch sc decode now q m s = (inl (r, false), s1, e1) ->
  process sc decode fl now raw s = (r, settle (s_state s1) (s_next_recv s1 + 1) s1, e1).
Proof.
  intros raw q m s r s1 e1 [A1 A2] D. unfold raw_seq in A1.
  destruct (find_after pat_34 raw) as [rest|] eqn:F; [|discriminate].
  rewrite (process_returns sc decode fl now raw rest q m F A1 A2 _ _ _ _ D), settle_same. reflexivity.
Qed.

Lemma process_dispatch_fatal : forall {raw q m s txt s1 e1},
  arrives raw q m -> dispatch sc decode now q m s = (inr (Exc txt true), s1, e1) ->
  (s_state s1 =? st_logon_received) = false ->
  process sc decode fl now raw s = (false, stop s1, e1).
Proof.
  intros raw q m s txt s1 e1 [A1 A2] D St. unfold raw_seq in A1. unfold process.
  destruct (find_after pat_34 raw) as [rest|]; [|discriminate]. rewrite A1, A2.
  unfold process_body, process_catch.
  rewrite (bind_inr _ D). rewrite St. cbn [andb]. rewrite app_nil_r. reflexivity.
Qed.

Lemma app_type_session : forall t, app_type t = negb (is_session_type t).
Proof. intros [|c [|c2 l]]; reflexivity. Qed.

Lemma dispatch_app : forall q m s,
  is_session_type (m_type m) = false -> s_active s = true ->
  dispatch sc decode now q m s = (r <- handle_application sc now q m ;; ret (r, false)) s.
Proof.
  intros q m s T A.
  rewrite (DeliverProofs.dispatch_app sc decode now q m) by (rewrite app_type_session, T; reflexivity).
  apply bind_cong. unfold app_call. rewrite bind_get, A. reflexivity.
Qed.

Lemma dispatch_heartbeat : forall q m s,
  m_type m = mt_heartbeat -> dispatch sc decode now q m s = (r <- handle_heartbeat sc now q m ;; ret (r, false)) s.
Proof. intros q m s T. unfold dispatch. rewrite T. reflexivity. Qed.

Lemma app_not_reset : forall t, is_session_type t = false -> beq t mt_sequence_reset = false.
Proof. intros t T. apply beq_neq. intros ->. discriminate T. Qed.

Lemma handle_application_inl : forall q m s b s1 e1,
  enforce sc now q m s = (inl b, s1, e1) ->
  handle_application sc now q m s =
  if b then (inl true, s1, e1)
  else (inl (mem_bytes (m_type m) (sc_routed sc)), s1, (e1 ++ [EDeliver (m_type m) q (possdup m)])%list).
Proof.
  intros q m s b s1 e1 EN. unfold handle_application. rewrite (bind_inl _ EN).
  destruct b; [cbn [ret]; rewrite app_nil_r|]; reflexivity.
Qed.
Lemma handle_application_exc : forall q m s x s1 e1,
  enforce sc now q m s = (inr x, s1, e1) -> handle_application sc now q m s = (inr x, s1, e1).
Proof. intros q m s x s1 e1 EN. unfold handle_application. apply (bind_inr _ EN). Qed.

(* Session::handle_heartbeat does not look at what enforce returns *)
Lemma handle_heartbeat_inl : forall q m s b s1 e1,
  enforce sc now q m s = (inl b, s1, e1) -> (s_state s1 =? st_test_request_sent) = false ->
  handle_heartbeat sc now q m s = (inl true, s1, e1).
Proof.
  intros q m s b s1 e1 EN NT. unfold handle_heartbeat. rewrite (bind_inl _ EN).
  rewrite bind_get, NT, bind_ret. cbn [ret]. rewrite app_nil_r. reflexivity.
Qed.

Lemma process_app_ok : forall raw q m s,
  arrives raw q m -> live s -> is_session_type (m_type m) = false -> cid_ok s m = true -> passes s q m ->
  process sc decode fl now raw s =
  (mem_bytes (m_type m) (sc_routed sc), settle (s_state s) (s_next_recv s + 1) s, [EDeliver (m_type m) q (possdup m)]).
Proof.
  intros raw q m s A (Act & Sh & R) T C Q. apply (process_dispatch_ok A).
  rewrite dispatch_app by assumption.
  rewrite (bind_inl _
             (handle_application_inl _ _ _ _ _ _ (enforce_pass sc now s m q R C (app_not_reset _ T) Q))).
  reflexivity.
Qed.

Lemma process_heartbeat_ok : forall raw q m s,
  arrives raw q m -> live s -> m_type m = mt_heartbeat -> cid_ok s m = true -> passes s q m ->
  process sc decode fl now raw s = (true, settle (s_state s) (s_next_recv s + 1) s, []).
Proof.
  intros raw q m s A (Act & Sh & R) T C Q. apply (process_dispatch_ok A).
  assert (NSR : beq (m_type m) mt_sequence_reset = false) by (rewrite T; reflexivity).
  assert (NT : (s_state s =? st_test_request_sent) = false) by (destruct R as [R|R]; rewrite R; reflexivity).
  rewrite dispatch_heartbeat by assumption.
  rewrite (bind_inl _ (handle_heartbeat_inl _ _ _ _ _ _ (enforce_pass sc now s m q R C NSR Q) NT)).
  reflexivity.
Qed.

(* Reject: the default handle_reject; no rule is applied at all, in any state *)
Lemma process_reject : forall raw q m s,
  arrives raw q m -> m_type m = mt_reject ->
  process sc decode fl now raw s = (false, settle (s_state s) (s_next_recv s + 1) s, []).
Proof.
  intros raw q m s A T. apply (process_dispatch_ok A). unfold dispatch. rewrite T. reflexivity.
Qed.

Lemma process_gapfill : forall raw q m s v,
  arrives raw q m -> live s -> m_type m = mt_sequence_reset -> cid_ok s m = true ->
  get_field T_NewSeqNo (m_body m) = Some v -> s_next_recv s <= atoi_u v 0 -> 0 < atoi_u v 0 ->
  process sc decode fl now raw s = (true, settle st_continuous (atoi_u v 0) s, []).
Proof.
  intros raw q m s v A (Act & Sh & R) T C NS LE POS.
  assert (SR : beq (m_type m) mt_sequence_reset = true) by (rewrite T; reflexivity).
  set (n := atoi_u v 0) in *. set (s1 := w_next_recv (n - 1) s).
  set (s2 := if s_state s =? st_resend_request_sent then w_state st_continuous s1 else s1).
  assert (H : handle_sequence_reset sc now q m s = (inl true, s2, [])).
  { unfold handle_sequence_reset. rewrite (bind_inl _ (enforce_seqreset sc now s m q R C SR)).
    rewrite bind_get, NS. fold n. rewrite (proj2 (N.leb_le _ _) LE). rewrite bind_modify, bind_get. fold s1.
    change (s_state s1) with (s_state s). unfold set_state, s2.
    destruct (s_state s =? st_resend_request_sent); rewrite ?bind_modify, ?bind_ret; reflexivity. }
  assert (D : dispatch sc decode now q m s = (inl (true, false), s2, [])).
  { unfold dispatch. rewrite T. cbn [mt_sequence_reset N.eqb Pos.eqb]. rewrite (bind_inl _ H). reflexivity. }
  rewrite (process_dispatch_ok A D). unfold s2.
  (* either way the result is s with the new number in state continuous *)
  destruct R as [R|R]; rewrite R; cbn [N.eqb Pos.eqb st_continuous st_resend_request_sent s_state s_next_recv s1 w_state w_next_recv];
    [rewrite R|]; replace (n - 1 + 1) with n by lia; reflexivity.
Qed.

(* a gap: the ResendRequest goes out and the expected number is incremented all the same *)
Lemma process_high : forall raw q m s,
  arrives raw q m -> live s -> s_state s = st_continuous ->
  is_session_type (m_type m) = false \/ m_type m = mt_heartbeat -> cid_ok s m = true -> s_next_recv s < q ->
  exists s' e, process sc decode fl now raw s = (true, s', e) /\ outs_only e /\
               post s s' st_resend_request_sent (s_next_recv s + 1).
Proof.
  intros raw q m s A (Act & Sh & R) St K C Q.
  destruct (send sc now s (generate_resend_request sc (s_next_recv s) 0) 0 false) as [[ok s1] e1] eqn:Sd.
  destruct (send_frame _ _ _ _ _ _ _ _ _ Sd) as [(F1 & F2 & F3) O].
  assert (NSR : beq (m_type m) mt_sequence_reset = false).
  { destruct K as [K|K]; [apply app_not_reset; exact K|rewrite K; reflexivity]. }
  assert (EN : enforce sc now q m s = (inl true, w_state st_resend_request_sent s1, e1)).
  { pose proof (enforce_outcome sc now q m s) as EO.
    rewrite (verdict_high s q m (proj1 (running_est s R)) C NSR Q), St in EO.
    cbn [N.eqb Pos.eqb st_continuous outcome] in EO. unfold resend_msg in EO. rewrite Sd in EO. exact EO. }
  assert (D : dispatch sc decode now q m s = (inl (true, false), w_state st_resend_request_sent s1, e1)).
  { destruct K as [K|K].
    - rewrite dispatch_app by assumption. rewrite (bind_inl _ (handle_application_inl _ _ _ _ _ _ EN)).
      cbn [ret]. rewrite app_nil_r. reflexivity.
    - rewrite dispatch_heartbeat by assumption.
      rewrite (bind_inl _ (handle_heartbeat_inl _ _ _ _ _ _ EN eq_refl)).
      cbn [ret]. rewrite app_nil_r. reflexivity. }
  do 2 eexists. split; [apply (process_dispatch_ok A D)|]. split; [exact O|].
  rewrite <- F2. apply (settle_post s (w_state st_resend_request_sent s1)).
  eapply cfg_trans; [exact F3|repeat split].
Qed.

Lemma process_app_toolow : forall raw q m s,
  arrives raw q m -> live s -> is_session_type (m_type m) = false -> cid_ok s m = true ->
  q < s_next_recv s -> possdup m = false ->
  exists s', process sc decode fl now raw s = (false, s', []) /\ s_shutdown s' = true /\ s_next_recv s' = s_next_recv s.
Proof.
  intros raw q m s A (Act & Sh & R) T C Q P.
  pose proof (enforce_outcome sc now q m s) as EN.
  rewrite (verdict_violation s q m (proj1 (running_est s R)) (app_not_reset _ T)
             (or_intror (conj (or_intror C) (conj Q (or_introl P))))) in EN.
  destruct EN as [txt EN].
  assert (D : dispatch sc decode now q m s = (inr (Exc txt true), s, [])).
  { rewrite dispatch_app by assumption.
    rewrite (bind_inr _ (handle_application_exc _ _ _ _ _ _ EN)). reflexivity. }
  eexists. split; [apply (process_dispatch_fatal A D (proj2 (running_est s R)))|].
  unfold stop. rewrite Sh. split; reflexivity.
Qed.

End Proc.
