(* C20: concrete instances of the hypotheses of the stream theorems: the bursts of two witness scenarios of
   C20/Example.v, and executable checks -- with their soundness -- that a session state and raw bytes meet those
   hypotheses (evaluated in the Props file on the run of the counterparty specification against the session model). *)
From Coq Require Import NArith ZArith List Bool Lia.
From F8 Require Import Sess.Bytes Sess.Msg Sess.Persist Sess.Session Sess.SessLemmas
  C20.Peer C20.Classify C20.SessFacts C20.BurstProofs C20.CheckProofs.
Import ListNotations.
Local Open Scope N_scope.

(* the burst of w_with_gapfill: replay 3, GapFill 4->5, replay 5 *)
Definition burst_w : list bitem := [BApp [68] 3 true; BGap 4 5; BApp [68] 5 true].
(* the burst of w_rr_reveals: replay 3, GapFill 4->5 *)
Definition burst_rr : list bitem := [BApp [68] 3 true; BGap 4 5].

Section Checks.
Variable decode : bytes -> decode_result.

Definition burst_check (s : sess) (raws : list bytes) (pos : N) (burst : list bitem) (past : N) : bool :=
  match items_of decode s raws with Some l => bitems_eqb l burst | None => false end &&
  tilesb pos burst past && forallb item_dup burst && has_gap burst.

Lemma burst_check_sound : forall s raws pos burst past, burst_check s raws pos burst past = true ->
  Forall2 (is_item decode s) raws burst /\ tiles pos burst past /\ forallb item_dup burst = true /\ has_gap burst = true.
Proof.
  intros s raws pos burst past H. unfold burst_check in H. rewrite !andb_true_iff in H. destruct H as (((I & T) & D) & G).
  destruct (items_of decode s raws) as [l|] eqn:E; [|discriminate]. apply bitems_eqb_eq in I. subst l.
  split; [apply items_of_sound; exact E|]. split; [apply tilesb_sound; exact T|]. split; assumption.
Qed.

(* the hypotheses of BurstProofs.gap_and_burst with a GapFill in the burst *)
Definition gap_check (so : option sess) (c3 c4 : list bytes) (pos : N) (g : bitem) (burst : list bitem) (q : N) : bool :=
  match so, c3 with
  | Some s, [rawg] =>
    ready_at s pos && match item_of decode s rawg with Some g' => bitem_eqb g' g | None => false end &&
    burst_check s c4 pos burst (q + 1)
  | _, _ => false
  end.

Lemma gap_check_sound : forall so c3 c4 pos g burst q, gap_check so c3 c4 pos g burst q = true ->
  exists s rawg,
    so = Some s /\ c3 = [rawg] /\ good s /\ aligned s pos /\ is_item decode s rawg g /\
    Forall2 (is_item decode s) c4 burst /\ tiles pos burst (q + 1) /\ forallb item_dup burst = true /\ has_gap burst = true.
Proof.
  intros so c3 c4 pos g burst q H. unfold gap_check in H.
  destruct so as [s|]; [|discriminate]. destruct c3 as [|rawg [|x y]]; try discriminate.
  rewrite !andb_true_iff in H. destruct H as ((R & I) & B).
  destruct (item_of decode s rawg) as [g'|] eqn:E; [|discriminate]. apply bitem_eqb_eq in I. subst g'.
  destruct (ready_at_sound _ _ R) as [G A].
  exists s, rawg. split; [reflexivity|]. split; [reflexivity|]. split; [exact G|]. split; [exact A|].
  split; [apply item_of_sound; exact E|apply burst_check_sound; exact B].
Qed.

(* the hypotheses of BurstProofs.run_ahead for a session in state continuous (NOT resend_request_sent), one ahead of pos *)
Definition ahead_check (so : option sess) (c : list bytes) (pos : N) (burst : list bitem) (past : N) : bool :=
  match so with
  | Some s => ready_at s (pos + 1) && burst_check s c pos burst past
  | None => false
  end.

Lemma ahead_check_sound : forall so c pos burst past, ahead_check so c pos burst past = true ->
  exists s, so = Some s /\ good s /\ ahead s pos /\ s_state s = st_continuous /\
            Forall2 (is_item decode s) c burst /\ tiles pos burst past /\
            forallb item_dup burst = true /\ has_gap burst = true.
Proof.
  intros so c pos burst past H. unfold ahead_check in H. destruct so as [s|]; [|discriminate].
  apply andb_true_iff in H. destruct H as [R B]. destruct (ready_at_sound _ _ R) as [G [St Nr]].
  exists s. split; [reflexivity|]. split; [exact G|]. split; [split; [left; exact St|exact Nr]|]. split; [exact St|].
  apply burst_check_sound; exact B.
Qed.

End Checks.
