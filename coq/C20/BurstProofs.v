(* C20: the inbound stream of a conformant counterparty through FIXReader's loop (Sess.Session.reader_loop).
   Induction over the stream with the invariant that relates the session's expected number to the position in
   the stream:
       aligned s pos :  state continuous,            next_recv = pos
       ahead   s pos :  state resend_request_sent OR continuous,   next_recv = pos + 1     (after a gap was detected;
                        the state is resend_request_sent unless the message that revealed the gap was the counterparty's
                        own ResendRequest, which the session also SERVES: resend_request_received -> continuous)
   A SequenceReset-GapFill turns `ahead` into `aligned`; nothing else does. *)
From Coq Require Import NArith ZArith List Bool Lia.
From F8 Require Import Sess.Bytes Sess.Msg Sess.Persist Sess.Session Sess.SessLemmas C20.Peer C20.Classify C20.SessFacts.
Import ListNotations.
Local Open Scope N_scope.

(* the items cover the numbers pos .. past-1 consecutively *)
Fixpoint tiles (pos : N) (l : list bitem) (past : N) : Prop :=
  match l with
  | [] => pos = past
  | BApp _ q _ :: r => q = pos /\ tiles (pos + 1) r past
  | BHb q _ :: r => q = pos /\ tiles (pos + 1) r past
  | BRej q :: r => q = pos /\ tiles (pos + 1) r past
  | BGap q n :: r => q = pos /\ pos < n /\ tiles n r past
  end.

Lemma tiles_le : forall l pos past, tiles pos l past -> pos <= past.
Proof.
  induction l as [|it l IH]; intros pos past H; cbn [tiles] in H; [lia|].
  destruct it; try (destruct H as [_ H]; apply IH in H; lia).
  destruct H as (_ & L & H). apply IH in H. lia.
Qed.

Section Burst.
Variable sc : schema.
Variable decode : bytes -> decode_result.
Variable fl : bytes.
Variable now : Z.

(* raw is this item for a session with the configuration of s *)
Definition is_item (s : sess) (raw : bytes) (it : bitem) : Prop :=
  match it with
  | BApp t q pd =>
    exists m, arrives decode raw q m /\ m_type m = t /\ is_session_type t = false /\ cid_ok s m = true /\
              possdup m = pd /\ (pd = true -> time_ok m = true)
  | BHb q pd =>
    exists m, arrives decode raw q m /\ m_type m = mt_heartbeat /\ cid_ok s m = true /\
              possdup m = pd /\ (pd = true -> time_ok m = true)
  | BRej q => exists m, arrives decode raw q m /\ m_type m = mt_reject
  | BGap q n =>
    exists m v, arrives decode raw q m /\ m_type m = mt_sequence_reset /\ cid_ok s m = true /\
                get_field T_NewSeqNo (m_body m) = Some v /\ atoi_u v 0 = n
  end.

Lemma cid_ok_cfg : forall s s' m, cfg s s' -> cid_ok s' m = cid_ok s m.
Proof. intros s s' m (_ & _ & _ & _ & A & B & C & _). unfold cid_ok. rewrite A, B, C. reflexivity. Qed.

Lemma is_item_cfg : forall s s' raw it, cfg s s' -> is_item s raw it -> is_item s' raw it.
Proof.
  intros s s' raw it C H. destruct it; cbn [is_item] in *.
  - destruct H as (m & H). exists m. rewrite (cid_ok_cfg _ _ _ C). exact H.
  - destruct H as (m & H). exists m. rewrite (cid_ok_cfg _ _ _ C). exact H.
  - exact H.
  - destruct H as (m & v & H). exists m, v. rewrite (cid_ok_cfg _ _ _ C). exact H.
Qed.

Lemma items_cfg : forall s s' raws items, cfg s s' -> Forall2 (is_item s) raws items -> Forall2 (is_item s') raws items.
Proof. intros s s' raws items C H. induction H; constructor; [eapply is_item_cfg; eassumption|assumption]. Qed.

Definition good (s : sess) : Prop := s_reader s = true /\ live s.
Definition aligned (s : sess) (pos : N) : Prop := s_state s = st_continuous /\ s_next_recv s = pos.
Definition ahead (s : sess) (pos : N) : Prop := running s /\ s_next_recv s = pos + 1.

Lemma good_not_shutdown : forall s, good s -> negb (s_reader s) || is_shutdown s = false.
Proof.
  intros s (R & _ & Sh & Ru). rewrite R. unfold is_shutdown. rewrite Sh.
  destruct Ru as [E|E]; rewrite E; reflexivity.
Qed.

Lemma good_last_recv : forall s, good s -> live (w_last_recv now s).
Proof. intros s (_ & A & B & C). repeat split; try assumption. Qed.

Lemma reader_step : forall raw l s evs r s1 e1,
  good s -> process sc decode fl now raw (w_last_recv now s) = (r, s1, e1) -> cfg s s1 -> running s1 ->
  reader_loop sc decode fl now (raw :: l) s evs =
    reader_loop sc decode fl now l s1 (evs ++ e1 ++ [ERet (if r then 1 else 0)%Z])%list /\
  good s1.
Proof.
  intros raw l s evs r s1 e1 G P (C1 & C2 & C3 & _) Ru.
  cbn [reader_loop]. rewrite (good_not_shutdown s G). rewrite P.
  destruct G as (R & A & Sh & _).
  assert (G1 : good s1) by (repeat split; congruence).
  pose proof (good_not_shutdown s1 G1) as NS. apply orb_false_elim in NS. rewrite (proj2 NS).
  split; [reflexivity|exact G1].
Qed.

Definition accepts (nr : N) (it : bitem) : Prop :=
  match it with
  | BApp _ q pd | BHb q pd => q = nr \/ (q < nr /\ pd = true)
  | BRej _ => True
  | BGap _ n => nr <= n /\ 0 < n
  end.
Definition state_after (st : N) (it : bitem) : N := match it with BGap _ _ => st_continuous | _ => st end.
Definition tile_next (it : bitem) (pos : N) : N := match it with BGap _ n => n | _ => pos + 1 end.
Definition item_result (it : bitem) : bool * list event :=
  match it with
  | BApp t q pd => (mem_bytes t (sc_routed sc), [EDeliver t q pd])
  | BRej _ => (false, [])
  | _ => (true, [])
  end.

Lemma process_accepted : forall it raw s,
  live s -> is_item s raw it -> accepts (s_next_recv s) it ->
  process sc decode fl now raw s =
  (fst (item_result it), settle (state_after (s_state s) it) (tile_next it (s_next_recv s)) s, snd (item_result it)).
Proof.
  intros it raw s L I Acc.
  destruct it as [t q pd|q pd|q|q n]; cbn [is_item accepts item_result state_after tile_next fst snd] in *.
  - destruct I as (m & Ar & <- & NS & C & <- & TO). apply process_app_ok; try assumption.
    destruct Acc as [Q|[Q P]]; [left; exact Q|right; auto].
  - destruct I as (m & Ar & Ty & C & <- & TO). apply (process_heartbeat_ok _ _ _ _ _ q m); try assumption.
    destruct Acc as [Q|[Q P]]; [left; exact Q|right; auto].
  - destruct I as (m & Ar & Ty). exact (process_reject _ _ _ _ _ q m s Ar Ty).
  - destruct I as (m & v & Ar & Ty & C & NS & <-). destruct Acc. apply (process_gapfill _ _ _ _ _ q m); assumption.
Qed.

Definition item_events (it : bitem) : list event :=
  (snd (item_result it) ++ [ERet (if fst (item_result it) then 1 else 0)%Z])%list.

Lemma dels_item_events : forall l, dels (flat_map item_events l) = item_dels l.
Proof. induction l as [|[] l IH]; cbn; [reflexivity|first [exact IH|f_equal; exact IH]..]. Qed.
Lemma retl_item_events : forall l, retl (flat_map item_events l) = item_rets sc l.
Proof. induction l as [|[] l IH]; cbn; [reflexivity|first [exact IH|f_equal; exact IH]..]. Qed.

Lemma step_accepted : forall it raw l s evs,
  good s -> is_item s raw it -> accepts (s_next_recv s) it ->
  exists s1,
    reader_loop sc decode fl now (raw :: l) s evs = reader_loop sc decode fl now l s1 (evs ++ item_events it)%list /\
    good s1 /\ recv_only s s1 /\ s_state s1 = state_after (s_state s) it /\ s_next_recv s1 = tile_next it (s_next_recv s).
Proof.
  intros it raw l s evs G I Acc.
  pose proof (process_accepted it raw (w_last_recv now s) (good_last_recv s G) I Acc) as P.
  cbn [s_state s_next_recv w_last_recv] in P.
  destruct (settle_spec (state_after (s_state s) it) (tile_next it (s_next_recv s)) (w_last_recv now s)) as (S1 & S2 & S3).
  set (s1 := settle _ _ _) in *.
  assert (Q : recv_only s s1) by (eapply recv_only_trans; [|exact S3]; repeat split).
  assert (Ru : running s1).
  { unfold running. rewrite S1. destruct it; try (left; reflexivity); apply G. }
  destruct (reader_step raw l s evs _ s1 _ G P (proj1 Q) Ru) as [RL G1].
  exists s1. split; [exact RL|]. split; [exact G1|]. split; [exact Q|]. split; assumption.
Qed.

(* every item of l is accepted in turn by a session in state st expecting nr, which ends in st' expecting nr' *)
Fixpoint accepted (st nr : N) (l : list bitem) (st' nr' : N) : Prop :=
  match l with
  | [] => st' = st /\ nr' = nr
  | it :: r => accepts nr it /\ accepted (state_after st it) (tile_next it nr) r st' nr'
  end.

(* the induction over the reader loop: a stretch of accepted items, tiling or not *)
Theorem run_accepted : forall items raws l s evs st' nr',
  Forall2 (is_item s) raws items -> good s -> accepted (s_state s) (s_next_recv s) items st' nr' ->
  exists s',
    reader_loop sc decode fl now (raws ++ l) s evs =
      reader_loop sc decode fl now l s' (evs ++ flat_map item_events items)%list /\
    good s' /\ recv_only s s' /\ s_state s' = st' /\ s_next_recv s' = nr'.
Proof.
  induction items as [|it items IH]; intros raws l s evs st' nr' F G A.
  - inversion F; subst. destruct A as [-> ->]. exists s. cbn [flat_map app]. rewrite app_nil_r.
    repeat split; apply G.
  - inversion F as [|raw it' raws' items' I F']; subst. destruct A as [A1 A2].
    destruct (step_accepted it raw (raws' ++ l) s evs G I A1) as (s1 & RL & G1 & Q1 & St1 & Nr1).
    rewrite <- St1, <- Nr1 in A2.
    destruct (IH raws' l s1 (evs ++ item_events it)%list st' nr' (items_cfg _ _ _ _ (proj1 Q1) F') G1 A2)
      as (s' & RL' & G' & Q' & St' & Nr').
    exists s'. cbn [app flat_map]. rewrite RL, RL', app_assoc.
    split; [reflexivity|]. split; [exact G'|]. split; [eapply recv_only_trans; eassumption|]. split; assumption.
Qed.

Lemma item_dels_app : forall a b, item_dels (a ++ b) = (item_dels a ++ item_dels b)%list.
Proof. intros. unfold item_dels. apply flat_map_app. Qed.
Lemma item_dels_cons : forall it l, item_dels (it :: l) = (item_dels [it] ++ item_dels l)%list.
Proof. intros it l. exact (item_dels_app [it] l). Qed.
Lemma item_rets_cons : forall it l, item_rets sc (it :: l) = (item_rets sc [it] ++ item_rets sc l)%list.
Proof. reflexivity. Qed.

Definition tile_head (it : bitem) (pos : N) : Prop :=
  match it with BApp _ q _ => q = pos | BHb q _ => q = pos | BRej q => q = pos | BGap q n => q = pos /\ pos < n end.
Lemma tiles_cons : forall it l pos past, tiles pos (it :: l) past <-> tile_head it pos /\ tiles (tile_next it pos) l past.
Proof. clear. intros it l pos past. destruct it; cbn [tiles tile_head tile_next]; tauto. Qed.

Lemma tiles_snoc : forall l pos past t, tiles pos l past -> tiles pos (l ++ [BApp t past false]) (past + 1).
Proof.
  clear. induction l as [|it l IH]; intros pos past t T; [cbn in *; subst; split; reflexivity|].
  cbn [app]. apply tiles_cons in T. apply tiles_cons. split; [apply T|apply IH, T].
Qed.

Lemma tiles_accepted : forall l pos past, tiles pos l past -> accepted st_continuous pos l st_continuous past.
Proof.
  clear. induction l as [|it l IH]; intros pos past T; [split; [reflexivity|symmetry; exact T]|].
  apply tiles_cons in T. destruct T as [TH TN]. split.
  - destruct it; cbn [tile_head accepts] in *; try (left; exact TH); [exact I|lia].
  - destruct it; apply IH; exact TN.
Qed.

Theorem run_aligned : forall items raws l s evs pos past,
  Forall2 (is_item s) raws items -> tiles pos items past -> good s -> aligned s pos ->
  exists s' evs',
    reader_loop sc decode fl now (raws ++ l) s evs = reader_loop sc decode fl now l s' (evs ++ evs')%list /\
    good s' /\ cfg s s' /\ aligned s' past /\ dels evs' = item_dels items /\ retl evs' = item_rets sc items.
Proof.
  intros items raws l s evs pos past F T G [A1 A2]. apply tiles_accepted in T. rewrite <- A1, <- A2 in T at 1.
  destruct (run_accepted items raws l s evs _ _ F G T) as (s' & RL & G' & Q' & St' & Nr').
  exists s', (flat_map item_events items). rewrite dels_item_events, retl_item_events.
  split; [exact RL|]. split; [exact G'|]. split; [apply Q'|]. split; [split; assumption|split; reflexivity].
Qed.

(* the retransmissions up to the first GapFill carry PossDupFlag *)
Fixpoint dup_until_gap (l : list bitem) : Prop :=
  match l with
  | [] => True
  | BGap _ _ :: _ => True
  | it :: r => item_dup it = true /\ dup_until_gap r
  end.

Lemma all_dup_until_gap : forall l, forallb item_dup l = true -> dup_until_gap l.
Proof.
  induction l as [|it l IH]; intro H; [exact I|]. cbn [forallb] in H. apply andb_true_iff in H. destruct H as [H1 H2].
  destruct it; cbn [dup_until_gap]; try exact I; (split; [exact H1|apply IH; exact H2]).
Qed.

(* one ahead of a tiling: the retransmissions are accepted as "low" and keep the session one ahead; the first
   GapFill re-aligns it, and nothing else does *)
Lemma tiles_accepted_ahead : forall l st pos past, tiles pos l past -> dup_until_gap l ->
  accepted st (pos + 1) l (if has_gap l then st_continuous else st) (if has_gap l then past else past + 1).
Proof.
  clear. induction l as [|it l IH]; intros st pos past T DU; [split; [reflexivity|rewrite T; reflexivity]|].
  apply tiles_cons in T. destruct T as [TH TN].
  destruct it as [t q pd|q pd|q|q n]; cbn [tile_head tile_next dup_until_gap accepted accepts state_after has_gap existsb item_is_gap orb] in *.
  - split; [right; split; [lia|apply DU]|apply IH; [exact TN|apply DU]].
  - split; [right; split; [lia|apply DU]|apply IH; [exact TN|apply DU]].
  - split; [exact I|apply IH; [exact TN|apply DU]].
  - split; [lia|apply tiles_accepted; exact TN].
Qed.

Theorem run_ahead : forall items raws l s evs pos past,
  Forall2 (is_item s) raws items -> tiles pos items past -> good s -> ahead s pos -> dup_until_gap items ->
  exists s' evs',
    reader_loop sc decode fl now (raws ++ l) s evs = reader_loop sc decode fl now l s' (evs ++ evs')%list /\
    good s' /\ cfg s s' /\ (if has_gap items then aligned s' past else ahead s' past) /\
    dels evs' = item_dels items /\ retl evs' = item_rets sc items.
Proof.
  intros items raws l s evs pos past F T G [A1 A2] DU.
  pose proof (tiles_accepted_ahead items (s_state s) pos past T DU) as A. rewrite <- A2 in A.
  destruct (run_accepted items raws l s evs _ _ F G A) as (s' & RL & G' & Q' & St' & Nr').
  exists s', (flat_map item_events items). rewrite dels_item_events, retl_item_events.
  split; [exact RL|]. split; [exact G'|]. split; [apply Q'|]. split; [|split; reflexivity].
  destruct (has_gap items); split; try assumption. unfold running. rewrite St'. exact A1.
Qed.

Definition reveals (g : bitem) (q : N) : Prop :=
  match g with BApp _ q' _ => q' = q | BHb q' _ => q' = q | _ => False end.

Lemma step_gap : forall g raw l s evs pos q,
  good s -> aligned s pos -> is_item s raw g -> reveals g q -> pos < q ->
  exists s1 e1,
    reader_loop sc decode fl now (raw :: l) s evs = reader_loop sc decode fl now l s1 (evs ++ e1)%list /\
    good s1 /\ cfg s s1 /\ ahead s1 pos /\ dels e1 = [] /\ retl e1 = [1%Z].
Proof.
  intros g raw l s evs pos q G (A1 & A2) I Rv Q.
  assert (M : exists m, arrives decode raw q m /\ cid_ok s m = true /\
                        (is_session_type (m_type m) = false \/ m_type m = mt_heartbeat)).
  { destruct g as [t q' pd|q' pd| |]; cbn [reveals is_item] in *; try contradiction; subst q'.
    - destruct I as (m & Ar & <- & NS & C & _). exists m. auto.
    - destruct I as (m & Ar & Ty & C & _). exists m. auto. }
  destruct M as (m & Ar & C & K).
  assert (HI : s_next_recv (w_last_recv now s) < q) by (cbn; lia).
  destruct (process_high sc decode fl now raw q m (w_last_recv now s) Ar (good_last_recv s G) A1 K C HI)
    as (s1 & e & P & (O1 & O2) & P1 & P2 & P3).
  assert (C1 : cfg s s1) by (eapply cfg_trans; [|exact P3]; repeat split).
  destruct (reader_step raw l s evs _ s1 _ G P C1 (or_intror P1)) as [RL G1].
  exists s1. eexists. split; [exact RL|]. split; [exact G1|]. split; [exact C1|].
  split; [split; [right; exact P1|cbn in P2; congruence]|].
  rewrite dels_app, retl_app, O1, O2. split; reflexivity.
Qed.

(* a message numbered q > pos arrives (pos .. q-1 were lost) and the counterparty answers the ResendRequest with
   a burst covering pos .. q: with a GapFill in it the session ends aligned at q+1, the counterparty's next
   number; without one it ends ONE AHEAD (expecting q+2) *)
Theorem gap_and_burst : forall g rawg burst braws l s evs pos q,
  good s -> aligned s pos -> is_item s rawg g -> reveals g q -> pos < q ->
  Forall2 (is_item s) braws burst -> tiles pos burst (q + 1) -> forallb item_dup burst = true ->
  exists s' evs',
    reader_loop sc decode fl now (rawg :: braws ++ l) s evs = reader_loop sc decode fl now l s' (evs ++ evs')%list /\
    good s' /\ cfg s s' /\ (if has_gap burst then aligned s' (q + 1) else ahead s' (q + 1)) /\
    dels evs' = item_dels burst /\ retl evs' = (1%Z :: item_rets sc burst).
Proof.
  intros g rawg burst braws l s evs pos q G A I Rv Q F T DU.
  destruct (step_gap g rawg (braws ++ l) s evs pos q G A I Rv Q) as (s1 & e1 & RL & G1 & C1 & A1 & D1 & R1).
  destruct (run_ahead burst braws l s1 (evs ++ e1)%list pos (q + 1) (items_cfg _ _ _ _ C1 F) T G1 A1 (all_dup_until_gap _ DU))
    as (s' & evs' & RL' & G' & C' & A' & D' & R').
  exists s', (e1 ++ evs')%list. rewrite RL, RL'. rewrite <- app_assoc.
  split; [reflexivity|]. split; [exact G'|]. split; [eapply cfg_trans; eassumption|]. split; [exact A'|].
  rewrite dels_app, retl_app, D1, R1, D', R'. split; reflexivity.
Qed.

Lemma reader_dead : forall l s evs, s_reader s = false ->
  exists s', reader_loop sc decode fl now l s evs = (s', evs) /\ s_shutdown s' = s_shutdown s /\
             s_next_recv s' = s_next_recv s /\ s_reader s' = false.
Proof.
  intros l s evs R. destruct l as [|raw l]; cbn [reader_loop].
  - exists s. repeat split; assumption.
  - rewrite R. cbn [negb orb]. eexists. split; [reflexivity|]. repeat split.
Qed.

Theorem ahead_dies : forall t rawn l s evs pos,
  good s -> ahead s pos -> is_item s rawn (BApp t pos false) ->
  exists s',
    reader_loop sc decode fl now (rawn :: l) s evs = (s', evs ++ [ERet 0%Z])%list /\
    s_shutdown s' = true /\ s_reader s' = false /\ s_next_recv s' = pos + 1.
Proof.
  intros t rawn l s evs pos G (A1 & A2) I. pose proof (good_last_recv s G) as L.
  cbn [is_item] in I. destruct I as (m & Ar & Ty & NS & C & PD & _). subst t.
  assert (LO : pos < s_next_recv (w_last_recv now s)) by (cbn; lia).
  destruct (process_app_toolow sc decode fl now rawn pos m (w_last_recv now s) Ar L NS C LO PD) as (s1 & P & Sh & Nr).
  cbn [reader_loop]. rewrite (good_not_shutdown s G). rewrite P.
  assert (IS : is_shutdown s1 = true) by (unfold is_shutdown; rewrite Sh; reflexivity). rewrite IS.
  destruct (reader_dead l (w_down (s_shutdown s1) (s_closed s1) false s1) (evs ++ [] ++ [ERet 0%Z])%list eq_refl)
    as (s' & RL & S1 & S2 & S3).
  exists s'. rewrite RL. cbn [app]. split; [reflexivity|]. cbn in S1, S2.
  split; [congruence|]. split; [exact S3|]. cbn in Nr. congruence.
Qed.

End Burst.
