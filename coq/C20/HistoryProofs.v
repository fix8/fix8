(* C20: whole inbound histories of a conformant counterparty = sequences of episodes, each either one message in
   sequence or a message above the expected number followed by the burst that answers the ResendRequest. *)
From Coq Require Import NArith ZArith List Bool Lia.
From F8 Require Import Sess.Bytes Sess.Msg Sess.Persist Sess.Session Sess.SessLemmas C20.Peer C20.Classify C20.SessFacts C20.BurstProofs.
Import ListNotations.
Local Open Scope N_scope.

Inductive episode :=
| EpSeq (raw : bytes) (it : bitem)
| EpGap (rawg : bytes) (g : bitem) (q : N) (braws : list bytes) (burst : list bitem).

Definition ep_raws (ep : episode) : list bytes :=
  match ep with EpSeq raw _ => [raw] | EpGap rawg _ _ braws _ => rawg :: braws end.
Definition ep_dels (ep : episode) : list (bytes * N * bool) :=
  match ep with EpSeq _ it => item_dels [it] | EpGap _ _ _ _ burst => item_dels burst end.
Definition ep_rets (sc : schema) (ep : episode) : list Z :=
  match ep with EpSeq _ it => item_rets sc [it] | EpGap _ _ _ _ burst => 1%Z :: item_rets sc burst end.

Section History.
Variable sc : schema.
Variable decode : bytes -> decode_result.
Variable fl : bytes.
Variable now : Z.

(* the episode takes the stream from position pos to position past *)
Definition ep_ok (s : sess) (pos : N) (ep : episode) (past : N) : Prop :=
  match ep with
  | EpSeq raw it => is_item decode s raw it /\ tiles pos [it] past
  | EpGap rawg g q braws burst =>
    is_item decode s rawg g /\ reveals g q /\ pos < q /\ past = q + 1 /\
    Forall2 (is_item decode s) braws burst /\ tiles pos burst past /\
    forallb item_dup burst = true /\ has_gap burst = true
  end.

Fixpoint eps_ok (s : sess) (pos : N) (eps : list episode) (past : N) : Prop :=
  match eps with
  | [] => pos = past
  | ep :: r => exists mid, ep_ok s pos ep mid /\ eps_ok s mid r past
  end.

Lemma ep_ok_cfg : forall s s' pos ep past, cfg s s' -> ep_ok s pos ep past -> ep_ok s' pos ep past.
Proof.
  intros s s' pos ep past C H. destruct ep; cbn [ep_ok] in *.
  - destruct H as [H1 H2]. split; [eapply is_item_cfg; eassumption|exact H2].
  - destruct H as (H1 & H2 & H3 & H4 & H5 & H6). split; [eapply is_item_cfg; eassumption|].
    repeat (split; try assumption). eapply items_cfg; eassumption.
Qed.

Lemma eps_ok_cfg : forall eps s s' pos past, cfg s s' -> eps_ok s pos eps past -> eps_ok s' pos eps past.
Proof.
  induction eps as [|ep eps IH]; intros s s' pos past C H; [exact H|].
  destruct H as (mid & H1 & H2). exists mid. split; [eapply ep_ok_cfg; eassumption|eapply IH; eassumption].
Qed.

Lemma episode_recovers : forall ep l s evs pos past,
  good s -> aligned s pos -> ep_ok s pos ep past ->
  exists s' evs',
    reader_loop sc decode fl now (ep_raws ep ++ l) s evs = reader_loop sc decode fl now l s' (evs ++ evs')%list /\
    good s' /\ cfg s s' /\ aligned s' past /\ dels evs' = ep_dels ep /\ retl evs' = ep_rets sc ep.
Proof.
  intros [raw it|rawg g q braws burst] l s evs pos past G A H; cbn [ep_ok ep_raws ep_dels ep_rets] in *.
  - destruct H as [I T]. exact (run_aligned sc decode fl now [it] [raw] l s evs pos past (Forall2_cons _ _ I (Forall2_nil _)) T G A).
  - destruct H as (I & Rv & Q & -> & F & T & DU & HG).
    pose proof (gap_and_burst sc decode fl now g rawg burst braws l s evs pos q G A I Rv Q F T DU) as X.
    rewrite HG in X. exact X.
Qed.

Theorem history_recovers : forall eps l s evs pos past,
  good s -> aligned s pos -> eps_ok s pos eps past ->
  exists s' evs',
    reader_loop sc decode fl now (flat_map ep_raws eps ++ l) s evs = reader_loop sc decode fl now l s' (evs ++ evs')%list /\
    good s' /\ cfg s s' /\ aligned s' past /\
    dels evs' = flat_map ep_dels eps /\ retl evs' = flat_map (ep_rets sc) eps.
Proof.
  induction eps as [|ep eps IH]; intros l s evs pos past G A H.
  - cbn [eps_ok] in H. subst past. exists s, []. rewrite app_nil_r. cbn [flat_map app].
    repeat split; try apply G; try apply A.
  - destruct H as (mid & H1 & H2). cbn [flat_map]. rewrite <- app_assoc.
    destruct (episode_recovers ep (flat_map ep_raws eps ++ l) s evs pos mid G A H1) as (s1 & e1 & RL & G1 & C1 & A1 & D1 & R1).
    destruct (IH l s1 (evs ++ e1)%list mid past G1 A1 (eps_ok_cfg _ _ _ _ _ C1 H2)) as (s' & evs' & RL' & G' & C' & A' & D' & R').
    exists s', (e1 ++ evs')%list. rewrite RL, RL'. rewrite <- app_assoc.
    split; [reflexivity|]. split; [exact G'|]. split; [eapply cfg_trans; eassumption|]. split; [exact A'|].
    rewrite dels_app, retl_app, D1, R1, D', R'. split; reflexivity.
Qed.

Theorem gap_without_gapfill_dies : forall g rawg burst braws t rawn l s evs pos q,
  good s -> aligned s pos -> is_item decode s rawg g -> reveals g q -> pos < q ->
  Forall2 (is_item decode s) braws burst -> tiles pos burst (q + 1) -> forallb item_dup burst = true ->
  has_gap burst = false ->
  is_item decode s rawn (BApp t (q + 1) false) ->
  exists s' evs',
    reader_loop sc decode fl now (rawg :: braws ++ rawn :: l) s evs = (s', evs ++ evs')%list /\
    s_shutdown s' = true /\ s_reader s' = false /\ s_next_recv s' = q + 2 /\
    dels evs' = item_dels burst /\ retl evs' = (1%Z :: item_rets sc burst ++ [0%Z])%list.
Proof.
  intros g rawg burst braws t rawn l s evs pos q G A I Rv Q F T DU NG IN.
  destruct (gap_and_burst sc decode fl now g rawg burst braws (rawn :: l) s evs pos q G A I Rv Q F T DU)
    as (s1 & e1 & RL & G1 & C1 & A1 & D1 & R1).
  rewrite NG in A1.
  destruct (ahead_dies sc decode fl now t rawn l s1 (evs ++ e1)%list (q + 1) G1 A1 (is_item_cfg _ _ _ _ _ C1 IN))
    as (s' & RL' & S1 & S2 & S3).
  exists s', (e1 ++ [ERet 0%Z])%list. rewrite RL, RL'. rewrite <- app_assoc.
  split; [reflexivity|]. split; [exact S1|]. split; [exact S2|]. split; [rewrite S3; lia|].
  rewrite dels_app, retl_app, D1, R1. cbn [dels retl flat_map app]. rewrite app_nil_r. split; reflexivity.
Qed.

End History.

(* exactly once: the numbers of the deliveries owed for a tiling are strictly increasing *)
Definition del_seq (d : bytes * N * bool) : N := snd (fst d).

Lemma item_dels_bounds : forall l pos past d, tiles pos l past -> In d (item_dels l) -> pos <= del_seq d < past.
Proof.
  induction l as [|it l IH]; intros pos past d T H; [destruct H|].
  rewrite item_dels_cons in H. apply in_app_or in H. apply tiles_cons in T. destruct T as [TH TN].
  pose proof (tiles_le _ _ _ TN) as LE.
  destruct H as [H|H].
  - destruct it; cbn in H; try contradiction. destruct H as [H|[]]. subst d. cbn in TH. subst q. cbn [del_seq fst snd tile_next] in *. lia.
  - specialize (IH _ _ d TN H). destruct it; cbn [tile_next tile_head] in *; lia.
Qed.

Theorem item_dels_nodup : forall l pos past, tiles pos l past -> NoDup (map del_seq (item_dels l)).
Proof.
  induction l as [|it l IH]; intros pos past T; [constructor|].
  rewrite item_dels_cons. apply tiles_cons in T. destruct T as [TH TN]. specialize (IH _ _ TN).
  destruct it; cbn [item_dels flat_map app]; try exact IH.
  cbn [map]. constructor; [|exact IH]. intro I. apply in_map_iff in I. destruct I as (d & E & I).
  pose proof (item_dels_bounds _ _ _ d TN I) as B. cbn in TH. subst q. cbn [del_seq fst snd tile_next] in *. lia.
Qed.
