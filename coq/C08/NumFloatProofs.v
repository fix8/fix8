(* Proofs about the floating point conversions (NumFloat.v): Flocq's binary64 operations on doubles
   of known real value (finR), and fast_atof on the texts of integers.  At the end roundtrip_ok, the
   oracle applied to the model's own round trip, in whose terms Props states the counterexamples. *)
From Coq Require Import ZArith List Bool Lia Reals Lra.
From Flocq Require Import Core.Core IEEE754.BinarySingleNaN.
From F8 Require Import C08.NumInt C08.NumFloat C08.Spec_C08 C08.NumIntProofs.
Import ListNotations.
Local Open Scope Z_scope.

Definition fexp64 := FLT_exp (3 - 1024 - 53) 53.
Definition rnd64 (x : R) : R := round radix2 fexp64 (round_mode mode_NE) x.

Definition finR (x : f64) (r : R) : Prop := is_finite x = true /\ B2R x = r.

Lemma format_IZR : forall n, Z.abs n < 2 ^ 53 -> generic_format radix2 fexp64 (IZR n).
Proof.
  intros n Hn. apply generic_format_FLT.
  exists (Float radix2 n 0); [unfold F2R; simpl; lra | exact Hn | simpl; lia].
Qed.

Lemma rnd64_format : forall y, generic_format radix2 fexp64 y -> rnd64 y = y.
Proof. intros y H. apply round_generic; [apply valid_rnd_N | exact H]. Qed.

Lemma rnd64_IZR : forall n, Z.abs n < 2 ^ 53 -> rnd64 (IZR n) = IZR n.
Proof. intros n Hn. apply rnd64_format, format_IZR, Hn. Qed.

Lemma rnd64_0 : rnd64 0 = 0%R.
Proof. apply (rnd64_IZR 0). reflexivity. Qed.

Lemma rnd64_le : forall x y, (x <= y)%R -> (rnd64 x <= rnd64 y)%R.
Proof.
  intros x y H. apply round_le; [apply FLT_exp_valid; reflexivity | apply valid_rnd_N | exact H].
Qed.

Lemma rnd64_between : forall a b y, Z.abs a < 2 ^ 53 -> Z.abs b < 2 ^ 53 ->
  (IZR a <= y <= IZR b)%R -> (IZR a <= rnd64 y <= IZR b)%R.
Proof.
  intros a b y Ha Hb [H1 H2].
  rewrite <- (rnd64_IZR a Ha), <- (rnd64_IZR b Hb). split; apply rnd64_le; assumption.
Qed.

Lemma scaled_unit : forall a P, (0 <= a <= 1)%R -> (0 <= P)%R -> (0 <= a * P <= P)%R.
Proof.
  intros a P Ha HP. split; [apply Rmult_le_pos; lra |].
  rewrite <- (Rmult_1_l P) at 2. apply Rmult_le_compat_r; lra.
Qed.

(* everything below stays within 2^53 in magnitude, far from overflow *)
Lemma rnd64_no_overflow : forall r, (Rabs r <= 9007199254740992)%R ->
  Rlt_bool (Rabs (rnd64 r)) (bpow radix2 1024) = true.
Proof.
  intros r Hr. apply Rlt_bool_true. apply Rle_lt_trans with 9007199254740992%R.
  - apply abs_round_le_generic; [apply FLT_exp_valid; reflexivity | apply valid_rnd_N | | exact Hr].
    apply generic_format_FLT. exists (Float radix2 1 53); [unfold F2R; simpl; lra | simpl; lia | simpl; lia].
  - rewrite <- (IZR_Zpower radix2 1024) by lia. apply IZR_lt. reflexivity.
Qed.

(* Flocq's correctness statements for binary_normalize, Bplus, Bminus, Bmult and Bdiv all have
   this form *)
Lemma finR_of_correct : forall (z : f64) (r : R) (fin : bool) (S O : Prop),
  (Rabs r <= 9007199254740992)%R -> fin = true ->
  (if Rlt_bool (Rabs (rnd64 r)) (bpow radix2 1024)
   then B2R z = rnd64 r /\ is_finite z = fin /\ S else O) ->
  finR z (rnd64 r).
Proof.
  intros z r fin S O Hr -> H. rewrite (rnd64_no_overflow r Hr) in H.
  destruct H as [H1 [H2 _]]. split; assumption.
Qed.

Lemma fadd_finR : forall x y a b, finR x a -> finR y b -> (Rabs (a + b) <= 9007199254740992)%R ->
  finR (fadd x y) (rnd64 (a + b)).
Proof.
  intros x y a b [Fx <-] [Fy <-] Hr.
  exact (finR_of_correct _ _ _ _ _ Hr eq_refl (Bplus_correct 53 1024 Hprec64 Hemax64 mode_NE x y Fx Fy)).
Qed.

Lemma fsub_finR : forall x y a b, finR x a -> finR y b -> (Rabs (a - b) <= 9007199254740992)%R ->
  finR (fsub x y) (rnd64 (a - b)).
Proof.
  intros x y a b [Fx <-] [Fy <-] Hr.
  exact (finR_of_correct _ _ _ _ _ Hr eq_refl (Bminus_correct 53 1024 Hprec64 Hemax64 mode_NE x y Fx Fy)).
Qed.

Lemma fmul_finR : forall x y a b, finR x a -> finR y b -> (Rabs (a * b) <= 9007199254740992)%R ->
  finR (fmul x y) (rnd64 (a * b)).
Proof.
  intros x y a b [Fx <-] [Fy <-] Hr.
  refine (finR_of_correct _ _ _ _ _ Hr _ (Bmult_correct 53 1024 Hprec64 Hemax64 mode_NE x y)).
  rewrite Fx, Fy. reflexivity.
Qed.

Lemma fdiv_finR : forall x y a b, finR x a -> finR y b -> b <> 0%R ->
  (Rabs (a / b) <= 9007199254740992)%R -> finR (fdiv x y) (rnd64 (a / b)).
Proof.
  intros x y a b [Fx <-] [Fy <-] Hb Hr.
  exact (finR_of_correct _ _ _ _ _ Hr Fx (Bdiv_correct 53 1024 Hprec64 Hemax64 mode_NE x y Hb)).
Qed.

Lemma fneg_finR : forall x a, finR x a -> finR (fneg x) (- a).
Proof.
  intros x a [Fx <-]. unfold fneg. split; [rewrite is_finite_Bopp; exact Fx | apply B2R_Bopp].
Qed.

Lemma flt_finR : forall x y a b, finR x a -> finR y b -> flt x y = Rlt_bool a b.
Proof. intros x y a b [Fx <-] [Fy <-]. apply Bltb_correct; assumption. Qed.

Lemma fle_finR : forall x y a b, finR x a -> finR y b -> fle x y = Rle_bool a b.
Proof. intros x y a b [Fx <-] [Fy <-]. apply Bleb_correct; assumption. Qed.

Lemma feq_finR : forall x y a b, finR x a -> finR y b -> feq x y = Req_bool a b.
Proof. intros x y a b [Fx <-] [Fy <-]. apply Beqb_correct; assumption. Qed.

Lemma Rlt_bool_IZR : forall a b, Rlt_bool (IZR a) (IZR b) = (a <? b).
Proof.
  intros a b. destruct (Z.ltb_spec a b).
  - apply Rlt_bool_true, IZR_lt. assumption.
  - apply Rlt_bool_false, IZR_le. assumption.
Qed.

Lemma Rle_bool_IZR : forall a b, Rle_bool (IZR a) (IZR b) = (a <=? b).
Proof.
  intros a b. destruct (Z.leb_spec a b).
  - apply Rle_bool_true, IZR_le. assumption.
  - apply Rle_bool_false, IZR_lt. assumption.
Qed.

(* the literals of the model: m * 2^e with a mantissa of at most 53 bits *)
Lemma f_of_Z2_exact : forall m e, Z.abs m < 2 ^ 53 -> -1074 <= e <= 0 ->
  finR (f_of_Z2 m e) (F2R (Float radix2 m e)).
Proof.
  intros m e Hm He.
  rewrite <- (rnd64_format (F2R (Float radix2 m e)))
    by (apply generic_format_FLT; exists (Float radix2 m e); [reflexivity | exact Hm | apply He]).
  refine (finR_of_correct _ _ _ _ _ _ eq_refl (binary_normalize_correct 53 1024 Hprec64 Hemax64 mode_NE m e false)).
  rewrite <- F2R_Zabs. unfold F2R. cbn [Fnum Fexp].
  assert (IZR (Z.abs m) <= 9007199254740991)%R by (apply IZR_le; lia).
  assert (0 <= IZR (Z.abs m))%R by (apply IZR_le; lia).
  assert (0 < bpow radix2 e <= 1)%R
    by (split; [apply bpow_gt_0 | change 1%R with (bpow radix2 0); apply bpow_le; lia]).
  rewrite Rmult_comm. pose proof (scaled_unit (bpow radix2 e) (IZR (Z.abs m))). lra.
Qed.

Lemma f_of_Z_finR : forall n, Z.abs n < 2 ^ 53 -> finR (f_of_Z n) (IZR n).
Proof.
  intros n Hn. replace (IZR n) with (F2R (Float radix2 n 0)) by (unfold F2R; simpl; lra).
  apply f_of_Z2_exact; [exact Hn | lia].
Qed.

Lemma fhalf_finR : finR fhalf (/ 2).
Proof.
  replace (/ 2)%R with (F2R (Float radix2 1 (-1))) by (unfold F2R; simpl; lra).
  apply f_of_Z2_exact; [reflexivity | lia].
Qed.

Lemma fzero_finR : finR fzero 0.
Proof. split; reflexivity. Qed.

Lemma pow10_tab_finR : forall p, 0 <= p <= 9 -> finR (pow10_tab p) (IZR (10 ^ p)).
Proof.
  intros p Hp. apply f_of_Z_finR.
  assert (0 < 10 ^ p <= 10 ^ 9) by (split; [apply Z.pow_pos_nonneg | apply Z.pow_le_mono_r]; lia).
  lia.
Qed.

(* |v|, as the routine computes it *)
Lemma abs_value : forall v r, finR v r -> finR (if flt v fzero then fneg v else v) (Rabs r).
Proof.
  intros v r Hv. rewrite (flt_finR v fzero r 0 Hv fzero_finR).
  destruct (Rlt_bool_spec r 0).
  - rewrite Rabs_left by assumption. apply fneg_finR, Hv.
  - rewrite Rabs_pos_eq by assumption. exact Hv.
Qed.

(* the casts (int)x and (uint32_t)x of a non-negative double *)
Lemma trunc_floor : forall x r, finR x r -> (0 <= r)%R -> trunc_f64 x = Some (Zfloor r).
Proof.
  intros x r [Fx <-] Hr. destruct x as [s | s | | s m e Hb]; try discriminate.
  - cbn. rewrite (Zfloor_IZR 0). reflexivity.
  - destruct s.
    { pose proof (F2R_lt_0 radix2 (Float radix2 (Z.neg m) e) ltac:(reflexivity)) as N. cbn in Hr. lra. }
    unfold trunc_f64, B2R, F2R. cbn [cond_Zopp SpecFloat.cond_Zopp Fnum Fexp]. f_equal.
    destruct e as [| p | p]; cbn [bpow].
    + rewrite Rmult_1_r, Zfloor_IZR. reflexivity.
    + rewrite <- mult_IZR, Zfloor_IZR. reflexivity.
    + symmetry. apply (Zfloor_div (Z.pos m) (Z.pow_pos 2 p)).
      rewrite Z.pow_pos_fold. apply Z.pow_nonzero; lia.
Qed.

Lemma finR_inj : forall x y r, finR x r -> finR y r -> r <> 0%R -> x = y.
Proof.
  intros x y r [Fx Rx] [Fy Ry] Hr.
  apply B2R_inj; [apply is_finite_strict_B2R | apply is_finite_strict_B2R |]; congruence.
Qed.

Lemma fadd_Z : forall x y a b, finR x (IZR a) -> finR y (IZR b) -> Z.abs (a + b) < 2 ^ 53 ->
  finR (fadd x y) (IZR (a + b)).
Proof.
  intros x y a b Hx Hy Hn. rewrite <- (rnd64_IZR _ Hn), plus_IZR.
  apply fadd_finR; [exact Hx | exact Hy |]. rewrite <- plus_IZR, <- abs_IZR. apply IZR_le.
  lia.
Qed.

Lemma fmul_Z : forall x y a b, finR x (IZR a) -> finR y (IZR b) -> Z.abs (a * b) < 2 ^ 53 ->
  finR (fmul x y) (IZR (a * b)).
Proof.
  intros x y a b Hx Hy Hn. rewrite <- (rnd64_IZR _ Hn), mult_IZR.
  apply fmul_finR; [exact Hx | exact Hy |]. rewrite <- mult_IZR, <- abs_IZR. apply IZR_le.
  lia.
Qed.

(* the model's is_digit and the specification's is_dig are written independently, with the same body *)
Lemma is_digit_true : forall c, 48 <= c <= 57 -> is_digit c = true.
Proof. exact is_dig_true. Qed.

Lemma digits_fold_ge : forall l a, Forall (fun c => 48 <= c <= 57) l -> 0 <= a ->
  a <= fold_left (fun a c => 10 * a + (c - 48)) l a.
Proof.
  induction l as [| d l IHl]; intros a Hl Ha; cbn [fold_left]; [lia |].
  inversion Hl; subst. specialize (IHl (10 * a + (d - 48)) ltac:(assumption) ltac:(lia)). lia.
Qed.

Lemma atof_int_digits_Z : forall ds rest x r,
  Forall (fun c => 48 <= c <= 57) ds ->
  match rest with [] => True | c :: _ => is_digit c = false end ->
  finR x (IZR r) -> 0 <= r -> fold_left (fun a c => 10 * a + (c - 48)) ds r < 2 ^ 53 ->
  exists y, atof_int_digits x (ds ++ rest) = (y, rest) /\
            finR y (IZR (fold_left (fun a c => 10 * a + (c - 48)) ds r)).
Proof.
  induction ds as [| c ds IH]; intros rest x r H Hrest Hx Hr Hb.
  - exists x. split; [| exact Hx].
    destruct rest as [| c rest]; [reflexivity |]. cbn [app atof_int_digits]. rewrite Hrest. reflexivity.
  - inversion H as [| ? ? Hc Hds]; subst. cbn [app atof_int_digits]. rewrite is_digit_true by exact Hc.
    cbn [fold_left] in Hb |- *.
    pose proof (digits_fold_ge ds (10 * r + (c - 48)) Hds ltac:(lia)) as Hge.
    apply IH; try assumption; [| lia].
    replace (10 * r + (c - 48)) with (r * 10 + (c - 48)) by lia.
    apply fadd_Z; [apply fmul_Z; [exact Hx | apply f_of_Z_finR; reflexivity |] | apply f_of_Z_finR |];
      lia.
Qed.

Lemma skip_space_nonspace : forall c r, is_space c = false -> skip_space (c :: r) = c :: r.
Proof. intros c r H. cbn [skip_space]. rewrite H. reflexivity. Qed.

Definition int_suffix (p : Z) : list Z := if p =? 0 then [] else [46; 48].

Lemma fast_atof_int : forall n p, Z.abs n < 2147483648 ->
  fast_atof (canon_dec n ++ int_suffix p) = f_of_Z n.
Proof.
  intros n p Hn.
  destruct (Z.eq_dec n 0) as [-> | Hnz]; [unfold int_suffix; destruct (p =? 0); vm_compute; reflexivity |].
  pose proof (dec_digits_are_digits dec_fuel (Z.abs n) ltac:(lia)) as Hds.
  pose proof (canon_digits_nonempty (Z.abs n)) as Hne.
  pose proof (digits_value_dec (Z.abs n) ltac:(lia)) as Hval.
  assert (Hsuf : match int_suffix p with [] => True | c :: _ => is_digit c = false end)
    by (unfold int_suffix; destruct (p =? 0); [exact I | reflexivity]).
  destruct (atof_int_digits_Z _ (int_suffix p) fzero 0 Hds Hsuf fzero_finR ltac:(lia)) as [y [Ey Hy]];
    [fold (digits_value (dec_digits dec_fuel (Z.abs n))); rewrite Hval; lia |].
  fold (digits_value (dec_digits dec_fuel (Z.abs n))) in Hy. rewrite Hval in Hy.
  (* sign * (value * 1) for a value holding |n| *)
  assert (Hfin : forall sign sg value, finR sign (IZR sg) -> sg * Z.abs n = n -> finR value (IZR (Z.abs n)) ->
                 fmul sign (fmul value fone) = f_of_Z n).
  { intros sign sg value Hsign Hsg Hv.
    apply (finR_inj _ _ (IZR n)); [| apply f_of_Z_finR | apply not_0_IZR; exact Hnz];
      try lia.
    rewrite <- Hsg. apply fmul_Z; [exact Hsign | | rewrite Hsg; lia].
    rewrite <- (Z.mul_1_r (Z.abs n)). apply fmul_Z; [exact Hv | apply f_of_Z_finR; reflexivity |].
    lia. }
  (* after the digits: nothing, or ".0" which adds 0 / 10 *)
  assert (Hfrac : finR (fadd y (fdiv (f_of_Z 0) ften)) (IZR (Z.abs n))).
  { assert (Hz : finR (fdiv (f_of_Z 0) ften) (rnd64 (0 / 10))).
    { apply fdiv_finR; [apply f_of_Z_finR; reflexivity | apply f_of_Z_finR; reflexivity | lra |].
      unfold Rdiv. rewrite Rmult_0_l, Rabs_R0. lra. }
    unfold Rdiv in Hz. rewrite Rmult_0_l, rnd64_0 in Hz.
    rewrite <- (Z.add_0_r (Z.abs n)).
    apply fadd_Z; [exact Hy | exact Hz | lia]. }
  unfold fast_atof. rewrite canon_dec_abs.
  destruct Hds as [| c0 ds Hc0 _]; [contradiction |].
  cbn [app] in Ey. destruct (Z.ltb_spec n 0); cbn [app].
  - rewrite skip_space_nonspace by reflexivity. cbn [Z.eqb Pos.eqb]. rewrite Ey.
    unfold int_suffix. destruct (p =? 0);
      (apply (Hfin (f_of_Z (-1)) (-1)); [apply f_of_Z_finR; reflexivity | lia | assumption]).
  - rewrite skip_space_nonspace
      by (unfold is_space; destruct (Z.eqb_spec c0 32); destruct (Z.leb_spec 9 c0); destruct (Z.leb_spec c0 13);
          try reflexivity; lia).
    destruct (Z.eqb_spec c0 45); [lia |]. destruct (Z.eqb_spec c0 43); [lia |].
    rewrite Ey.
    unfold int_suffix. destruct (p =? 0);
      (apply (Hfin fone 1); [apply f_of_Z_finR; reflexivity | lia | assumption]).
Qed.

Definition roundtrip_ok (v : f64) (p : Z) : bool :=
  match float_roundtrip v p with
  | (DT_text t, Some d) => c08_float_ok v p (Some (t, d))
  | _ => c08_float_ok v p None
  end.
