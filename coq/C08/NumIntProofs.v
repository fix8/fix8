(* The integer conversions (NumInt.v) against the specification Spec_C08.v: itoa's digit loop writes
   the specification's dec_digits, one step at a time; fast_atoi on a digit string returns the
   digits' value mod 2^bits, cast to the type, hence every value of the type round-trips; and
   fast_atoi is total on every text. *)
From Coq Require Import ZArith List Bool Lia.
From F8 Require Import C08.NumInt C08.Spec_C08.
Import ListNotations.
Local Open Scope Z_scope.

(* lia then also decides goals with / and mod (and Z.quot, Z.rem) by constants; the setting reaches every file
   that imports this one *)
Ltac Zify.zify_post_hook ::= Z.to_euclidean_division_equations.

Lemma pow10_S : forall f : nat, 10 ^ Z.of_nat (S f) = 10 * 10 ^ Z.of_nat f.
Proof. intros f. rewrite Nat2Z.inj_succ, Z.pow_succ_r by lia. reflexivity. Qed.

Lemma fuel_pos : forall (f : nat) n, 1 <= n < 10 ^ Z.of_nat f -> (0 < f)%nat.
Proof. intros [| f] n H; [change (10 ^ Z.of_nat 0) with 1 in H |]; lia. Qed.

Lemma dec_digits_are_digits : forall f n, 0 <= n ->
  Forall (fun c => 48 <= c <= 57) (dec_digits f n).
Proof.
  induction f as [| f IH]; intros n Hn; cbn [dec_digits].
  - constructor.
  - destruct (Z.ltb_spec n 10).
    + constructor; [lia | constructor].
    + apply Forall_app. split; [apply IH; lia | constructor; [lia | constructor]].
Qed.

Lemma dec_digits_nonempty : forall f n, (0 < f)%nat -> dec_digits f n <> [].
Proof.
  intros [| f] n Hf; [lia |]. cbn [dec_digits].
  destruct (n <? 10); [discriminate |]. intros E. apply app_eq_nil in E. destruct E; discriminate.
Qed.

Lemma canon_digits_nonempty : forall n, dec_digits dec_fuel n <> [].
Proof. intros n. apply dec_digits_nonempty. unfold dec_fuel. lia. Qed.

Lemma dec_digits_fuel : forall f g n, 0 <= n < 10 ^ Z.of_nat f -> n < 10 ^ Z.of_nat g ->
  (0 < f)%nat -> (0 < g)%nat -> dec_digits f n = dec_digits g n.
Proof.
  induction f as [| f IH]; intros [| g] n Hf Hg Pf Pg; try lia.
  cbn [dec_digits]. destruct (Z.ltb_spec n 10); [reflexivity |].
  rewrite pow10_S in Hf, Hg. f_equal.
  apply IH; try lia; apply (fuel_pos _ (n / 10)); lia.
Qed.

(* what every digit loop of the implementation does: the last digit first, then the quotient *)
Lemma dec_digits_step : forall f n, 0 <= n ->
  rev (dec_digits (S f) n) =
  (48 + n mod 10) :: (if n / 10 =? 0 then [] else rev (dec_digits f (n / 10))).
Proof.
  intros f n Hn. cbn [dec_digits].
  destruct (Z.ltb_spec n 10); destruct (Z.eqb_spec (n / 10) 0); try lia.
  - rewrite Z.mod_small by lia. reflexivity.
  - apply rev_unit.
Qed.

Lemma digits_value_snoc : forall l c, digits_value (l ++ [c]) = 10 * digits_value l + (c - 48).
Proof. intros l c. unfold digits_value. rewrite fold_left_app. reflexivity. Qed.

Lemma digits_value_dec_digits : forall f n, 0 <= n < 10 ^ Z.of_nat f -> (0 < f)%nat ->
  digits_value (dec_digits f n) = n.
Proof.
  induction f as [| f IH]; intros n Hn Hf; [lia |].
  cbn [dec_digits]. destruct (Z.ltb_spec n 10).
  - unfold digits_value. cbn [fold_left]. lia.
  - rewrite pow10_S in Hn.
    rewrite digits_value_snoc, IH by (try apply (fuel_pos _ (n / 10)); lia). lia.
Qed.

Lemma digits_value_dec : forall n, 0 <= n < 10 ^ 25 -> digits_value (dec_digits dec_fuel n) = n.
Proof. intros n Hn. apply digits_value_dec_digits; [exact Hn | unfold dec_fuel; lia]. Qed.

Lemma dec_digits_len : forall f n, 0 <= n < 10 ^ Z.of_nat f -> (0 < f)%nat ->
  n < 10 ^ Z.of_nat (length (dec_digits f n)) /\
  (1 <= n -> 10 ^ (Z.of_nat (length (dec_digits f n)) - 1) <= n) /\
  (1 <= length (dec_digits f n))%nat.
Proof.
  induction f as [| f IH]; intros n Hn Hf; [lia |].
  cbn [dec_digits].
  destruct (Z.ltb_spec n 10).
  - cbn [length]. change (10 ^ Z.of_nat 1) with 10. change (10 ^ (Z.of_nat 1 - 1)) with 1. lia.
  - rewrite pow10_S in Hn.
    destruct (IH (n / 10)) as [A [B C]]; [lia | apply (fuel_pos _ (n / 10)); lia |].
    rewrite app_length. cbn [length]. rewrite Nat.add_1_r, pow10_S.
    replace (Z.of_nat (S (length (dec_digits f (n / 10)))) - 1)
      with (Z.succ (Z.of_nat (length (dec_digits f (n / 10))) - 1)) by lia.
    rewrite Z.pow_succ_r by lia. lia.
Qed.

Lemma dec_digits_no_leading_zero : forall n, 0 <= n < 10 ^ 25 ->
  no_leading_zero (dec_digits dec_fuel n) = true.
Proof.
  assert (H : forall f n, 1 <= n < 10 ^ Z.of_nat f -> exists c r, dec_digits f n = c :: r /\ c <> 48).
  { induction f as [| f IH]; intros n Hn; [simpl in Hn; lia |].
    cbn [dec_digits]. destruct (Z.ltb_spec n 10).
    - exists (48 + n), []. split; [reflexivity | lia].
    - rewrite pow10_S in Hn. destruct (IH (n / 10)) as [c [r [E Hc]]]; [lia |].
      rewrite E. exists c, (r ++ [48 + n mod 10]). split; [reflexivity | exact Hc]. }
  intros n Hn. destruct (Z.eq_dec n 0) as [-> | Hz]; [reflexivity |].
  destruct (H dec_fuel n) as [c [r [E Hc]]]; [unfold dec_fuel; lia |].
  rewrite E. unfold no_leading_zero. destruct r; [reflexivity |].
  destruct (Z.eqb_spec c 48); [contradiction | reflexivity].
Qed.

Lemma canon_dec_abs : forall n,
  canon_dec n = (if n <? 0 then [45] else []) ++ dec_digits dec_fuel (Z.abs n).
Proof.
  intros n. unfold canon_dec. destruct (Z.ltb_spec n 0).
  - replace (Z.abs n) with (- n) by lia. reflexivity.
  - replace (Z.abs n) with n by lia. reflexivity.
Qed.

(* how canon_value and split_dec read the sign off a text whose first character after the sign
   is not another '-' *)
Lemma sign_split : forall (neg : bool) ds t, t = (if neg then [45] else []) ++ ds -> hd 45 ds <> 45 ->
  match t with c :: r => if c =? 45 then (true, r) else (false, t) | [] => (false, t) end = (neg, ds).
Proof.
  intros neg ds t -> Hc. destruct neg; [reflexivity |].
  destruct ds as [| c r]; [contradiction |]. cbn [app hd] in *.
  destruct (Z.eqb_spec c 45); [contradiction | reflexivity].
Qed.

Lemma digit_char_dec : forall r, -9 <= r <= 9 -> digit_char r = 48 + Z.abs r.
Proof.
  intros r H.
  assert (H' : r = -9 \/ r = -8 \/ r = -7 \/ r = -6 \/ r = -5 \/ r = -4 \/ r = -3 \/ r = -2 \/
               r = -1 \/ r = 0 \/ r = 1 \/ r = 2 \/ r = 3 \/ r = 4 \/ r = 5 \/ r = 6 \/ r = 7 \/
               r = 8 \/ r = 9) by lia.
  repeat (destruct H' as [-> | H']; [reflexivity |]). subst r. reflexivity.
Qed.

(* t is the last tmp_value, on which itoa makes its sign test *)
Lemma itoa_loop_digits : forall f n buf, Z.abs n < 10 ^ Z.of_nat f -> (0 < f)%nat ->
  exists t, itoa_loop f 10 n buf = Some (buf ++ rev (dec_digits f (Z.abs n)), t) /\
            (t <? 0) = (n <? 0).
Proof.
  induction f as [| f IH]; intros n buf Hn Hf; [lia |].
  cbn [itoa_loop]. rewrite dec_digits_step, digit_char_dec by lia.
  replace (Z.abs (n - Z.quot n 10 * 10)) with (Z.abs n mod 10) by lia.
  replace (Z.abs n / 10) with (Z.abs (Z.quot n 10)) by lia.
  destruct (Z.eqb_spec (Z.quot n 10) 0) as [E0 | E0].
  - rewrite E0. exists n. split; reflexivity.
  - destruct (Z.eqb_spec (Z.abs (Z.quot n 10)) 0); [lia |].
    rewrite pow10_S in Hn.
    destruct (IH (Z.quot n 10) (emit buf (48 + Z.abs n mod 10))) as [t [E S]];
      [lia | apply (fuel_pos _ (Z.abs (Z.quot n 10))); lia |].
    exists t. split.
    + rewrite E. unfold emit. rewrite <- app_assoc. reflexivity.
    + rewrite S. destruct (Z.ltb_spec (Z.quot n 10) 0); destruct (Z.ltb_spec n 0); lia.
Qed.

Lemma itoa_loop_10 : forall v, Z.abs v < 10 ^ 25 ->
  exists t, itoa_loop itoa_fuel 10 v [] = Some (rev (dec_digits dec_fuel (Z.abs v)), t) /\
            (t <? 0) = (v <? 0).
Proof.
  intros v Hv.
  rewrite (dec_digits_fuel dec_fuel itoa_fuel) by (unfold dec_fuel, itoa_fuel; lia).
  apply (itoa_loop_digits itoa_fuel v []); unfold itoa_fuel; lia.
Qed.

Lemma itoa_int_canon : forall v, Z.abs v < 10 ^ 25 -> itoa_int v 10 = Some (canon_dec v).
Proof.
  intros v Hv. unfold itoa_int. cbn [Z.ltb Z.compare orb].
  destruct (itoa_loop_10 v Hv) as [t [E S]]. rewrite E, S, canon_dec_abs.
  unfold strreverse, emit. destruct (v <? 0).
  - rewrite rev_unit, rev_involutive. reflexivity.
  - rewrite rev_involutive. reflexivity.
Qed.

Lemma itoa_uint_canon : forall v, 0 <= v < 10 ^ 25 -> itoa_uint v 10 = Some (canon_dec v).
Proof.
  intros v Hv. unfold itoa_uint. cbn [Z.ltb Z.compare orb].
  destruct (itoa_loop_10 v ltac:(lia)) as [t [E _]]. rewrite E, canon_dec_abs.
  unfold strreverse. destruct (Z.ltb_spec v 0); [lia |]. rewrite rev_involutive. reflexivity.
Qed.

Lemma umod_pos : forall ty, 0 < umod ty.
Proof. intros []; reflexivity. Qed.

Definition in_type (ty : ity) (v : Z) : Prop :=
  match ty with T_int => - W31 <= v < W31 | _ => 0 <= v < umod ty end.

Lemma atoi_loop_total : forall ty l r, exists v, atoi_loop ty 0 l r = AR_ok v /\
  (0 <= r < umod ty -> 0 <= v < umod ty).
Proof.
  intros ty. induction l as [| c l IH]; intros r; cbn [atoi_loop].
  - exists r. split; [reflexivity | auto].
  - destruct (c =? 0); [exists r; split; [reflexivity | auto] |].
    destruct (IH (atoi_step ty r c)) as [v [E B]]. exists v. split; [exact E |].
    intros _. apply B. unfold atoi_step. apply Z.mod_pos_bound. apply umod_pos.
Qed.

Lemma atoi_loop_digits : forall ty l a, Forall (fun c => 48 <= c <= 57) l ->
  atoi_loop ty 0 l (a mod umod ty) =
  AR_ok (fold_left (fun a c => 10 * a + (c - 48)) l a mod umod ty).
Proof.
  intros ty l a H. revert a. pose proof (umod_pos ty) as Mpos.
  induction H as [| c l Hc _ IH]; intros a; cbn [atoi_loop fold_left]; [reflexivity |].
  destruct (Z.eqb_spec c 0); [lia |]. rewrite <- IH. f_equal.
  unfold atoi_step, schar. destruct (Z.ltb_spec c 128); [| lia].
  rewrite Z.add_mod_idemp_r, (Z.mul_comm 10), <- Z.add_mod_idemp_l, Z.mul_mod_idemp_l by lia.
  rewrite Z.add_mod_idemp_l by lia. reflexivity.
Qed.

Lemma atoi_loop_dec_digits : forall ty n, 0 <= n < 10 ^ 25 ->
  atoi_loop ty 0 (dec_digits dec_fuel n) 0 = AR_ok (n mod umod ty).
Proof.
  intros ty n Hn.
  rewrite <- (digits_value_dec n Hn) at 2.
  apply (atoi_loop_digits ty _ 0). apply dec_digits_are_digits. lia.
Qed.

(* static_cast<int> of an unsigned value congruent to an int32 gives that int32 back *)
Lemma sint32_cong : forall u v, u mod W32 = v mod W32 -> - W31 <= v < W31 -> sint32 u = v.
Proof.
  intros u v E Hv. unfold sint32. rewrite E. unfold W32, W31 in *.
  destruct (Z.ltb_spec (v mod 4294967296) 2147483648); lia.
Qed.

Lemma sint32_range : forall x, - W31 <= sint32 x < W31.
Proof. intros x. unfold sint32, W32, W31. destruct (Z.ltb_spec (x mod 4294967296) 2147483648); lia. Qed.

Lemma atoi_canon : forall ty v, in_type ty v -> fast_atoi ty 0 (canon_dec v) = AR_ok v.
Proof.
  intros ty v Hv.
  assert (Hb : Z.abs v < 10 ^ 25 /\ (v < 0 -> ty = T_int))
    by (destruct ty; cbn in Hv; unfold W31, W32, W16 in Hv; split; (lia || reflexivity)).
  destruct Hb as [Hb Hs].
  pose proof (dec_digits_are_digits dec_fuel (Z.abs v) ltac:(lia)) as Hds.
  pose proof (canon_digits_nonempty (Z.abs v)) as Hne.
  pose proof (atoi_loop_dec_digits ty (Z.abs v) ltac:(lia)) as L.
  unfold fast_atoi. rewrite canon_dec_abs.
  set (ds := dec_digits dec_fuel (Z.abs v)) in *.
  (* a '-' is seen exactly for a negative int, and the loop runs on the digits *)
  assert (Hneg : match ty, (if v <? 0 then [45] else []) ++ ds with
                 | T_int, c :: _ => c =? 45 | _, _ => false end = (v <? 0)).
  { destruct (Z.ltb_spec v 0) as [N | N]; [rewrite (Hs N); reflexivity |].
    destruct Hds as [| c ds Hc _]; [contradiction |].
    destruct ty; try reflexivity. apply Z.eqb_neq. lia. }
  rewrite Hneg.
  replace (if v <? 0 then tl ((if v <? 0 then [45] else []) ++ ds) else (if v <? 0 then [45] else []) ++ ds)
    with ds by (destruct (v <? 0); reflexivity).
  rewrite L. clear L. f_equal. destruct (Z.ltb_spec v 0) as [N | N].
  - rewrite (Hs N) in *. cbn [umod]. apply sint32_cong; [| exact Hv].
    rewrite Z.mod_mod, Zminus_mod_idemp_r by (unfold W32; lia). f_equal. lia.
  - rewrite Z.abs_eq by exact N. destruct ty; cbn [in_type umod] in *.
    + apply sint32_cong; [apply Z.mod_mod; unfold W32; lia | exact Hv].
    + apply Z.mod_small. exact Hv.
    + apply Z.mod_small. exact Hv.
Qed.

Lemma atoi_total : forall ty text, exists v, fast_atoi ty 0 text = AR_ok v /\ in_type ty v.
Proof.
  intros ty text. unfold fast_atoi.
  set (neg := match ty, text with T_int, c :: _ => c =? 45 | _, _ => false end).
  destruct (atoi_loop_total ty (if neg then tl text else text) 0) as [r [E B]]. rewrite E.
  eexists. split; [reflexivity |].
  specialize (B ltac:(pose proof (umod_pos ty); lia)).
  assert (Hu : 0 <= (if neg then (0 - r) mod umod ty else r) < umod ty)
    by (destruct neg; [apply Z.mod_pos_bound, umod_pos | exact B]).
  destruct ty; [apply sint32_range | exact Hu | exact Hu].
Qed.

Definition ar_opt (r : atoi_result) : option Z := match r with AR_ok v => Some v | _ => None end.

Lemma list_eqb_refl : forall l, list_eqb l l = true.
Proof. induction l as [| x l IH]; cbn [list_eqb]; [reflexivity |]. rewrite Z.eqb_refl, IH. reflexivity. Qed.

Lemma list_eqb_eq : forall a b, list_eqb a b = true -> a = b.
Proof.
  induction a as [| x a IH]; intros [| y b] H; cbn [list_eqb] in H; try discriminate; [reflexivity |].
  apply andb_prop in H. destruct H as [H1 H2]. apply Z.eqb_eq in H1. subst. f_equal. apply IH. exact H2.
Qed.

Lemma c08_int_ok_iff : forall v t r, c08_int_ok v t r = true <-> t = canon_dec v /\ r = v.
Proof.
  intros v t r. unfold c08_int_ok. split.
  - intros H. apply andb_prop in H. destruct H as [H1 H2].
    apply list_eqb_eq in H1. apply Z.eqb_eq in H2. split; assumption.
  - intros [-> ->]. rewrite list_eqb_refl, Z.eqb_refl. reflexivity.
Qed.

Lemma int_roundtrip_exact : forall v, -2147483648 <= v < 2147483648 ->
  int_roundtrip v = Some (canon_dec v, AR_ok v) /\
  c08_int_strict_ok v (canon_dec v) (Some v) = true.
Proof.
  intros v Hv. split.
  - unfold int_roundtrip. rewrite itoa_int_canon by lia.
    rewrite (atoi_canon T_int) by exact Hv. reflexivity.
  - apply c08_int_ok_iff. split; reflexivity.
Qed.

Lemma uint_roundtrip_exact : forall v, 0 <= v < 4294967296 ->
  uint_roundtrip v = Some (canon_dec v, AR_ok v).
Proof.
  intros v Hv. unfold uint_roundtrip. rewrite itoa_uint_canon by lia.
  rewrite (atoi_canon T_uint) by exact Hv. reflexivity.
Qed.

Lemma canon_value_sound : forall t v, canon_value t = Some v -> t = canon_dec v.
Proof.
  intros t v. unfold canon_value.
  destruct (match t with c :: r => if c =? 45 then (true, r) else (false, t) | [] => (false, t) end) as [neg ds].
  destruct (forallb is_dig ds && negb match ds with [] => true | _ :: _ => false end); [| discriminate].
  destruct (list_eqb t (canon_dec (if neg then - digits_value ds else digits_value ds))) eqn:E; [| discriminate].
  intros H. inversion H; subst. apply list_eqb_eq. exact E.
Qed.

Lemma atoi_any_text : forall ty lo hi text, (forall v, lo <= v <= hi -> in_type ty v) ->
  c08_atoi_ok lo hi text (ar_opt (fast_atoi ty 0 text)) = true.
Proof.
  intros ty lo hi text Hty. unfold c08_atoi_ok.
  destruct (canon_value text) as [v |] eqn:E; [| reflexivity].
  apply canon_value_sound in E. subst text.
  destruct (Z.leb_spec lo v); [| reflexivity]. destruct (Z.leb_spec v hi); [| reflexivity].
  rewrite atoi_canon by (apply Hty; lia). apply Z.eqb_refl.
Qed.

Lemma is_dig_true : forall c, 48 <= c <= 57 -> is_dig c = true.
Proof. intros c H. unfold is_dig. apply andb_true_intro. split; apply Z.leb_le; lia. Qed.

Lemma forallb_is_dig : forall l, Forall (fun c => 48 <= c <= 57) l -> forallb is_dig l = true.
Proof.
  intros l H. apply forallb_forall. rewrite Forall_forall in H. intros c Hc. apply is_dig_true, H, Hc.
Qed.

Lemma canon_value_canon_dec : forall v, Z.abs v < 10 ^ 25 -> canon_value (canon_dec v) = Some v.
Proof.
  intros v Hv. unfold canon_value.
  pose proof (dec_digits_are_digits dec_fuel (Z.abs v) ltac:(lia)) as Hds.
  pose proof (canon_digits_nonempty (Z.abs v)) as Hne.
  pose proof (digits_value_dec (Z.abs v) ltac:(lia)) as Hval.
  rewrite (sign_split (v <? 0) _ _ (canon_dec_abs v))
    by (destruct Hds as [| c r Hc _]; [contradiction | cbn [hd]; lia]).
  rewrite (forallb_is_dig _ Hds), Hval.
  destruct (dec_digits dec_fuel (Z.abs v)); [contradiction |]. cbn [negb andb].
  replace (if v <? 0 then - Z.abs v else Z.abs v) with v by (destruct (Z.ltb_spec v 0); lia).
  rewrite list_eqb_refl. reflexivity.
Qed.
