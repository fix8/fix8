(* When is modp_dtoa's rounding right?  In the stage (stage_real) the tests compare t - frac0 with
   1/2, where t is the double nearest y = (|v| - whole) * 10^p; rounding is monotone and
   frac0 +- 1/2 are doubles, hence the tests decide on which side of the half-way point y itself
   lies -- unless t - frac0 is exactly 1/2.  So at precision >= 1 the text is correctly rounded
   whenever the tie test is false; at precision 0, where t = y, always. *)
From Coq Require Import ZArith List Bool Lia Reals Lra.
From Flocq Require Import Core.Core IEEE754.BinarySingleNaN.
From F8 Require Import C08.NumInt C08.NumFloat C08.Spec_C08 C08.NumIntProofs C08.NumFloatProofs
  C08.NumFloatTextProofs C08.NumFloatShapeProofs.
Import ListNotations.
Local Open Scope Z_scope.

Lemma rnd64_gt_inv : forall c y, generic_format radix2 fexp64 c -> (c < rnd64 y)%R -> (c < y)%R.
Proof.
  intros c y Hc H. destruct (Rlt_le_dec c y) as [L | G]; [exact L | exfalso].
  apply rnd64_le in G. rewrite (rnd64_format c Hc) in G. lra.
Qed.
Lemma rnd64_lt_inv : forall c y, generic_format radix2 fexp64 c -> (rnd64 y < c)%R -> (y < c)%R.
Proof.
  intros c y Hc H. destruct (Rlt_le_dec y c) as [L | G]; [exact L | exfalso].
  apply rnd64_le in G. rewrite (rnd64_format c Hc) in G. lra.
Qed.

Lemma format_half_int : forall k, Z.abs k < 2 ^ 51 ->
  generic_format radix2 fexp64 (IZR k + / 2) /\ generic_format radix2 fexp64 (IZR k - / 2).
Proof.
  intros k Hk. split; apply generic_format_FLT.
  - exists (Float radix2 (2 * k + 1) (-1)).
    + unfold F2R. cbn [Fnum Fexp bpow]. change (Z.pow_pos radix2 1) with 2.
      rewrite plus_IZR, mult_IZR. simpl (IZR 2). simpl (IZR 1). field.
    + change (Z.abs (2 * k + 1) < 9007199254740992). lia.
    + cbn [Fexp]. lia.
  - exists (Float radix2 (2 * k - 1) (-1)).
    + unfold F2R. cbn [Fnum Fexp bpow]. change (Z.pow_pos radix2 1) with 2.
      rewrite minus_IZR, mult_IZR. simpl (IZR 2). simpl (IZR 1). field.
    + change (Z.abs (2 * k - 1) < 9007199254740992). lia.
    + cbn [Fexp]. lia.
Qed.

Lemma stage_nearest : forall v p, is_finite v = true -> 1 <= p <= 9 ->
  match dtoa_stage v p with
  | None => True
  | Some st => ds_whole0 st <= 2147483647 -> feq (ds_diff st) fhalf = false ->
               (Rabs (B2R (ds_value st) * IZR (10 ^ p) - IZR (ds_whole st * 10 ^ p + ds_frac st)) < / 2)%R
  end.
Proof.
  intros v p Fv Hp. pose proof (stage_real v p Fv ltac:(lia)) as SR.
  destruct (value_finR v Fv) as [_ Hx]. cbv zeta in *.
  destruct (dtoa_stage v p) as [st |]; [| exact I].
  destruct SR as [_ [Eval [Ew SR]]]. rewrite Eval, Ew. intros Hw1 Htie.
  destruct (SR Hw1) as [Ef [[Hf0 Hf] [Hdiff E]]]. clear SR.
  rewrite (feq_finR _ _ _ _ Hdiff fhalf_finR) in Htie.
  set (value := if flt v fzero then fneg v else v) in *. set (x := B2R value) in *. set (w := Zfloor x) in *.
  set (y := ((x - IZR w) * IZR (10 ^ p))%R) in *. set (f := ds_frac0 st) in *.
  assert (Hw : (IZR w <= x < IZR w + 1)%R) by (split; [apply Zfloor_lb | apply Zfloor_ub]).
  assert (Ht : (IZR f <= rnd64 y < IZR f + 1)%R) by (rewrite Ef; split; [apply Zfloor_lb | apply Zfloor_ub]).
  pose proof (pow10_bounds p ltac:(lia)) as HP.
  destruct (format_half_int f ltac:(lia)) as [Gp Gm].
  assert (Gi1 : generic_format radix2 fexp64 (IZR f + 1))
    by (rewrite <- (plus_IZR f 1); apply format_IZR; lia).
  assert (Exy : forall N, (x * IZR (10 ^ p) - IZR (w * 10 ^ p + N) = y - IZR N)%R)
    by (intros N; unfold y; rewrite plus_IZR, mult_IZR; ring).
  destruct (Rlt_bool_spec (/ 2) (rnd64 y - IZR f)) as [Hgt | Hle].
  - (* diff > 0.5: y lies between frac0 + 1/2 and frac0 + 1 *)
    assert (Y1 : (IZR f + / 2 < y)%R) by (apply (rnd64_gt_inv _ _ Gp); lra).
    assert (Y2 : (y < IZR f + 1)%R) by (apply (rnd64_lt_inv _ _ Gi1); lra).
    destruct (Z.leb_spec (10 ^ p) (f + 1)); injection E as -> ->.
    + replace ((w + 1) * 10 ^ p + 0) with (w * 10 ^ p + (f + 1)) by lia.
      rewrite Exy, plus_IZR. apply Rabs_def1; lra.
    + rewrite Exy, plus_IZR. apply Rabs_def1; lra.
  - (* diff < 0.5: y lies between frac0 - 1/2 and frac0 + 1/2 *)
    rewrite Htie in E. cbn [andb] in E. injection E as -> ->.
    destruct (Req_bool_spec (rnd64 y - IZR f) (/ 2)) as [| Hne]; [discriminate |].
    assert (Y1 : (y < IZR f + / 2)%R) by (apply (rnd64_lt_inv _ _ Gp); lra).
    assert (Y2 : (IZR f - / 2 < y)%R) by (apply (rnd64_gt_inv _ _ Gm); lra).
    rewrite Exy. apply Rabs_def1; lra.
Qed.

Lemma dtoa_correct_off_tie : forall v p, is_finite v = true -> 1 <= p <= 9 ->
  flt thres_max (if flt v fzero then fneg v else v) = false ->
  match dtoa_stage v p with
  | None => False
  | Some st =>
    feq (ds_diff st) fhalf = false ->
    exists fd, modp_dtoa v p = DT_text ((if ds_neg st then [45] else []) ++ dec_digits dec_fuel (ds_whole st) ++ 46 :: fd) /\
               Forall (fun c => 48 <= c <= 57) fd /\ 1 <= Z.of_nat (length fd) <= p /\
               (Rabs (B2R (if flt v fzero then fneg v else v) * IZR (10 ^ p) -
                      IZR (ds_whole st * 10 ^ p + digits_value fd * 10 ^ (p - Z.of_nat (length fd)))) < / 2)%R
  end.
Proof.
  intros v p Fv Hp Hthres.
  assert (Ec : clamp_prec p = p) by (apply clamp_id; lia).
  destruct (dtoa_text_value v p Fv Hthres ltac:(lia)) as [st [fd [Es [Ev [W0 [Wp [Et [Fd [Ld Vd]]]]]]]]].
  rewrite Ec in *. pose proof (stage_nearest v p Fv Hp) as NR. rewrite Es in *.
  intros Htie. exists fd. split; [exact Et |]. split; [exact Fd |]. split; [exact Ld |].
  rewrite Vd. rewrite Ev in NR. exact (NR W0 Htie).
Qed.

Lemma dtoa_p0_nearest_even : forall v, is_finite v = true ->
  flt thres_max (if flt v fzero then fneg v else v) = false ->
  exists N, modp_dtoa v 0 = DT_text ((if flt v fzero then [45] else []) ++ dec_digits dec_fuel N) /\
            0 <= N /\
            (Rabs (B2R (if flt v fzero then fneg v else v) - IZR N) <= / 2)%R /\
            ((Rabs (B2R (if flt v fzero then fneg v else v) - IZR N) = / 2)%R -> Z.even N = true).
Proof.
  intros v Fv Hthres.
  destruct (dtoa_within v 0 Fv Hthres) as [st [Es [Eneg [Eval [B0 [B1 [_ [_ E]]]]]]]].
  cbv zeta in *. change (clamp_prec 0) with 0 in *. cbn [Z.eqb] in E.
  exists (whole_p0 st). rewrite E, Eneg. split; [reflexivity |].
  (* the stage at precision 0: t = x - w exactly, frac0 = 0, and whole = w + 1 iff x - w > 1/2 *)
  pose proof (stage_real v 0 Fv ltac:(lia)) as SR. cbv zeta in SR. rewrite Es in SR.
  destruct SR as [_ [_ [Ew SR]]]. destruct (SR ltac:(lia)) as [_ [Hf [_ Ep]]]. clear SR.
  destruct (value_finR v Fv) as [Hval Hx]. cbv zeta in *.
  set (value := if flt v fzero then fneg v else v) in *. set (x := B2R value) in *.
  pose proof (sub_floor_format value x Hval Hx) as Xd. set (w := Zfloor x) in *.
  change (B2R (if flt v fzero then fneg v else v)) with x.
  assert (Hw : (IZR w <= x < IZR w + 1)%R) by (split; [apply Zfloor_lb | apply Zfloor_ub]).
  change (IZR (10 ^ 0)) with 1%R in Ep. rewrite Rmult_1_r, (rnd64_format _ Xd) in Ep.
  replace (ds_frac0 st) with 0 in Ep by (change (10 ^ 0) with 1 in Hf; lia).
  simpl (IZR 0) in Ep. rewrite Rminus_0_r in Ep.
  unfold whole_p0. rewrite Eval.
  destruct (Rlt_bool_spec (/ 2) (x - IZR w)) as [Hgt | Hle].
  - (* x - w > 1/2: the stage moved to w + 1, and x - (w + 1) rounds into [-1, 0] *)
    injection Ep as _ ->.
    assert (Hd : finR (fsub value (f_of_Z (w + 1))) (rnd64 (x - IZR (w + 1)))).
    { apply fsub_finR; [exact Hval | apply f_of_Z_finR; lia |].
      rewrite plus_IZR. apply Rabs_le. lra. }
    assert (Hneg : (IZR (-1) <= rnd64 (x - IZR (w + 1)) <= IZR 0)%R)
      by (apply rnd64_between; [reflexivity | reflexivity | rewrite plus_IZR; simpl; lra]).
    simpl in Hneg.
    rewrite (flt_finR _ _ _ _ fhalf_finR Hd), (feq_finR _ _ _ _ Hd fhalf_finR).
    rewrite Rlt_bool_false, Req_bool_false by lra. cbn [andb].
    assert (Habs : (Rabs (x - IZR (w + 1)) < / 2)%R) by (rewrite plus_IZR; apply Rabs_def1; lra).
    split; [lia |]. split; [lra | intros Hx2; lra].
  - (* x - w <= 1/2: the stage keeps w (frac is irrelevant at precision 0) *)
    assert (Ewh : ds_whole st = w) by (destruct (_ && _) in Ep; injection Ep as _ ->; reflexivity).
    rewrite Ewh.
    assert (Hd : finR (fsub value (f_of_Z w)) (x - IZR w))
      by (apply fsub_floor; [exact Hval | assert (IZR w <= 2147483647)%R by (apply IZR_le; lia); lra]).
    rewrite (flt_finR _ _ _ _ fhalf_finR Hd), (feq_finR _ _ _ _ Hd fhalf_finR).
    rewrite Rlt_bool_false by lra.
    destruct (Req_bool_spec (x - IZR w) (/ 2)) as [Heq | Hne]; cbn [andb].
    + destruct (Z.odd w) eqn:Eodd.
      * split; [lia |]. rewrite plus_IZR.
        replace (x - (IZR w + 1))%R with (- / 2)%R by lra. rewrite Rabs_Ropp, Rabs_pos_eq by lra.
        split; [lra |]. intros _. rewrite Z.even_add, <- Z.negb_odd, Eodd. reflexivity.
      * split; [lia |]. rewrite Heq, Rabs_pos_eq by lra.
        split; [lra |]. intros _. rewrite <- Z.negb_odd, Eodd. reflexivity.
    + assert (Habs : (Rabs (x - IZR w) < / 2)%R) by (apply Rabs_def1; lra).
      split; [lia |]. split; [lra | intros Hx2; lra].
Qed.
