(* modp_dtoa on arbitrary finite doubles.  Both subtractions of the rounding stage are exact, so
   the stage is determined by one rounded number and its integer part (stage_real); with the
   routine in closed form (modp_dtoa_eq) this gives the shape of every text, the outcomes inside
   the threshold and the number the text denotes. *)
From Coq Require Import ZArith List Bool Lia Reals Lra.
From Flocq Require Import Core.Core IEEE754.BinarySingleNaN.
From F8 Require Import C08.NumInt C08.NumFloat C08.Spec_C08 C08.NumIntProofs C08.NumFloatProofs
  C08.NumFloatTextProofs.
Import ListNotations.
Local Open Scope Z_scope.

Local Instance fexp64_valid : Valid_exp fexp64.
Proof. unfold fexp64. apply FLT_exp_valid. reflexivity. Qed.

(* a non-negative double minus its integer part is a double *)
Lemma sub_floor_format : forall (x : f64) r, finR x r -> (0 <= r)%R ->
  generic_format radix2 fexp64 (r - IZR (Zfloor r)).
Proof.
  intros x r [Fx <-] Hr. set (w := Zfloor (B2R x)).
  assert (Hw : (IZR w <= B2R x < IZR w + 1)%R) by (split; [apply Zfloor_lb | apply Zfloor_ub]).
  assert (Hw0 : 0 <= w) by (apply Zfloor_lub; exact Hr).
  destruct (FLT_format_B2R 53 1024 Hprec64 x) as [[mf ef] E Hm He].
  cbn [Fnum Fexp] in Hm, He. rewrite E in *. unfold F2R in *. cbn [Fnum Fexp] in *.
  assert (Hbp : (0 < bpow radix2 ef)%R) by apply bpow_gt_0.
  destruct (Z_le_gt_dec 0 ef) as [Ep | En].
  - (* an integer: equal to w *)
    rewrite <- IZR_Zpower in * by exact Ep. rewrite <- mult_IZR in *.
    assert (mf * radix2 ^ ef = w).
    { apply Z.le_antisymm; [| apply le_IZR; lra].
      assert (mf * radix2 ^ ef < w + 1); [| lia]. apply lt_IZR. rewrite plus_IZR. lra. }
    rewrite H. rewrite Rminus_diag_eq by reflexivity. apply generic_format_0.
  - (* mf * 2^ef - w = (mf - w * 2^-ef) * 2^ef, with a mantissa between 0 and mf *)
    assert (E2 : (IZR (w * 2 ^ (- ef)) * bpow radix2 ef = IZR w)%R).
    { rewrite mult_IZR. change (2 ^ (- ef)) with (radix2 ^ (- ef)). rewrite (IZR_Zpower radix2 (- ef)) by lia.
      rewrite Rmult_assoc, <- bpow_plus. replace (- ef + ef) with 0 by lia. cbn [bpow]. ring. }
    apply generic_format_FLT. exists (Float radix2 (mf - w * 2 ^ (- ef)) ef).
    + unfold F2R. cbn [Fnum Fexp]. rewrite minus_IZR, Rmult_minus_distr_r, E2. reflexivity.
    + cbn [Fnum].
      assert (0 <= IZR w)%R by (apply IZR_le; lia).
      assert (0 <= mf) by (apply le_IZR, Rmult_le_reg_r with (1 := Hbp); lra).
      assert (w * 2 ^ (- ef) <= mf) by (apply le_IZR, Rmult_le_reg_r with (1 := Hbp); lra).
      assert (0 <= w * 2 ^ (- ef)) by (apply Z.mul_nonneg_nonneg; [| apply Z.pow_nonneg]; lia). lia.
    + cbn [Fexp]. exact He.
Qed.

(* hence value - (int)value and tmp - (uint32_t)tmp are computed exactly *)
Lemma fsub_floor : forall x r, finR x r -> (0 <= r <= 4294967296)%R ->
  finR (fsub x (f_of_Z (Zfloor r))) (r - IZR (Zfloor r)).
Proof.
  intros x r Hx Hr. pose proof (Zfloor_lb r). pose proof (Zfloor_ub r).
  assert (0 <= Zfloor r <= 4294967296) by (split; [apply Zfloor_lub | apply le_IZR]; lra).
  rewrite <- (rnd64_format _ (sub_floor_format x r Hx (proj1 Hr))).
  apply fsub_finR; [exact Hx | apply f_of_Z_finR; lia |].
  rewrite Rabs_pos_eq; lra.
Qed.

(* the largest double below 1 *)
Definition fpred1 : f64 := f_of_Z2 9007199254740991 (-53).

Lemma fpred1_finR : finR fpred1 (1 - bpow radix2 (-53)).
Proof.
  replace (1 - bpow radix2 (-53))%R with (F2R (Float radix2 9007199254740991 (-53)));
    [apply f_of_Z2_exact; [reflexivity | lia] |].
  unfold F2R. cbn [Fnum Fexp]. replace 9007199254740991 with (9007199254740992 - 1) by reflexivity.
  rewrite minus_IZR. change 9007199254740992 with (radix2 ^ 53). rewrite IZR_Zpower by lia.
  rewrite Rmult_minus_distr_r, <- bpow_plus. simpl (53 + -53). simpl (bpow radix2 0). simpl (IZR 1). ring.
Qed.

Lemma below_one : forall (d : f64) r, finR d r -> (r < 1)%R -> (r <= 1 - bpow radix2 (-53))%R.
Proof.
  intros d r [Fd <-] H.
  assert (F1 : generic_format radix2 fexp64 1) by (apply (format_IZR 1); reflexivity).
  pose proof (pred_ge_gt radix2 fexp64 (B2R d) 1 (generic_format_B2R 53 1024 d) F1 H) as P.
  change 1%R with (bpow radix2 0) in P. rewrite pred_bpow in P. exact P.
Qed.

(* (pred 1) * 10^p rounds below 10^p: checked by computation for p = 1..9 *)
Lemma pred1_pow_lt : forall p, 1 <= p <= 9 -> flt (fmul fpred1 (pow10_tab p)) (pow10_tab p) = true.
Proof.
  intros p Hp.
  assert (H : p = 1 \/ p = 2 \/ p = 3 \/ p = 4 \/ p = 5 \/ p = 6 \/ p = 7 \/ p = 8 \/ p = 9) by lia.
  repeat (destruct H as [-> | H]; [vm_compute; reflexivity |]). subst p. vm_compute. reflexivity.
Qed.

Lemma tmp_lt_pow : forall (d : f64) r p, finR d r -> (0 <= r < 1)%R -> 1 <= p <= 9 ->
  (rnd64 (r * IZR (10 ^ p)) < IZR (10 ^ p))%R.
Proof.
  intros d r p Hd Hr Hp.
  pose proof (pow10_bounds p ltac:(lia)) as HP.
  assert (HPR : (1 <= IZR (10 ^ p) <= 1000000000)%R) by (split; apply IZR_le; lia).
  assert (B : (0 < bpow radix2 (-53) < 1)%R)
    by (split; [apply bpow_gt_0 | change 1%R with (bpow radix2 0); apply bpow_lt; lia]).
  pose proof (pow10_tab_finR p ltac:(lia)) as Hpw.
  assert (Hm : finR (fmul fpred1 (pow10_tab p)) (rnd64 ((1 - bpow radix2 (-53)) * IZR (10 ^ p))))
    by (apply fmul_finR; [exact fpred1_finR | exact Hpw |];
        pose proof (scaled_unit (1 - bpow radix2 (-53)) (IZR (10 ^ p))); rewrite Rabs_pos_eq; lra).
  pose proof (pred1_pow_lt p Hp) as L. rewrite (flt_finR _ _ _ _ Hm Hpw) in L.
  destruct (Rlt_bool_spec (rnd64 ((1 - bpow radix2 (-53)) * IZR (10 ^ p))) (IZR (10 ^ p))) as [L' | L'];
    [| discriminate].
  apply Rle_lt_trans with (2 := L'). apply rnd64_le.
  apply Rmult_le_compat_r; [lra | apply (below_one d); [exact Hd | lra]].
Qed.

Lemma value_finR : forall v, is_finite v = true ->
  let value := if flt v fzero then fneg v else v in finR value (B2R value) /\ (0 <= B2R value)%R.
Proof.
  intros v Fv. destruct (abs_value v _ (conj Fv eq_refl)) as [F R].
  split; [split; [exact F | reflexivity] | rewrite R; apply Rabs_pos].
Qed.

(* The stage in real numbers.  With x = |v| and w = floor x (the int cast), tmp holds
   t = the double nearest (x - w) * 10^p, frac0 = floor t (the uint32 cast) is below 10^p, diff
   holds t - frac0 exactly, and the two tests compare that number with 1/2. *)
Lemma stage_real : forall v p, is_finite v = true -> 0 <= p <= 9 ->
  let value := if flt v fzero then fneg v else v in
  let w := Zfloor (B2R value) in
  match dtoa_stage v p with
  | None => 2147483647 < w
  | Some st =>
    ds_neg st = flt v fzero /\ ds_value st = value /\ ds_whole0 st = w /\
    (w <= 2147483647 ->
     let t := rnd64 ((B2R value - IZR w) * IZR (10 ^ p)) in
     let f := ds_frac0 st in
     f = Zfloor t /\ 0 <= f < 10 ^ p /\ finR (ds_diff st) (t - IZR f) /\
     (ds_frac st, ds_whole st) =
       (if Rlt_bool (/ 2) (t - IZR f)
        then if 10 ^ p <=? f + 1 then (0, w + 1) else (f + 1, w)
        else if Req_bool (t - IZR f) (/ 2) && ((f =? 0) || Z.odd f)
        then if (0 <? p) && (10 ^ p <=? f + 1) then (0, w + 1) else (f + 1, w)
        else (f, w)))
  end.
Proof.
  intros v p Fv Hp. destruct (value_finR v Fv) as [Hval Hx].
  unfold dtoa_stage, dtoa_stage_gen. cbv zeta in *.
  set (value := if flt v fzero then fneg v else v) in *. set (x := B2R value) in *.
  rewrite (trunc_floor value x Hval Hx). set (w := Zfloor x).
  assert (Hw : (IZR w <= x < IZR w + 1)%R) by (split; [apply Zfloor_lb | apply Zfloor_ub]).
  destruct (Z_le_gt_dec w 2147483647) as [Hw1 | Hw1].
  2:{ destruct (trunc_f64 _); [| lia]. destruct (if flt fhalf _ then _ else _).
      cbn [ds_neg ds_value ds_whole0]. repeat split; lia. }
  pose proof (pow10_bounds p Hp) as HP.
  assert (HPR : (1 <= IZR (10 ^ p) <= 1000000000)%R) by (split; apply IZR_le; lia).
  assert (Hw1R : (IZR w <= 2147483647)%R) by (apply IZR_le; exact Hw1).
  assert (Hd : finR (fsub value (f_of_Z w)) (x - IZR w)) by (apply fsub_floor; [exact Hval | lra]).
  set (y := ((x - IZR w) * IZR (10 ^ p))%R).
  assert (Hy : (0 <= y <= IZR (10 ^ p))%R) by (apply scaled_unit; lra).
  assert (Ht : finR (fmul (fsub value (f_of_Z w)) (pow10_tab p)) (rnd64 y))
    by (apply fmul_finR; [exact Hd | apply pow10_tab_finR; exact Hp | fold y; rewrite Rabs_pos_eq; lra]).
  assert (Ht01 : (0 <= rnd64 y <= IZR (10 ^ p))%R)
    by (apply (rnd64_between 0 (10 ^ p)); [reflexivity | lia | exact Hy]).
  set (t := rnd64 y) in *.
  rewrite (trunc_floor _ t Ht (proj1 Ht01)). set (f := Zfloor t).
  assert (Hf : (IZR f <= t < IZR f + 1)%R) by (split; [apply Zfloor_lb | apply Zfloor_ub]).
  assert (Hf0 : 0 <= f) by (apply Zfloor_lub; exact (proj1 Ht01)).
  assert (Hflt : f < 10 ^ p).
  { apply lt_IZR. apply Rle_lt_trans with (1 := proj1 Hf). destruct (Z.eq_dec p 0) as [-> | Pn].
    - unfold t, y. change (IZR (10 ^ 0)) with 1%R.
      rewrite Rmult_1_r, (rnd64_format _ (sub_floor_format value x Hval Hx : generic_format _ _ (x - IZR w))).
      lra.
    - apply (tmp_lt_pow _ _ p Hd); [lra | lia]. }
  assert (Hdiff : finR (fsub (fmul (fsub value (f_of_Z w)) (pow10_tab p)) (f_of_Z f)) (t - IZR f))
    by (apply fsub_floor; [exact Ht | lra]).
  rewrite (Z.mod_small (f + 1)) by (unfold W32; lia).
  rewrite (fle_finR _ _ _ _ (pow10_tab_finR p Hp)
             (f_of_Z_finR (f + 1) ltac:(lia))), Rle_bool_IZR.
  rewrite (flt_finR _ _ _ _ fhalf_finR Hdiff), (feq_finR _ _ _ _ Hdiff fhalf_finR). cbn [andb].
  remember (if Rlt_bool (/ 2) (t - IZR f) then _ else _) as r eqn:E. destruct r as [frac whole].
  cbn [ds_neg ds_value ds_whole0 ds_frac0 ds_diff ds_frac ds_whole].
  repeat split; try lia; try apply Hdiff. exact E.
Qed.

Lemma stage_bounds : forall v p, is_finite v = true -> 0 <= p <= 9 ->
  let value := if flt v fzero then fneg v else v in
  match dtoa_stage v p with
  | None => (2147483647 < B2R value)%R
  | Some st =>
    ds_neg st = flt v fzero /\ ds_value st = value /\
    ((B2R value <= 2147483647)%R -> ds_whole0 st <= 2147483647) /\
    (ds_whole0 st <= 2147483647 ->
     0 <= ds_whole0 st /\ ds_whole0 st <= ds_whole st <= ds_whole0 st + 1 /\
     0 <= ds_frac st <= 10 ^ p /\ (1 <= p -> ds_frac st < 10 ^ p) /\
     ((B2R value <= 2147483647)%R -> ds_whole st <= 2147483647))
  end.
Proof.
  intros v p Fv Hp. pose proof (stage_real v p Fv Hp) as SR. destruct (value_finR v Fv) as [_ Hx].
  cbv zeta in *. set (value := if flt v fzero then fneg v else v) in *. set (x := B2R value) in *.
  assert (Hw : (IZR (Zfloor x) <= x < IZR (Zfloor x) + 1)%R) by (split; [apply Zfloor_lb | apply Zfloor_ub]).
  destruct (dtoa_stage v p) as [st |].
  2:{ apply Rlt_le_trans with (2 := proj1 Hw). apply IZR_lt. exact SR. }
  destruct SR as [Eneg [Eval [Ew SR]]]. rewrite Ew. set (w := Zfloor x) in *.
  split; [exact Eneg |]. split; [exact Eval |]. split; [intros Hle; apply le_IZR; lra |].
  intros Hw1. destruct (SR Hw1) as [Ef [[Hf0 Hf] [_ E]]]. clear SR.
  set (f := ds_frac0 st) in *. set (t := rnd64 ((x - IZR w) * IZR (10 ^ p))) in *.
  assert (Hw0 : 0 <= w) by (apply Zfloor_lub; exact Hx).
  (* ++whole happens only when t > 0, that is when x is not the integer w *)
  assert (Hup : (0 < t)%R -> (x <= 2147483647)%R -> w < 2147483647).
  { intros Ht Hle. apply lt_IZR. destruct (Req_dec x (IZR w)) as [Ex | Nx]; [| lra].
    unfold t in Ht. rewrite Ex, Rminus_diag_eq, Rmult_0_l, rnd64_0 in Ht by reflexivity. lra. }
  assert (Hft : (IZR f <= t)%R) by (rewrite Ef; apply Zfloor_lb).
  assert (Hf0R : (0 <= IZR f)%R) by (apply IZR_le; exact Hf0).
  destruct (Rlt_bool_spec (/ 2) (t - IZR f)) as [Hgt | Hle].
  - specialize (Hup ltac:(lra)).
    destruct (Z.leb_spec (10 ^ p) (f + 1)); injection E as -> ->; repeat split; intros; lia.
  - destruct (Req_bool_spec (t - IZR f) (/ 2)) as [Heq | Hne]; cbn [andb] in E.
    + specialize (Hup ltac:(lra)).
      destruct ((f =? 0) || Z.odd f); [destruct (Z.ltb_spec 0 p); cbn [andb] in E;
        [destruct (Z.leb_spec (10 ^ p) (f + 1)) |] |];
        injection E as -> ->; repeat split; intros; lia.
    + injection E as -> ->. repeat split; intros; lia.
Qed.

Lemma clamp_range : forall p, 0 <= clamp_prec p <= 9.
Proof.
  intros p. unfold clamp_prec. destruct (Z.ltb_spec p 0); [lia |]. destruct (Z.ltb_spec 9 p); lia.
Qed.

Lemma clamp_id : forall p, 0 <= p <= 9 -> clamp_prec p = p.
Proof.
  intros p Hp. unfold clamp_prec.
  destruct (Z.ltb_spec p 0); [lia |]. destruct (Z.ltb_spec 9 p); [lia | reflexivity].
Qed.

(* the second rounding, of the whole part, at precision 0 *)
Definition whole_p0 (st : dstage) : Z :=
  let diff := fsub (ds_value st) (f_of_Z (ds_whole st)) in
  if flt fhalf diff then ds_whole st + 1
  else if feq diff fhalf && Z.odd (ds_whole st) then ds_whole st + 1 else ds_whole st.

(* in particular the digit loops never run out of fuel *)
Lemma modp_dtoa_eq : forall v p0, is_finite v = true ->
  modp_dtoa v p0 =
  let p := clamp_prec p0 in
  match dtoa_stage v p with
  | None => DT_sprintf
  | Some st =>
    if 2147483647 <? ds_whole0 st then DT_sprintf
    else if 2147483647 <? ds_whole st then DT_overflow
    else if flt thres_max (ds_value st) then DT_sprintf
    else DT_text ((if ds_neg st then [45] else []) ++
                  (if p =? 0 then dec_digits dec_fuel (whole_p0 st)
                   else dec_digits dec_fuel (ds_whole st) ++ 46 :: frac_digits p (ds_frac st)))
  end.
Proof.
  intros v p0 Fv. unfold modp_dtoa, modp_dtoa_with.
  rewrite (feq_finR v v _ _ (conj Fv eq_refl) (conj Fv eq_refl)), Req_bool_true by reflexivity.
  cbn [negb]. cbv zeta.
  pose proof (clamp_range p0) as Hp. set (p := clamp_prec p0) in *.
  pose proof (stage_bounds v p Fv Hp) as SB. cbv zeta in SB.
  destruct (dtoa_stage v p) as [st |]; [| reflexivity].
  destruct SB as [_ [_ [_ SB]]].
  destruct (Z.ltb_spec 2147483647 (ds_whole0 st)) as [W0 | W0]; [reflexivity |].
  destruct (SB W0) as [B0 [B1 [B2 [B2' _]]]].
  destruct (Z.ltb_spec 2147483647 (ds_whole st)) as [W1 | W1]; [reflexivity |].
  destruct (flt thres_max (ds_value st)); [reflexivity |].
  destruct (Z.eqb_spec p 0) as [P0 | P0].
  - assert (HW : 0 <= whole_p0 st < 10 ^ 12).
    { unfold whole_p0. cbv zeta.
      destruct (flt fhalf _); [lia |]. destruct (_ && _); lia. }
    apply (finish_text (ds_neg st) _ []) in HW. unfold whole_p0 in HW |- *. cbv zeta in HW.
    rewrite HW. cbn [rev]. rewrite app_nil_r. reflexivity.
  - destruct (frac_digits_spec p (ds_frac st)) as [Hsome _]; [lia | lia |].
    unfold frac_digits.
    destruct (frac_loop dtoa_fuel (ds_frac st) p 0 []) as [[[buf count] done] |]; [| contradiction].
    rewrite finish_text by lia.
    unfold emit at 1. rewrite rev_unit. reflexivity.
Qed.

Lemma dtoa_shape : forall v p0, is_finite v = true ->
  match modp_dtoa v p0 with
  | DT_text t => c08_shape_ok (clamp_prec p0) t = true
  | DT_fuel => False
  | _ => True
  end.
Proof.
  intros v p0 Fv. rewrite (modp_dtoa_eq v p0 Fv). cbv zeta.
  pose proof (clamp_range p0) as Hp. set (p := clamp_prec p0) in *.
  pose proof (stage_bounds v p Fv Hp) as SB. cbv zeta in SB.
  destruct (dtoa_stage v p) as [st |]; [| exact I].
  destruct SB as [_ [_ [_ SB]]].
  destruct (Z.ltb_spec 2147483647 (ds_whole0 st)) as [W0 | W0]; [exact I |].
  destruct (SB W0) as [B0 [B1 [B2 [B2' _]]]].
  destruct (Z.ltb_spec 2147483647 (ds_whole st)) as [W1 | W1]; [exact I |].
  destruct (flt thres_max (ds_value st)); [exact I |].
  unfold c08_shape_ok.
  destruct (Z.eqb_spec p 0) as [P0 | P0].
  - assert (HW : 0 <= whole_p0 st <= 2147483648)
      by (unfold whole_p0; cbv zeta; destruct (flt fhalf _); [lia |]; destruct (_ && _); lia).
    pose proof (split_dec_text (ds_neg st) (dec_digits dec_fuel (whole_p0 st)) None) as SD.
    cbv iota in SD. rewrite app_nil_r in SD.
    rewrite SD; [| apply dec_digits_are_digits; lia | apply canon_digits_nonempty | exact I].
    rewrite dec_digits_no_leading_zero by lia.
    reflexivity.
  - destruct (frac_digits_spec p (ds_frac st)) as [_ [Hfd [Hlen _]]]; [lia | lia |].
    pose proof (split_dec_text (ds_neg st) (dec_digits dec_fuel (ds_whole st))
                  (Some (frac_digits p (ds_frac st)))) as SD.
    cbv iota in SD.
    rewrite SD; [| apply dec_digits_are_digits; lia | apply canon_digits_nonempty |].
    + rewrite dec_digits_no_leading_zero by lia.
      cbn [andb]. apply andb_true_intro. split; apply Z.leb_le; lia.
    + split; [exact Hfd |]. intros E. rewrite E in Hlen. cbn in Hlen. lia.
Qed.

Lemma flt_thres_real : forall (x : f64) r, finR x r -> flt thres_max x = false -> (r <= 2147483647)%R.
Proof.
  intros x r Hx H. rewrite (flt_finR thres_max x _ r (f_of_Z_finR 2147483647 ltac:(reflexivity)) Hx) in H.
  destruct (Rlt_bool_spec 2147483647 r); [discriminate | assumption].
Qed.

(* the hypothesis is the threshold test the code itself makes: |v| <= 2^31 - 1 *)
Lemma dtoa_within : forall v p0, is_finite v = true ->
  flt thres_max (if flt v fzero then fneg v else v) = false ->
  let p := clamp_prec p0 in
  exists st, dtoa_stage v p = Some st /\
    ds_neg st = flt v fzero /\ ds_value st = (if flt v fzero then fneg v else v) /\
    0 <= ds_whole0 st <= 2147483647 /\ ds_whole0 st <= ds_whole st <= 2147483647 /\
    0 <= ds_frac st <= 10 ^ p /\ (1 <= p -> ds_frac st < 10 ^ p) /\
    modp_dtoa v p0 =
    DT_text ((if ds_neg st then [45] else []) ++
             (if p =? 0 then dec_digits dec_fuel (whole_p0 st)
              else dec_digits dec_fuel (ds_whole st) ++ 46 :: frac_digits p (ds_frac st))).
Proof.
  intros v p0 Fv Hthres. rewrite (modp_dtoa_eq v p0 Fv). cbv zeta.
  pose proof (clamp_range p0) as Hp. set (p := clamp_prec p0) in *.
  pose proof (stage_bounds v p Fv Hp) as SB. cbv zeta in SB.
  destruct (value_finR v Fv) as [Hval _]. cbv zeta in Hval.
  pose proof (flt_thres_real _ _ Hval Hthres) as Hle.
  destruct (dtoa_stage v p) as [st |]; [| lra].
  destruct SB as [Eneg [Eval [SB0 SB]]]. specialize (SB0 Hle).
  destruct (SB SB0) as [B0 [B1 [B2 [B2' B3]]]]. specialize (B3 Hle).
  exists st. rewrite Eval, Hthres.
  destruct (Z.ltb_spec 2147483647 (ds_whole0 st)); [lia |].
  destruct (Z.ltb_spec 2147483647 (ds_whole st)); [lia |].
  repeat split; try assumption; lia.
Qed.

Lemma dtoa_text_within : forall v p0, is_finite v = true ->
  flt thres_max (if flt v fzero then fneg v else v) = false ->
  exists t, modp_dtoa v p0 = DT_text t /\ c08_shape_ok (clamp_prec p0) t = true.
Proof.
  intros v p0 Fv Hthres. pose proof (dtoa_shape v p0 Fv) as SH.
  destruct (dtoa_within v p0 Fv Hthres) as [st [_ [_ [_ [_ [_ [_ [_ E]]]]]]]].
  rewrite E in *. eexists. split; [reflexivity | exact SH].
Qed.

(* frac < 10^p holds since a6c4c45 *)
Lemma dtoa_text_value : forall v p0, is_finite v = true ->
  flt thres_max (if flt v fzero then fneg v else v) = false -> 1 <= clamp_prec p0 ->
  exists st fd,
    dtoa_stage v (clamp_prec p0) = Some st /\
    ds_value st = (if flt v fzero then fneg v else v) /\
    ds_whole0 st <= 2147483647 /\ 0 <= ds_whole st /\
    modp_dtoa v p0 = DT_text ((if ds_neg st then [45] else []) ++ dec_digits dec_fuel (ds_whole st) ++ 46 :: fd) /\
    Forall (fun c => 48 <= c <= 57) fd /\ 1 <= Z.of_nat (length fd) <= clamp_prec p0 /\
    digits_value fd * 10 ^ (clamp_prec p0 - Z.of_nat (length fd)) = ds_frac st.
Proof.
  intros v p0 Fv Hthres P1. pose proof (clamp_range p0) as Hp.
  destruct (dtoa_within v p0 Fv Hthres) as [st [Es [_ [Eval [B0 [B1 [B2 [B2' E]]]]]]]].
  cbv zeta in *. set (p := clamp_prec p0) in *.
  destruct (Z.eqb_spec p 0) as [P0 | _]; [lia |].
  destruct (frac_digits_spec p (ds_frac st)) as [_ [Hfd [Hlen Hv]]]; [lia | lia |].
  exists st, (frac_digits p (ds_frac st)). repeat split; try assumption; lia.
Qed.
