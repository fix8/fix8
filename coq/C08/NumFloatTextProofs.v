(* The digit loops of modp_dtoa in closed form, in the decimal digits of the specification:
   whole_loop writes dec_digits of the whole part; the fraction loop drops the trailing zeros of
   frac and the padding restores the leading ones, so that the fraction digits, read as a number
   and scaled back to p places, are frac.  Also: how the specification's split_dec reads a text of
   the shape  [-] digits [. digits]. *)
From Coq Require Import ZArith List Bool Lia.
From F8 Require Import C08.NumInt C08.NumFloat C08.Spec_C08 C08.NumIntProofs.
Import ListNotations.
Local Open Scope Z_scope.

Lemma pow10_bounds : forall p, 0 <= p <= 9 -> 1 <= 10 ^ p <= 1000000000.
Proof.
  intros p Hp. assert (10 ^ p <= 10 ^ 9) by (apply Z.pow_le_mono_r; lia).
  assert (0 < 10 ^ p) by (apply Z.pow_pos_nonneg; lia). lia.
Qed.

Lemma digits_value_app : forall a b, digits_value (a ++ b) = digits_value a * 10 ^ Z.of_nat (length b) + digits_value b.
Proof.
  intros a b. induction b as [| c b IH] using rev_ind.
  - rewrite app_nil_r. change (digits_value []) with 0. change (10 ^ Z.of_nat (length (@nil Z))) with 1. lia.
  - rewrite app_assoc, !digits_value_snoc, IH, app_length, Nat.add_1_r, pow10_S. ring.
Qed.

Lemma digits_value_zeros : forall l, Forall (fun c => c = 48) l -> digits_value l = 0.
Proof.
  induction l as [| c l IH] using rev_ind; intros H; [reflexivity |].
  apply Forall_app in H. destruct H as [Hl Hc]. inversion Hc; subst.
  rewrite digits_value_snoc, IH by exact Hl. reflexivity.
Qed.

Lemma whole_loop_digits : forall f w buf, 0 <= w < 10 ^ Z.of_nat f -> (0 < f)%nat ->
  whole_loop f w buf = Some (buf ++ rev (dec_digits f w)).
Proof.
  induction f as [| f IH]; intros w buf Hw Hf; [lia |].
  cbn [whole_loop]. rewrite dec_digits_step, Z.rem_mod_nonneg, Z.quot_div_nonneg by lia.
  destruct (Z.eqb_spec (w / 10) 0); [reflexivity |].
  rewrite pow10_S in Hw. rewrite IH by (try apply (fuel_pos _ (w / 10)); lia).
  unfold emit. rewrite <- app_assoc. reflexivity.
Qed.

(* the end of modp_dtoa: the whole part, the sign, the reversal *)
Lemma finish_text : forall (neg : bool) whole buf, 0 <= whole < 10 ^ 12 ->
  match whole_loop dtoa_fuel whole buf with
  | Some b => DT_text (strreverse (if neg then emit b 45 else b))
  | None => DT_fuel
  end = DT_text ((if neg then [45] else []) ++ dec_digits dec_fuel whole ++ rev buf).
Proof.
  intros neg whole buf Hw.
  rewrite whole_loop_digits by (unfold dtoa_fuel; lia).
  rewrite (dec_digits_fuel dtoa_fuel dec_fuel) by (unfold dtoa_fuel, dec_fuel; lia).
  unfold strreverse, emit. destruct neg.
  - rewrite rev_unit, rev_app_distr, rev_involutive. reflexivity.
  - rewrite rev_app_distr, rev_involutive. reflexivity.
Qed.

(* one iteration, with the two cases in which a character is written taken together: the
   character is then the last digit of frac *)
Lemma frac_loop_S : forall f frac count done buf,
  frac_loop (S f) frac count done buf =
  let buf' := if (frac mod 10 =? 0) && (done =? 0) then buf else emit buf (48 + frac mod 10) in
  let done' := if frac mod 10 =? 0 then done else done + (48 + frac mod 10) in
  if frac / 10 =? 0 then Some (buf', count - 1, done')
  else frac_loop f (frac / 10) (count - 1) done' buf'.
Proof.
  intros. cbn [frac_loop].
  destruct (Z.eqb_spec (frac mod 10) 0) as [-> |]; [destruct (done =? 0) |]; reflexivity.
Qed.

(* once a digit has been written, or when the last digit of frac is not 0, every digit is
   written, as in whole_loop *)
Lemma frac_loop_all : forall f frac count done buf,
  0 <= frac < 10 ^ Z.of_nat f -> (0 < f)%nat -> 0 <= done -> done <> 0 \/ frac mod 10 <> 0 ->
  let new := rev (dec_digits f frac) in
  exists done', done' <> 0 /\
    frac_loop f frac count done buf = Some (buf ++ new, count - Z.of_nat (length new), done').
Proof.
  induction f as [| f IH]; intros frac count done buf Hfrac Hf Hd Hw; [lia |].
  cbv zeta. rewrite frac_loop_S, dec_digits_step by lia. cbv zeta.
  replace ((frac mod 10 =? 0) && (done =? 0)) with false
    by (destruct (Z.eqb_spec (frac mod 10) 0); destruct (Z.eqb_spec done 0); try reflexivity; lia).
  set (done1 := if frac mod 10 =? 0 then done else done + (48 + frac mod 10)).
  assert (Hd1 : 0 < done1) by (unfold done1; destruct (Z.eqb_spec (frac mod 10) 0); lia).
  destruct (Z.eqb_spec (frac / 10) 0).
  - exists done1. split; [lia | reflexivity].
  - rewrite pow10_S in Hfrac.
    destruct (IH (frac / 10) (count - 1) done1 (emit buf (48 + frac mod 10))) as [done' [N E]];
      [lia | apply (fuel_pos _ (frac / 10)); lia | lia | left; lia |].
    exists done'. split; [exact N |]. rewrite E. unfold emit. rewrite <- app_assoc.
    cbn [app length]. do 3 f_equal. lia.
Qed.

(* before that, the trailing zeros of frac are skipped *)
Lemma frac_loop_skip : forall f frac count buf, 0 < frac < 10 ^ Z.of_nat f ->
  exists z m done', 0 <= z /\ 0 < m /\ frac = m * 10 ^ z /\ done' <> 0 /\
    frac_loop f frac count 0 buf =
    Some (buf ++ rev (dec_digits f m), count - z - Z.of_nat (length (dec_digits f m)), done').
Proof.
  induction f as [| f IH]; intros frac count buf Hfrac; [change (10 ^ Z.of_nat 0) with 1 in Hfrac; lia |].
  destruct (Z.eq_dec (frac mod 10) 0) as [D0 | D0].
  - rewrite frac_loop_S, D0. cbn [Z.eqb andb]. rewrite pow10_S in Hfrac.
    destruct (Z.eqb_spec (frac / 10) 0); [lia |].
    destruct (IH (frac / 10) (count - 1) buf) as [z [m [done' [Hz [Hm [Ef [N E]]]]]]]; [lia |].
    assert (Hm10 : m <= frac / 10) by (rewrite Ef; pose proof (Z.pow_pos_nonneg 10 z); nia).
    exists (z + 1), m, done'. rewrite Z.pow_add_r by lia.
    rewrite (dec_digits_fuel (S f) f) by (rewrite ?pow10_S; lia || (apply (fuel_pos _ (frac / 10)); lia)).
    repeat split; try lia. rewrite E. do 3 f_equal. lia.
  - destruct (frac_loop_all (S f) frac count 0 buf) as [done' [N E]]; [lia.. | right; exact D0 |].
    exists 0, frac, done'. rewrite rev_length in E. repeat split; try lia. rewrite E. do 3 f_equal. lia.
Qed.

Definition frac_digits (p frac : Z) : list Z :=
  match frac_loop dtoa_fuel frac p 0 [] with
  | Some (buf, count, done) => rev (if done =? 0 then emit buf 48 else pad_zeros buf count)
  | None => []
  end.

Lemma frac_digits_0 : forall p, frac_digits p 0 = [48].
Proof. reflexivity. Qed.

Lemma frac_digits_spec : forall p frac, 1 <= p <= 9 -> 0 <= frac < 10 ^ p ->
  frac_loop dtoa_fuel frac p 0 [] <> None /\
  Forall (fun c => 48 <= c <= 57) (frac_digits p frac) /\
  1 <= Z.of_nat (length (frac_digits p frac)) <= p /\
  digits_value (frac_digits p frac) * 10 ^ (p - Z.of_nat (length (frac_digits p frac))) = frac.
Proof.
  intros p frac Hp Hfrac. pose proof (pow10_bounds p ltac:(lia)) as HP.
  destruct (Z.eq_dec frac 0) as [-> | Hnz].
  { split; [discriminate |]. rewrite frac_digits_0. repeat split; try (cbn; lia).
    constructor; [lia | constructor]. }
  unfold frac_digits.
  destruct (frac_loop_skip dtoa_fuel frac p []) as [z [m [done [Hz [Hm [Ef [N E]]]]]]];
    [unfold dtoa_fuel; lia |].
  rewrite E. split; [discriminate |]. destruct (Z.eqb_spec done 0); [contradiction |].
  (* m has len digits and z + len <= p: the padding is p - z - len zeros *)
  assert (Hmf : 0 <= m < 10 ^ Z.of_nat dtoa_fuel).
  { unfold dtoa_fuel. pose proof (Z.pow_pos_nonneg 10 z). nia. }
  destruct (dec_digits_len dtoa_fuel m Hmf ltac:(unfold dtoa_fuel; lia)) as [_ [Hlen Hlen1]].
  specialize (Hlen ltac:(lia)).
  pose proof (dec_digits_are_digits dtoa_fuel m ltac:(lia)) as Hds.
  pose proof (digits_value_dec_digits dtoa_fuel m Hmf ltac:(unfold dtoa_fuel; lia)) as Hval.
  set (ds := dec_digits dtoa_fuel m) in *. set (len := Z.of_nat (length ds)) in *.
  assert (Hzp : z + len - 1 < p).
  { apply (Z.pow_lt_mono_r_iff 10); [lia | lia |].
    replace (z + len - 1) with (len - 1 + z) by lia. rewrite Z.pow_add_r by lia.
    pose proof (Z.pow_pos_nonneg 10 z). nia. }
  unfold pad_zeros. cbn [app]. rewrite rev_app_distr, rev_involutive.
  assert (Hzs : Forall (fun c => c = 48) (rev (repeat 48 (Z.to_nat (p - z - len)))))
    by (apply Forall_rev, Forall_forall; intros c Hc; exact (repeat_spec _ _ _ Hc)).
  assert (Elen : Z.of_nat (length (rev (repeat 48 (Z.to_nat (p - z - len))) ++ ds)) = p - z)
    by (rewrite app_length, rev_length, repeat_length; lia).
  rewrite Elen, digits_value_app, (digits_value_zeros _ Hzs), Hval.
  split; [| split; [lia |]].
  - apply Forall_app. split; [| exact Hds]. eapply Forall_impl; [| exact Hzs]. cbn. lia.
  - replace (p - (p - z)) with z by lia. lia.
Qed.

Lemma span_digits_app : forall a b, Forall (fun c => 48 <= c <= 57) a ->
  match b with [] => True | c :: _ => is_dig c = false end ->
  span_digits (a ++ b) = (a, b).
Proof.
  induction a as [| c a IH]; intros b Ha Hb; cbn [app span_digits].
  - destruct b as [| c b]; [reflexivity |]. cbn [span_digits]. rewrite Hb. reflexivity.
  - inversion Ha; subst. rewrite is_dig_true, IH by assumption. reflexivity.
Qed.

Lemma split_dec_text : forall (neg : bool) ip fp,
  Forall (fun c => 48 <= c <= 57) ip -> ip <> [] ->
  match fp with None => True | Some fd => Forall (fun c => 48 <= c <= 57) fd /\ fd <> [] end ->
  split_dec ((if neg then [45] else []) ++ ip ++ match fp with None => [] | Some fd => 46 :: fd end)
  = Some (neg, ip, fp).
Proof.
  intros neg ip fp Hip Hne Hfp. unfold split_dec.
  rewrite (sign_split neg _ _ eq_refl)
    by (destruct Hip as [| c ip Hc _]; [contradiction | cbn [app hd]; lia]).
  rewrite span_digits_app; [| exact Hip | destruct fp; [reflexivity | exact I]].
  destruct ip as [| c0 ip0]; [contradiction |].
  destruct fp as [fd |]; [| reflexivity].
  destruct Hfp as [Hfd Hfne]. cbn [Z.eqb Pos.eqb].
  rewrite <- (app_nil_r fd) at 1. rewrite span_digits_app by (assumption || exact I).
  destruct fd; [contradiction | reflexivity].
Qed.
