(* Integral doubles below 2^31: the rounding stage has nothing to round, the text is the decimal
   of the integer (followed by ".0" when the precision is not 0), fast_atof returns the double,
   and the property's own oracle (Spec_C08.c08_float_ok: correct rounding + half-ulp parse, in
   exact integer arithmetic on sign/mantissa/exponent) accepts that round trip. *)
From Coq Require Import ZArith List Bool Lia Reals Lra.
From Flocq Require Import Core.Core IEEE754.BinarySingleNaN.
From F8 Require Import C08.NumInt C08.NumFloat C08.Spec_C08 C08.NumIntProofs C08.NumFloatProofs
  C08.NumFloatTextProofs C08.NumFloatShapeProofs.
Import ListNotations.
Local Open Scope Z_scope.

Lemma dtoa_stage_int : forall n p, Z.abs n < 2147483648 -> 0 <= p <= 9 ->
  exists st, dtoa_stage (f_of_Z n) p = Some st /\ ds_neg st = (n <? 0) /\
             finR (ds_value st) (IZR (Z.abs n)) /\ ds_whole0 st = Z.abs n /\
             ds_whole st = Z.abs n /\ ds_frac st = 0.
Proof.
  intros n p Hn Hp.
  assert (Hv : finR (f_of_Z n) (IZR n)) by (apply f_of_Z_finR; lia).
  pose proof (abs_value _ _ Hv) as Hval. rewrite <- abs_IZR in Hval.
  pose proof (stage_real (f_of_Z n) p (proj1 Hv) Hp) as SR. cbv zeta in SR.
  rewrite (proj2 Hval), Zfloor_IZR in SR.
  destruct (dtoa_stage (f_of_Z n) p) as [st |]; [| lia].
  destruct SR as [Eneg [Eval [Ew SR]]]. destruct (SR ltac:(lia)) as [Ef [_ [_ E]]]. clear SR.
  (* t = the double nearest 0 * 10^p *)
  rewrite (Rminus_diag_eq (IZR (Z.abs n)) _ eq_refl), Rmult_0_l, rnd64_0 in Ef, E.
  rewrite (Zfloor_IZR 0) in Ef. rewrite Ef, Rminus_0_r in E.
  rewrite Rlt_bool_false, Req_bool_false in E by lra. injection E as Efr Ewh.
  exists st. split; [reflexivity |].
  split; [rewrite Eneg, (flt_finR _ _ _ _ Hv fzero_finR); apply (Rlt_bool_IZR n 0) |].
  split; [rewrite Eval; exact Hval |]. repeat split; assumption.
Qed.

Lemma modp_dtoa_int : forall n p, Z.abs n < 2147483648 -> 0 <= p <= 9 ->
  modp_dtoa (f_of_Z n) p = DT_text (canon_dec n ++ int_suffix p).
Proof.
  intros n p Hn Hp.
  destruct (dtoa_stage_int n p Hn Hp) as [st [Es [Eneg [Hval [Ew0 [Ew Ef]]]]]].
  rewrite modp_dtoa_eq by (apply f_of_Z_finR; lia).
  cbv zeta. rewrite (clamp_id p Hp), Es, Ew0, Ew, Eneg.
  rewrite (flt_finR thres_max _ _ _ (f_of_Z_finR 2147483647 ltac:(reflexivity)) Hval), Rlt_bool_IZR.
  replace (2147483647 <? Z.abs n) with false by (symmetry; apply Z.ltb_ge; lia).
  rewrite canon_dec_abs, <- app_assoc. unfold int_suffix. do 2 f_equal.
  destruct (p =? 0).
  - (* the second rounding: value - whole = 0 *)
    unfold whole_p0. cbv zeta. rewrite Ew.
    assert (Hd : finR (fsub (ds_value st) (f_of_Z (Z.abs n))) 0).
    { rewrite <- rnd64_0, <- (Rminus_diag_eq (IZR (Z.abs n)) (IZR (Z.abs n))) by reflexivity.
      apply fsub_finR; [exact Hval | apply f_of_Z_finR; lia |].
      rewrite Rminus_diag_eq, Rabs_R0 by reflexivity. lra. }
    rewrite (flt_finR _ _ _ _ fhalf_finR Hd), (feq_finR _ _ _ _ Hd fhalf_finR).
    rewrite Rlt_bool_false, Req_bool_false by lra. rewrite app_nil_r. reflexivity.
  - rewrite Ef, frac_digits_0. reflexivity.
Qed.

Lemma float_roundtrip_int : forall n p, Z.abs n < 2147483648 -> 0 <= p <= 9 ->
  float_roundtrip (f_of_Z n) p = (DT_text (canon_dec n ++ int_suffix p), Some (f_of_Z n)).
Proof.
  intros n p Hn Hp. unfold float_roundtrip.
  rewrite modp_dtoa_int, fast_atof_int by assumption. reflexivity.
Qed.

Lemma sme_int : forall x n, finR x (IZR n) ->
  exists s m e, sme x = Some (s, m, e) /\ 0 <= m /\
    (if 0 <=? e then m * 2 ^ e = Z.abs n else m = Z.abs n * 2 ^ (- e)) /\
    (n <> 0 -> s = (n <? 0)).
Proof.
  intros x n [Fx Rx]. destruct x as [s | s | | s m e Hb]; try discriminate.
  - simpl in Rx. apply eq_IZR in Rx. subst n. exists s, 0, 0. cbn. repeat split; try lia.
  - exists s, (Z.pos m), e. split; [reflexivity |]. split; [lia |].
    unfold B2R, F2R in Rx. cbn [Fnum Fexp] in Rx.
    assert (Hc : SpecFloat.cond_Zopp s (Z.pos m) = if s then Z.neg m else Z.pos m) by (destruct s; reflexivity).
    change (cond_Zopp s (Z.pos m)) with (SpecFloat.cond_Zopp s (Z.pos m)) in Rx.
    destruct (Z.leb_spec 0 e) as [Ep | En].
    + rewrite <- (IZR_Zpower radix2 e) in Rx by exact Ep. rewrite <- mult_IZR in Rx. apply eq_IZR in Rx.
      change (radix2 ^ e) with (2 ^ e) in Rx.
      assert (0 < 2 ^ e) by (apply Z.pow_pos_nonneg; lia).
      rewrite Hc in Rx. destruct s.
      * split; [| intros _; symmetry; apply Z.ltb_lt]; nia.
      * split; [| intros _; symmetry; apply Z.ltb_ge]; nia.
    + assert (HP : 0 < 2 ^ (- e)) by (apply Z.pow_pos_nonneg; lia).
      assert (Hb2 : bpow radix2 e = (/ IZR (2 ^ (- e)))%R).
      { replace e with (- (- e)) at 1 by lia. rewrite bpow_opp. f_equal.
        change (2 ^ (- e)) with (radix2 ^ (- e)). rewrite IZR_Zpower by lia. reflexivity. }
      rewrite Hb2 in Rx.
      assert (HPR : IZR (2 ^ (- e)) <> 0%R) by (apply not_0_IZR; lia).
      apply (f_equal (fun r => (r * IZR (2 ^ (- e)))%R)) in Rx.
      rewrite Rmult_assoc, Rinv_l, Rmult_1_r in Rx by exact HPR.
      rewrite <- mult_IZR in Rx. apply eq_IZR in Rx.
      rewrite Hc in Rx. destruct s.
      * split; [| intros _; symmetry; apply Z.ltb_lt]; nia.
      * split; [| intros _; symmetry; apply Z.ltb_ge]; nia.
Qed.

Lemma round_scaled_int : forall m e p a, 0 <= m -> 0 <= p ->
  (if 0 <=? e then m * 2 ^ e = a else m = a * 2 ^ (- e)) -> round_scaled m e p = a * 10 ^ p.
Proof.
  intros m e p a Hm Hp H. unfold round_scaled. destruct (Z.leb_spec 0 e).
  - rewrite H. reflexivity.
  - assert (HP : 0 < 2 ^ (- e)) by (apply Z.pow_pos_nonneg; lia).
    subst m. replace (a * 2 ^ (- e) * 10 ^ p) with (a * 10 ^ p * 2 ^ (- e)) by ring.
    rewrite Z.mod_mul, Z.div_mul by lia.
    destruct (Z.ltb_spec (2 * 0) (2 ^ (- e))); [reflexivity | lia].
Qed.

Lemma int_text_split : forall n p, Z.abs n < 2147483648 ->
  split_dec (canon_dec n ++ int_suffix p) =
  Some (n <? 0, dec_digits dec_fuel (Z.abs n), if p =? 0 then None else Some [48]).
Proof.
  intros n p Hn. rewrite canon_dec_abs, <- app_assoc. unfold int_suffix.
  pose proof (split_dec_text (n <? 0) (dec_digits dec_fuel (Z.abs n)) (if p =? 0 then None else Some [48])) as H.
  replace (if p =? 0 then [] else [46; 48])
    with (match (if p =? 0 then None else Some [48]) with None => [] | Some fd => 46 :: fd end)
    by (destruct (p =? 0); reflexivity).
  apply H.
  - apply dec_digits_are_digits. lia.
  - apply canon_digits_nonempty.
  - destruct (p =? 0); [exact I |]. split; [constructor; [lia | constructor] | discriminate].
Qed.

Lemma below_2_31_int : forall m e a, (if 0 <=? e then m * 2 ^ e = a else m = a * 2 ^ (- e)) ->
  a < 2147483648 -> below_2_31 m e = true.
Proof.
  intros m e a H Ha. unfold below_2_31. destruct (Z.leb_spec 0 e); apply Z.ltb_lt.
  - rewrite H. exact Ha.
  - subst m. apply Z.mul_lt_mono_pos_r; [apply Z.pow_pos_nonneg; lia | exact Ha].
Qed.

(* a double that is the integer n, against the text value n * b / b: the difference is 0 *)
Lemma half_ulp_int : forall (d : f64) n b, finR d (IZR n) -> 0 < b ->
  half_ulp_ok (n <? 0) (Z.abs n * b) b d = true.
Proof.
  intros d n b Hd Hb. destruct (sme_int _ _ Hd) as [s [m [e [Es [Hm [Hme Hs]]]]]].
  unfold half_ulp_ok. rewrite Es. set (a := Z.abs n) in *.
  destruct (Z.eqb_spec (a * b) 0) as [Z0 | NZ].
  - assert (a = 0) by nia. apply Z.eqb_eq.
    destruct (Z.leb_spec 0 e); [| subst m; lia].
    assert (0 < 2 ^ e) by (apply Z.pow_pos_nonneg; lia). nia.
  - rewrite (Hs ltac:(unfold a in NZ; lia)).
    set (fexp := Z.max (ilog2_ratio (a * b) b - 52) (-1074)).
    set (sh := Z.max 0 (Z.max (- e) (- fexp))).
    assert (Hsh : 0 <= sh /\ 0 <= e + sh) by (unfold sh; lia).
    assert (Ekey : m * 2 ^ (e + sh) = a * 2 ^ sh).
    { destruct (Z.leb_spec 0 e).
      - rewrite Z.pow_add_r by lia. rewrite Z.mul_assoc, Hme. reflexivity.
      - subst m. rewrite <- Z.mul_assoc, <- Z.pow_add_r by lia. f_equal. f_equal. lia. }
    apply Z.leb_le.
    assert (Ediff : (if n <? 0 then - m else m) * 2 ^ (e + sh) * b - (if n <? 0 then - (a * b) else a * b) * 2 ^ sh = 0).
    { destruct (n <? 0); nia. }
    rewrite Ediff. cbn [Z.abs Z.mul].
    apply Z.mul_nonneg_nonneg; [apply Z.pow_nonneg; lia | lia].
Qed.

Lemma roundtrip_ok_int : forall n p, Z.abs n < 2147483648 -> 0 <= p <= 9 ->
  roundtrip_ok (f_of_Z n) p = true.
Proof.
  intros n p Hn Hp. unfold roundtrip_ok. rewrite float_roundtrip_int by assumption.
  assert (Hv : finR (f_of_Z n) (IZR n)) by (apply f_of_Z_finR; lia).
  destruct (sme_int _ _ Hv) as [s [m [e [Es [Hm [Hme Hs]]]]]].
  unfold c08_float_ok, c08_in_domain.
  rewrite Es, (below_2_31_int m e _ Hme Hn), (proj2 (Z.leb_le 0 p)), (proj2 (Z.leb_le p 9)) by lia.
  cbn [andb]. unfold c08_render_ok, c08_parse_ok. rewrite Es, (int_text_split n p Hn).
  set (a := Z.abs n) in *.
  assert (Ha : 0 <= a < 10 ^ 25) by (unfold a; lia).
  (* the text denotes a * b / b, b = 1 or 10 *)
  set (fd := match (if p =? 0 then None else Some [48]) with Some l => l | None => [] end).
  assert (Eab : digits_value (dec_digits dec_fuel a ++ fd) * 10 ^ (p - Z.of_nat (length fd)) = a * 10 ^ p /\
                digits_value (dec_digits dec_fuel a ++ fd) = a * 10 ^ Z.of_nat (length fd) /\
                Z.of_nat (length fd) <= p).
  { unfold fd. destruct (Z.eqb_spec p 0) as [-> | P0].
    - rewrite app_nil_r, digits_value_dec by exact Ha. cbn [length Z.of_nat]. change (10 ^ (0 - 0)) with 1. lia.
    - rewrite digits_value_snoc, digits_value_dec by exact Ha. cbn [length]. change (10 ^ Z.of_nat 1) with 10.
      replace p with (Z.succ (p - Z.of_nat 1)) at 2 by lia. rewrite Z.pow_succ_r by lia. lia. }
  destruct Eab as [Eval [Eab Hlen]].
  apply andb_true_intro. split.
  - rewrite dec_digits_no_leading_zero by exact Ha.
    rewrite (round_scaled_int m e p a Hm ltac:(lia) Hme), Eval, Z.eqb_refl, (proj2 (Z.leb_le _ p) Hlen).
    cbn [andb]. destruct (Z.eq_dec n 0) as [N0 | N0].
    + replace (a * 10 ^ p =? 0) with true by (symmetry; apply Z.eqb_eq; unfold a; lia). reflexivity.
    + rewrite (Hs N0). rewrite Bool.eqb_reflx. apply orb_true_r.
  - rewrite Eab. apply half_ulp_int; [exact Hv | apply Z.pow_pos_nonneg; lia].
Qed.
