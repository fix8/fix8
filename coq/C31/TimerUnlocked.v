(* A VARIANT of the timer loop that does NOT hold _spin_lock across the callback:
       pop;  guard.release();  result = callback();
       if (result && repeat) { op._t = now + interval; guard.acquire(_spin_lock); push(op); }
   The pass over a due event then consists of TWO atomic steps (pop + callback / push-back) and
   other threads' schedule() and clear() steps can fall between them; while the callback runs the
   event exists only in the timer thread's local copy [held].  This is NOT the code of
   include/fix8/timer.hpp; it is here to show what the lock is for: with it the clear clause of
   property C31 fails (c31_clear_unlocked_refuted in Props/Properties_C31.v: a clear() that falls
   between the two halves finds an empty queue, and the event is pushed back afterwards), whereas
   for the real loop, whose pass is one atomic step, it is proved for all executions
   (C31/TimerProofs.v). *)
From Coq Require Import ZArith List Bool.
From F8 Require Import C31.Spec_C31 C31.Timer.
Import ListNotations.
Local Open Scope Z_scope.

Record ustate := { base : state; held : option (ev * Z * bool) }.
Definition uinit : ustate := {| base := init; held := None |}.

Definition uiter (res : Z -> nat -> bool) (k : nat) (now : Z) (u : ustate) : ustate :=
  let s := base u in
  match held u with
  | Some (op, t, r) =>                         (* second half: re-acquire the lock, push back *)
      let q' := if r && e_rep op
                then q s ++ [{| e_id := e_id op; e_cb := e_cb op; e_due := t + e_ival op * MILLION;
                                e_ival := e_ival op; e_rep := e_rep op |}]
                else q s in
      {| base := {| q := q'; hist := hist s; next := next s |}; held := None |}
  | None =>
      match top k (q s) with
      | None => {| base := {| q := q s; hist := hist s ++ [HQuiet now]; next := next s |}; held := None |}
      | Some (op, rest) =>
          if e_due op =? 0 then {| base := {| q := rest; hist := hist s; next := next s |}; held := None |}
          else if e_due op <=? now then       (* first half: pop, release the lock, run the callback *)
            let r := res (e_cb op) (runs_of (e_cb op) (hist s)) in
            {| base := {| q := rest; hist := hist s ++ [HFire (e_id op) (e_cb op) now r]; next := next s |};
               held := Some (op, now, r) |}
          else {| base := {| q := q s; hist := hist s ++ [HQuiet now]; next := next s |}; held := None |}
      end
  end.

Definition ustep (res : Z -> nat -> bool) (u : ustate) (o : Z * op) : ustate :=
  match o with
  | (now, OSched cb rep ms) => {| base := schedule now cb rep ms (base u); held := held u |}
  | (now, OIter k) => uiter res k now u
  | (now, OClear) => {| base := clear now (base u); held := held u |}
  end.

Definition urun (res : Z -> nat -> bool) (ops : list (Z * op)) (u : ustate) : ustate :=
  fold_left (ustep res) ops u.
