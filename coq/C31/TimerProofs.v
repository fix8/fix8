(* The Timer model against the monitor of Spec_C31.  [iter_cases] says what one pass of the loop
   does, in three cases; each invariant ([Inv], which ties the queue to the monitor's pending list
   and gives [run_ok]; [Backed] and [Ids_from] for clauses 1 and 4 stated without the monitor) is
   preserved case by case on it, and [fold_left_inv] carries it along a run or a script. *)
From Coq Require Import ZArith List Bool Lia Arith.
From F8 Require Import C31.Spec_C31 C31.Timer.
Import ListNotations.
Local Open Scope Z_scope.

Lemma Forall_mid : forall (A : Type) (P : A -> Prop) l1 x l2,
  Forall P (l1 ++ x :: l2) <-> P x /\ Forall P (l1 ++ l2).
Proof. intros. rewrite !Forall_app, Forall_cons_iff. tauto. Qed.

Lemma Forall_snoc : forall (A : Type) (P : A -> Prop) l x, Forall P l -> P x -> Forall P (l ++ [x]).
Proof. intros A P l x Hl Hx. apply Forall_app. split; [exact Hl|]. constructor; [exact Hx|constructor]. Qed.

Lemma NoDup_snoc : forall (A : Type) (l : list A) x, NoDup l -> ~ In x l -> NoDup (l ++ [x]).
Proof.
  intros A l x Hn Hi. apply (NoDup_Add (Add_app x l [])). rewrite app_nil_r. split; assumption.
Qed.

Lemma fold_left_inv : forall (A B : Type) (f : A -> B -> A) (ok : B -> bool) (P : A -> Prop),
  (forall a b, P a -> ok b = true -> P (f a b)) ->
  forall l a, P a -> forallb ok l = true -> P (fold_left f l a).
Proof.
  intros A B f ok P Hf. induction l as [|b l IH]; intros a Ha Hl; cbn in *; [exact Ha|].
  apply andb_prop in Hl. destruct Hl as [Hb Hl]. apply IH; [apply Hf; assumption|exact Hl].
Qed.

Lemma mindue_spec : forall l m,
  mindue m l <= m /\ (forall x, In x l -> mindue m l <= e_due x) /\
  (mindue m l = m \/ exists x, In x l /\ e_due x = mindue m l).
Proof.
  induction l as [|a l IH]; intros m; cbn [mindue].
  - split; [lia|]. split; [intros x []|left; reflexivity].
  - destruct (IH (Z.min m (e_due a))) as (A & B & C). split; [lia|]. split.
    + intros x [<-|Hx]; [lia|exact (B x Hx)].
    + destruct C as [C|(x & Hx & C)]; [|right; exists x; split; [right; exact Hx|exact C]].
      rewrite C. destruct (Z.min_spec m (e_due a)) as [[_ E]|[_ E]]; rewrite E; [left; reflexivity|].
      right. exists a. split; [left|]; reflexivity.
Qed.

Lemma mindue_min : forall l m, (forall x, In x l -> m <= e_due x) -> mindue m l = m.
Proof.
  intros l m H. destruct (mindue_spec l m) as (A & _ & [C|(x & Hx & C)]); [exact C|].
  specialize (H x Hx). lia.
Qed.

(* what [top] compares against: the least due time in a :: t *)
Lemma mindue_least : forall a t,
  (forall x, In x (a :: t) -> mindue (e_due a) t <= e_due x) /\
  exists x, In x (a :: t) /\ e_due x = mindue (e_due a) t.
Proof.
  intros a t. destruct (mindue_spec t (e_due a)) as (A & B & C). split.
  - intros x [<-|Hx]; [exact A|exact (B x Hx)].
  - destruct C as [C|(x & Hx & C)]; [exists a|exists x]; cbn; auto.
Qed.

Lemma pick_spec : forall l k m e r, pick k m l = Some (e, r) -> e_due e = m /\ Add e r l.
Proof.
  induction l as [|a l IH]; intros k m e r H; [discriminate|]. cbn [pick] in H.
  destruct (Z.eqb_spec (e_due a) m) as [D|D].
  - destruct k as [|k']; [|destruct (pick k' m l) as [[x r']|] eqn:P]; injection H as <- <-.
    + split; [exact D|constructor].
    + apply IH in P as [Dx HA]. split; [exact Dx|constructor; exact HA].
    + split; [exact D|constructor].
  - destruct (pick k m l) as [[x r']|] eqn:P; [|discriminate]. injection H as <- <-.
    apply IH in P as [Dx HA]. split; [exact Dx|constructor; exact HA].
Qed.

Lemma pick_none : forall l k m, pick k m l = None -> forall x, In x l -> e_due x <> m.
Proof.
  induction l as [|a l IH]; intros k m H x Hx; [inversion Hx|]. cbn [pick] in H.
  destruct (Z.eqb_spec (e_due a) m) as [D|D].
  - destruct k; [discriminate|]. destruct (pick k m l) as [[? ?]|]; discriminate.
  - destruct (pick k m l) as [[? ?]|] eqn:P; [discriminate|].
    destruct Hx as [<-|Hx]; [exact D|]. exact (IH _ _ P x Hx).
Qed.

Lemma top_none : forall k l, top k l = None -> l = [].
Proof.
  intros k [|a l] H; [reflexivity|]. exfalso.
  destruct (mindue_least a l) as [_ (x & Hx & M)]. exact (pick_none _ _ _ H x Hx M).
Qed.

Lemma top_spec : forall k l e r, top k l = Some (e, r) ->
  (exists l1 l2, l = l1 ++ e :: l2 /\ r = l1 ++ l2) /\ forall x, In x l -> e_due e <= e_due x.
Proof.
  intros k [|a l] e r H; [discriminate|].
  destruct (pick_spec _ _ _ _ _ H) as [D HA]. split.
  - destruct (Add_split HA) as (l1 & l2 & -> & ->). exists l1, l2. split; reflexivity.
  - rewrite D. apply mindue_least.
Qed.

(* every element of minimal _t can be the top: the oracle covers every tie-breaking *)
Fixpoint cands (m : Z) (l : list ev) : nat :=
  match l with [] => O | e :: t => if e_due e =? m then S (cands m t) else cands m t end.

Lemma pick_complete : forall l1 e l2 m, e_due e = m ->
  pick (cands m l1) m (l1 ++ e :: l2) = Some (e, l1 ++ l2).
Proof.
  induction l1 as [|a l1 IH]; intros e l2 m D.
  - cbn. rewrite D, Z.eqb_refl. reflexivity.
  - cbn [cands app pick]. destruct (e_due a =? m); rewrite IH by exact D; reflexivity.
Qed.

Lemma top_complete : forall l1 e l2,
  (forall x, In x (l1 ++ e :: l2) -> e_due e <= e_due x) ->
  exists k, top k (l1 ++ e :: l2) = Some (e, l1 ++ l2).
Proof.
  intros l1 e l2 H. exists (cands (e_due e) l1).
  pose proof (in_elt e l1 l2) as He. pose proof (pick_complete l1 e l2 (e_due e) eq_refl) as P.
  destruct (l1 ++ e :: l2) as [|a t]; [destruct He|]. unfold top.
  (* the least due time of a :: t is at most that of e, and it is the due time of some x *)
  destruct (mindue_least a t) as [Hle (x & Hx & M)].
  specialize (Hle e He). specialize (H x Hx).
  replace (mindue (e_due a) t) with (e_due e) by lia. exact P.
Qed.

Definition rearm (now : Z) (op : ev) : ev :=
  {| e_id := e_id op; e_cb := e_cb op; e_due := now + e_ival op * MILLION;
     e_ival := e_ival op; e_rep := e_rep op |}.

Lemma Forall_rearm : forall (P : ev -> Prop) (b : bool) l x, Forall P l -> P x ->
  Forall P (if b then l ++ [x] else l).
Proof. intros P [|] l x Hl Hx; [apply Forall_snoc|]; assumption. Qed.

(* nothing in the queue is due (in particular: the queue is empty), or an element with the
   empty timeval is discarded, or an element of least due time runs and is perhaps re-armed *)
Inductive iter_case (now : Z) (s : state) : state * outcome -> Prop :=
| iter_quiet : Forall (fun e => now < e_due e) (q s) ->
    iter_case now s ({| q := q s; hist := hist s ++ [HQuiet now]; next := next s |}, Slept)
| iter_drop : forall l1 op l2, q s = l1 ++ op :: l2 -> e_due op = 0 ->
    iter_case now s ({| q := l1 ++ l2; hist := hist s; next := next s |}, Dropped)
| iter_fire : forall l1 op l2 r, q s = l1 ++ op :: l2 ->
    Forall (fun x => e_due op <= e_due x) (l1 ++ l2) -> e_due op <> 0 -> e_due op <= now ->
    iter_case now s ({| q := if r && e_rep op then (l1 ++ l2) ++ [rearm now op] else l1 ++ l2;
                        hist := hist s ++ [HFire (e_id op) (e_cb op) now r];
                        next := next s |}, Fired (e_cb op)).

Lemma iter_cases : forall res k now s, iter_case now s (iter res k now s).
Proof.
  intros res k now s. unfold iter. destruct (top k (q s)) as [[op rest]|] eqn:T.
  - destruct (top_spec _ _ _ _ T) as [(l1 & l2 & Lq & ->) Hmin].
    destruct (Z.eqb_spec (e_due op) 0) as [D0|D0]; [apply iter_drop with op; assumption|].
    destruct (Z.leb_spec (e_due op) now) as [Dn|Dn].
    + apply iter_fire; try assumption.
      apply Forall_forall in Hmin. rewrite Lq in Hmin. apply Forall_mid in Hmin. tauto.
    + apply iter_quiet, Forall_forall. intros e He. specialize (Hmin e He). lia.
  - apply top_none in T. apply iter_quiet. rewrite T. constructor.
Qed.

Lemma op_wf_spec : forall now o, op_wf (now, o) = true ->
  0 <= now /\ match o with OSched _ _ ms => 0 <= ms | _ => True end.
Proof.
  intros now [cb rep ms|k|] W; cbn [op_wf] in W; rewrite ?andb_true_iff, ?Z.leb_le in W; tauto.
Qed.

Lemma mon_snoc : forall h x, c31_mon (h ++ [x]) = mstep (c31_mon h) x.
Proof. intros. unfold c31_mon. rewrite fold_left_app. reflexivity. Qed.

Lemma take_mid : forall P1 p P2, ~ In (p_id p) (map p_id P1) ->
  take (p_id p) (P1 ++ p :: P2) = Some (p, P1 ++ P2).
Proof.
  induction P1 as [|a P1 IH]; intros p P2 Hn; cbn [take app].
  - rewrite Nat.eqb_refl. reflexivity.
  - cbn in Hn. destruct (Nat.eqb_spec (p_id a) (p_id p)); [tauto|]. rewrite IH; [reflexivity|tauto].
Qed.

Lemma mstep_quiet : forall m t, Forall (fun x => t < p_due x) (pend m) -> mstep m (HQuiet t) = m.
Proof.
  intros m t H. cbn [mstep]. replace (forallb _ (pend m)) with true; [reflexivity|].
  symmetry. rewrite Forall_forall in H. apply forallb_forall. intros x Hx. apply Z.ltb_lt, H, Hx.
Qed.

Lemma mstep_fire : forall m P1 p P2 cb t r,
  pend m = P1 ++ p :: P2 -> ~ In (p_id p) (map p_id P1) ->
  p_due p <= t -> Forall (fun x => p_due p <= p_due x) (P1 ++ P2) ->
  verd (mstep m (HFire (p_id p) cb t r)) = verd m /\
  pend (mstep m (HFire (p_id p) cb t r)) =
    if r && p_rep p
    then (P1 ++ P2) ++ [{| p_id := p_id p; p_due := t + p_ms p * MILLION; p_ms := p_ms p;
                           p_rep := true; p_first := false |}]
    else P1 ++ P2.
Proof.
  intros m P1 p P2 cb t r EP Hn Ht Hmin. cbn [mstep]. rewrite EP, take_mid by exact Hn.
  rewrite (proj2 (Z.leb_le _ _) Ht). replace (forallb _ (P1 ++ P2)) with true.
  - destruct (r && p_rep p); split; reflexivity.
  - symmetry. rewrite Forall_forall in Hmin. apply forallb_forall. intros x Hx. apply Z.leb_le, Hmin, Hx.
Qed.

(* an element whose _t is the empty timeval will be discarded, and the monitor never heard of it *)
Definition live (e : ev) : bool := negb (e_due e =? 0).

Definition R (e : ev) (p : pent) : Prop :=
  p_id p = e_id e /\ p_due p = e_due e /\ p_ms p = e_ival e /\ p_rep p = e_rep e.

Lemma Forall2_R_ids : forall l P, Forall2 R l P -> map p_id P = map e_id l.
Proof. induction 1; cbn; [reflexivity|]. destruct H as [-> _]. f_equal. assumption. Qed.

Lemma Forall2_R_dues : forall (Q : Z -> Prop) l P, Forall2 R l P ->
  Forall (fun e => Q (e_due e)) l -> Forall (fun p => Q (p_due p)) P.
Proof.
  induction 1 as [|e p l P (_ & Rd & _) _ IH]; intro H; inversion H; subst; constructor; [rewrite Rd|]; auto.
Qed.

Definition tracks (l : list ev) (m : mon) : Prop :=
  Forall2 R (filter live l) (pend m) /\ verd m = verd0.

Lemma tracks_schedule : forall l m id cb rep ms now, tracks l m -> 0 <= now -> 0 <= ms ->
  tracks (l ++ [{| e_id := id; e_cb := cb; e_due := if ms =? 0 then 0 else now + ms * MILLION;
                   e_ival := if ms =? 0 then 0 else ms; e_rep := rep |}])
         (mstep m (HSched id cb rep ms now)).
Proof.
  intros l m id cb rep ms now [Hr Hv] Hnow Hms. unfold tracks.
  rewrite filter_app. cbn [filter mstep]. unfold live at 2. cbn [e_due].
  destruct (Z.eqb_spec ms 0) as [->|E].
  - cbn. rewrite app_nil_r. split; assumption.
  - replace (1 <=? ms) with true by (symmetry; apply Z.leb_le; lia).
    replace (now + ms * MILLION =? 0) with false by (symmetry; apply Z.eqb_neq; unfold MILLION; lia).
    cbn [negb pend verd]. split; [|exact Hv]. apply Forall2_app; [exact Hr|]. repeat constructor.
Qed.

Lemma tracks_quiet : forall l m now, tracks l m -> Forall (fun e => now < e_due e) l ->
  tracks l (mstep m (HQuiet now)).
Proof.
  intros l m now [Hr Hv] Hq. rewrite mstep_quiet; [split; assumption|].
  exact (Forall2_R_dues (fun d => now < d) _ _ Hr (incl_Forall (incl_filter _ _) Hq)).
Qed.

Lemma tracks_drop : forall l1 op l2 m, tracks (l1 ++ op :: l2) m -> e_due op = 0 -> tracks (l1 ++ l2) m.
Proof.
  unfold tracks. intros l1 op l2 m H D. rewrite filter_app in *. cbn [filter] in H.
  replace (live op) with false in H by (unfold live; rewrite D; reflexivity). exact H.
Qed.

Lemma tracks_fire : forall l1 op l2 m now r,
  tracks (l1 ++ op :: l2) m -> NoDup (map e_id (l1 ++ op :: l2)) ->
  Forall (fun x => e_due op <= e_due x) (l1 ++ l2) -> e_due op <> 0 -> e_due op <= now ->
  0 < now + e_ival op * MILLION ->
  tracks (if r && e_rep op then (l1 ++ l2) ++ [rearm now op] else l1 ++ l2)
         (mstep m (HFire (e_id op) (e_cb op) now r)).
Proof.
  intros l1 op l2 m now r [Hr Hv] Hn Hmin D0 Dn Hre.
  (* split the monitor's pending list at op *)
  rewrite filter_app in Hr. cbn [filter] in Hr.
  replace (live op) with true in Hr by (symmetry; apply negb_true_iff, Z.eqb_neq, D0).
  apply Forall2_app_inv_l in Hr as (P1 & P' & H1 & H2 & EP).
  inversion H2 as [|? p ? P2 (Ri & Rd & Rm & Rr) H3]; subst P'.
  assert (Hrest : Forall2 R (filter live (l1 ++ l2)) (P1 ++ P2))
    by (rewrite filter_app; apply Forall2_app; assumption).
  rewrite <- Ri. destruct (mstep_fire m P1 p P2 (e_cb op) now r EP) as [Ev Ep].
  - rewrite Ri, (Forall2_R_ids _ _ H1). intro Hin.
    apply (incl_map e_id (incl_filter live l1)) in Hin.
    rewrite map_app in Hn. apply NoDup_remove_2 in Hn. apply Hn, in_or_app. left. exact Hin.
  - rewrite Rd. exact Dn.
  - rewrite Rd. exact (Forall2_R_dues (fun d => e_due op <= d) _ _ Hrest (incl_Forall (incl_filter _ _) Hmin)).
  - split; [|rewrite Ev; exact Hv]. rewrite Ep, Rr.
    destruct (r && e_rep op) eqn:B; [|exact Hrest]. apply andb_prop in B as [_ B].
    rewrite filter_app. apply Forall2_app; [exact Hrest|]. cbn [filter].
    replace (live (rearm now op)) with true by (symmetry; apply negb_true_iff, Z.eqb_neq; cbn; lia).
    repeat constructor; cbn; congruence.
Qed.

Record Inv (s : state) : Prop := {
  inv_mon : tracks (q s) (c31_mon (hist s));
  inv_nodup : NoDup (map e_id (q s));
  inv_ev : Forall (fun e => (e_id e < next s)%nat /\ (e_due e <> 0 -> 1 <= e_ival e)) (q s) }.

Lemma Inv_init : Inv init.
Proof. repeat constructor. Qed.

Lemma Inv_schedule : forall s now cb rep ms, Inv s -> 0 <= now -> 0 <= ms ->
  Inv (schedule now cb rep ms s).
Proof.
  intros s now cb rep ms [Hm Hn He] Hnow Hms. unfold schedule. constructor; cbn [q hist next].
  - rewrite mon_snoc. apply tracks_schedule; assumption.
  - rewrite map_app. apply NoDup_snoc; [exact Hn|]. cbn [map e_id]. intro H.
    apply in_map_iff in H as (e & Hi & H). rewrite Forall_forall in He. apply He in H. lia.
  - apply Forall_snoc.
    + eapply Forall_impl; [|exact He]. intros e [A B]. split; [lia|exact B].
    + cbn. split; [lia|]. destruct (Z.eqb_spec ms 0); lia.
Qed.

Lemma Inv_clear : forall s now, Inv s -> Inv (clear now s).
Proof.
  intros s now [[_ Hv] _ _]. unfold clear. constructor; cbn [q hist next]; [|constructor..].
  rewrite mon_snoc. split; [constructor|exact Hv].
Qed.

Lemma Inv_iter : forall now s c, Inv s -> 0 <= now -> iter_case now s c -> Inv (fst c).
Proof.
  intros now s c [Hm Hn He] Hnow [Hq | l1 op l2 Lq D0 | l1 op l2 r Lq Hmin D0 Dn]; cbn [fst].
  - constructor; cbn [q hist next]; try assumption. rewrite mon_snoc. apply tracks_quiet; assumption.
  - rewrite Lq in *. constructor; cbn [q hist next].
    + apply tracks_drop with op; assumption.
    + rewrite map_app in *. exact (NoDup_remove_1 _ _ _ Hn).
    + apply Forall_mid in He. tauto.
  - rewrite Lq in *. apply Forall_mid in He as [[Hlt Hiv] He]. specialize (Hiv D0).
    pose proof (tracks_fire l1 op l2 _ now r Hm Hn Hmin D0 Dn ltac:(unfold MILLION; lia)) as Ht.
    rewrite <- mon_snoc in Ht.
    rewrite map_app in Hn. apply NoDup_remove in Hn as [Hn Hni]. rewrite <- map_app in Hn, Hni.
    constructor; cbn [q hist next]; [exact Ht| |apply Forall_rearm; [exact He|split; [exact Hlt|intros _; exact Hiv]]].
    destruct (r && e_rep op); [rewrite map_app; apply NoDup_snoc|]; assumption.
Qed.

Lemma Inv_step : forall res s o, Inv s -> op_wf o = true -> Inv (step res s o).
Proof.
  intros res s [now o] HI W. apply op_wf_spec in W as [Hnow Hms]. destruct o as [cb rep ms|k|]; cbn [step].
  - apply Inv_schedule; assumption.
  - apply Inv_iter with now s; [assumption..|apply iter_cases].
  - apply Inv_clear; assumption.
Qed.

Lemma Inv_run : forall res ops s, Inv s -> forallb op_wf ops = true -> Inv (run res ops s).
Proof. intros res. apply fold_left_inv, Inv_step. Qed.

Theorem run_ok : forall res ops, forallb op_wf ops = true ->
  verd (c31_mon (hist (run res ops init))) = verd0.
Proof. intros res ops W. apply inv_mon, Inv_run; [apply Inv_init|exact W]. Qed.

Definition ripe (now : Z) (l : list ev) : nat := length (filter (fun e => e_due e <=? now) l).

Lemma ripe_mid : forall now l1 op l2, e_due op <= now ->
  ripe now (l1 ++ op :: l2) = S (ripe now (l1 ++ l2)).
Proof.
  intros now l1 op l2 H. unfold ripe. rewrite !filter_app. cbn [filter].
  rewrite (proj2 (Z.leb_le _ _) H), !app_length. cbn [length]. lia.
Qed.

Lemma ripe_le_length : forall now l, (ripe now l <= length l)%nat.
Proof.
  intros now l. unfold ripe. induction l as [|a l IH]; cbn [filter length]; [lia|].
  destruct (e_due a <=? now); cbn [length]; lia.
Qed.

(* a pass that does not end in sleep takes a ripe element away; what it re-arms is not ripe *)
Lemma iter_progress : forall now s s' o, Inv s -> 0 <= now -> iter_case now s (s', o) ->
  o = Slept \/ (S (ripe now (q s')) = ripe now (q s))%nat.
Proof.
  intros now s s' o HI Hnow H.
  inversion H as [Hq | l1 op l2 Lq D0 | l1 op l2 r Lq Hmin D0 Dn]; subst; cbn [q].
  - left; reflexivity.
  - right. rewrite Lq. symmetry. apply ripe_mid. lia.
  - right. rewrite Lq, ripe_mid by exact Dn. f_equal.
    destruct (r && e_rep op); [|reflexivity].
    pose proof (inv_ev _ HI) as He. rewrite Lq in He. apply Forall_elt in He as [_ Hiv]. specialize (Hiv D0).
    unfold ripe. rewrite filter_app, app_length. cbn [filter rearm e_due].
    replace (now + e_ival op * MILLION <=? now) with false by (symmetry; apply Z.leb_gt; unfold MILLION; lia).
    cbn [length]. lia.
Qed.

Definition sop_wf (o : sop) : bool :=
  match o with
  | SSched _ ms => (0 <=? ms) && (ms <? 4294967296)
  | SAdv d => 0 <=? d
  | SClear => true
  | SPark d _ => 0 <=? d
  end.

Definition cfg_ok (x : state * Z * list Z) : Prop := Inv (fst (fst x)) /\ 0 <= snd (fst x).

Section Script.
Variables (res : Z -> nat -> bool) (dur : Z -> Z).
Hypothesis Hdur : forall cb, 0 <= dur cb.

Lemma pass_ok : forall k now pref s, cfg_ok (s, now, pref) ->
  match iter res k now s with
  | (s', Fired cb) => cfg_ok (s', now + dur cb, tl pref)
  | (s', _) => cfg_ok (s', now, pref)
  end.
Proof.
  intros k now pref s [HI Hnow].
  pose proof (Inv_iter _ _ _ HI Hnow (iter_cases res k now s)) as HI'.
  destruct (iter res k now s) as [s' [| |cb]]; split; try assumption.
  cbn in *. pose proof (Hdur cb). lia.
Qed.

Lemma drain_ok : forall fuel now pref s, cfg_ok (s, now, pref) ->
  cfg_ok (fst (drain res dur fuel now pref s)).
Proof.
  induction fuel as [|f IH]; intros now pref s H; cbn [drain]; [exact H|].
  pose proof (pass_ok (choose pref (q s)) now pref s H) as H'.
  destruct (iter res (choose pref (q s)) now s) as [s' [| |cb]]; [exact H' | apply IH, H' | apply IH, H'].
Qed.

Lemma drainf_ok : forall fuel nf now pref s, cfg_ok (s, now, pref) ->
  cfg_ok (drainf res dur fuel nf now pref s).
Proof.
  induction fuel as [|f IH]; intros [|nf] now pref s H; cbn [drainf]; try exact H.
  pose proof (pass_ok (choose pref (q s)) now pref s H) as H'.
  destruct (iter res (choose pref (q s)) now s) as [s' [| |cb]]; [exact H' | apply IH, H' | apply IH, H'].
Qed.

(* with instantaneous callbacks the clock stands still during a wait, every pass but the last
   uses up a ripe element, and the fuel suffices *)
Lemma drain_fuel_enough : (forall cb, dur cb = 0) -> forall fuel now pref s, Inv s -> 0 <= now ->
  (ripe now (q s) < fuel)%nat -> snd (drain res dur fuel now pref s) = true.
Proof.
  intros Hz. induction fuel as [|f IH]; intros now pref s HI Hnow Hf; [lia|]. cbn [drain].
  pose proof (iter_cases res (choose pref (q s)) now s) as C.
  destruct (iter res (choose pref (q s)) now s) as [s' o].
  pose proof (Inv_iter _ _ _ HI Hnow C) as HI'.
  destruct (iter_progress _ _ _ _ HI Hnow C) as [->|Hp]; [reflexivity|].
  destruct o as [| |cb]; [reflexivity|apply IH; try assumption; lia|].
  rewrite Hz, Z.add_0_r. apply IH; try assumption; lia.
Qed.

(* [snd c]: every wait so far ended with the timer asleep *)
Definition script_inv (c : state * Z * list Z * bool) : Prop :=
  cfg_ok (fst c) /\ ((forall cb, dur cb = 0) -> snd c = true).

(* the wait that ends every script step; its fuel covers every element being ripe *)
Lemma wait_inv : forall extra okf s now pref, cfg_ok (s, now, pref) ->
  ((forall cb, dur cb = 0) -> okf = true) ->
  script_inv (let '(s2, now2, pref2, fin) := drain res dur (S (length (q s)) + extra) now pref s in
              (s2, now2, pref2, okf && fin)).
Proof.
  intros extra okf s now pref H Hf.
  pose proof (drain_ok (S (length (q s)) + extra) now pref s H) as A.
  pose proof (fun Hz => drain_fuel_enough Hz (S (length (q s)) + extra) now pref s (proj1 H) (proj2 H)) as B.
  destruct (drain res dur (S (length (q s)) + extra) now pref s) as [[[s2 now2] pref2] fin].
  split; [exact A|]. intro Hz. cbn [snd] in *. rewrite (Hf Hz). apply (B Hz).
  pose proof (ripe_le_length now (q s)). lia.
Qed.

Lemma sstep_inv : forall extra c o, script_inv c -> sop_wf o = true ->
  script_inv (sstep res dur extra c o).
Proof.
  intros extra [[[s now] pref] okf] o [[HI Hnow] Hf] W. cbn [fst snd] in HI, Hnow, Hf. unfold sstep.
  destruct o as [rep ms|d| |d nf]; cbn [sop_wf] in W; rewrite ?andb_true_iff, ?Z.leb_le in W.
  - apply wait_inv; [|exact Hf]. split; [apply Inv_schedule; tauto|assumption].
  - apply wait_inv; [|exact Hf]. split; [assumption|cbn; lia].
  - apply wait_inv; [|exact Hf]. split; [apply Inv_clear|]; assumption.
  - destruct (drainf_ok (S (length (q s)) + extra) nf (now + d) pref s) as [A B]; [split; [assumption|cbn; lia]|].
    destruct (drainf res dur (S (length (q s)) + extra) nf (now + d) pref s) as [[s' now'] pref'].
    apply wait_inv; [|exact Hf]. split; [apply Inv_clear|]; assumption.
Qed.

Lemma run_script_inv : forall extra t0 pref sc, 0 <= t0 -> forallb sop_wf sc = true ->
  script_inv (run_script res dur extra t0 pref sc).
Proof.
  intros extra t0 pref sc Ht W. apply (fold_left_inv _ _ _ sop_wf script_inv (sstep_inv extra)); [|exact W].
  split; [split; [apply Inv_init|exact Ht]|reflexivity].
Qed.

Lemma script_ok : forall extra t0 pref sc, 0 <= t0 -> forallb sop_wf sc = true ->
  match run_script res dur extra t0 pref sc with
  | (s, _, _, _) => c31_ok (hist s) = true
  end.
Proof.
  intros extra t0 pref sc Ht W. destruct (run_script_inv extra t0 pref sc Ht W) as [[[[_ Hv] _ _] _] _].
  destruct (run_script res dur extra t0 pref sc) as [[[s now] pr] fin].
  cbn [fst] in Hv. unfold c31_ok. rewrite Hv. reflexivity.
Qed.
End Script.

Definition dur0 (cb : Z) : Z := 0.

Lemma script_fuel : forall res extra t0 pref sc, 0 <= t0 -> forallb sop_wf sc = true ->
  snd (run_script res dur0 extra t0 pref sc) = true.
Proof.
  intros res extra t0 pref sc Ht W.
  apply (run_script_inv res dur0 (fun _ => Z.le_refl 0) extra t0 pref sc Ht W). reflexivity.
Qed.

Definition justified (h : list hentry) (id : nat) (cb : Z) (t : Z) : Prop :=
  exists rep ms t0, In (HSched id cb rep ms t0) h /\ 1 <= ms /\ t0 + ms * MILLION <= t.

Lemma justified_mono : forall h h' id cb t t', justified h id cb t -> t <= t' ->
  justified (h ++ h') id cb t'.
Proof.
  intros h h' id cb t t' (rep & ms & t0 & Hi & Hms & Ht) Htt. exists rep, ms, t0.
  split; [apply in_or_app; left; exact Hi|]. split; [exact Hms|lia].
Qed.

(* a queue element's due time is no earlier than some schedule call of that event allows; the
   interval only has to keep a re-armed due time from falling behind *)
Definition armed (h : list hentry) (e : ev) : Prop :=
  0 <= e_ival e /\ (e_due e <> 0 -> justified h (e_id e) (e_cb e) (e_due e)).

Lemma armed_mono : forall h h' l, Forall (armed h) l -> Forall (armed (h ++ h')) l.
Proof.
  intros h h' l. apply Forall_impl. intros e [I J]. split; [exact I|]. intro D.
  apply justified_mono with (e_due e); [exact (J D)|lia].
Qed.

Definition fired_ok (h : list hentry) (x : hentry) : Prop :=
  match x with HFire id cb t _ => justified h id cb t | _ => True end.

Record Backed (s : state) : Prop := {
  bk_q : Forall (armed (hist s)) (q s);
  bk_h : Forall (fired_ok (hist s)) (hist s) }.

Lemma Backed_log : forall s x l n, Backed s -> Forall (armed (hist s ++ [x])) l ->
  fired_ok (hist s ++ [x]) x -> Backed {| q := l; hist := hist s ++ [x]; next := n |}.
Proof.
  intros s x l n [_ Jh] Hl Hx. constructor; cbn [q hist]; [exact Hl|]. apply Forall_snoc; [|exact Hx].
  eapply Forall_impl; [|exact Jh]. intros [| id cb t r | |] Hy; try exact I.
  apply justified_mono with t; [exact Hy|lia].
Qed.

Lemma Backed_step : forall res s o, Backed s -> op_wf o = true -> Backed (step res s o).
Proof.
  intros res s [now o] J W. apply op_wf_spec in W as [Hnow Hms]. pose proof (bk_q _ J) as Jq.
  destruct o as [cb rep ms|k|]; cbn [step].
  - apply Backed_log; [exact J| |exact I]. apply Forall_snoc; [apply armed_mono, Jq|]. split; cbn.
    + destruct (ms =? 0); lia.
    + destruct (Z.eqb_spec ms 0) as [|E]; [tauto|]. intros _. exists rep, ms, now.
      split; [apply in_or_app; right; left; reflexivity|lia].
  - destruct (iter_cases res k now s) as [Hq | l1 op l2 Lq D0 | l1 op l2 r Lq Hmin D0 Dn]; cbn [fst].
    + apply Backed_log; [exact J|apply armed_mono, Jq|exact I].
    + rewrite Lq in Jq. apply Forall_mid in Jq. constructor; cbn [q hist]; [tauto|exact (bk_h _ J)].
    + rewrite Lq in Jq. apply Forall_mid in Jq as [[Hi Hj] Jq]. specialize (Hj D0).
      apply Backed_log; [exact J| |apply justified_mono with (e_due op); assumption].
      apply Forall_rearm; [apply armed_mono, Jq|]. split; cbn; [exact Hi|]. intros _.
      apply justified_mono with (e_due op); [exact Hj|unfold MILLION; lia].
  - apply Backed_log; [exact J|constructor|exact I].
Qed.

Lemma run_justified : forall res ops, forallb op_wf ops = true ->
  forall id cb t r, In (HFire id cb t r) (hist (run res ops init)) ->
  justified (hist (run res ops init)) id cb t.
Proof.
  intros res ops W id cb t r H.
  assert (J : Backed (run res ops init))
    by (apply (fold_left_inv _ _ _ _ Backed (Backed_step res)); [repeat constructor|exact W]).
  apply bk_h in J. rewrite Forall_forall in J. exact (J _ H).
Qed.

Lemma run_inv : forall (P : state -> Prop) res, (forall s o, P s -> P (step res s o)) ->
  forall ops s, P s -> P (run res ops s).
Proof.
  intros P res H ops s Hs.
  apply (fold_left_inv _ _ _ (fun _ => true) P); [intros; apply H; assumption|exact Hs|].
  apply forallb_forall. reflexivity.
Qed.

(* From a state on whose queue holds only ids >= n, what is logged concerns such ids only:
   callback runs of events in the queue, and schedule calls with the ids handed out since.
   After clear() these are the events scheduled after that clear(). *)
Definition logged_from (n m : nat) (x : hentry) : Prop :=
  match x with
  | HFire id _ _ _ => (n <= id)%nat
  | HSched id _ _ _ _ => (n <= id < m)%nat
  | _ => True
  end.

Record Ids_from (n : nat) (h0 : list hentry) (s : state) : Prop := {
  if_next : (n <= next s)%nat;
  if_q : Forall (fun e => (n <= e_id e)%nat) (q s);
  if_h : exists h', hist s = h0 ++ h' /\ Forall (logged_from n (next s)) h' }.

Lemma Ids_from_log : forall n h0 s x l m, Ids_from n h0 s -> (next s <= m)%nat ->
  Forall (fun e => (n <= e_id e)%nat) l -> logged_from n m x ->
  Ids_from n h0 {| q := l; hist := hist s ++ [x]; next := m |}.
Proof.
  intros n h0 s x l m [Kn _ (h' & E & F)] Hm Hl Hx. constructor; cbn [q hist next]; [lia|exact Hl|].
  exists (h' ++ [x]). split; [rewrite E; symmetry; apply app_assoc|]. apply Forall_snoc; [|exact Hx].
  eapply Forall_impl; [|exact F]. intros y Hy. destruct y; cbn in *; try exact I; lia.
Qed.

Lemma Ids_from_step : forall res n h0 s o, Ids_from n h0 s -> Ids_from n h0 (step res s o).
Proof.
  intros res n h0 s [now [cb rep ms|k|]] K; pose proof (if_next _ _ _ K) as Kn;
    pose proof (if_q _ _ _ K) as Kq; cbn [step].
  - apply Ids_from_log; [exact K|lia|apply Forall_snoc; [exact Kq|exact Kn]|cbn; lia].
  - destruct (iter_cases res k now s) as [Hq | l1 op l2 Lq D0 | l1 op l2 r Lq Hmin D0 Dn]; cbn [fst].
    + apply Ids_from_log; [exact K|lia|exact Kq|exact I].
    + rewrite Lq in Kq. apply Forall_mid in Kq.
      constructor; cbn [q hist next]; [exact Kn|tauto|exact (if_h _ _ _ K)].
    + rewrite Lq in Kq. apply Forall_mid in Kq as [Ko Kq].
      apply Ids_from_log; [exact K|lia|apply Forall_rearm; assumption|exact Ko].
  - apply Ids_from_log; [exact K|lia|constructor|exact I].
Qed.

Lemma Ids_from_run : forall res ops s n, (n <= next s)%nat -> Forall (fun e => (n <= e_id e)%nat) (q s) ->
  Ids_from n (hist s) (run res ops s).
Proof.
  intros res ops s n Hn Hq. apply (run_inv (Ids_from n (hist s))); [intros s' o; apply Ids_from_step|].
  constructor; [exact Hn|exact Hq|]. exists []. split; [symmetry; apply app_nil_r|constructor].
Qed.

Lemma clear_direct : forall res ops1 now ops2,
  let s1 := run res ops1 init in
  let s2 := run res ops2 (clear now s1) in
  exists h', hist s2 = hist s1 ++ [HClear now (length (q s1))] ++ h' /\
    forall id cb rep ms t0, In (HSched id cb rep ms t0) (hist s1) ->
    forall cb' t r, ~ In (HFire id cb' t r) h'.
Proof.
  intros res ops1 now ops2 s1 s2.
  (* schedule calls before the clear() have ids below next s1, callback runs after it have ids
     from there up *)
  destruct (if_h _ _ _ (Ids_from_run res ops1 init O (Nat.le_refl _) (Forall_nil _))) as (h1 & E1 & F1).
  destruct (if_h _ _ _ (Ids_from_run res ops2 (clear now s1) (next s1) (Nat.le_refl _) (Forall_nil _)))
    as (h' & E & F).
  cbn [init hist app] in E1. fold s1 in E1, F1. fold s2 in E. rewrite <- E1 in F1.
  exists h'. split; [rewrite E; cbn [clear hist]; symmetry; apply app_assoc|].
  intros id cb rep ms t0 Hs cb' t r Hf. rewrite Forall_forall in F1, F.
  specialize (F1 _ Hs). specialize (F _ Hf). cbn in F1, F. lia.
Qed.

(* what the witnesses c31_nonvacuous and c31_nonvacuous_slow (Props/Properties_C31.v) run:
   callback 0 returns true once; callback 0 takes 5 ms of clock time *)
Definition nv_res (cb : Z) (n : nat) : bool := (cb =? 0) && Nat.eqb n 0.
Definition nv_script : list sop :=
  [SSched true 5; SSched false 5; SSched false 3; SAdv 5000000; SAdv 5000000; SSched false 2; SClear; SAdv 10000000].

Definition nv_slow_dur (cb : Z) : Z := if cb =? 0 then 5000000 else 0.
