(* C19: the ResendRequest of c19_high_partial on the wire: the link between "process calls
   send(generate_resend_request(expected, 0)) first" and the oracle's clause `resend_from expected` (a 35=2
   message whose BeginSeqNo is the expected number). *)
From Coq Require Import NArith ZArith List Bool.
From F8 Require Import Sess.Bytes Sess.Msg Sess.Persist Sess.Session Sess.SessLemmas Sess.SendLemmas Sess.ProcessLemmas C19.Spec_C19.
Import ListNotations.
Local Open Scope N_scope.

Section RW.
Variable sc : schema.

Definition knows_rr : Prop :=
  exists d p7 p16, find_def mt_resend_request (sc_msgs sc) = Some d /\
                   assoc T_BeginSeqNo (d_pos d) = Some p7 /\ assoc T_EndSeqNo (d_pos d) = Some p16.

Lemma rr_shape : knows_rr -> forall b e, exists p7 p16,
  generate_resend_request sc b e =
  mkMsg mt_resend_request [] (add_field p16 T_EndSeqNo (dec e) [mkF p7 T_BeginSeqNo (dec b)]) 0 false true.
Proof.
  intros [d [p7 [p16 [Hd [H7 H16]]]]] b e. exists p7, p16.
  unfold generate_resend_request, add_body', add_body, new_msg. cbn [m_type m_hdr m_body m_custom m_noinc m_eob].
  rewrite Hd, H7. cbn [m_type m_hdr m_body m_custom m_noinc m_eob]. rewrite Hd, H16. reflexivity.
Qed.

Lemma rr_plain : knows_rr -> forall b e, plain_msg (generate_resend_request sc b e) = true.
Proof.
  intros K b e. destruct (rr_shape K b e) as [p7 [p16 E]]. rewrite E.
  unfold plain_msg. cbn [m_type m_hdr m_body m_custom m_noinc m_eob].
  rewrite !has_add_other by discriminate.
  assert (V : vals_ok (add_field p16 T_EndSeqNo (dec e) [mkF p7 T_BeginSeqNo (dec b)]) = true).
  { apply vals_ok_add; [apply clean_nosoh, dec_clean|]. unfold vals_ok. cbn [forallb f_val].
    rewrite (clean_nosoh _ (dec_clean b)). reflexivity. }
  rewrite V. reflexivity.
Qed.

Lemma rr_begin : knows_rr -> forall b e,
  get_field T_BeginSeqNo (m_body (generate_resend_request sc b e)) = Some (dec b).
Proof.
  intros K b e. destruct (rr_shape K b e) as [p7 [p16 E]]. rewrite E. cbn [m_body].
  rewrite get_add_other by discriminate. reflexivity.
Qed.

Lemma filled_hdr_no7 : forall now s b e, knows_rr ->
  get_field T_BeginSeqNo (m_hdr (filled sc now s (generate_resend_request sc b e))) = None.
Proof.
  intros now s b e K. rewrite filled_stamped. unfold stamped.
  rewrite !add_hdr'_get_other, addressed_get by discriminate.
  destruct (rr_shape K b e) as [p7 [p16 E]]. rewrite E. reflexivity.
Qed.

Theorem resend_request_wire : forall now s E,
  wf_schema sc = true -> knows_rr -> wf_sess s = true -> s_closed s = false -> s_batch s = [] ->
  exists s1 w,
    send sc now s (generate_resend_request sc E 0) 0 false = (true, s1, [EOut w]) /\
    resend_from E [EOut w] = true.
Proof.
  intros now s E WS K WSS C B.
  pose proof (rr_plain K E 0) as P.
  unfold send. cbn [N.eqb]. rewrite (send_process_plain sc now s _ P C).
  unfold plain_result.
  assert (EOB : m_eob (generate_resend_request sc E 0) = true).
  { destruct (rr_shape K E 0) as [p7 [p16 R]]. rewrite R. reflexivity. }
  rewrite EOB, B.
  destruct (filled_ok sc now s _ WS WSS P) as [Fwf Fty Fbody Fseq Fdup].
  destruct (wf_schema_fields sc WS) as [Nb _].
  assert (OE : out_events (wire sc now s (generate_resend_request sc E 0)) =
               [EOut (wire sc now s (generate_resend_request sc E 0))]).
  { unfold wire. apply out_events_encode. exact Nb. }
  rewrite OE. eexists; eexists. split; [reflexivity|].
  unfold resend_from. cbn [existsb]. rewrite orb_false_r. unfold wire, fld.
  rewrite (tok_get_encode_type sc _ Fwf). rewrite Fty.
  rewrite (tok_get_encode sc _ T_BeginSeqNo Fwf) by discriminate.
  rewrite (filled_hdr_no7 now s E 0 K). rewrite Fbody. rewrite (rr_begin K E 0).
  destruct (rr_shape K E 0) as [p7 [p16 R]]. rewrite R. cbn [m_type val]. rewrite !beq_refl. reflexivity.
Qed.

End RW.
