(* C19 after the repair of F24 (/repo 57dfe06: Session::process searches for SOH "34=", Sess.Session.pat_34):
   the number process gates on IS the MsgSeqNum field of the decoded message, for every message that consists of
   tag=value tokens none of whose values contains SOH and whose tags are canonical decimals.  What still escapes is
   exactly a value that contains SOH: the content of a FIX data field (SecureData 91, XmlData 213, ... behind
   their Length fields) in front of the header's MsgSeqNum -- see c19_34_data_refuted. *)
From Coq Require Import NArith ZArith List Bool.
From F8 Require Import Sess.Bytes Sess.Msg Sess.Persist Sess.Session Sess.SimpleCodec Sess.SessLemmas C19.Run19.
Import ListNotations.
Local Open Scope N_scope.

Lemma find_after_skip : forall p b l, nosoh b = true -> find_after (SOH :: p) (b ++ l) = find_after (SOH :: p) l.
Proof.
  induction b as [|x b IH]; intros l H; [reflexivity|].
  cbn [nosoh forallb] in H. apply andb_true_iff in H. destruct H as [H1 H2]. apply negb_true_iff in H1.
  cbn [app find_after starts_with]. rewrite N.eqb_sym, H1. cbn [andb]. apply IH. exact H2.
Qed.

Lemma raw_seq_skip : forall b l, nosoh b = true -> raw_seq (b ++ l) = raw_seq l.
Proof. intros b l H. unfold raw_seq, pat_34. rewrite (find_after_skip _ b l H). reflexivity. Qed.

Lemma raw_seq_soh : forall l,
  raw_seq (SOH :: l) = if starts_with [51; 52; 61] l then fast_atoi_u (skipn 3 l) SOH 0 else raw_seq l.
Proof.
  intro l. unfold raw_seq.
  change (find_after pat_34 (SOH :: l))
    with (if starts_with [51; 52; 61] l then Some (skipn 3 l) else find_after pat_34 l).
  destruct (starts_with [51; 52; 61] l); reflexivity.
Qed.

Lemma starts34 : forall t r, noeq t = true -> starts_with [51; 52; 61] (t ++ 61 :: r) = beq t [51; 52].
Proof.
  intros t r H.
  destruct t as [|a [|b0 [|c t']]]; cbn [app starts_with beq].
  - reflexivity.
  - rewrite (N.eqb_sym 51 a). destruct (a =? 51); reflexivity.
  - rewrite (N.eqb_sym 51 a), (N.eqb_sym 52 b0), N.eqb_refl. destruct (a =? 51); destruct (b0 =? 52); reflexivity.
  - cbn [noeq forallb] in H. apply andb_true_iff in H. destruct H as [_ H]. apply andb_true_iff in H. destruct H as [_ H].
    apply andb_true_iff in H. destruct H as [H _]. apply negb_true_iff in H. unfold ch_eq in H.
    rewrite (N.eqb_sym 61 c), H. rewrite !andb_false_r. reflexivity.
Qed.

Lemma fast_atoi_nosoh : forall v r acc, nosoh v = true -> fast_atoi_u (v ++ SOH :: r) SOH acc = Some (atoi_u v acc).
Proof.
  induction v as [|x v IH]; intros r acc H; cbn [app fast_atoi_u atoi_u].
  - rewrite N.eqb_refl. reflexivity.
  - cbn [nosoh forallb] in H. apply andb_true_iff in H. destruct H as [H1 H2]. apply negb_true_iff in H1.
    rewrite H1. apply IH. exact H2.
Qed.

Lemma enc_toks_cons : forall t v r, enc_toks ((t, v) :: r) = ((t ++ ch_eq :: v) ++ SOH :: enc_toks r)%list.
Proof.
  intros. unfold enc_toks. cbn [flat_map]. unfold enc_tok. cbn [fst snd].
  repeat (rewrite <- app_assoc; cbn [app]). reflexivity.
Qed.

Lemma tok_ok_parts : forall t v, tok_ok (t, v) = true -> nosoh (t ++ ch_eq :: v) = true /\ noeq t = true /\ nosoh v = true.
Proof.
  intros t v H. unfold tok_ok in H. cbn [fst snd] in H. apply andb_true_iff in H. destruct H as [H Nv].
  apply andb_true_iff in H. destruct H as [Nt Et]. rewrite nosoh_app, Nt. auto.
Qed.

Lemma raw_seq_soh_toks : forall toks, forallb tok_ok toks = true ->
  raw_seq (SOH :: enc_toks toks) =
  match tok_get [51; 52] toks with Some v => Some (atoi_u v 0) | None => None end.
Proof.
  induction toks as [|[t v] r IH]; intro H; [reflexivity|].
  cbn [forallb] in H. apply andb_true_iff in H. destruct H as [H1 H2].
  destruct (tok_ok_parts _ _ H1) as [Ntv [Et Nv]].
  rewrite enc_toks_cons, raw_seq_soh, (raw_seq_skip _ _ Ntv), (IH H2).
  rewrite <- app_assoc. cbn [app tok_get]. rewrite (starts34 t _ Et).
  destruct (beq t [51; 52]) eqn:B; [|reflexivity].
  apply beq_eq in B. subst t. apply fast_atoi_nosoh. exact Nv.
Qed.

(* the leading token has no SOH in front of it: the scan does not see it, whatever its tag *)
Theorem raw_seq_tokens : forall t0 toks, forallb tok_ok (t0 :: toks) = true ->
  raw_seq (enc_toks (t0 :: toks)) =
  match tok_get (dec T_MsgSeqNum) toks with Some v => Some (atoi_u v 0) | None => None end.
Proof.
  intros [t v] toks H. cbn [forallb] in H. apply andb_true_iff in H. destruct H as [H1 H2].
  destruct (tok_ok_parts _ _ H1) as [Ntv _].
  rewrite enc_toks_cons, (raw_seq_skip _ _ Ntv). apply raw_seq_soh_toks. exact H2.
Qed.

(* canonical decimal tag (no leading zeros): a tag such as "034" is read as 34 by the decoders but is not found by the
   byte search *)
Definition canon (t : bytes) : bool := match undec t with Some n => beq t (dec n) | None => true end.
Definition tok_ok19 (tv : bytes * bytes) : bool := tok_ok tv && canon (fst tv).

Lemma tok_ok19_parts : forall l,
  forallb tok_ok19 l = true -> forallb tok_ok l = true /\ forallb (fun tv => canon (fst tv)) l = true.
Proof.
  intros l H. split; (eapply forallb_impl; [|exact H]);
    intros x Hx; unfold tok_ok19 in Hx; apply andb_true_iff in Hx; tauto.
Qed.

Definition seq_from_token (decode : bytes -> decode_result) : Prop :=
  forall t0 toks m, forallb tok_ok19 (t0 :: toks) = true -> decode (enc_toks (t0 :: toks)) = DecOk m ->
  get_field T_MsgSeqNum (m_hdr m) = tok_get (dec T_MsgSeqNum) toks.

Theorem gate_is_msgseqnum : forall decode t0 toks m,
  seq_from_token decode -> forallb tok_ok19 (t0 :: toks) = true -> decode (enc_toks (t0 :: toks)) = DecOk m ->
  (raw_seq (enc_toks (t0 :: toks)) = Some (field_seq m) /\ get_field T_MsgSeqNum (m_hdr m) <> None) \/
  (raw_seq (enc_toks (t0 :: toks)) = None /\ get_field T_MsgSeqNum (m_hdr m) = None).
Proof.
  intros decode t0 toks m SF OK D. rewrite (raw_seq_tokens t0 toks (proj1 (tok_ok19_parts _ OK))).
  unfold field_seq. rewrite (SF t0 toks m OK D).
  destruct (tok_get (dec T_MsgSeqNum) toks); [left; split; [reflexivity|discriminate]|right; split; reflexivity].
Qed.

Lemma take_part_acc : forall tbl l pos acc,
  take_part tbl pos l acc = ((rev acc ++ fst (take_part tbl pos l []))%list, snd (take_part tbl pos l [])).
Proof.
  induction l as [|[t v] l IH]; intros pos acc; cbn [take_part].
  - cbn. rewrite app_nil_r. reflexivity.
  - destruct (tag_of t) as [tag|]; [|cbn; rewrite app_nil_r; reflexivity].
    destruct (assoc tag tbl); [|cbn; rewrite app_nil_r; reflexivity].
    rewrite (IH (pos + 1) (mkF (pos + 1) tag v :: acc)). rewrite (IH (pos + 1) [mkF (pos + 1) tag v]).
    cbn [rev fst snd app]. rewrite <- app_assoc. reflexivity.
Qed.

Lemma take_part_seq : forall tbl l pos,
  forallb (fun tv => canon (fst tv)) l = true ->
  has_field T_MsgSeqNum (fst (take_part tbl pos l [])) = true ->
  get_field T_MsgSeqNum (fst (take_part tbl pos l [])) = tok_get (dec T_MsgSeqNum) l.
Proof.
  induction l as [|[t v] l IH]; intros pos C H; [discriminate H|].
  cbn [forallb fst] in C. apply andb_true_iff in C. destruct C as [C1 C2].
  cbn [take_part] in *. unfold tag_of in *. unfold canon in C1.
  destruct (undec t) as [tag|] eqn:U; [|discriminate H].
  destruct (assoc tag tbl); [|discriminate H].
  rewrite take_part_acc in *. cbn [rev app fst] in *. unfold has_field in H. cbn [get_field f_tag f_val] in *.
  cbn [tok_get]. apply beq_eq in C1. rewrite C1 at 1. rewrite beq_dec.
  destruct (tag =? T_MsgSeqNum); [reflexivity|].
  apply IH; [exact C2|]. unfold has_field. exact H.
Qed.

Lemma first_missing_has : forall mand l t, first_missing mand l = None -> In t mand -> has_field t l = true.
Proof.
  induction mand as [|x mand IH]; intros l t H I; [destruct I|].
  cbn [first_missing] in H. destruct (has_field x l) eqn:E; [|discriminate].
  destruct I as [I|I]; [subst; exact E|apply IH; assumption].
Qed.

(* the CheckSum test of simple_decode as a case rule: the scrutinee is not taken apart in the caller's goal *)
Lemma trailer_cases : forall (A : Type) (P : A -> Prop) (t : bytes) (F : N -> N -> N -> A) (E : A),
  (forall a b c, P (F a b c)) -> P E -> P (match t with [49; 48; 61; a; b; c; _] => F a b c | _ => E end).
Proof.
  intros A P t F E HF HE. repeat match goal with |- P (match ?x with _ => _ end) => destruct x end; auto.
Qed.

Lemma simple_decode_ok : forall sc fl raw m, simple_decode sc fl raw = DecOk m ->
  exists v8 v9 rest,
    tokens raw = ([56], v8) :: ([57], v9) :: ([51; 53], m_type m) :: rest /\
    m_hdr m = fst (take_part (sc_hdr sc) 3 rest []) /\
    first_missing (filter (fun t => negb ((t =? 8) || (t =? 9) || (t =? 35))) (sc_hdr_mand sc)) (m_hdr m) = None.
Proof.
  intros sc fl raw m D. unfold simple_decode in D. destruct raw as [|b0 raw0]; [discriminate D|].
  destruct (tokens (b0 :: raw0)) as [|[t8 v8] [|[t9 v9] [|[t35 mt] rest]]]; try discriminate D.
  destruct (beq t8 [56] && beq t9 [57] && beq t35 [51; 53]) eqn:C; [|discriminate D].
  apply andb_true_iff in C. destruct C as [C C35]. apply andb_true_iff in C. destruct C as [C8 C9].
  apply beq_eq in C8. apply beq_eq in C9. apply beq_eq in C35. subst t8 t9 t35.
  destruct (find_def mt (sc_msgs sc)) as [d|]; [|discriminate D].
  destruct (take_part (sc_hdr sc) 3 rest []) as [hdr rest1] eqn:TP.
  destruct (first_missing _ hdr) eqn:FM; [discriminate D|].
  destruct (take_part (d_pos d) 0 rest1 []) as [body r2].
  destruct (first_missing (d_mand d) body); [discriminate D|].
  exists v8, v9, rest. revert D. apply trailer_cases; [intros a b c|discriminate].
  destruct (atoi_u [a; b; c] 0 =? _); intro D; [|discriminate D].
  inversion D. cbn [m_type m_hdr]. rewrite TP. auto.
Qed.

Theorem simple_decode_seq_from_token : forall sc fl,
  In T_MsgSeqNum (sc_hdr_mand sc) -> seq_from_token (simple_decode sc fl).
Proof.
  intros sc fl MAND t0 toks m OK D. destruct (tok_ok19_parts _ OK) as [TOK CAN].
  destruct (simple_decode_ok _ _ _ _ D) as (v8 & v9 & rest & E & Hh & FM).
  rewrite (tokens_enc_toks _ TOK) in E. inversion E. subst t0 toks. clear E.
  (* the tokens 9 and 35 in front of `rest` are not MsgSeqNum *)
  rewrite Hh. transitivity (tok_get (dec T_MsgSeqNum) rest); [|reflexivity].
  apply take_part_seq.
  - cbn [forallb] in CAN. repeat (apply andb_true_iff in CAN; destruct CAN as [? CAN]). exact CAN.
  - rewrite <- Hh. eapply first_missing_has; [exact FM|]. apply filter_In. split; [exact MAND|reflexivity].
Qed.
