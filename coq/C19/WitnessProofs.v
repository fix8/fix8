(* C19: the vocabulary in which the witnesses of Witness19.v are judged (the model's `process` on the witness
   schema, the decoded MsgSeqNum), and the witnesses behind c19_delivery_nonvacuous evaluated (vm_compute) on the
   model and judged by the oracle.  The other witness theorems are evaluated where they are stated. *)
From Coq Require Import NArith ZArith List Bool String.
From F8 Require Import Sess.Bytes Sess.Msg Sess.Session Sess.Wire Sess.SessLemmas Sess.SendLemmas
  C19.Run19 C19.Spec_C19 C19.Witness19 C19.DeliverProofs C19.ResendWire C19.GateProofs.
Import ListNotations.
Local Open Scope N_scope.

Definition decoded_seq (raw : list N) : option N :=
  match dec0 raw with DecOk m => Some (field_seq m) | DecExc _ _ => None end.
Definition proc (raw : list N) (s : sess) := process sc0 dec0 fl0 T0 raw s.
Definition p_ret (x : bool * sess * list event) : bool := fst (fst x).
Definition p_sess (x : bool * sess * list event) : sess := snd (fst x).
Definition p_evs (x : bool * sess * list event) : list event := snd x.

(* Session::process as it was before /repo 57dfe06 (searching for "34=" anywhere: pat_34_orig) *)
Definition proc_orig (raw : list N) (s : sess) := process_with sc0 dec0 fl0 pat_34_orig T0 raw s.
(* ... and with the Codec group's model of Message::factory as the decoder *)
Definition proc_c (raw : list N) (s : sess) := process sc0 dec0c fl0 T0 raw s.

(* the message a decoder returned: the `m` of the witnesses, all of which are decoded *)
Definition decoded (r : decode_result) : msg :=
  match r with DecOk m => m | DecExc _ _ => new_msg [] end.

(* ordinary traffic, accepted by the oracle.  Step 2: number 2 at expected 2 delivered; step 3: duplicate 2
   (PossDup, Orig before Sending) at expected 3 delivered; step 5: number 7 at expected 5 not delivered,
   ResendRequest from 5; a too-low Logon in state logon_received is answered with a Logout *)
Lemma wgood :
  c19_ok sc0 lens0 ops_good (run0 ops_good) = true /\
  has_deliver (nth_events 2 (run0 ops_good)) = true /\
  has_deliver (nth_events 3 (run0 ops_good)) = true /\
  has_deliver (nth_events 5 (run0 ops_good)) = false /\
  resend_from 5 (nth_events 5 (run0 ops_good)) = true /\
  c19_ok sc0 lens0 ops_logon_low (run0 ops_logon_low) = true /\
  has_out [53] (last_events (run0 ops_logon_low)) = true.
Proof. vm_compute. repeat split; reflexivity. Qed.

(* the same on the level of process: instances of the hypotheses of c19_delivery_partial *)
Lemma wdeliver :
  decoded_seq (order_msg "2" []) = Some 2 /\ raw_seq (order_msg "2" []) = Some 2 /\ s_next_recv s_cont = 2 /\
  delivered (p_evs (proc (order_msg "2" []) s_cont)) = true /\
  decoded_seq (order_msg "2" dup_hdr) = Some 2 /\ raw_seq (order_msg "2" dup_hdr) = Some 2 /\ s_next_recv s_cont3 = 3 /\
  delivered (p_evs (proc (order_msg "2" dup_hdr) s_cont3)) = true.
Proof. vm_compute. repeat split; reflexivity. Qed.

(* the side conditions of c19_high_continuous_wire *)
Lemma sc0_wire_ok :
  wf_schema sc0 = true /\ knows_rr sc0 /\ wf_sess s_cont = true /\ s_closed s_cont = false /\ s_batch s_cont = [].
Proof.
  split; [vm_compute; reflexivity|]. split.
  - unfold knows_rr. eexists; eexists; eexists. vm_compute. repeat split; reflexivity.
  - vm_compute. repeat split; reflexivity.
Qed.

(* the hypotheses of c19_delivery_tokens *)
Local Open Scope string_scope.
Local Open Scope list_scope.
Local Open Scope N_scope.
Definition toks_order2 : list (list N * list N) :=
  map bb ([("8","FIX.4.2"); ("9","101"); ("35","D"); ("49","SRV"); ("56","CLI"); ("34","2"); ("52",T)] ++ order ++ [("10","131")]).
Lemma wtokens :
  In T_MsgSeqNum (sc_hdr_mand sc0) /\
  forallb tok_ok19 toks_order2 = true /\ enc_toks toks_order2 = order_msg "2" [] /\
  decoded_seq (enc_toks toks_order2) = Some 2 /\
  delivered (p_evs (proc (enc_toks toks_order2) s_cont)) = true.
Proof. split; [left; reflexivity|]. vm_compute. repeat split; reflexivity. Qed.
