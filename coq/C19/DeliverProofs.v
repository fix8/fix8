(* C19: the inbound path of the session model (Sess.Session.process and below).  The sequence gate
   Session::enforce has four outcomes (`verdict_of`, `enforce_outcome`); only handle_application puts a
   DELIVER into the events, and only when the gate lets the message pass (`process_delivered_inv`); a handler
   that starts with enforce stops where the gate stops (`process_fatal`, `process_resend`). *)
From Coq Require Import NArith ZArith List Bool Lia.
From F8 Require Import Sess.Bytes Sess.Msg Sess.Persist Sess.Session Sess.SessLemmas Sess.ProcessLemmas C19.Run19.
Import ListNotations.
Local Open Scope N_scope.

Definition is_deliver (e : event) : bool := match e with EDeliver _ _ _ => true | _ => false end.
Definition delivered (l : list event) : bool := existsb is_deliver l.
Definition quiet (l : list event) : Prop := delivered l = false.

Lemma delivered_app : forall a b, delivered (a ++ b) = delivered a || delivered b.
Proof. intros. apply existsb_app. Qed.

Lemma quiet_app : forall a b, quiet a -> quiet b -> quiet (a ++ b).
Proof. unfold quiet. intros a b Ha Hb. rewrite delivered_app, Ha, Hb. reflexivity. Qed.

Lemma quiet_map_out : forall l, quiet (map EOut l).
Proof. induction l; [reflexivity|exact IHl]. Qed.

Notation "x <- a ;; b" := (bind a (fun x => b)) (at level 61, a at next level, right associativity).
Notation "a ;;; b" := (bind a (fun _ => b)) (at level 61, right associativity).

Definition Q {A : Type} (x : M A) : Prop := forall s r s' e, x s = (r, s', e) -> quiet e.

Lemma Q_ret : forall A (a : A), Q (ret a).
Proof. intros A a s r s' e H. inversion H. reflexivity. Qed.
Lemma Q_throw : forall A t f, Q (@throw A t f).
Proof. intros A t f s r s' e H. inversion H. reflexivity. Qed.
Lemma Q_get : Q get.
Proof. intros s r s' e H. inversion H. reflexivity. Qed.
Lemma Q_modify : forall f, Q (modify f).
Proof. intros f s r s' e H. inversion H. reflexivity. Qed.
Lemma Q_note : forall b, Q (emit (ENote b)).
Proof. intros b s r s' e H. inversion H. reflexivity. Qed.
Lemma Q_bind : forall A B (x : M A) (f : A -> M B), Q x -> (forall a, Q (f a)) -> Q (bind x f).
Proof.
  intros A B x f Hx Hf s r s' e. unfold bind. destruct (x s) as [[r1 s1] e1] eqn:E1. destruct r1 as [a|ex].
  - destruct (f a s1) as [[r2 s2] e2] eqn:E2. intro H. inversion H; subst.
    apply quiet_app; [eapply Hx; exact E1|eapply Hf; exact E2].
  - intro H. inversion H; subst. eapply Hx. exact E1.
Qed.

Lemma bind_delivered : forall A B (x : M A) (f : A -> M B) s r s' e,
  (forall a, Q (f a)) -> bind x f s = (r, s', e) -> delivered e = true -> delivered (snd (x s)) = true.
Proof.
  intros A B x f s r s' e Hf. unfold bind. destruct (x s) as [[[a|ex] s1] e1]; cbn [snd].
  - destruct (f a s1) as [[r2 s2] e2] eqn:E2. intro H. inversion H; subst.
    rewrite delivered_app, (Hf a _ _ _ _ E2), orb_false_r. trivial.
  - intro H. inversion H; subst. trivial.
Qed.

Definition inseq (s : sess) (q : N) (m : msg) : Prop :=
  q = s_next_recv s \/ (q < s_next_recv s /\ possdup_of m = true /\ orig_after m = false).

(* what enforce makes of a message; `outcome` below says what each verdict means for its result *)
Inductive verdict := Pass | Refuse | Resend | Fatal.

Definition seq_verdict (s : sess) (q : N) (m : msg) : verdict :=
  if beq (m_type m) mt_sequence_reset then Refuse
  else if s_next_recv s <? q then (if s_state s =? st_continuous then Resend else Fatal)
  else if q <? s_next_recv s then (if possdup_of m && negb (orig_after m) then Pass else Fatal)
  else Pass.

Definition verdict_of (s : sess) (q : N) (m : msg) : verdict :=
  if negb (is_established (s_state s)) then Refuse
  else if negb (s_state s =? st_logon_received) && negb (compid_pass s m) then Fatal
  else seq_verdict s q m.

Lemma seq_verdict_pass : forall s q m,
  seq_verdict s q m = Pass <-> beq (m_type m) mt_sequence_reset = false /\ inseq s q m.
Proof.
  intros s q m. unfold seq_verdict, inseq.
  destruct (beq (m_type m) mt_sequence_reset); [split; [discriminate|intros [H _]; discriminate H]|].
  destruct (N.ltb_spec (s_next_recv s) q) as [H|H].
  - destruct (s_state s =? st_continuous); (split; [discriminate|lia]).
  - destruct (N.ltb_spec q (s_next_recv s)) as [L|L]; [|split; [split; [reflexivity|left; lia]|reflexivity]].
    destruct (possdup_of m), (orig_after m); cbn [andb negb];
      (split; [try discriminate; auto|intros [_ [E|[_ [P O]]]]; [lia|congruence]]).
Qed.

Lemma verdict_pass : forall s q m,
  verdict_of s q m = Pass <->
  is_established (s_state s) = true /\ (s_state s = st_logon_received \/ compid_pass s m = true) /\
  beq (m_type m) mt_sequence_reset = false /\ inseq s q m.
Proof.
  intros s q m. unfold verdict_of. rewrite <- seq_verdict_pass.
  destruct (is_established (s_state s)); [|split; [discriminate|intros [H _]; discriminate H]].
  destruct (N.eqb_spec (s_state s) st_logon_received) as [L|L], (compid_pass s m); cbn [negb andb];
    intuition congruence.
Qed.

Lemma verdict_high : forall s q m,
  is_established (s_state s) = true -> compid_pass s m = true -> beq (m_type m) mt_sequence_reset = false ->
  s_next_recv s < q ->
  verdict_of s q m = if s_state s =? st_continuous then Resend else Fatal.
Proof.
  intros s q m Est C T H. unfold verdict_of, seq_verdict. rewrite Est, C, T, andb_false_r.
  apply N.ltb_lt in H. rewrite H. reflexivity.
Qed.

Lemma verdict_resend : forall s q m, verdict_of s q m = Resend -> s_state s = st_continuous.
Proof.
  intros s q m. unfold verdict_of, seq_verdict.
  destruct (negb (is_established (s_state s))); [discriminate|].
  destruct (negb (s_state s =? st_logon_received) && negb (compid_pass s m)); [discriminate|].
  destruct (beq (m_type m) mt_sequence_reset); [discriminate|].
  destruct (s_next_recv s <? q).
  - destruct (N.eqb_spec (s_state s) st_continuous) as [E|E]; [intros _; exact E|discriminate].
  - destruct (q <? s_next_recv s); [destruct (possdup_of m && negb (orig_after m))|]; discriminate.
Qed.

Definition violation (s : sess) (q : N) (m : msg) : Prop :=
  (s_state s <> st_logon_received /\ compid_pass s m = false) \/
  ((s_state s = st_logon_received \/ compid_pass s m = true) /\ q < s_next_recv s /\
   (possdup_of m = false \/ orig_after m = true)).

Lemma verdict_violation : forall s q m,
  is_established (s_state s) = true -> beq (m_type m) mt_sequence_reset = false -> violation s q m ->
  verdict_of s q m = Fatal.
Proof.
  intros s q m Est T V. unfold verdict_of, seq_verdict. rewrite Est, T. cbn [negb].
  destruct V as [[L Cf]|[Cp [H P]]].
  - apply N.eqb_neq in L. rewrite L, Cf. reflexivity.
  - replace (negb (s_state s =? st_logon_received) && negb (compid_pass s m)) with false
      by (destruct Cp as [L|Cp]; [rewrite L|rewrite Cp, andb_false_r]; reflexivity).
    replace (s_next_recv s <? q) with false by (symmetry; apply N.ltb_ge; lia).
    apply N.ltb_lt in H. rewrite H.
    destruct P as [P|P]; rewrite P; [|rewrite andb_false_r]; reflexivity.
Qed.

(* the types Session::process hands to handle_application: all but the seven one-character administrative
   ones, hence every type of two or more characters *)
Definition app_type (t : bytes) : bool :=
  match t with
  | [c] => negb ((c =? 48) || (c =? 49) || (c =? 50) || (c =? 51) || (c =? 52) || (c =? 53) || (c =? 65))
  | _ => true
  end.

Lemma admin_types : forall t, app_type t = false ->
  In t [[48]; [49]; [50]; [51]; [52]; [53]; [65]].
Proof.
  intros [|c [|c2 l]] A; try discriminate. cbn [app_type] in A. apply negb_false_iff in A.
  repeat (apply orb_true_iff in A; destruct A as [A|A]); apply N.eqb_eq in A; subst c; cbn; tauto.
Qed.

Lemma app_type_not_reset : forall t, app_type t = true -> beq t mt_sequence_reset = false.
Proof.
  intros t A. destruct (beq t mt_sequence_reset) eqn:B; [|reflexivity].
  apply beq_eq in B. subst t. discriminate A.
Qed.

(* every type except Reject (handle_reject: no check at all), SequenceReset (exempt from the sequence check)
   and Logon (handle_logon has its own preamble) *)
Definition checked (m : msg) : bool :=
  negb (beq (m_type m) mt_reject) && negb (beq (m_type m) mt_sequence_reset) && negb (beq (m_type m) mt_logon).

Lemma checked_not_reset : forall m, checked m = true -> beq (m_type m) mt_sequence_reset = false.
Proof.
  intros m C. unfold checked in C. destruct (beq (m_type m) mt_sequence_reset); [|reflexivity].
  rewrite andb_false_r in C. discriminate C.
Qed.

Set Default Proof Using "Type".

Section Proofs.
Variable sc : schema.
Variable decode : bytes -> decode_result.
Variable fl : bytes.

Lemma out_events_quiet : forall b, quiet (out_events b).
Proof.
  intros b. unfold out_events. destruct (frames b) as [ms rest].
  apply quiet_app; [apply quiet_map_out|]. destruct rest; reflexivity.
Qed.

Lemma send_inbound : forall now s m c n ok s' e,
  send sc now s m c n = (ok, s', e) -> quiet e /\ s_next_recv s' = s_next_recv s.
Proof.
  intros until e. unfold send. intro H.
  destruct (send_process_writes _ _ _ _ _ _ _ H) as [[E ->]|(buf & _ & E & ->)]; rewrite E;
    (split; [|reflexivity]); [reflexivity|apply out_events_quiet].
Qed.

Lemma Q_do_send : forall now m c n, Q (do_send sc now m c n).
Proof.
  intros now m c n s r s' e. unfold do_send. destruct (send sc now s m c n) as [[ok s1] e1] eqn:E.
  intro H. inversion H; subst. eapply send_inbound. exact E.
Qed.

(* Q of a term built from the monad's operations and from computations known to be Q (hint database quiet) *)
Create HintDb quiet.
Hint Resolve Q_ret Q_throw Q_get Q_modify Q_note Q_do_send : quiet.

Ltac solveQ :=
  repeat first
    [ solve [auto with quiet nocore]
    | apply Q_bind; [|intro]
    | match goal with
      | |- Q (if ?c then _ else _) => destruct c
      | |- Q (match ?x with _ => _ end) => destruct x
      end ].

Section Now.
Variable now : Z.

Lemma Q_set_state : forall st, Q (set_state st).
Proof. intros. apply Q_modify. Qed.

Lemma Q_compid_check : forall m, Q (compid_check m).
Proof. intros. unfold compid_check. solveQ. Qed.

Lemma Q_handle_outbound_reject : forall q mt t, Q (handle_outbound_reject sc now q mt t).
Proof. intros. unfold handle_outbound_reject. apply Q_do_send. Qed.
Hint Resolve Q_set_state Q_compid_check Q_handle_outbound_reject : quiet.

Lemma Q_sequence_check : forall q m, Q (sequence_check sc now q m).
Proof. intros. unfold sequence_check. solveQ. Qed.
Hint Resolve Q_sequence_check : quiet.

Lemma Q_enforce : forall q m, Q (enforce sc now q m).
Proof. intros. unfold enforce. solveQ. Qed.
Hint Resolve Q_enforce : quiet.

Lemma Q_retrans_loop : forall fuel b f l c, Q (retrans_loop sc decode now fuel b f l c).
Proof.
  induction fuel; intros; cbn [retrans_loop]; [solveQ|].
  apply Q_bind; [apply Q_get|intro s0].
  destruct (p_next_after (s_per s0) c) as [[seq raw]|]; [|apply Q_ret].
  destruct (f <? seq); [apply Q_ret|].
  apply Q_bind; [unfold retrans_record; solveQ|intro ok]. destruct ok; [apply IHfuel|apply Q_ret].
Qed.

Lemma Q_retrans_final : forall b i l, Q (retrans_final sc now b i l).
Proof. intros. unfold retrans_final. solveQ. Qed.
Hint Resolve Q_retrans_loop Q_retrans_final : quiet.

Definition resend_msg (s : sess) : msg := generate_resend_request sc (s_next_recv s) 0.

Definition outcome (v : verdict) (s : sess) (r : (bool + exc) * sess * list event) : Prop :=
  match v with
  | Pass => r = (inl false, s, [])
  | Refuse => r = (inl true, s, [])
  | Resend => r = (let '(_, s1, e1) := send sc now s (resend_msg s) 0 false in
                   (inl true, w_state st_resend_request_sent s1, e1))
  | Fatal => exists text, r = (inr (Exc text true), s, [])
  end.

Lemma compid_check_spec : forall m s,
  if compid_pass s m then compid_check m s = (inl tt, s, [])
  else exists text, compid_check m s = (inr (Exc text true), s, []).
Proof.
  intros m s. unfold compid_pass, compid_check. rewrite bind_get.
  destruct (pr_ec (s_par s)); [|reflexivity]. cbn [negb orb].
  destruct (beq _ (s_snd s)); [destruct (beq _ (s_tgt s))|]; cbn [negb andb]; unfold throw; eauto.
Qed.

(* the second half of enforce *)
Lemma sequence_check_outcome : forall q m s,
  outcome (seq_verdict s q m) s
    ((if negb (beq (m_type m) mt_sequence_reset) then b <- sequence_check sc now q m ;; ret (negb b) else ret true) s).
Proof.
  intros q m s. unfold seq_verdict, sequence_check, possdup_of, orig_after.
  destruct (beq (m_type m) mt_sequence_reset); [reflexivity|]. cbn [negb]. rewrite bind_assoc, bind_get.
  destruct (s_next_recv s <? q).
  - destruct (s_state s =? st_continuous); [|cbn; eauto].
    unfold outcome, resend_msg, bind, do_send.
    destruct (send sc now s (generate_resend_request sc (s_next_recv s) 0) 0 false) as [[ok s1] e1].
    cbn. rewrite !app_nil_r. reflexivity.
  - destruct (q <? s_next_recv s); [|reflexivity].
    destruct (bool_field (get_field T_PossDupFlag (m_hdr m))); [|cbn; eauto].
    destruct (get_field T_OrigSendingTime (m_hdr m)) as [ost|]; [|reflexivity].
    destruct (get_field T_SendingTime (m_hdr m)) as [st|]; [|reflexivity].
    destruct (bgt ost st); cbn; eauto.
Qed.

Theorem enforce_outcome : forall q m s, outcome (verdict_of s q m) s (enforce sc now q m s).
Proof.
  intros q m s. unfold verdict_of, enforce. rewrite bind_get.
  destruct (is_established (s_state s)); [|reflexivity].
  destruct (s_state s =? st_logon_received); cbn [negb andb].
  - rewrite bind_skip with (a := tt) by reflexivity. apply sequence_check_outcome.
  - pose proof (compid_check_spec m s) as C. destruct (compid_pass s m); cbn [negb].
    + rewrite (bind_skip _ _ _ _ _ _ C). apply sequence_check_outcome.
    + destruct C as [text C]. exists text. unfold bind. rewrite C. reflexivity.
Qed.

Lemma handle_application_outcome : forall q m s,
  match verdict_of s q m with
  | Pass => handle_application sc now q m s =
            (inl (mem_bytes (m_type m) (sc_routed sc)), s, [EDeliver (m_type m) q (possdup_of m)])
  | _ => quiet (snd (handle_application sc now q m s))
  end.
Proof.
  intros q m s. unfold handle_application, bind. pose proof (enforce_outcome q m s) as O.
  destruct (verdict_of s q m); cbn [outcome] in O.
  - rewrite O. reflexivity.
  - rewrite O. reflexivity.
  - destruct (send sc now s (resend_msg s) 0 false) as [[ok s1] e1] eqn:E. rewrite O. cbn. rewrite app_nil_r.
    eapply send_inbound. exact E.
  - destruct O as [text O]. rewrite O. reflexivity.
Qed.

Definition app_call (q : N) (m : msg) : M bool :=
  s <- get ;; if s_active s then handle_application sc now q m else ret false.

Lemma dispatch_app : forall q m, app_type (m_type m) = true ->
  dispatch sc decode now q m = (r <- app_call q m ;; ret (r, false)).
Proof.
  intros q m A. unfold dispatch. fold (app_call q m).
  destruct (m_type m) as [|c [|c2 l]]; [reflexivity| |reflexivity].
  cbn [app_type] in A. apply negb_true_iff in A.
  repeat (apply orb_false_iff in A; destruct A as [A ?]).
  repeat match goal with H : (c =? _) = false |- _ => rewrite H; clear H end. reflexivity.
Qed.

Lemma Q_dispatch_admin : forall q m, app_type (m_type m) = false -> Q (dispatch sc decode now q m).
Proof.
  intros q m A. apply admin_types in A. unfold dispatch.
  repeat (destruct A as [A|A];
          [rewrite <- A; cbn [N.eqb Pos.eqb];
           unfold handle_heartbeat, handle_test_request, handle_resend_request, handle_sequence_reset,
             handle_logout, handle_logon; solveQ|]).
  destruct A.
Qed.

Lemma dispatch_delivered : forall q m s r s' e,
  dispatch sc decode now q m s = (r, s', e) -> delivered e = true ->
  s_active s = true /\ app_type (m_type m) = true /\ verdict_of s q m = Pass.
Proof.
  intros q m s r s' e D Dl. destruct (app_type (m_type m)) eqn:A.
  - rewrite (dispatch_app q m A) in D. apply bind_delivered in D; [|intro; apply Q_ret|exact Dl].
    unfold app_call in D. rewrite bind_get in D. destruct (s_active s); [|discriminate D].
    pose proof (handle_application_outcome q m s) as O.
    destruct (verdict_of s q m); [auto| | |]; unfold quiet in O; congruence.
  - apply (Q_dispatch_admin q m A) in D. congruence.
Qed.

(* the catch (f8Exception&) block of process (Sess.Session.process_catch) *)
Definition catch19 (q : N) (mt : option bytes) (r : (bool + exc) * sess * list event) : bool * sess * list event :=
  process_catch sc now q mt r.

Lemma process_numbered : forall raw s q,
  raw_seq raw = Some q ->
  process sc decode fl now raw s =
  match decode raw with
  | DecOk m => catch19 q (Some (m_type m)) (process_body sc decode now q m s)
  | DecExc text force => catch19 q None (inr (Exc text force), s, [])
  end.
Proof.
  intros raw s q R. unfold process, raw_seq in *.
  destruct (find_after pat_34 raw) as [rest|]; [|discriminate]. rewrite R. reflexivity.
Qed.

Lemma process_no34 : forall raw s,
  find_after pat_34 raw = None ->
  process sc decode fl now raw s = catch19 0 None (inr (Exc (fmt2 txt_invmsg raw txt_at fl) false), s, []).
Proof. intros raw s R. unfold process. rewrite R. reflexivity. Qed.

Lemma catch19_events : forall q mt r s1 e1 b s' e,
  catch19 q mt (r, s1, e1) = (b, s', e) -> exists e2, e = (e1 ++ e2)%list /\ quiet e2.
Proof.
  intros q mt r s1 e1 b s' e. unfold catch19, process_catch. destruct r as [b0|[text force]].
  - intro H. inversion H; subst. exists []. rewrite app_nil_r. split; reflexivity.
  - destruct force.
    + destruct ((s_state s1 =? st_logon_received) && negb (pr_sd (s_par s1))).
      * destruct (send sc now (w_state st_session_terminated s1) (generate_logout sc (Some text)) 0 true) as [[ok sb] eb] eqn:E.
        intro H. inversion H; subst. exists eb. split; [reflexivity|eapply send_inbound; exact E].
      * intro H. inversion H; subst. exists []. split; reflexivity.
    + destruct (handle_outbound_reject sc now q mt text s1) as [[ok s2] e2] eqn:E.
      intro H. inversion H; subst. exists e2. split; [reflexivity|eapply Q_handle_outbound_reject; exact E].
Qed.

Theorem process_delivered_inv : forall raw s r s' e,
  process sc decode fl now raw s = (r, s', e) -> delivered e = true ->
  exists q m, raw_seq raw = Some q /\ decode raw = DecOk m /\
              s_active s = true /\ app_type (m_type m) = true /\ verdict_of s q m = Pass.
Proof.
  intros raw s r s' e P Dl.
  assert (THROWN : forall q mt x, catch19 q mt (inr x, s, []) = (r, s', e) -> False).
  { intros q mt x H. apply catch19_events in H. destruct H as [e2 [E Q2]]. subst e.
    unfold quiet in Q2. cbn [app] in Dl. congruence. }
  unfold process in P. unfold raw_seq.
  destruct (find_after pat_34 raw) as [rest|]; [|destruct (THROWN _ _ _ P)].
  destruct (fast_atoi_u rest SOH 0) as [q|]; [|inversion P; subst; discriminate].
  destruct (decode raw) as [m|text force]; [|destruct (THROWN _ _ _ P)].
  exists q, m. split; [reflexivity|split; [reflexivity|]].
  destruct (process_body sc decode now q m s) as [[rb sb] eb] eqn:B.
  apply catch19_events in P. destruct P as [e2 [E Q2]]. subst e.
  rewrite delivered_app, Q2, orb_false_r in Dl.
  unfold process_body in B. apply bind_delivered in B; [| |exact Dl].
  - destruct (dispatch sc decode now q m s) as [[rd sd] ed] eqn:D. eapply dispatch_delivered; eassumption.
  - intro rr. solveQ.
Qed.

Theorem process_pass : forall raw s q m,
  raw_seq raw = Some q -> decode raw = DecOk m -> app_type (m_type m) = true -> s_active s = true ->
  verdict_of s q m = Pass ->
  exists s', process sc decode fl now raw s =
             (mem_bytes (m_type m) (sc_routed sc), s', [EDeliver (m_type m) q (possdup_of m)]).
Proof.
  intros raw s q m R D A Act V.
  rewrite (process_numbered _ _ _ R), D. unfold catch19, process_body.
  unfold bind at 1. rewrite (dispatch_app q m A). unfold bind at 1. unfold app_call. rewrite bind_get, Act.
  pose proof (handle_application_outcome q m s) as O. rewrite V in O. rewrite O.
  unfold bind, ret, modify. cbn. eexists. reflexivity.
Qed.

Definition enforce_first {A} (q : N) (m : msg) (x : M A) (s : sess) : Prop :=
  exists k, x s = bind (enforce sc now q m) k s.

Lemma enforce_first_bind : forall A B q m (x : M A) (f : A -> M B) s,
  enforce_first q m x s -> enforce_first q m (bind x f) s.
Proof.
  intros A B q m x f s [k E]. exists (fun a => bind (k a) f).
  rewrite (bind_cong _ _ _ _ f _ E). apply bind_assoc.
Qed.

(* handle_application and the handler of every checked type start with enforce; hence so does the try block *)
Lemma body_enforce_first : forall q m s,
  checked m = true -> s_active s = true -> enforce_first q m (process_body sc decode now q m) s.
Proof.
  intros q m s C Act. apply enforce_first_bind. destruct (app_type (m_type m)) eqn:A.
  - rewrite (dispatch_app q m A). apply enforce_first_bind. unfold enforce_first, app_call.
    rewrite bind_get, Act. eexists. reflexivity.
  - apply admin_types in A. unfold checked in C. unfold dispatch.
    repeat (destruct A as [A|A];
            [rewrite <- A in *; first [discriminate C|apply enforce_first_bind; eexists; reflexivity]|]).
    destruct A.
Qed.

Theorem process_fatal : forall raw s q m,
  raw_seq raw = Some q -> decode raw = DecOk m -> checked m = true -> s_active s = true ->
  verdict_of s q m = Fatal ->
  exists text, process sc decode fl now raw s = catch19 q (Some (m_type m)) (inr (Exc text true), s, []).
Proof.
  intros raw s q m R D C A V. destruct (body_enforce_first q m s C A) as [k E].
  pose proof (enforce_outcome q m s) as O. rewrite V in O. destruct O as [text O]. exists text.
  rewrite (process_numbered _ _ _ R), D, E. unfold bind. rewrite O. reflexivity.
Qed.

Theorem process_resend : forall raw s q m ok s1 e1 r s' e,
  raw_seq raw = Some q -> decode raw = DecOk m -> checked m = true -> s_active s = true ->
  verdict_of s q m = Resend -> send sc now s (resend_msg s) 0 false = (ok, s1, e1) ->
  process sc decode fl now raw s = (r, s', e) -> exists e2, e = (e1 ++ e2)%list.
Proof.
  intros raw s q m ok s1 e1 r s' e R D C A V Sd P. destruct (body_enforce_first q m s C A) as [k E].
  pose proof (enforce_outcome q m s) as O. rewrite V in O. cbn [outcome] in O. rewrite Sd in O.
  rewrite (process_numbered _ _ _ R), D, E in P. unfold bind in P. rewrite O in P.
  destruct (k true (w_state st_resend_request_sent s1)) as [[r2 s2] e2].
  apply catch19_events in P. destruct P as [e3 [Ee _]]. exists (e2 ++ e3)%list. rewrite app_assoc. exact Ee.
Qed.

Lemma stop_shutdown : forall s, s_shutdown (stop s) = true.
Proof. intro s. destruct (stop_eq s) as (c & r & ->). reflexivity. Qed.

Theorem fatal_branch : forall q mt text s,
  (s_state s <> st_logon_received ->
   catch19 q mt (inr (Exc text true), s, []) = (false, stop s, [])) /\
  (s_state s = st_logon_received -> pr_sd (s_par s) = false ->
   catch19 q mt (inr (Exc text true), s, []) =
   (let '(_, sb, eb) := send sc now (w_state st_session_terminated s) (generate_logout sc (Some text)) 0 true in
    (false, stop (w_state st_logoff_sent sb), eb))) /\
  (forall r s' e, catch19 q mt (inr (Exc text true), s, []) = (r, s', e) -> r = false /\ s_shutdown s' = true).
Proof.
  intros q mt text s. unfold catch19, process_catch. split; [|split].
  - intro L. apply N.eqb_neq in L. rewrite L. reflexivity.
  - intros L SD. rewrite L, SD. cbn [N.eqb st_logon_received Pos.eqb negb andb].
    destruct (send sc now (w_state st_session_terminated s) (generate_logout sc (Some text)) 0 true) as [[ok sb] eb].
    reflexivity.
  - intros r s' e. destruct ((s_state s =? st_logon_received) && negb (pr_sd (s_par s)));
      [destruct (send sc now (w_state st_session_terminated s) (generate_logout sc (Some text)) 0 true) as [[ok sb] eb]|];
      intro H; inversion H; subst; split; [reflexivity|apply stop_shutdown|reflexivity|apply stop_shutdown].
Qed.

Lemma catch19_reject : forall q text s,
  catch19 q None (inr (Exc text false), s, []) =
  (let '(_, s2, e2) := send sc now s (generate_reject sc q (Some text) None) 0 false in
   (true, update_persist_seqnums (w_next_recv (s_next_recv s + 1) s2), e2)).
Proof.
  intros q text s. unfold catch19, process_catch, handle_outbound_reject, do_send.
  destruct (send sc now s (generate_reject sc q (Some text) None) 0 false) as [[ok s2] e2] eqn:E.
  destruct (send_inbound _ _ _ _ _ _ _ _ E) as [_ K]. rewrite K. reflexivity.
Qed.

Theorem process_delivered : forall raw s q m r s' e,
  raw_seq raw = Some q -> decode raw = DecOk m ->
  process sc decode fl now raw s = (r, s', e) -> delivered e = true ->
  is_established (s_state s) = true /\
  (s_state s = st_logon_received \/ compid_pass s m = true) /\
  beq (m_type m) mt_sequence_reset = false /\ inseq s q m.
Proof.
  intros raw s q m r s' e R D P Dl.
  destruct (process_delivered_inv _ _ _ _ _ P Dl) as [q' [m' [R' [D' [_ [_ V]]]]]].
  replace q' with q in V by congruence. replace m' with m in V by congruence. apply verdict_pass. exact V.
Qed.

Theorem high_partial : forall raw s m q,
  decode raw = DecOk m -> raw_seq raw = Some q -> checked m = true -> s_active s = true ->
  is_established (s_state s) = true -> compid_pass s m = true -> s_next_recv s < q ->
  (forall r s' e, process sc decode fl now raw s = (r, s', e) -> quiet e) /\
  (s_state s = st_continuous ->
   forall ok s1 e1, send sc now s (generate_resend_request sc (s_next_recv s) 0) 0 false = (ok, s1, e1) ->
   forall r s' e, process sc decode fl now raw s = (r, s', e) -> exists e2, e = (e1 ++ e2)%list) /\
  (s_state s <> st_continuous ->
   exists text, process sc decode fl now raw s = catch19 q (Some (m_type m)) (inr (Exc text true), s, [])).
Proof.
  intros raw s m q D R C A Est Cp H.
  pose proof (verdict_high s q m Est Cp (checked_not_reset m C) H) as V.
  split; [|split].
  - intros r s' e P. apply not_true_is_false. intro Dl.
    destruct (process_delivered _ _ _ _ _ _ _ R D P Dl) as [_ [_ [_ [I|[I _]]]]]; lia.
  - intros St ok s1 e1 Sd r s' e. rewrite St in V. eapply process_resend; eassumption.
  - intro St. apply N.eqb_neq in St. rewrite St in V. apply process_fatal; assumption.
Qed.

Theorem after_stop_nothing : forall l s evs,
  is_shutdown s = true -> snd (reader_loop sc decode fl now l s evs) = evs.
Proof.
  intros l s evs H. destruct l; [reflexivity|]. cbn [reader_loop]. rewrite H, orb_true_r. reflexivity.
Qed.

End Now.
End Proofs.
