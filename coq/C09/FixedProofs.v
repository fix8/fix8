(* printf("%.*f") of the binary64 seconds value: the digits shown, against secs + nsecs/1e9. *)
From Coq Require Import ZArith List Bool Lia.
From F8 Require Import C09.DateTime C09.FloatProofs.
Import ListNotations.
Local Open Scope Z_scope.

Lemma rne_div_1 : forall p, rne_div p 1 = p.
Proof. intros. unfold rne_div. rewrite Z.mod_1_r, Z.div_1_r. reflexivity. Qed.

(* The third rounding, to a multiple of U / BILLION.  X is the total error, d1 the error of this
   rounding (in units of 1 / (P * S)), d2 the error before it (in units of 1 / (BILLION * S),
   S = P47 * W): X is at most U / 2 plus a fraction of U far below 1 / 2. *)
Lemma third_rounding : forall U S W d1 d2 X, 1 <= U -> 1 <= W -> S = P47 * W ->
  2 * Z.abs d1 <= S -> Z.abs d2 <= BILLION * W -> X * S = U * d1 + d2 ->
  - (U * S + 2 * (BILLION * W)) <= 2 * (X * S) <= U * S + 2 * (BILLION * W) /\ - U < X < U.
Proof.
  intros U S W d1 d2 X HU HW HS H1 H2 Hid.
  assert (P1 : U * (- S) <= U * (2 * d1) <= U * S) by (split; apply Z.mul_le_mono_nonneg_l; lia).
  assert (HZ : - (U * S + 2 * (BILLION * W)) <= 2 * (X * S) <= U * S + 2 * (BILLION * W)) by lia.
  split; [exact HZ|].
  assert (P2 : 1 * W <= U * W) by (apply Z.mul_le_mono_nonneg_r; lia).
  assert (HSpos : 0 < S) by (unfold P47 in *; lia).
  assert (HUS : U * S = P47 * (U * W)) by (rewrite HS; ring).
  unfold BILLION, P47 in *.
  split; apply (Z.mul_lt_mono_pos_r S _ _ HSpos); lia.
Qed.

(* K = the seconds value rounded to d places, in units of 10^-d (P = 10^d, U = 10^(9-d)):
   K is within one unit of the true value, and stays below 60 units unless the second is 59 and
   the fraction rounds up to a whole second *)
Lemma fixed_core : forall s n P U num sh, 0 <= s <= 59 -> 0 <= n < BILLION -> P * U = BILLION ->
  1 <= U -> 1 <= P -> log_secs_double s n = (num, sh) ->
  let K := rne_div (num * P) (2 ^ sh) in
  0 <= K /\ - U < K * U - (s * BILLION + n) < U /\
  (s <= 58 \/ 2 * n + U < 2 * BILLION -> K < 60 * P).
Proof.
  intros s n P U num sh Hs Hn HPU HU HP Hd K.
  destruct (Z.eq_dec n 0) as [N0|N0].
  - subst n. unfold log_secs_double in Hd. cbn in Hd. injection Hd as <- <-.
    unfold K. change (2 ^ 0) with 1. rewrite rne_div_1.
    assert (0 * P <= s * P <= 59 * P) by (split; apply Z.mul_le_mono_nonneg_r; lia).
    replace (s * P * U) with (s * BILLION) by (rewrite <- HPU; ring). lia.
  - pose proof (double_err s n Hs ltac:(lia)) as D. rewrite Hd in D.
    destruct D as (W & HW & HS & Hsh & Hnum & D).
    set (S := 2 ^ sh) in *. clearbody S.
    assert (HSpos : 0 < S) by (unfold P47 in *; lia).
    pose proof (rne_div_err (num * P) S HSpos) as E1. fold K in E1.
    assert (K0 : 0 <= K) by (apply rne_div_ge; [exact HSpos|apply Z.mul_nonneg_nonneg; lia]).
    clearbody K. clear Hd.
    set (T := s * BILLION + n) in *.
    assert (HT : 0 <= T) by (unfold T, BILLION; lia).
    assert (Hid : (K * U - T) * S = U * (K * S - num * P) + (num * BILLION - T * S)) by (rewrite <- HPU; ring).
    destruct (third_rounding U S W _ _ _ HU HW HS E1 (proj2 (Z.abs_le _ _) D) Hid) as [HZ Zlt].
    split; [exact K0|]. split; [exact Zlt|]. intros C.
    apply (Z.mul_lt_mono_pos_r U); [lia|].
    replace (60 * P * U) with (60 * BILLION) by (rewrite <- HPU; ring).
    destruct C as [C|C].
    + (* second of minute at most 58 *)
      assert (1 * U <= P * U) by (apply Z.mul_le_mono_nonneg_r; lia).
      unfold T, BILLION in *. lia.
    + (* the fraction does not round up to a whole second: 2 * T + U < 120 * BILLION *)
      assert (A : (2 * T + U) * S <= (120 * BILLION - 1) * S)
        by (apply Z.mul_le_mono_nonneg_r; unfold T, BILLION in *; lia).
      apply (Z.mul_lt_mono_pos_r S _ _ HSpos). unfold BILLION, P47 in *. lia.
Qed.
