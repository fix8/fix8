(* print(): the texts the field classes produce are the calendar rendering of the instant
   (accepted by the specification's reader and denoting the instant's component).  Also the
   reader itself: it accepts exactly the canonical texts [canon_ymd], [canon_hms], ... *)
From Coq Require Import ZArith List Bool Lia.
From F8 Require Import C09.DateTime C09.Spec_C09 C09.CalendarSweeps C09.DigitProofs C09.TimeArith.
Import ListNotations.
Local Open Scope Z_scope.

Definition canon_ymd (y m d : Z) : list Z := format0 y 4 ++ format0 m 2 ++ format0 d 2.
Definition canon_hms (h mi s : Z) : list Z := format0 h 2 ++ [58] ++ format0 mi 2 ++ [58] ++ format0 s 2.

Lemma canon_ymd_length : forall y m d, length (canon_ymd y m d) = 8%nat.
Proof. intros. unfold canon_ymd. rewrite !app_length, !format0_length. reflexivity. Qed.

Lemma canon_hms_length : forall h mi s, length (canon_hms h mi s) = 8%nat.
Proof. intros. unfold canon_hms. rewrite !app_length, !format0_length. reflexivity. Qed.

Lemma date_time_format_nonneg : forall t ind y m d, 0 <= t -> civil_of_days (t / NS_DAY) = (y, m, d) ->
  let secs := t / NS_SEC in
  let time := canon_hms (hour_of secs) (min_of secs) (sec_of secs) ++
              match ind with Time_with_ms | With_ms => [46] ++ format0 (ms_of t) 3 | _ => [] end in
  date_time_format t ind =
  match ind with
  | Time_only | Time_with_ms => time
  | Short_date_only => format0 y 4 ++ format0 m 2
  | Date_only => canon_ymd y m d
  | Sec_only | With_ms => canon_ymd y m d ++ [45] ++ time
  end.
Proof.
  intros t ind y m d Ht Hc. cbv zeta. unfold date_time_format, fmt_time.
  rewrite (tv_get_tm_nonneg t y m d Ht Hc), tv_msecs_nonneg by exact Ht.
  unfold mk_tm. cbn [tm_year tm_mon tm_mday tm_hour tm_min tm_sec]. rewrite !Z.sub_add.
  unfold canon_ymd, canon_hms. destruct ind; cbn [ind_rank Z.ltb Z.compare Pos.compare Pos.compare_cont];
    repeat rewrite <- app_assoc; reflexivity.
Qed.

Lemma take_digits_canon : forall w n rest, 0 <= n < 10 ^ Z.of_nat w ->
  take_digits w (format0 n w ++ rest) = Some (n, rest).
Proof. intros. unfold take_digits. rewrite take_digits_format0 by lia. f_equal. Qed.

Lemma take_digits_canon_end : forall w n, 0 <= n < 10 ^ Z.of_nat w ->
  take_digits w (format0 n w) = Some (n, []).
Proof. intros. rewrite <- (app_nil_r (format0 n w)). apply take_digits_canon. lia. Qed.

Lemma take_char_cons : forall c l, take_char c (c :: l) = Some l.
Proof. intros. cbn [take_char]. rewrite Z.eqb_refl. reflexivity. Qed.

Lemma read_ymd_canon : forall y m d rest, 0 <= y < 10000 -> 0 <= m < 100 -> 0 <= d < 100 ->
  read_ymd (canon_ymd y m d ++ rest) = Some (y, m, d, rest).
Proof.
  intros. unfold read_ymd, canon_ymd. repeat rewrite <- app_assoc.
  repeat (rewrite take_digits_canon by lia; cbn [sbind]). reflexivity.
Qed.

Lemma read_hms_canon : forall h mi s rest, 0 <= h < 100 -> 0 <= mi < 100 -> 0 <= s < 100 ->
  read_hms (canon_hms h mi s ++ rest) = Some (h, mi, s, rest).
Proof.
  intros. unfold read_hms, canon_hms. repeat rewrite <- app_assoc.
  repeat (rewrite take_digits_canon by lia; cbn [sbind app]; rewrite ?take_char_cons; cbn [sbind]).
  reflexivity.
Qed.

Lemma read_ms_canon : forall ms, 0 <= ms < 1000 -> read_ms_end (46 :: format0 ms 3) = Some ms.
Proof.
  intros. unfold read_ms_end. cbn [at_end]. rewrite take_char_cons. cbn [sbind].
  rewrite take_digits_canon_end by lia. reflexivity.
Qed.

Lemma hms_ok_true : forall h mi s, h < 24 -> mi < 60 -> s < 60 -> hms_ok h mi s = true.
Proof. intros. unfold hms_ok. lia. Qed.

Lemma sbind_inv : forall A B (o : option A) (f : A -> option B) b, sbind o f = Some b ->
  exists a, o = Some a /\ f a = Some b.
Proof. intros A B [a|] f b H; [exists a; split; [reflexivity|exact H]|discriminate]. Qed.

Lemma if_some_inv : forall A (b : bool) (x v : A), (if b then Some x else None) = Some v -> b = true /\ x = v.
Proof. intros A [|] x v H; [split; congruence|discriminate]. Qed.

Lemma take_digits_inv : forall w l v r, take_digits w l = Some (v, r) ->
  l = format0 v w ++ r /\ 0 <= v < 10 ^ Z.of_nat w.
Proof.
  intros w l v r H. destruct (take_digits_acc_inv w l 0 v r H) as (n & -> & Hn & ->).
  replace (0 * 10 ^ Z.of_nat w + n) with n by lia. split; [reflexivity|exact Hn].
Qed.

Lemma take_char_inv : forall c l l', take_char c l = Some l' -> l = c :: l'.
Proof.
  intros c [|x l] l' H; [discriminate|]. cbn [take_char] in H.
  destruct (x =? c) eqn:E; [|discriminate]. injection H as <-. f_equal. lia.
Qed.

Lemma at_end_inv : forall l, at_end l = true -> l = [].
Proof. destruct l; [reflexivity|discriminate]. Qed.

Lemma read_ymd_inv : forall l y m d r, read_ymd l = Some (y, m, d, r) ->
  l = canon_ymd y m d ++ r /\ 0 <= y < 10000 /\ 0 <= m < 100 /\ 0 <= d < 100.
Proof.
  intros l y m d r H. unfold read_ymd in H.
  apply sbind_inv in H as ([y' l1] & E1 & H). apply sbind_inv in H as ([m' l2] & E2 & H).
  apply sbind_inv in H as ([d' l3] & E3 & H). injection H as <- <- <- <-.
  apply take_digits_inv in E1 as [-> B1]. apply take_digits_inv in E2 as [-> B2].
  apply take_digits_inv in E3 as [-> B3].
  unfold canon_ymd. rewrite <- !app_assoc. split; [reflexivity|lia].
Qed.

Lemma read_hms_inv : forall l h mi s r, read_hms l = Some (h, mi, s, r) ->
  l = canon_hms h mi s ++ r /\ 0 <= h < 100 /\ 0 <= mi < 100 /\ 0 <= s < 100.
Proof.
  intros l h mi s r H. unfold read_hms in H.
  apply sbind_inv in H as ([h' l1] & E1 & H). apply sbind_inv in H as (k1 & C1 & H).
  apply sbind_inv in H as ([mi' l2] & E2 & H). apply sbind_inv in H as (k2 & C2 & H).
  apply sbind_inv in H as ([s' l3] & E3 & H). injection H as <- <- <- <-.
  apply take_digits_inv in E1 as [-> B1]. apply take_char_inv in C1 as ->.
  apply take_digits_inv in E2 as [-> B2]. apply take_char_inv in C2 as ->.
  apply take_digits_inv in E3 as [-> B3].
  unfold canon_hms. rewrite <- !app_assoc. split; [reflexivity|lia].
Qed.

Lemma read_ms_end_inv : forall l ms, read_ms_end l = Some ms ->
  l = [] /\ ms = 0 \/ l = 46 :: format0 ms 3 /\ 0 <= ms < 1000.
Proof.
  intros l ms H. unfold read_ms_end in H. destruct (at_end l) eqn:A.
  - left. apply at_end_inv in A. injection H as <-. split; [exact A|reflexivity].
  - right. apply sbind_inv in H as (k & C & H). apply sbind_inv in H as ([ms' k'] & E & H).
    destruct (at_end k') eqn:A'; [|discriminate]. injection H as <-.
    apply take_char_inv in C as ->. apply take_digits_inv in E as [-> B]. apply at_end_inv in A' as ->.
    rewrite app_nil_r. split; [reflexivity|lia].
Qed.

Lemma first_of_month_canon : forall y m d, valid_date y m d = true -> 0 <= y < 10000 ->
  first_of_month (days_from_civil y m d) (format0 y 4 ++ format0 m 2) = Some (days_from_civil y m 1 * NS_DAY).
Proof.
  intros y m d Hv Hy. destruct (valid_date_inv y m d Hv) as [Hm Hd].
  unfold first_of_month. rewrite take_digits_canon by lia. cbn [sbind].
  rewrite take_digits_canon_end by lia. cbn [sbind].
  rewrite (days_from_civil_mday y m d).
  replace (_ && _) with true by lia. reflexivity.
Qed.

Definition mkind (k : skind) : kind :=
  match k with S_TS => K_TS | S_TO => K_TO | S_DO => K_DO | S_LD => K_LD | S_M6 => K_M6 | S_M8 => K_M8 end.

Lemma text_ok_intro : forall k t txt v, length txt = text_len k -> denote k txt = Some v ->
  component k t txt = Some v -> text_ok k t txt = true.
Proof. intros k t txt v L D C. unfold text_ok. rewrite L, Nat.eqb_refl, D, C, Z.eqb_refl. reflexivity. Qed.

Lemma text_ok_all : forall t k, in_range t = true -> text_ok k t (field_print (mkind k) t) = true.
Proof.
  intros t k Hr. pose proof (in_range_inv t Hr) as Ht. pose proof (in_range_day t Hr) as Hday.
  destruct (civil_of_days (t / NS_DAY)) as [[y m] d] eqn:Hc.
  destruct (civil_of_days_range _ y m d Hday Hc) as (Hv & Hd & Hy).
  pose proof (valid_date_bounds y m d Hv) as [Hm Hdd].
  pose proof (time_of_day (t / NS_SEC)) as (Hh & Hmi & Hs & Hsod & _).
  pose proof (ticks_split t) as (Eday & Ems & Etod). cbv zeta in Eday, Ems, Etod.
  assert (Hms : 0 <= ms_of t < 1000) by (apply Z.mod_pos_bound; lia).
  pose proof (fun ind => date_time_format_nonneg t ind y m d (proj1 Ht) Hc) as P. cbv zeta in P.
  set (h := hour_of (t / NS_SEC)) in *. set (mi := min_of (t / NS_SEC)) in *. set (s := sec_of (t / NS_SEC)) in *.
  destruct k; cbn [mkind field_print]; rewrite P.
  3, 4, 6: (* the three eight character dates *)
    apply (text_ok_intro _ _ _ (t / NS_DAY * NS_DAY));
    [apply canon_ymd_length
    |cbn [denote]; rewrite <- (app_nil_r (canon_ymd y m d)), read_ymd_canon by lia;
     cbn [sbind at_end andb]; rewrite Hv, Hd; reflexivity
    |reflexivity].
  - (* UTCTimestamp *)
    apply (text_ok_intro _ _ _ (t / NS_MS * NS_MS)).
    + rewrite !app_length, canon_ymd_length, canon_hms_length, format0_length. reflexivity.
    + unfold denote. rewrite read_ymd_canon by lia. cbn [sbind app]. rewrite take_char_cons. cbn [sbind].
      rewrite read_hms_canon by lia. cbn [sbind]. rewrite read_ms_canon by lia. cbn [sbind].
      rewrite Hv, hms_ok_true by lia. cbn [andb]. f_equal.
      rewrite Hd, Eday, Ems. pose proof (Z.div_mod (t / NS_SEC) 86400). unfold NS_SEC, NS_MS in *. lia.
    + reflexivity.
  - (* UTCTimeOnly *)
    apply (text_ok_intro _ _ _ ((t / NS_MS) mod 86400000 * NS_MS)).
    + rewrite !app_length, canon_hms_length, format0_length. reflexivity.
    + unfold denote. rewrite read_hms_canon by lia. cbn [sbind app]. rewrite read_ms_canon by lia. cbn [sbind].
      rewrite hms_ok_true by lia. f_equal. rewrite Etod, Hsod. unfold NS_SEC, NS_MS. lia.
    + reflexivity.
  - (* MonthYear, six characters *)
    apply (text_ok_intro _ _ _ (days_from_civil y m 1 * NS_DAY)).
    + rewrite app_length, !format0_length. reflexivity.
    + unfold denote. rewrite take_digits_canon by lia. cbn [sbind].
      rewrite take_digits_canon_end by lia. cbn [sbind at_end andb].
      rewrite (valid_date_first y m d Hv). reflexivity.
    + cbn [component]. rewrite <- Hd. apply first_of_month_canon; [exact Hv|lia].
Qed.

(* stated for a variable text: when the text is a field_print term, the conversion of the two sides
   is slow in the kernel, a rewrite is not *)
Lemma component_M6 : forall t txt, component S_M6 t txt = first_of_month (t / NS_DAY) txt.
Proof. reflexivity. Qed.

Lemma component_bounds : forall t k c, in_range t = true ->
  component k t (field_print (mkind k) t) = Some c -> 0 <= c <= t.
Proof.
  intros t k c Hr H. pose proof (in_range_inv t Hr) as Ht.
  destruct k; cbn [mkind] in H.
  5: { (* six character MonthYear: the first of the month of a date of the range *)
    pose proof (in_range_day t Hr) as Hday.
    destruct (civil_of_days (t / NS_DAY)) as [[y m] d] eqn:Hc.
    destruct (civil_of_days_range _ y m d Hday Hc) as (Hv & Hd & Hy).
    rewrite component_M6 in H. unfold field_print in H.
    rewrite (date_time_format_nonneg t _ y m d (proj1 Ht) Hc) in H.
    rewrite <- Hd, first_of_month_canon in H by (auto; lia). injection H as <-.
    pose proof (proj2 (year_of_range y m 1 (valid_date_first y m d Hv)) Hy) as B.
    pose proof (days_from_civil_mday y m d) as E. destruct (valid_date_inv y m d Hv) as [_ Hdd].
    unfold NS_DAY, NS_SEC in *. Z.div_mod_to_equations. lia. }
  all: cbn [component] in H; injection H as <-; unfold NS_MS, NS_DAY, NS_SEC; Z.div_mod_to_equations; lia.
Qed.
