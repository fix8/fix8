(* The string constructors: every well-formed text of the range is parsed to exactly what it
   denotes -- for the pinned code when the denoted second count fits an int (before
   2038-01-19T03:14:08), for the 64-bit evaluation of time_to_epoch on the whole range.  A text the
   specification's reader accepts is a canonical text (PrintProofs), so the parsers are followed
   on canonical texts only. *)
From Coq Require Import ZArith List Bool Lia.
From F8 Require Import C09.DateTime C09.Spec_C09 C09.CalendarSweeps C09.DigitProofs C09.TimeArith C09.PrintProofs.
Import ListNotations.
Local Open Scope Z_scope.

Lemma iop_exact : forall wide x ub, wide = true \/ fits32 x = true -> iop wide x ub = (x, ub).
Proof.
  intros wide x ub H. unfold iop. destruct wide; [reflexivity|]. destruct H as [H|H]; [discriminate|].
  rewrite H, wrap32s_fits by exact H. cbn. rewrite orb_false_r. reflexivity.
Qed.

Lemma time_to_epoch_valid : forall wide y m d h mi s ub,
  1970 <= y <= 2099 -> valid_date y m d = true -> 0 <= h < 24 -> 0 <= mi < 60 -> 0 <= s < 60 ->
  (wide = true \/ days_from_civil y m d * 86400 + h * 3600 + mi * 60 + s <= INT_MAX) ->
  time_to_epoch_gen wide (mk_tm y m d h mi s) 0 ub
  = (days_from_civil y m d * 86400 + h * 3600 + mi * 60 + s, ub).
Proof.
  intros wide y m d h mi s ub Hy Hv Hh Hmi Hs Hw.
  pose proof (proj2 (year_of_range y m d Hv) Hy) as HD.
  unfold time_to_epoch_gen. rewrite (epoch_days_ok y m d h mi s Hy Hv).
  unfold mk_tm. cbn [tm_hour tm_min tm_sec]. set (D := days_from_civil y m d) in *.
  (* every intermediate value lies between 0 and the result *)
  assert (F : forall x, 0 <= x <= D * 86400 + h * 3600 + mi * 60 + s -> wide = true \/ fits32 x = true).
  { intros x Hx. destruct Hw as [Hw|Hw]; [left; exact Hw|right]. unfold fits32, INT_MIN, INT_MAX in *. lia. }
  repeat (rewrite iop_exact by (apply F; lia); cbv beta iota). f_equal. lia.
Qed.

Lemma lop_fits : forall x ub, 0 <= x <= 9223372036854775807 -> lop x ub = (x, ub).
Proof.
  intros. unfold lop, wrap64s, fits64, W64. replace (_ && _) with true by lia.
  cbn [negb]. rewrite orb_false_r, Z.mod_small by lia. f_equal. lia.
Qed.

Lemma is_now_false : forall s, (4 <= length s)%nat -> is_now s = false.
Proof.
  intros s H. destruct s as [|a [|b [|c [|d s]]]]; cbn [length] in H; try lia. reflexivity.
Qed.

(* the tick count v is handled exactly: by the 64-bit evaluation always, by the int evaluation
   when its second count is below 2^31 *)
Definition small (wide : bool) (v : Z) : Prop := wide = true \/ v < 2147483648 * NS_SEC.

Lemma small_secs : forall wide v secs, small wide v -> secs * NS_SEC <= v -> wide = true \/ secs <= INT_MAX.
Proof.
  intros wide v secs [Hw|Hw] Hv; [left; exact Hw|right]. unfold INT_MAX, NS_SEC in *. lia.
Qed.

Definition frac_ok (frac : list Z) (ms : Z) : Prop :=
  frac = [] /\ ms = 0 \/ frac = 46 :: format0 ms 3 /\ 0 <= ms < 1000.

Lemma frac_ms : forall frac ms, frac_ok frac ms -> 0 <= ms < 1000.
Proof. intros frac ms [[_ ->]|[_ B]]; lia. Qed.

Lemma parse_TS_canon : forall wide y m d h mi sc ms frac,
  let v := (days_from_civil y m d * 86400 + h * 3600 + mi * 60 + sc) * NS_SEC + ms * NS_MS in
  valid_date y m d = true -> 0 <= y < 10000 -> 0 <= h < 24 -> 0 <= mi < 60 -> 0 <= sc < 60 -> frac_ok frac ms ->
  in_range v = true -> small wide v ->
  date_time_parse_gen wide (canon_ymd y m d ++ [45] ++ canon_hms h mi sc ++ frac) = Ticks v false.
Proof.
  intros wide y m d h mi sc ms frac v Hv Hy Hh Hmi Hs Hf Hr Hw. apply in_range_inv in Hr.
  pose proof (valid_date_bounds y m d Hv) as [Hm Hd]. pose proof (frac_ms frac ms Hf) as Hms.
  set (D := days_from_civil y m d) in *.
  assert (HD : 0 <= D < DAYS) by (unfold NS_DAY, NS_SEC, NS_MS, DAYS in *; lia).
  assert (Hte : forall ub, time_to_epoch_gen wide (mk_tm y m d h mi sc) 0 ub
                 = (D * 86400 + h * 3600 + mi * 60 + sc, ub)).
  { intros. apply time_to_epoch_valid; auto; try lia.
    - apply (year_of_range y m d Hv). exact HD.
    - apply (small_secs wide v); [exact Hw|unfold v, NS_MS; lia]. }
  unfold date_time_parse_gen.
  rewrite is_now_false by (rewrite app_length, canon_ymd_length; lia).
  rewrite !app_length, canon_ymd_length, canon_hms_length.
  unfold canon_ymd, canon_hms. repeat rewrite <- app_assoc.
  repeat (rewrite parse_decimal_canon by lia; cbn [bind app skip1 tl]).
  change {| tm_year := y - 1900; tm_mon := m - 1; tm_mday := d; tm_hour := h; tm_min := mi; tm_sec := sc |}
    with (mk_tm y m d h mi sc).
  set (len := Z.of_nat _).
  destruct Hf as [[-> ->]|[-> _]].
  - change (len =? 21) with false. change (len =? 17) with true.
    rewrite Hte, lop_fits by (unfold BILLION, NS_DAY, NS_SEC, NS_MS, DAYS in *; lia).
    cbn [out_of]. f_equal. unfold v, BILLION, NS_SEC, NS_MS. lia.
  - replace (len =? 21) with true by (subst len; cbn [length]; rewrite format0_length; reflexivity).
    cbn [app skip1 tl]. rewrite parse_decimal_canon by lia. cbn [bind]. rewrite Hte.
    rewrite lop_fits by (unfold BILLION, NS_DAY, NS_SEC, NS_MS, DAYS in *; lia).
    rewrite lop_fits by (unfold BILLION, MILLION, NS_DAY, NS_SEC, NS_MS, DAYS in *; lia).
    cbn [out_of]. f_equal. unfold v, BILLION, MILLION, NS_SEC, NS_MS. lia.
Qed.

(* no calendar involved, no int arithmetic *)
Lemma parse_TO_canon : forall wide h mi sc ms frac,
  0 <= h < 24 -> 0 <= mi < 60 -> 0 <= sc < 60 -> frac_ok frac ms ->
  time_parse_gen wide (canon_hms h mi sc ++ frac) true
  = Ticks ((h * 3600 + mi * 60 + sc) * NS_SEC + ms * NS_MS) false.
Proof.
  intros wide h mi sc ms frac Hh Hmi Hs Hf. pose proof (frac_ms frac ms Hf) as Hms.
  unfold time_parse_gen.
  rewrite is_now_false by (rewrite app_length, canon_hms_length; lia).
  rewrite app_length, canon_hms_length.
  unfold canon_hms. repeat rewrite <- app_assoc.
  repeat (rewrite parse_decimal_canon by lia; cbn [bind app skip1 tl]).
  set (len := Z.of_nat _).
  destruct Hf as [[-> ->]|[-> _]].
  - change (len =? 12) with false. change (len =? 8) with true.
    cbn [out_of]. f_equal. unfold BILLION, NS_SEC. lia.
  - replace (len =? 12) with true by (subst len; cbn [length]; rewrite format0_length; reflexivity).
    cbn [app skip1 tl]. rewrite parse_decimal_canon by lia. cbn [bind].
    rewrite lop_fits by (unfold BILLION, MILLION; lia).
    cbn [out_of]. f_equal. unfold BILLION, MILLION, NS_SEC, NS_MS. lia.
Qed.

(* UTCDateOnly, LocalMktDate and both forms of MonthYear: the six character form has no day text
   and stands for the first of the month *)
Lemma parse_date_canon : forall wide y m d dtxt,
  let v := days_from_civil y m d * NS_DAY in
  valid_date y m d = true -> 0 <= y < 10000 -> dtxt = format0 d 2 \/ dtxt = [] /\ d = 1 ->
  in_range v = true -> small wide v ->
  date_parse_gen wide (format0 y 4 ++ format0 m 2 ++ dtxt) = Ticks v false.
Proof.
  intros wide y m d dtxt v Hv Hy Hdt Hr Hw. apply in_range_inv in Hr.
  pose proof (valid_date_bounds y m d Hv) as [Hm Hd].
  set (D := days_from_civil y m d) in *.
  assert (HD : 0 <= D < DAYS) by (unfold v, NS_DAY, NS_SEC, DAYS in *; lia).
  assert (Hte : time_to_epoch_gen wide (mk_tm y m d 0 0 0) 0 false = (D * 86400 + 0 * 3600 + 0 * 60 + 0, false)).
  { apply time_to_epoch_valid; auto; try lia.
    - apply (year_of_range y m d Hv). exact HD.
    - apply (small_secs wide v); [exact Hw|unfold v, NS_DAY; lia]. }
  unfold date_parse_gen.
  rewrite is_now_false by (rewrite app_length, format0_length; lia).
  rewrite !app_length, !format0_length. repeat rewrite <- app_assoc.
  repeat (rewrite parse_decimal_canon by lia; cbn [bind]).
  set (len := Z.of_nat _).
  destruct Hdt as [->|[-> ->]].
  - replace (len =? 8) with true by (subst len; rewrite format0_length; reflexivity).
    rewrite parse_decimal_canon by lia. cbn [bind].
    change {| tm_year := y - 1900; tm_mon := m - 1; tm_mday := d; tm_hour := 0; tm_min := 0; tm_sec := 0 |}
      with (mk_tm y m d 0 0 0).
    rewrite Hte, lop_fits by (unfold BILLION, DAYS in *; lia).
    cbn [out_of]. f_equal. unfold v, BILLION, NS_DAY, NS_SEC. lia.
  - change (len =? 8) with false. cbn [bind].
    change {| tm_year := y - 1900; tm_mon := m - 1; tm_mday := 1; tm_hour := 0; tm_min := 0; tm_sec := 0 |}
      with (mk_tm y m 1 0 0 0).
    rewrite Hte, lop_fits by (unfold BILLION, DAYS in *; lia).
    cbn [out_of]. f_equal. unfold v, BILLION, NS_DAY, NS_SEC. lia.
Qed.

Theorem parse_follows_denote : forall wide k s v, denote k s = Some v -> in_range v = true -> small wide v ->
  field_parse_gen wide (mkind k) s = Ticks v false.
Proof.
  intros wide k s v H Hr Hw. destruct k; cbn [mkind field_parse_gen]; unfold denote in H.
  3, 4, 6: (* the eight character dates *)
    apply sbind_inv in H as ([[[y m] d] l] & E & H); apply read_ymd_inv in E as (-> & By & Bm & Bd);
    apply if_some_inv in H as [Hb <-]; apply andb_prop in Hb as [A Hv]; apply at_end_inv in A as ->;
    unfold canon_ymd; rewrite app_nil_r; apply parse_date_canon; auto.
  - (* UTCTimestamp *)
    apply sbind_inv in H as ([[[y m] d] l] & E1 & H). apply sbind_inv in H as (l' & C & H).
    apply sbind_inv in H as ([[[h mi] sc] l''] & E2 & H). apply sbind_inv in H as (ms & E3 & H).
    apply if_some_inv in H as [Hb <-]. apply andb_prop in Hb as [Hv Hh].
    apply read_ymd_inv in E1 as (-> & By & Bm & Bd). apply take_char_inv in C as ->.
    apply read_hms_inv in E2 as (-> & Bh & Bmi & Bs). apply read_ms_end_inv in E3.
    unfold hms_ok in Hh. apply (parse_TS_canon wide y m d h mi sc ms l''); auto; lia.
  - (* UTCTimeOnly *)
    apply sbind_inv in H as ([[[h mi] sc] l] & E2 & H). apply sbind_inv in H as (ms & E3 & H).
    apply if_some_inv in H as [Hh <-].
    apply read_hms_inv in E2 as (-> & Bh & Bmi & Bs). apply read_ms_end_inv in E3.
    unfold hms_ok in Hh. apply parse_TO_canon; auto; lia.
  - (* MonthYear, six characters *)
    apply sbind_inv in H as ([y l] & E1 & H). apply sbind_inv in H as ([m l'] & E2 & H).
    apply if_some_inv in H as [Hb <-]. apply andb_prop in Hb as [A Hv]. apply at_end_inv in A as ->.
    apply take_digits_inv in E1 as [-> By]. apply take_digits_inv in E2 as [-> Bm].
    apply parse_date_canon; auto.
Qed.

Lemma parse_decimal_total : forall k l to ub, (k <= length l)%nat ->
  exists v r, parse_decimal k l to ub = Some (v, ub, r) /\ length l = (k + length r)%nat.
Proof.
  induction k; intros l to ub H.
  - exists to, l. cbn. split; [reflexivity|lia].
  - destruct l as [|c l]; [cbn in H; lia|]. cbn [parse_decimal]. cbn [length] in H.
    destruct (IHk l (to * 10 + (schar c - 48)) ub ltac:(lia)) as (v & r & E & L).
    exists v, r. split; [exact E|]. cbn [length]. lia.
Qed.

Lemma bind_parse_total : forall A k l to ub (f : Z * bool * list Z -> option A), (k <= length l)%nat ->
  (forall v r, length l = (k + length r)%nat -> f (v, ub, r) <> None) ->
  bind (parse_decimal k l to ub) f <> None.
Proof.
  intros A k l to ub f H F. destruct (parse_decimal_total k l to ub H) as (v & r & -> & L).
  apply F. exact L.
Qed.

Lemma skip1_length : forall l, length (skip1 l) = (length l - 1)%nat.
Proof. destruct l; cbn; lia. Qed.

Lemma out_of_ticks : forall o, o <> None -> exists t ub, out_of o = Ticks t ub.
Proof. intros [[t ub]|] Ho; [exists t, ub; reflexivity|congruence]. Qed.

Lemma parse_total_lemma : forall wide k s, (min_text_len k <= length s)%nat ->
  exists t ub, field_parse_gen wide (mkind k) s = Ticks t ub.
Proof.
  intros wide k s H.
  assert (Hn : is_now s = false) by (apply is_now_false; destruct k; cbn [min_text_len] in H; lia).
  assert (La : length (s ++ [0]) = (length s + 1)%nat) by (rewrite app_length; reflexivity).
  destruct k; cbn [mkind field_parse_gen min_text_len] in *.
  3, 4, 5, 6: (* the dates *)
    unfold date_parse_gen; rewrite Hn; apply out_of_ticks;
    apply bind_parse_total; [lia|intros y r1 L1; cbv beta iota];
    apply bind_parse_total; [lia|intros m r2 L2; cbv beta iota];
    destruct (Z.of_nat (length s) =? 8) eqn:T8;
    [destruct (parse_decimal_total 2 r2 0 false ltac:(lia)) as (d & r3 & -> & _)|];
    cbn [bind]; destruct (time_to_epoch_gen wide _ 0 false) as [e u]; discriminate.
  - (* UTCTimestamp *)
    unfold date_time_parse_gen. rewrite Hn. apply out_of_ticks.
    do 6 (apply bind_parse_total; [rewrite ?skip1_length; lia|intros ? ? ?L; rewrite ?skip1_length in *; cbv beta iota]).
    destruct (Z.of_nat (length s) =? 21) eqn:T21.
    + apply bind_parse_total; [rewrite skip1_length; lia|intros ms r7 L7; cbv beta iota].
      destruct (time_to_epoch_gen wide _ 0 false) as [e u]. destruct (lop (e * BILLION) u). discriminate.
    + destruct (Z.of_nat (length s) =? 17); [|discriminate].
      destruct (time_to_epoch_gen wide _ 0 false) as [e u]. discriminate.
  - (* UTCTimeOnly *)
    unfold time_parse_gen. rewrite Hn. apply out_of_ticks.
    do 3 (apply bind_parse_total; [rewrite ?skip1_length; lia|intros ? ? ?L; rewrite ?skip1_length in *; cbv beta iota]).
    destruct (Z.of_nat (length s) =? 12) eqn:T12.
    + apply bind_parse_total; [rewrite skip1_length; lia|intros ms r4 L4; cbv beta iota]. discriminate.
    + destruct (Z.of_nat (length s) =? 8); discriminate.
Qed.
