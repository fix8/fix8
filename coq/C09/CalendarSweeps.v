(* The model's calendar against the specification's: civil_of_days inverts days_from_civil on
   every day number, and the day count of time_to_epoch is days_from_civil on the years
   1970..2099.  All by arithmetic: [lia] over the equations of the divisions, with the leap rule
   and the month table handed to it as disjunctions. *)
From Coq Require Import ZArith List Bool Lia.
From F8 Require Import C09.DateTime C09.Spec_C09.
Import ListNotations.
Local Open Scope Z_scope.

(* struct tm of a civil date and time: what gmtime_r fills in and time_to_epoch reads *)
Definition mk_tm (y m d h mi s : Z) : tm :=
  {| tm_year := y - 1900; tm_mon := m - 1; tm_mday := d; tm_hour := h; tm_min := mi; tm_sec := s |}.

Definition leap_day (y : Z) : Z := if is_leap y then 1 else 0.

Lemma leap_day_cases : forall y,
  leap_day y = 1 /\ y mod 4 = 0 /\ (y mod 100 <> 0 \/ y mod 400 = 0) \/
  leap_day y = 0 /\ (y mod 4 <> 0 \/ y mod 100 = 0 /\ y mod 400 <> 0).
Proof. intros. unfold leap_day, is_leap. destruct (y mod 4 =? 0) eqn:E4, (y mod 100 =? 0) eqn:E100, (y mod 400 =? 0) eqn:E400; cbn; lia. Qed.

Lemma leaps_upto_step : forall y, leaps_upto y = leaps_upto (y - 1) + leap_day y.
Proof. intros. pose proof (leap_day_cases y). unfold leaps_upto. Z.div_mod_to_equations. lia. Qed.

Lemma month_table : forall y m, 1 <= m <= 12 ->
  let c := cum_days m in
  let n := days_in_month y m in
  m = 1 /\ c = 0 /\ n = 31 \/ m = 2 /\ c = 31 /\ n = 28 + leap_day y \/ m = 3 /\ c = 59 /\ n = 31 \/
  m = 4 /\ c = 90 /\ n = 30 \/ m = 5 /\ c = 120 /\ n = 31 \/ m = 6 /\ c = 151 /\ n = 30 \/
  m = 7 /\ c = 181 /\ n = 31 \/ m = 8 /\ c = 212 /\ n = 31 \/ m = 9 /\ c = 243 /\ n = 30 \/
  m = 10 /\ c = 273 /\ n = 31 \/ m = 11 /\ c = 304 /\ n = 30 \/ m = 12 /\ c = 334 /\ n = 31.
Proof.
  intros y m Hm. assert (C : In m [1; 2; 3; 4; 5; 6; 7; 8; 9; 10; 11; 12]) by (cbn; lia).
  cbn in C. decompose [or] C; try contradiction; subst m;
    unfold days_in_month, leap_day; destruct (is_leap y); vm_compute; lia.
Qed.

Lemma valid_date_inv : forall y m d, valid_date y m d = true ->
  1 <= m <= 12 /\ 1 <= d <= days_in_month y m.
Proof. unfold valid_date. lia. Qed.

Lemma valid_date_bounds : forall y m d, valid_date y m d = true -> 1 <= m <= 12 /\ 1 <= d <= 31.
Proof.
  intros y m d H. apply valid_date_inv in H. destruct H as [Hm Hd].
  pose proof (month_table y m Hm) as T. cbv zeta in T. pose proof (leap_day_cases y). lia.
Qed.

Lemma valid_date_first : forall y m d, valid_date y m d = true -> valid_date y m 1 = true.
Proof. unfold valid_date. lia. Qed.

(* the conditional of days_from_civil in the form [lia] reads *)
Lemma days_from_civil_eq : forall y m d, exists k,
  days_from_civil y m d = 365 * (y - 1970) + (leaps_upto (y - 1) - 477) + cum_days m + k + (d - 1) /\
  (m <= 2 /\ k = 0 \/ 2 < m /\ k = leap_day y).
Proof.
  intros. exists (if (2 <? m) && is_leap y then 1 else 0). split; [reflexivity|].
  unfold leap_day. destruct (2 <? m) eqn:E, (is_leap y); cbn; lia.
Qed.

Lemma days_from_civil_mday : forall y m d, days_from_civil y m d = days_from_civil y m 1 + (d - 1).
Proof. intros. unfold days_from_civil. lia. Qed.

Lemma date_in_year : forall y m d, valid_date y m d = true ->
  days_from_civil y 1 1 <= days_from_civil y m d <= days_from_civil y 1 1 + 364 + leap_day y.
Proof.
  intros y m d H. apply valid_date_inv in H. destruct H as [Hm Hd].
  pose proof (month_table y m Hm) as T. cbv zeta in T. pose proof (leap_day_cases y) as L.
  destruct (days_from_civil_eq y m d) as (k & -> & Hk). destruct (days_from_civil_eq y 1 1) as (k1 & -> & Hk1).
  change (cum_days 1) with 0. lia.
Qed.

Lemma year_of_range : forall y m d, valid_date y m d = true ->
  (0 <= days_from_civil y m d < DAYS <-> 1970 <= y <= 2099).
Proof.
  intros y m d H. pose proof (date_in_year y m d H) as B. pose proof (leap_day_cases y) as L.
  pose proof (leaps_upto_step y) as S.
  destruct (days_from_civil_eq y 1 1) as (k & E & Hk). rewrite E in B. change (cum_days 1) with 0 in B.
  unfold DAYS, leaps_upto in *. Z.div_mod_to_equations. lia.
Qed.

(* The 400-year era is cut into years: [yoe] is the year of the era containing day [doe], [doy]
   the day of that year, both counted from 1 March, so that the leap day comes last.  (Two
   lemmas: lia takes several times longer on the conjunction.) *)
Lemma year_of_era_bounds : forall doe, 0 <= doe <= 146096 ->
  let yoe := (doe - doe / 1460 + doe / 36524 - doe / 146096) / 365 in
  let doy := doe - (365 * yoe + yoe / 4 - yoe / 100) in
  0 <= yoe <= 399 /\ 0 <= doy <= 365.
Proof. intros doe H yoe doy. subst doy yoe. Z.div_mod_to_equations. lia. Qed.

Lemma year_of_era_leap : forall doe, 0 <= doe <= 146096 ->
  let yoe := (doe - doe / 1460 + doe / 36524 - doe / 146096) / 365 in
  let doy := doe - (365 * yoe + yoe / 4 - yoe / 100) in
  doy = 365 -> (yoe + 1) mod 4 = 0 /\ ((yoe + 1) mod 100 <> 0 \/ yoe = 399).
Proof. intros doe H yoe doy. subst doy yoe. Z.div_mod_to_equations. lia. Qed.

(* day [doy] (0 = 1 March) of the year that begins in March of [Y], as a civil date: month
   [mp] (0 = March) begins on day (153 * mp + 2) / 5 *)
Lemma march_date : forall Y doy, 0 <= doy <= 364 + leap_day (Y + 1) ->
  let mp := (5 * doy + 2) / 153 in
  let d := doy - (153 * mp + 2) / 5 + 1 in
  let m := if mp <? 10 then mp + 3 else mp - 9 in
  let y := if m <=? 2 then Y + 1 else Y in
  valid_date y m d = true /\ days_from_civil y m d = 365 * Y + leaps_upto Y + doy - 719468.
Proof.
  intros Y doy Hdoy mp d m y.
  assert (Hmp : 153 * mp <= 5 * doy + 2 < 153 * (mp + 1)) by (subst mp; Z.div_mod_to_equations; lia).
  pose proof (leap_day_cases (Y + 1)) as L1.
  assert (Hm : 1 <= m <= 12 /\ (m = mp + 3 /\ y = Y \/ m = mp - 9 /\ y = Y + 1)).
  { subst y m. destruct (mp <? 10) eqn:E.
    - destruct (mp + 3 <=? 2) eqn:E2; lia.
    - destruct (mp - 9 <=? 2) eqn:E2; lia. }
  destruct Hm as [Hm Hy].
  pose proof (month_table y m Hm) as T. cbv zeta in T.
  pose proof (leaps_upto_step Y) as S.
  destruct (days_from_civil_eq y m d) as (k & -> & Hk). unfold valid_date.
  subst d. clearbody mp m y.
  destruct Hy as [[Em Ey]|[Em Ey]]; subst y; replace (Y + 1 - 1) with Y in * by lia;
    split; Z.div_mod_to_equations; lia.
Qed.

Theorem civil_of_days_spec : forall z,
  let '(y, m, d) := civil_of_days z in valid_date y m d = true /\ days_from_civil y m d = z.
Proof.
  intros z. unfold civil_of_days.
  set (era := (z + 719468) / 146097).
  set (doe := z + 719468 - era * 146097).
  assert (Hdoe : 0 <= doe <= 146096) by (subst doe era; Z.div_mod_to_equations; lia).
  pose proof (year_of_era_bounds doe Hdoe) as [Hyoe Hdoy]. pose proof (year_of_era_leap doe Hdoe) as Hleap.
  cbv zeta in Hyoe, Hdoy, Hleap.
  set (yoe := (doe - doe / 1460 + doe / 36524 - doe / 146096) / 365) in *.
  set (doy := doe - (365 * yoe + yoe / 4 - yoe / 100)) in *.
  set (Y := yoe + era * 400).
  assert (HL : leaps_upto Y = yoe / 4 - yoe / 100 + 97 * era)
    by (unfold leaps_upto; subst Y; Z.div_mod_to_equations; lia).
  (* the year has a 366th day only if the civil year in which it ends is a leap year *)
  assert (Hlast : doy <= 364 + leap_day (Y + 1)).
  { destruct (leap_day_cases (Y + 1)) as [[E _]|[E N]]; rewrite E; [lia|].
    assert (doy <> 365); [|lia]. intros D. specialize (Hleap D). subst Y. Z.div_mod_to_equations. lia. }
  pose proof (march_date Y doy ltac:(lia)) as M. cbv zeta in M.
  destruct M as [V D]. split; [exact V|]. rewrite D, HL. subst doy doe. lia.
Qed.

Lemma civil_of_days_range : forall day y m d, 0 <= day < DAYS -> civil_of_days day = (y, m, d) ->
  valid_date y m d = true /\ days_from_civil y m d = day /\ 1970 <= y <= 2099.
Proof.
  intros day y m d Hday Hc. pose proof (civil_of_days_spec day) as S. rewrite Hc in S.
  destruct S as [V E]. split; [exact V|]. split; [exact E|]. apply (year_of_range y m d V). lia.
Qed.

Lemma civil_of_days_ok : forall d, 0 <= d < DAYS ->
  let '(y, m, dd) := civil_of_days d in
  c09_civil_ok d y m dd = true /\ 1970 <= y <= 2099.
Proof.
  intros d Hd. pose proof (civil_of_days_range d) as R. destruct (civil_of_days d) as [[y m] dd].
  destruct (R y m dd Hd eq_refl) as (V & E & Hy). unfold c09_civil_ok. rewrite V, E, Z.eqb_refl. auto.
Qed.

Lemma mon_days_cum_days : forall m, 1 <= m <= 12 -> mon_days (m - 1) = cum_days m.
Proof.
  intros m Hm. assert (C : In m [1; 2; 3; 4; 5; 6; 7; 8; 9; 10; 11; 12]) by (cbn; lia).
  cbn in C. decompose [or] C; try contradiction; subst m; reflexivity.
Qed.

(* (tyears + 2) / 4 counts the leap years since 1970 as long as every fourth year is one: the
   years 1970..2099, thanks to 2000 *)
Lemma epoch_days_ok : forall y m d h mi s, 1970 <= y <= 2099 -> valid_date y m d = true ->
  epoch_days (mk_tm y m d h mi s) = days_from_civil y m d.
Proof.
  intros y m d h mi s Hy Hv. pose proof (valid_date_inv y m d Hv) as [Hm Hd].
  unfold epoch_days, mk_tm. cbn [tm_year tm_mon tm_mday].
  rewrite (mon_days_cum_days m Hm).
  replace (y - 1900 =? 0) with false by lia. replace (d =? 0) with false by lia. cbn [negb andb].
  rewrite Z.quot_div_nonneg, Z.rem_mod_nonneg by lia.
  destruct (days_from_civil_eq y m d) as (k & -> & Hk). pose proof (leap_day_cases y) as L.
  assert (HL : leaps_upto (y - 1) - 477 = (y - 1969) / 4) by (unfold leaps_upto; Z.div_mod_to_equations; lia).
  rewrite HL.
  destruct (((y - 1900) mod 4 =? 0) && (m - 1 <? 2)) eqn:E; Z.div_mod_to_equations; lia.
Qed.
