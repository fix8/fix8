(* format0 / parse_decimal and the specification's digit reader. *)
From Coq Require Import ZArith List Bool Lia.
From F8 Require Import C09.DateTime C09.Spec_C09.
Import ListNotations.
Local Open Scope Z_scope.

Lemma format0_length : forall w n, length (format0 n w) = w.
Proof. induction w; intros; cbn [format0]; [reflexivity|]. rewrite app_length, IHw. cbn. lia. Qed.

Lemma format0_S : forall w n, format0 n (S w) = format0 (Z.quot n 10) w ++ [(Z.rem n 10 + 48) mod 256].
Proof. reflexivity. Qed.

Lemma parse_decimal_app : forall k1 k2 l to ub,
  parse_decimal (k1 + k2) l to ub =
  match parse_decimal k1 l to ub with
  | Some (to', ub', r) => parse_decimal k2 r to' ub'
  | None => None
  end.
Proof.
  induction k1; intros; cbn [Nat.add parse_decimal]; [reflexivity|].
  destruct l; [reflexivity|]. apply IHk1.
Qed.

Lemma take_digits_acc_app : forall k1 k2 l acc,
  take_digits_acc (k1 + k2) l acc =
  match take_digits_acc k1 l acc with
  | Some (acc', r) => take_digits_acc k2 r acc'
  | None => None
  end.
Proof.
  induction k1; intros; cbn [Nat.add take_digits_acc]; [reflexivity|].
  destruct l; [reflexivity|]. destruct ((48 <=? z) && (z <=? 57)); [apply IHk1|reflexivity].
Qed.

Lemma last_digit : forall n, 0 <= n ->
  Z.quot n 10 = n / 10 /\ (Z.rem n 10 + 48) mod 256 = 48 + n mod 10 /\ 0 <= n mod 10 < 10.
Proof. intros. rewrite Z.quot_div_nonneg, Z.rem_mod_nonneg by lia. Z.div_mod_to_equations. lia. Qed.

Lemma pow10_S : forall w, 10 ^ Z.of_nat (S w) = 10 * 10 ^ Z.of_nat w /\ 0 < 10 ^ Z.of_nat w.
Proof. intros. rewrite Nat2Z.inj_succ, Z.pow_succ_r by lia. split; [reflexivity|]. apply Z.pow_pos_nonneg; lia. Qed.

Lemma parse_decimal_format0 : forall w n acc ub rest, 0 <= n < 10 ^ Z.of_nat w ->
  parse_decimal w (format0 n w ++ rest) acc ub = Some (acc * 10 ^ Z.of_nat w + n, ub, rest).
Proof.
  induction w; intros n acc ub rest Hn.
  - cbn. change (10 ^ Z.of_nat 0) with 1 in *. do 3 f_equal. lia.
  - destruct (pow10_S w) as [Hp Hpos]. rewrite Hp in *. destruct (last_digit n) as (Hq & Hc & Hd); [lia|].
    rewrite format0_S, <- app_assoc, Hq, Hc. replace (S w) with (w + 1)%nat by lia.
    rewrite parse_decimal_app, IHw by (Z.div_mod_to_equations; lia).
    cbn [app parse_decimal]. unfold schar. replace (48 + n mod 10 <? 128) with true by lia.
    do 3 f_equal. Z.div_mod_to_equations. lia.
Qed.

Lemma take_digits_format0 : forall w n acc rest, 0 <= n < 10 ^ Z.of_nat w ->
  take_digits_acc w (format0 n w ++ rest) acc = Some (acc * 10 ^ Z.of_nat w + n, rest).
Proof.
  induction w; intros n acc rest Hn.
  - cbn. change (10 ^ Z.of_nat 0) with 1 in *. do 2 f_equal. lia.
  - destruct (pow10_S w) as [Hp Hpos]. rewrite Hp in *. destruct (last_digit n) as (Hq & Hc & Hd); [lia|].
    rewrite format0_S, <- app_assoc, Hq, Hc. replace (S w) with (w + 1)%nat by lia.
    rewrite take_digits_acc_app, IHw by (Z.div_mod_to_equations; lia).
    cbn [app take_digits_acc]. replace ((48 <=? 48 + n mod 10) && (48 + n mod 10 <=? 57)) with true by lia.
    do 2 f_equal. Z.div_mod_to_equations. lia.
Qed.

Lemma parse_decimal_canon : forall w n ub rest, 0 <= n < 10 ^ Z.of_nat w ->
  parse_decimal w (format0 n w ++ rest) 0 ub = Some (n, ub, rest).
Proof. intros. rewrite parse_decimal_format0 by lia. reflexivity. Qed.

Lemma digits_roundtrip : forall w n, 0 <= n < 10 ^ Z.of_nat w ->
  parse_decimal w (format0 n w) 0 false = Some (n, false, []).
Proof. intros. rewrite <- (app_nil_r (format0 n w)). apply parse_decimal_canon. lia. Qed.

Lemma take_digits_acc_inv : forall w l acc v r, take_digits_acc w l acc = Some (v, r) ->
  exists n, l = format0 n w ++ r /\ 0 <= n < 10 ^ Z.of_nat w /\ v = acc * 10 ^ Z.of_nat w + n.
Proof.
  induction w; intros l acc v r H.
  - cbn in H. injection H as <- <-. exists 0. change (10 ^ Z.of_nat 0) with 1. split; [reflexivity|lia].
  - replace (S w) with (w + 1)%nat in H by lia. rewrite take_digits_acc_app in H.
    destruct (take_digits_acc w l acc) as [[acc' r']|] eqn:E; [|discriminate].
    destruct r' as [|c r']; cbv [take_digits_acc] in H; [discriminate|].
    destruct ((48 <=? c) && (c <=? 57)) eqn:Hc; [|discriminate]. replace v with (10 * acc' + (c - 48)) by congruence. replace r with r' by congruence.
    destruct (IHw _ _ _ _ E) as (n & -> & Hn & ->).
    destruct (pow10_S w) as [Hp Hpos]. destruct (last_digit (10 * n + (c - 48))) as (Hq & Hl & _); [lia|].
    exists (10 * n + (c - 48)). rewrite format0_S, Hq, Hl, <- app_assoc, Hp.
    replace ((10 * n + (c - 48)) / 10) with n by (Z.div_mod_to_equations; lia).
    replace (48 + (10 * n + (c - 48)) mod 10) with c by (Z.div_mod_to_equations; lia).
    split; [reflexivity|lia].
Qed.
