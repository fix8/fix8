(* The binary64 seconds value of GetTimeAsStringMS, in exact integer arithmetic: rounding error
   of round53 / rne_div and of the decimal conversion.  The inequalities between products are
   stated one by one (monotonicity of the multiplication), so that lia is left with linear goals. *)
From Coq Require Import ZArith List Bool Lia.
From F8 Require Import C09.DateTime.
Import ListNotations.
Local Open Scope Z_scope.

Lemma mul_bounds_cancel : forall x c s, 0 < s -> - (c * s) <= x * s <= c * s -> - c <= x <= c.
Proof. intros x c s Hs H. split; apply (Z.mul_le_mono_pos_r _ _ s Hs); lia. Qed.

Lemma rne_div_cases : forall p q, 0 < q ->
  exists k r, p = q * k + r /\ 0 <= r < q /\
    (rne_div p q = k /\ 2 * r <= q \/ rne_div p q = k + 1 /\ q <= 2 * r).
Proof.
  intros p q Hq. exists (p / q), (p mod q).
  pose proof (Z.div_mod p q ltac:(lia)) as E. pose proof (Z.mod_pos_bound p q Hq) as B.
  split; [exact E|]. split; [exact B|]. unfold rne_div.
  destruct (2 * (p mod q) <? q) eqn:A; [left; lia|].
  destruct (q <? 2 * (p mod q)) eqn:C; [right; lia|].
  destruct (Z.even (p / q)); [left|right]; lia.
Qed.

Lemma rne_div_err : forall p q, 0 < q -> 2 * Z.abs (rne_div p q * q - p) <= q.
Proof.
  intros p q Hq. destruct (rne_div_cases p q Hq) as (k & r & E & B & [[R C]|[R C]]); rewrite R; lia.
Qed.

Lemma rne_div_le : forall p q N, 0 < q -> p <= N * q -> rne_div p q <= N.
Proof.
  intros p q N Hq H. destruct (rne_div_cases p q Hq) as (k & r & E & B & [[R C]|[R C]]); rewrite R.
  - apply (Z.mul_le_mono_pos_r _ _ q Hq). lia.
  - assert (k < N) by (apply (Z.mul_lt_mono_pos_r q _ _ Hq); lia). lia.
Qed.

Lemma rne_div_ge : forall p q N, 0 < q -> N * q <= p -> N <= rne_div p q.
Proof.
  intros p q N Hq H. destruct (rne_div_cases p q Hq) as (k & r & E & B & [[R C]|[R C]]); rewrite R;
    assert (N < k + 1) by (apply (Z.mul_lt_mono_pos_r q _ _ Hq); lia); lia.
Qed.

(* k bounds the binary exponent of p / q.  Any bound below 52 keeps the first scaling exponent
   l - 52 negative, which is the branch the proof follows; the callers have k = 0 and k = 6. *)
Lemma round53_spec : forall p q k, 0 < p -> 0 < q -> 0 <= k <= 40 -> p < q * 2 ^ k ->
  let '(m, e) := round53 p q in
  e <= k - 53 /\ m = rne_div (p * 2 ^ (- e)) q.
Proof.
  intros p q k Hp Hq Hk Hlt. unfold round53.
  set (l := Z.log2 p - Z.log2 q).
  pose proof (Z.log2_nonneg p). pose proof (Z.log2_nonneg q).
  assert (Hl : l <= k).
  { assert (Z.log2 p < Z.succ (Z.log2 q) + k); [|lia].
    apply Z.log2_lt_pow2; [exact Hp|]. rewrite Z.pow_add_r by lia.
    pose proof (Z.log2_spec q Hq) as [_ Q2].
    assert (q * 2 ^ k < 2 ^ Z.succ (Z.log2 q) * 2 ^ k); [|lia].
    apply Z.mul_lt_mono_pos_r; [apply Z.pow_pos_nonneg; lia|exact Q2]. }
  assert (E0 : l - 52 <? 0 = true) by lia. rewrite E0.
  destruct (P52 * q <=? p * 2 ^ (- (l - 52))) eqn:T.
  - rewrite E0. split; [|reflexivity].
    set (a := - (l - 52)) in *.
    assert (H1 : p * 2 ^ a < q * 2 ^ k * 2 ^ a) by (apply Z.mul_lt_mono_pos_r; [apply Z.pow_pos_nonneg; lia|exact Hlt]).
    rewrite <- Z.mul_assoc, <- Z.pow_add_r in H1 by lia.
    assert (H2 : 2 ^ 52 < 2 ^ (k + a)) by (apply (Z.mul_lt_mono_pos_r q _ _ Hq); change (2 ^ 52) with P52; lia).
    apply Z.pow_lt_mono_r_iff in H2; lia.
  - assert (E1 : l - 52 - 1 <? 0 = true) by lia. rewrite E1. split; [lia|reflexivity].
Qed.

Definition P47 : Z := 140737488355328.     (* 2^47 *)

Lemma pow2_split : forall a b, 0 <= a <= b -> 2 ^ b = 2 ^ a * 2 ^ (b - a) /\ 1 <= 2 ^ (b - a).
Proof.
  intros a b H. split.
  - rewrite <- Z.pow_add_r by lia. f_equal. lia.
  - change 1 with (2 ^ 0). apply Z.pow_le_mono_r; lia.
Qed.

(* two roundings in a row: X is the total error, da the first one (in units of 1/S1, against
   1/B), db the second (in units of 1/S2, against 1/S1) *)
Lemma two_roundings : forall B S1 S2 W da db X, 0 < S1 -> 0 <= B -> 1 <= W -> 0 <= S2 <= W * S1 ->
  2 * Z.abs da <= B -> 2 * Z.abs db <= S1 -> X * S1 = B * db + S2 * da ->
  - (B * W) <= X <= B * W.
Proof.
  intros B S1 S2 W da db X HS1 HB HW HS2 Ha Hb Hid.
  assert (Pa : S2 * (- B) <= S2 * (2 * da) <= S2 * B) by (split; apply Z.mul_le_mono_nonneg_l; lia).
  assert (Pb : B * (- S1) <= B * (2 * db) <= B * S1) by (split; apply Z.mul_le_mono_nonneg_l; lia).
  assert (P1 : B * (1 * S1) <= B * (W * S1)) by (apply Z.mul_le_mono_nonneg_l; [lia|apply Z.mul_le_mono_nonneg_r; lia]).
  assert (P2 : B * S2 <= B * (W * S1)) by (apply Z.mul_le_mono_nonneg_l; lia).
  apply (mul_bounds_cancel _ _ S1 HS1). rewrite Hid. lia.
Qed.

Lemma double_err : forall s n, 0 <= s <= 59 -> 0 < n < BILLION ->
  let '(num, sh) := log_secs_double s n in
  exists W, 1 <= W /\ 2 ^ sh = P47 * W /\ 0 <= sh /\ 0 <= num /\
   - (BILLION * W) <= num * BILLION - (s * BILLION + n) * 2 ^ sh <= BILLION * W.
Proof.
  intros s n Hs Hn. unfold log_secs_double.
  replace (n =? 0) with false by lia.
  assert (HB : 0 < BILLION) by reflexivity.
  (* (double)n / 1e9 = m / S1 *)
  pose proof (round53_spec n BILLION 0) as R1.
  destruct (round53 n BILLION) as [m e].
  destruct R1 as [He Hm]; [lia ..|].
  set (sh := - e) in *.
  destruct (pow2_split 53 sh ltac:(lia)) as [HS1 HV]. change (2 ^ 53) with (64 * P47) in HS1.
  set (S1 := 2 ^ sh) in *. set (V := 2 ^ (sh - 53)) in *.
  assert (HS1lo : 64 * P47 <= S1) by (unfold P47 in *; lia). clearbody S1. clear HS1 HV V.
  pose proof (rne_div_err (n * S1) BILLION HB) as Ea. rewrite <- Hm in Ea.
  assert (Hm1 : 1 <= m <= S1).
  { assert (1 * S1 <= n * S1 <= BILLION * S1) by (split; apply Z.mul_le_mono_nonneg_r; unfold P47 in *; lia).
    rewrite Hm. split; [apply rne_div_ge|apply rne_div_le]; unfold BILLION, P47 in *; lia. }
  (* s + m / S1 = m2 / S2 *)
  set (p := s * S1 + m) in *.
  assert (HsS : 0 * S1 <= s * S1 <= 59 * S1) by (split; apply Z.mul_le_mono_nonneg_r; unfold P47 in *; lia).
  pose proof (round53_spec p S1 6) as R2.
  destruct (round53 p S1) as [m2 e2].
  destruct R2 as [He2 Hm2]; [unfold P47 in *; lia ..|].
  set (sh2 := - e2) in *.
  destruct (pow2_split 47 sh2 ltac:(lia)) as [HS2 HW]. change (2 ^ 47) with P47 in HS2.
  set (S2 := 2 ^ sh2) in *. set (W := 2 ^ (sh2 - 47)) in *. clearbody S2 W.
  assert (HS1pos : 0 < S1) by (unfold P47 in *; lia).
  pose proof (rne_div_err (p * S2) S1 HS1pos) as Eb. rewrite <- Hm2 in Eb.
  exists W. split; [exact HW|]. split; [exact HS2|]. split; [lia|]. split.
  - rewrite Hm2. apply rne_div_ge; [lia|]. apply Z.mul_nonneg_nonneg; unfold P47 in *; lia.
  - apply (two_roundings BILLION S1 S2 W (m * BILLION - n * S1) (m2 * S1 - p * S2)); try assumption; try lia.
    rewrite HS2. split; [unfold P47; lia|]. rewrite (Z.mul_comm P47). apply Z.mul_le_mono_nonneg_l; unfold P47 in *; lia.
Qed.
