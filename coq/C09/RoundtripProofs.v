(* print() followed by the string constructor, for the six field types. *)
From Coq Require Import ZArith List Bool Lia.
From F8 Require Import C09.DateTime C09.Spec_C09 C09.CalendarSweeps C09.DigitProofs C09.TimeArith C09.PrintProofs
  C09.ParseProofs.
Import ListNotations.
Local Open Scope Z_scope.

Lemma kind_roundtrip : forall wide t k, in_range t = true -> small wide t ->
  let txt := field_print (mkind k) t in
  text_ok k t txt && back_ok k t txt (observe_out (field_parse_gen wide (mkind k) txt)) = true /\
  ub_free (field_parse_gen wide (mkind k) txt) = true.
Proof.
  intros wide t k Hr Hw txt. pose proof (text_ok_all t k Hr) as T. fold txt in T.
  rewrite T. cbn [andb]. unfold text_ok in T. apply andb_prop in T. destruct T as [_ T].
  destruct (denote k txt) as [v|] eqn:Dn; [|discriminate].
  destruct (component k t txt) as [c|] eqn:Cp; [|discriminate].
  apply Z.eqb_eq in T. subst v.
  pose proof (component_bounds t k c Hr Cp) as Bc. pose proof (in_range_inv t Hr) as Bt.
  assert (Rc : in_range c = true) by (unfold in_range; lia).
  assert (Sc : small wide c) by (destruct Hw as [Hw|Hw]; [left; exact Hw|right; lia]).
  rewrite (parse_follows_denote wide k txt c Dn Rc Sc).
  unfold back_ok. rewrite Cp. cbn [observe_out ub_free negb]. rewrite Z.eqb_refl. split; reflexivity.
Qed.

Lemma roundtrip_gen_ok : forall wide t, in_range t = true -> small wide t ->
  c09_ok t (observe (roundtrip_gen wide t)) = true /\
  forallb (fun p => ub_free (snd p)) (roundtrip_gen wide t) = true.
Proof.
  intros wide t Hr Hw.
  destruct (kind_roundtrip wide t S_TS Hr Hw) as [A1 B1].
  destruct (kind_roundtrip wide t S_TO Hr Hw) as [A2 B2].
  destruct (kind_roundtrip wide t S_DO Hr Hw) as [A3 B3].
  destruct (kind_roundtrip wide t S_LD Hr Hw) as [A4 B4].
  destruct (kind_roundtrip wide t S_M6 Hr Hw) as [A5 B5].
  destruct (kind_roundtrip wide t S_M8 Hr Hw) as [A6 B6].
  cbn [mkind] in *.
  unfold c09_ok, roundtrip_gen, all_kinds, kinds, observe. rewrite Hr.
  cbn [negb orb map all2 fst snd forallb].
  rewrite A1, A2, A3, A4, A5, A6, B1, B2, B3, B4, B5, B6. split; reflexivity.
Qed.

(* before the repair (int arithmetic): only the tick counts before 2038-01-19T03:14:08 *)
Lemma roundtrip_orig_partial_lemma : forall t, 0 <= t < 2147483648 * NS_SEC ->
  c09_ok t (observe (roundtrip_orig t)) = true /\ forallb (fun p => ub_free (snd p)) (roundtrip_orig t) = true.
Proof.
  intros t Ht. apply roundtrip_gen_ok.
  - unfold in_range, DAYS, NS_DAY, NS_SEC in *. lia.
  - right. lia.
Qed.
