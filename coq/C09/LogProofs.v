(* GetTimeAsStringMS: when the text is right. *)
From Coq Require Import ZArith List Bool Lia.
From F8 Require Import C09.DateTime C09.Spec_C09 C09.CalendarSweeps C09.DigitProofs C09.TimeArith C09.PrintProofs
  C09.FloatProofs C09.FixedProofs.
Import ListNotations.
Local Open Scope Z_scope.

Lemma log_in_range_inv : forall secs nsecs d, log_in_range secs nsecs d = true ->
  0 <= secs < DAYS * 86400 /\ 0 <= nsecs < NS_SEC /\ (d <= 9)%nat.
Proof.
  intros secs nsecs d H. unfold log_in_range in H. apply andb_prop in H as [H Hd].
  apply Nat.leb_le in Hd. lia.
Qed.

Lemma out_int_small : forall w n, 0 <= n < 10 ^ Z.of_nat w -> out_int w n = format0 n w.
Proof. intros. unfold out_int. replace (_ && _) with true by lia. reflexivity. Qed.

Definition canon_date (y m d : Z) : list Z := format0 y 4 ++ [45] ++ format0 m 2 ++ [45] ++ format0 d 2 ++ [32].

Lemma read_log_date : forall y m d rest, 0 <= y < 10000 -> 0 <= m < 100 -> 0 <= d < 100 ->
  forall k, read_log k (canon_date y m d ++ rest) =
   (get (h, mi, s, l) <- read_hms rest;
    match k with
    | O => if at_end l then Some (y, m, d, h, mi, s, 0) else None
    | _ => get l <- take_char 46 l; get (f, l) <- take_digits k l;
           if at_end l then Some (y, m, d, h, mi, s, f) else None
    end).
Proof.
  intros. unfold read_log, canon_date. repeat rewrite <- app_assoc.
  repeat (rewrite take_digits_canon by lia; cbn [sbind app]; rewrite take_char_cons; cbn [sbind]).
  reflexivity.
Qed.

Lemma log_render_shape : forall secs nsecs d y m dd,
  0 <= secs -> 0 <= nsecs < NS_SEC -> civil_of_days (secs / 86400) = (y, m, dd) ->
  0 <= y < 10000 -> 1 <= m <= 12 -> 1 <= dd <= 31 ->
  log_render secs nsecs d =
  canon_date y m dd ++ format0 (hour_of secs) 2 ++ [58] ++ format0 (min_of secs) 2 ++ [58] ++
  match d with
  | O => format0 (sec_of secs) 2
  | _ => let '(num, sh) := log_secs_double (secs mod 60) nsecs in out_fixed num sh d
  end.
Proof.
  intros secs nsecs d y m dd Hs Hn Hc Hy Hm Hd.
  assert (Ts : tv_secs (tv_make secs nsecs) = secs).
  { unfold tv_secs, tv_make, BILLION, NS_SEC in *. rewrite Z.quot_div_nonneg by lia.
    rewrite Z.div_add_l, Z.div_small by lia. lia. }
  assert (Tn : tv_nsecs (tv_make secs nsecs) = nsecs).
  { unfold tv_nsecs, tv_make, BILLION, W32, NS_SEC in *. rewrite Z.rem_mod_nonneg by lia.
    rewrite Z.add_comm, Z.mod_add, (Z.mod_small nsecs) by lia. apply Z.mod_small. lia. }
  pose proof (time_of_day secs) as (Hh & Hmi & Hsc & _).
  unfold log_render. rewrite Ts, Tn, (gmtime_eq secs y m dd Hc). unfold mk_tm.
  cbn [tm_year tm_mon tm_mday tm_hour tm_min tm_sec]. rewrite !Z.sub_add.
  rewrite !out_int_small by lia. rewrite Z.rem_mod_nonneg by lia.
  unfold canon_date. repeat rewrite <- app_assoc. reflexivity.
Qed.

Lemma pow10_split : forall d, (d <= 9)%nat -> 10 ^ Z.of_nat d * 10 ^ (9 - Z.of_nat d) = BILLION.
Proof.
  intros. rewrite <- Z.pow_add_r by lia. replace (Z.of_nat d + (9 - Z.of_nat d)) with 9 by lia. reflexivity.
Qed.

Lemma log_partial_lemma : forall secs nsecs d, log_in_range secs nsecs d = true ->
  (d = 0%nat \/ secs mod 60 < 59 \/ 2 * nsecs + 10 ^ (9 - Z.of_nat d) < 2 * NS_SEC) ->
  c09_log_ok secs nsecs d (log_render secs nsecs d) = true.
Proof.
  intros secs nsecs d Hr Hc. destruct (log_in_range_inv _ _ _ Hr) as (Hs & Hn & Hd).
  unfold c09_log_ok. rewrite Hr. cbn [negb orb].
  assert (Hday : 0 <= secs / 86400 < DAYS) by (unfold DAYS in *; Z.div_mod_to_equations; lia).
  destruct (civil_of_days (secs / 86400)) as [[y m] dd] eqn:Hcv.
  destruct (civil_of_days_range _ y m dd Hday Hcv) as (Hv & Hdfc & Hy).
  pose proof (valid_date_bounds y m dd Hv) as [Hm Hdd].
  rewrite (log_render_shape secs nsecs d y m dd) by (auto; lia).
  pose proof (time_of_day secs) as (Hh & Hmi & Hsc & Hsod & Hs60).
  set (h := hour_of secs) in *. set (mi := min_of secs) in *. rewrite Hs60 in *.
  assert (Hsecs : secs = days_from_civil y m dd * 86400 + h * 3600 + mi * 60 + secs mod 60).
  { rewrite Hdfc. pose proof (Z.div_mod secs 86400). lia. }
  clear Hsod. rewrite read_log_date by lia.
  destruct d as [|d'].
  - (* whole seconds: tm_sec *)
    change (format0 h 2 ++ [58] ++ format0 mi 2 ++ [58] ++ format0 (secs mod 60) 2)
      with (canon_hms h mi (secs mod 60)).
    rewrite <- (app_nil_r (canon_hms h mi (secs mod 60))).
    rewrite read_hms_canon by lia. cbn [sbind at_end].
    rewrite Hv, hms_ok_true by lia. cbn [andb].
    change (10 ^ (9 - Z.of_nat 0)) with 1000000000. unfold NS_SEC in *. lia.
  - (* a fraction: the binary64 value printed with d digits *)
    set (d := S d') in *.
    destruct (log_secs_double (secs mod 60) nsecs) as [num sh] eqn:Hdb.
    set (P := 10 ^ Z.of_nat d). set (U := 10 ^ (9 - Z.of_nat d)) in *.
    assert (HPU : P * U = BILLION) by (apply pow10_split; exact Hd).
    assert (HP : 1 <= P) by (unfold P; change 1 with (10 ^ 0); apply Z.pow_le_mono_r; lia).
    assert (HU : 1 <= U) by (unfold U; change 1 with (10 ^ 0); apply Z.pow_le_mono_r; lia).
    pose proof (fixed_core (secs mod 60) nsecs P U num sh ltac:(lia) ltac:(unfold BILLION, NS_SEC in *; lia)
                  HPU HU HP Hdb) as (K0 & Kerr & Klt).
    unfold out_fixed. fold P. set (K := rne_div (num * P) (2 ^ sh)) in *.
    assert (K60 : K < 60 * P).
    { apply Klt. destruct Hc as [Hc|[Hc|Hc]]; [discriminate|left; lia|right].
      unfold BILLION, NS_SEC in *. lia. }
    clear Klt Hc.
    set (ip := K / P). set (fp := K mod P).
    assert (Hip : 0 <= ip < 60) by (unfold ip; split; [apply Z.div_pos; lia|apply Z.div_lt_upper_bound; lia]).
    assert (Hfp : 0 <= fp < P) by (unfold fp; apply Z.mod_pos_bound; lia).
    assert (HK : K = ip * P + fp) by (unfold ip, fp; rewrite Z.mul_comm; apply Z.div_mod; lia).
    replace (ip <? 100) with true by lia.
    replace (format0 h 2 ++ [58] ++ format0 mi 2 ++ [58] ++ format0 ip 2 ++ [46] ++ format0 fp d)
      with (canon_hms h mi ip ++ 46 :: format0 fp d)
      by (unfold canon_hms; repeat rewrite <- app_assoc; reflexivity).
    rewrite read_hms_canon by lia. cbn [sbind]. rewrite take_char_cons. cbn [sbind].
    rewrite take_digits_canon_end by (fold P; lia). cbn [sbind at_end].
    rewrite Hv, hms_ok_true by lia. cbn [andb].
    assert (HKU : K * U = ip * NS_SEC + fp * U).
    { rewrite HK. replace ((ip * P + fp) * U) with (ip * (P * U) + fp * U) by ring. rewrite HPU. reflexivity. }
    unfold BILLION, NS_SEC in *. lia.
Qed.
