(* Tickval arithmetic on non-negative tick counts, and the time of day of gmtime. *)
From Coq Require Import ZArith List Bool Lia.
From F8 Require Import C09.DateTime C09.Spec_C09 C09.CalendarSweeps.
Import ListNotations.
Local Open Scope Z_scope.

Definition hour_of (secs : Z) : Z := secs mod 86400 / 3600.
Definition min_of (secs : Z) : Z := secs mod 86400 mod 3600 / 60.
Definition sec_of (secs : Z) : Z := secs mod 86400 mod 60.

Lemma gmtime_eq : forall secs y m d, civil_of_days (secs / 86400) = (y, m, d) ->
  gmtime secs = mk_tm y m d (hour_of secs) (min_of secs) (sec_of secs).
Proof. intros secs y m d Hc. unfold gmtime. rewrite Hc. reflexivity. Qed.

Lemma time_of_day : forall secs,
  0 <= hour_of secs < 24 /\ 0 <= min_of secs < 60 /\ 0 <= sec_of secs < 60 /\
  secs mod 86400 = hour_of secs * 3600 + min_of secs * 60 + sec_of secs /\ sec_of secs = secs mod 60.
Proof. intros. unfold hour_of, min_of, sec_of. Z.div_mod_to_equations. lia. Qed.

Lemma in_range_inv : forall t, in_range t = true -> 0 <= t < DAYS * NS_DAY.
Proof. unfold in_range. lia. Qed.

Lemma in_range_day : forall t, in_range t = true -> 0 <= t / NS_DAY < DAYS.
Proof. intros t H. apply in_range_inv in H. unfold NS_DAY, NS_SEC, DAYS in *. Z.div_mod_to_equations. lia. Qed.

Definition ms_of (t : Z) : Z := (t / NS_MS) mod 1000.

Lemma ticks_split : forall t, let secs := t / NS_SEC in
  t / NS_DAY = secs / 86400 /\ t / NS_MS = secs * 1000 + ms_of t /\
  (t / NS_MS) mod 86400000 = secs mod 86400 * 1000 + ms_of t.
Proof.
  intros t secs.
  assert (E : secs = t / NS_MS / 1000) by (unfold secs, NS_SEC, NS_MS; rewrite Z.div_div by lia; reflexivity).
  unfold ms_of. split; [|split].
  - unfold secs, NS_DAY, NS_SEC. rewrite Z.div_div by lia. reflexivity.
  - rewrite E. pose proof (Z.div_mod (t / NS_MS) 1000). lia.
  - rewrite E. change 86400000 with (1000 * 86400). rewrite Z.rem_mul_r by lia. lia.
Qed.

Lemma tv_secs_nonneg : forall t, 0 <= t -> tv_secs t = t / NS_SEC.
Proof. intros. unfold tv_secs, BILLION, NS_SEC. apply Z.quot_div_nonneg; lia. Qed.

Lemma wrap32s_fits : forall x, fits32 x = true -> wrap32s x = x.
Proof.
  unfold fits32, INT_MIN, INT_MAX, wrap32s, W32. intros x H. rewrite Z.mod_small by lia. lia.
Qed.

Lemma tv_msecs_nonneg : forall t, 0 <= t -> wrap32s (tv_msecs t) = ms_of t.
Proof.
  intros. unfold tv_msecs, ms_of, MILLION, NS_MS, W32.
  rewrite Z.quot_div_nonneg by lia.
  assert (0 <= (t / 1000000) mod 1000 < 1000) by (apply Z.mod_pos_bound; lia).
  rewrite Z.rem_mod_nonneg by (try apply Z.div_pos; lia).
  rewrite Z.mod_small by lia. apply wrap32s_fits. unfold fits32, INT_MIN, INT_MAX. lia.
Qed.

Lemma tv_get_tm_nonneg : forall t y m d, 0 <= t -> civil_of_days (t / NS_DAY) = (y, m, d) ->
  let secs := t / NS_SEC in tv_get_tm t = mk_tm y m d (hour_of secs) (min_of secs) (sec_of secs).
Proof.
  intros t y m d Ht Hc. cbv zeta. unfold tv_get_tm. rewrite tv_secs_nonneg by lia.
  apply gmtime_eq. destruct (ticks_split t) as [E _]. rewrite <- E. exact Hc.
Qed.
