(* Model of the realm (enumerated domain) lookups of include/fix8/field.hpp:
     RealmBase::is_valid<T>, RealmBase::get_rlm_idx<T>, and the printer's use of the index
     (runtime/message.cpp MessageBase::print / print_field: _descriptions[idx]).
   The realm is the array [_range] of [_sz] elements of type T ordered by operator< (the
   comparator [lt]); std::lower_bound / std::binary_search are the bisection models of
   C12/Bisect.v.  No proofs in this file.
   Outer [None] = model error (out-of-bounds read / fuel); never happens for get_rlm_idx, nor for
   is_valid on a sorted set or a two-element range, see RealmProofs. *)
From Coq Require Import Arith List Bool ZArith.
From F8 Require Import C12.Bisect.
Import ListNotations.

Inductive rkind := dt_range | dt_set.

Section Realm.
  Context {A : Type}.
  Variable lt : A -> A -> bool.

  (* a <= b on T: !(b < a) *)
  Definition le (a b : A) : bool := negb (lt b a).

  (* return _dtype == dt_set ? std::binary_search(rng, rng + _sz, what)
                             : *rng <= what && what <= *(rng + 1); *)
  Definition is_valid (k : rkind) (S : list A) (v : A) : option bool :=
    match k with
    | dt_set => binary_search lt S v
    | dt_range =>
      match nth_error S 0 with
      | None => None
      | Some lo =>
        if le lo v then
          match nth_error S 1 with
          | None => None
          | Some hi => Some (le v hi)
          end
        else Some false
      end
    end.

  (* if (_dtype == dt_set) { res = std::lower_bound(rng, rng + _sz, what);
                             return res != rng + _sz && !(what < *res) ? res - rng : -1; }
     return 0;
     [fixed = true] is the code since commit 63dae2a; [fixed = false] is the original routine
     (return res != rng + _sz ? res - rng : -1;  -- no equality test), kept for the refutation witness. *)
  Definition get_rlm_idx_gen (fixed : bool) (k : rkind) (S : list A) (v : A) : option (option nat) :=
    match k with
    | dt_set =>
      match lower_bound lt S v with
      | None => None
      | Some r =>
        if r =? length S then Some None
        else if fixed then
          match nth_error S r with
          | None => None
          | Some x => Some (if lt v x then None else Some r)
          end
        else Some (Some r)
      end
    | dt_range => Some (Some 0)
    end.

  Definition get_rlm_idx := get_rlm_idx_gen true.
  Definition get_rlm_idx_orig := get_rlm_idx_gen false.

  (* the printer:  if (_rlm && (idx = get_rlm_idx()) >= 0) os << _rlm->_descriptions[idx] << " (" << value << ')';
                   else os << value;
     result: the description put in front of the value, if any *)
  Definition describe_gen {D : Type} (fixed : bool) (k : rkind) (S : list A) (descs : list D) (v : A)
    : option (option D) :=
    match get_rlm_idx_gen fixed k S v with
    | None => None
    | Some None => Some None
    | Some (Some i) =>
      match nth_error descs i with
      | None => None
      | Some d => Some (Some d)
      end
    end.

  Definition describe {D : Type} := @describe_gen D true.

  (* ---- the field object: Field<T, field>::is_valid() / get_rlm_idx() (one pair per specialisation
     int, f8String, fp_type, char -- all with the same body) apply the realm function to the WHOLE
     value held by the field; a field without a realm is always valid and has no index:
       bool is_valid() const { return _rlm ? _rlm->is_valid(_value) : true; }
       int get_rlm_idx() const { return _rlm ? _rlm->get_rlm_idx(_value) : -1; }
     [rlm] = the realm the field points to, if any. *)
  Definition field_is_valid (rlm : option (rkind * list A)) (v : A) : option bool :=
    match rlm with
    | None => Some true
    | Some (k, R) => is_valid k R v
    end.

  Definition field_get_rlm_idx_gen (fixed : bool) (rlm : option (rkind * list A)) (v : A) : option (option nat) :=
    match rlm with
    | None => Some None
    | Some (k, R) => get_rlm_idx_gen fixed k R v
    end.

  Definition field_get_rlm_idx := field_get_rlm_idx_gen true.

  (* the printer tests _rlm first *)
  Definition field_describe_gen {D : Type} (fixed : bool) (rlm : option (rkind * list A)) (descs : list D) (v : A)
    : option (option D) :=
    match rlm with
    | None => Some None
    | Some (k, R) => describe_gen fixed k R descs v
    end.
End Realm.

Local Open Scope Z_scope.

(* Field<Boolean>: _value(toupper(from[0]) == 'Y'); get_rlm_idx() looks up (_value ? 'Y' : 'N').
   chars are signed char values; toupper in the C locale *)
Definition c_toupper (c : Z) : Z := if (97 <=? c) && (c <=? 122) then c - 32 else c.
Definition boolean_field_char (c : Z) : Z := if c_toupper c =? 89 then 89 else 78.
