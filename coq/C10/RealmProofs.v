(* Proofs about the realm lookup model (C10): the set-realm lookups are instances of the bisection
   facts of C12/BisectProofs.v; what the oracle's linear scan computes is an exact index too
   (the scan is BisectProofs.find_from). *)
From Coq Require Import Arith List Bool Lia ZArith.
From F8 Require Import C12.Bisect C12.BisectProofs C12.Tables C12.TablesProofs C10.Realm C10.Spec_C10.
Import ListNotations.

Section Order.
  Context {A : Type}.
  Variable lt : A -> A -> bool.
  Hypothesis O : strict_total lt.
  Let lt_irrefl := st_irrefl lt O.
  Let lt_tricho := st_tricho lt O.

  Lemma eqv_eq a b : eqv lt a b = true <-> a = b.
  Proof.
    unfold eqv. rewrite andb_true_iff, !negb_true_iff. split.
    - intros [H1 H2]. apply lt_tricho; assumption.
    - intros ->. split; apply lt_irrefl.
  Qed.

  Lemma member_In S v : member lt S v = true <-> In v S.
  Proof.
    unfold member. rewrite existsb_exists. split.
    - intros [x [Hx He]]. apply eqv_eq in He. subst. exact Hx.
    - intros H. exists v. split; [exact H | apply eqv_eq; reflexivity].
  Qed.

  Lemma index_from_find : forall S v k, index_from lt S v k = find_from (fun x => eqv lt x v) S k.
  Proof.
    induction S as [|x S IH]; intros v k; cbn [index_from find_from]; [reflexivity|].
    destruct (eqv lt x v); [reflexivity | apply IH].
  Qed.

    Lemma index_of_exact S v r :
    (forall i, r = Some i <-> nth_error S i = Some v) -> index_of lt S v = r.
  Proof.
    intros Hiff. unfold index_of. rewrite index_from_find.
    apply (find_from_exact _ (fun x => x) v (fun x => eqv_eq x v)). rewrite map_id. exact Hiff.
  Qed.

  Theorem is_valid_set_In S v :
    sortedb lt S = true ->
    exists b, is_valid lt dt_set S v = Some b /\ (b = true <-> In v S).
  Proof. apply o_binary_search_sorted, O. Qed.

  Theorem is_valid_range lo hi v :
    is_valid lt dt_range [lo; hi] v = Some (negb (lt v lo) && negb (lt hi v)).
  Proof. cbn [is_valid nth_error]. unfold le. destruct (lt v lo); reflexivity. Qed.

  Theorem idx_total fixed k S v : exists r, get_rlm_idx_gen lt fixed k S v = Some r.
  Proof.
    destruct k; cbn [get_rlm_idx_gen]; [eexists; reflexivity|].
    destruct (lower_bound_total lt S v) as [r [-> Hr]].
    destruct (Nat.eqb_spec r (length S)) as [E|E]; [eexists; reflexivity|].
    destruct fixed; [|eexists; reflexivity].
    destruct (nth_error S r) eqn:En; [eexists; reflexivity|].
    apply nth_error_None in En. lia.
  Qed.

  (* the current code, lower_bound followed by the equality test, is GeneratedTable::_find word for
     word: the index is exact *)
  Theorem idx_exact S v :
    sortedb lt S = true ->
    exists r, get_rlm_idx lt dt_set S v = Some r /\ forall i, r = Some i <-> nth_error S i = Some v.
  Proof. exact (gt_find_exact lt O S v). Qed.

  Theorem idx_exists_iff_member S v :
    sortedb lt S = true ->
    exists r, get_rlm_idx lt dt_set S v = Some r /\ ((exists i, r = Some i) <-> In v S).
  Proof.
    intros Hs. destruct (idx_exact S v Hs) as [r [Hr Hiff]]. exists r. split; [exact Hr|]. split.
    - intros [i Hi]. apply Hiff in Hi. eapply nth_error_In; eassumption.
    - intros Hin. apply In_nth_error in Hin. destruct Hin as [i Hi]. exists i. apply Hiff. exact Hi.
  Qed.

  (* the routine before 63dae2a: lower_bound's index, with no equality test *)
  Theorem idx_orig_char S v :
    sortedb lt S = true ->
    exists r, get_rlm_idx_orig lt dt_set S v = Some r /\
              forall i, r = Some i <-> (i = count_lt lt S v /\ i < length S).
  Proof.
    intros Hs. unfold get_rlm_idx_orig. cbn [get_rlm_idx_gen].
    rewrite (o_lower_bound_sorted lt O S v Hs). pose proof (count_lt_le lt S v) as Hle.
    destruct (Nat.eqb_spec (count_lt lt S v) (length S)) as [E|E];
      (eexists; split; [reflexivity|]); intros i.
    - split; [discriminate | lia].
    - split; [intros H; inversion H; lia | intros [-> _]; reflexivity].
  Qed.

  (* the routine before 63dae2a already gave members exactly their own index *)
  Theorem idx_orig_member S v i :
    sortedb lt S = true -> nth_error S i = Some v ->
    get_rlm_idx_orig lt dt_set S v = Some (Some i).
  Proof.
    intros Hs Hi. destruct (idx_orig_char S v Hs) as [r [Hr Hiff]]. rewrite Hr. f_equal.
    apply Hiff. split.
    - symmetry. apply (o_count_lt_member lt O S v i Hs Hi).
    - apply nth_error_Some. congruence.
  Qed.

  (* ... but a non-member got the index of the next larger member whenever there is one *)
  Theorem idx_orig_nonmember S v :
    sortedb lt S = true -> ~ In v S ->
    (forall i, get_rlm_idx_orig lt dt_set S v = Some (Some i) ->
       exists y, nth_error S i = Some y /\ lt v y = true /\
                 forall j z, j < i -> nth_error S j = Some z -> lt z v = true) /\
    (get_rlm_idx_orig lt dt_set S v = Some None <-> forall y, In y S -> lt y v = true).
  Proof.
    intros Hs Hn. destruct (idx_orig_char S v Hs) as [r [Hr Hiff]]. rewrite Hr. split.
    - intros i Hi. inversion Hi; subst r. destruct (proj1 (Hiff i) eq_refl) as [-> Hlt].
      apply (o_count_lt_nonmember lt O S v Hs Hn Hlt).
    - destruct (o_count_lt_part lt O S v Hs) as [Hc [Hbelow Hfrom]]. set (c := count_lt lt S v) in *.
      split.
      + intros Hnone. inversion Hnone; subst r.
        assert (c = length S) as Hfull.
        { destruct (Nat.eq_dec c (length S)); [assumption|]. exfalso.
          assert (None = Some c) as C by (apply Hiff; lia). discriminate. }
        intros y Hy. apply In_nth_error in Hy. destruct Hy as [j Hj].
        apply (Hbelow j y); [|exact Hj]. split; [lia|]. rewrite Hfull. apply nth_error_Some. congruence.
      + intros Hall. f_equal. destruct r as [i|]; [|reflexivity]. exfalso.
        destruct (proj1 (Hiff i) eq_refl) as [-> Hlt].
        destruct (nth_error S c) as [y|] eqn:Ey. 2:{ apply nth_error_None in Ey. lia. }
        pose proof (Hfrom c y ltac:(lia) Ey) as C. cbn in C.
        rewrite (Hall y) in C; [discriminate|]. eapply nth_error_In; eassumption.
  Qed.

  (* hypothesis of the partial theorems: the value is a member, or above every member *)
  Definition off_defect (S : list A) (v : A) : bool :=
    member lt S v || forallb (fun y => lt y v) S.

  (* there the missing equality test makes no difference *)
  Lemma idx_orig_off_defect S v :
    sortedb lt S = true -> off_defect S v = true ->
    get_rlm_idx_orig lt dt_set S v = get_rlm_idx lt dt_set S v.
  Proof.
    intros Hs Hoff. unfold get_rlm_idx_orig, get_rlm_idx. cbn [get_rlm_idx_gen].
    rewrite (o_lower_bound_sorted lt O S v Hs). pose proof (count_lt_le lt S v) as Hle.
    set (c := count_lt lt S v) in *.
    destruct (Nat.eqb_spec c (length S)) as [E|E]; [reflexivity|].
    destruct (nth_error S c) as [x|] eqn:Ex. 2:{ apply nth_error_None in Ex. lia. }
    assert (lt v x = false) as ->; [|reflexivity].
    apply orb_true_iff in Hoff. destruct Hoff as [M|Hall].
    - apply member_In, In_nth_error in M. destruct M as [i Hi].
      apply (o_lower_bound_hit lt O S v i Hs) in Hi. destruct Hi as [-> [y [Hy Hvy]]].
      fold c in Hy. congruence.
    - exfalso. destruct (o_count_lt_part lt O S v Hs) as [_ [_ Hfrom]].
      pose proof (Hfrom c x ltac:(fold c; lia) Ex) as C. cbn in C.
      rewrite (proj1 (forallb_forall _ S) Hall x) in C; [discriminate|]. eapply nth_error_In, Ex.
  Qed.

  Theorem model_valid_ok S v b :
    sortedb lt S = true -> is_valid lt dt_set S v = Some b ->
    c10_valid_ok lt dt_set S v b = true.
  Proof.
    intros Hs Hb. destruct (is_valid_set_In S v Hs) as [b' [Hb' Hiff]].
    assert (b' = b) by congruence. subst b'.
    apply eqb_true_iff, eq_true_iff_eq. cbn [in_domain]. rewrite member_In. exact Hiff.
  Qed.

  Theorem model_valid_range_ok lo hi v b :
    is_valid lt dt_range [lo; hi] v = Some b -> c10_valid_ok lt dt_range [lo; hi] v b = true.
  Proof.
    rewrite is_valid_range. intros H. inversion H. unfold c10_valid_ok. cbn [in_domain].
    apply eqb_reflx.
  Qed.

  Theorem model_idx_ok S v r :
    sortedb lt S = true -> get_rlm_idx lt dt_set S v = Some r -> c10_idx_ok lt S v r = true.
  Proof.
    intros Hs Hr. destruct (idx_exact S v Hs) as [r' [Hr' Hiff]].
    assert (r' = r) by congruence. subst r'. unfold c10_idx_ok.
    rewrite (index_of_exact S v r Hiff). destruct r; cbn; [apply Nat.eqb_refl | reflexivity].
  Qed.

  Theorem model_idx_ok_partial S v r :
    sortedb lt S = true -> off_defect S v = true ->
    get_rlm_idx_orig lt dt_set S v = Some r -> c10_idx_ok lt S v r = true.
  Proof. intros Hs Hoff. rewrite (idx_orig_off_defect S v Hs Hoff). apply model_idx_ok, Hs. Qed.

  (* the printer shows the description paired with the value, and none for a non-member *)
  Theorem model_desc_ok {D} (eqD : D -> D -> bool) (eqD_refl : forall d, eqD d d = true)
      S (descs : list D) v r :
    sortedb lt S = true -> length descs = length S ->
    describe lt dt_set S descs v = Some r -> c10_desc_ok lt eqD S descs v r = true.
  Proof.
    intros Hs _ Hr. unfold describe, describe_gen in Hr.
    destruct (idx_exact S v Hs) as [ri [Hri Hiff]]. unfold get_rlm_idx in Hri. rewrite Hri in Hr.
    unfold c10_desc_ok. rewrite (index_of_exact S v ri Hiff). destruct ri as [i|].
    - destruct (nth_error descs i) as [d|]; [|discriminate]. inversion Hr. cbn. apply eqD_refl.
    - inversion Hr. reflexivity.
  Qed.

  Theorem desc_exact {D} S (descs : list D) v :
    sortedb lt S = true -> length descs = length S ->
    exists r, describe lt dt_set S descs v = Some r /\
              forall d, r = Some d <-> exists i, nth_error S i = Some v /\ nth_error descs i = Some d.
  Proof.
    intros Hs Hlen. unfold describe, describe_gen.
    destruct (idx_exact S v Hs) as [ri [Hri Hiff]]. unfold get_rlm_idx in Hri. rewrite Hri.
    destruct ri as [i|].
    - pose proof (proj1 (Hiff i) eq_refl) as Hi.
      destruct (nth_error descs i) as [d0|] eqn:Ed.
      2:{ apply nth_error_None in Ed. assert (i < length S) by (apply nth_error_Some; congruence). lia. }
      eexists. split; [reflexivity|]. intros d. split.
      + intros H. inversion H; subst. exists i. split; assumption.
      + intros [j [Hj Hd]]. assert (Some i = Some j) as E by (apply Hiff; exact Hj). inversion E; subst. congruence.
    - eexists. split; [reflexivity|]. intros d. split; [discriminate|].
      intros [j [Hj _]]. apply Hiff in Hj. discriminate.
  Qed.

  (* the ORIGINAL routine: exact only off the defect zone.  The printer of the original code
     shows exactly the description paired with the value there *)
  Theorem model_desc_ok_partial {D} (eqD : D -> D -> bool) (eqD_refl : forall d, eqD d d = true)
      S (descs : list D) v r :
    sortedb lt S = true -> off_defect S v = true -> length descs = length S ->
    describe_gen lt false dt_set S descs v = Some r -> c10_desc_ok lt eqD S descs v r = true.
  Proof.
    intros Hs Hoff Hlen Hr. apply (model_desc_ok eqD eqD_refl S descs v r Hs Hlen).
    unfold describe, describe_gen in *. fold (get_rlm_idx_orig lt dt_set S v) in Hr.
    rewrite (idx_orig_off_defect S v Hs Hoff) in Hr. exact Hr.
  Qed.

  Theorem model_field_valid_ok rlm v b :
    match rlm with Some (dt_set, R) => sortedb lt R = true | Some (dt_range, R) => exists lo hi, R = [lo; hi] | None => True end ->
    field_is_valid lt rlm v = Some b -> c10_field_valid_ok lt rlm v b = true.
  Proof.
    destruct rlm as [[[|] S]|]; cbn [field_is_valid c10_field_valid_ok].
    - intros [lo [hi ->]]. apply model_valid_range_ok.
    - intros Hs. apply model_valid_ok. exact Hs.
    - intros _ H. inversion H. reflexivity.
  Qed.
End Order.

Local Open Scope Z_scope.

(* the Side realm of FIX42UTEST.xml: '1'..'9' *)
Definition side_realm : list Z := [49; 50; 51; 52; 53; 54; 55; 56; 57].

Lemma idx_range_char_lemma : forall (S : list Z) v, get_rlm_idx Z.ltb dt_range S v = Some (Some 0%nat).
Proof. reflexivity. Qed.

Lemma is_valid_range_Z_lemma lo hi v b :
  is_valid Z.ltb dt_range [lo; hi] v = Some b -> (b = true <-> lo <= v <= hi).
Proof.
  rewrite is_valid_range. intros H. inversion H. subst b.
  rewrite andb_true_iff, !negb_true_iff, !Z.ltb_ge. lia.
Qed.
