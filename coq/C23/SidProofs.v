(* C23: the modelled SessionID comparison members, characterised exactly. *)
From Coq Require Import NArith ZArith List Bool.
From F8 Require Import Sess.Bytes Sess.SessLemmas C23.SessionID.
Import ListNotations.
Local Open Scope N_scope.

Lemma beq_sym : forall a b, beq a b = beq b a.
Proof.
  intros a b. destruct (beq a b) eqn:E; symmetry.
  - apply beq_eq in E. subst. apply beq_refl.
  - apply beq_neq. apply beq_neq in E. congruence.
Qed.

Theorem sid_eq_pair : forall a b, sid_eq a b = true <-> sid_snd a = sid_snd b /\ sid_tgt a = sid_tgt b.
Proof.
  intros a b. unfold sid_eq. rewrite andb_true_iff, !beq_eq. split; intros [A B]; split; congruence.
Qed.

Theorem sid_eq_char : forall a b, sid_eq a b = true <-> a = b.
Proof.
  intros [s1 t1] [s2 t2]. rewrite sid_eq_pair. cbn [sid_snd sid_tgt].
  split; [intros [-> ->]; reflexivity|intro H; inversion H; auto].
Qed.

(* the printable id made by make_id is not injective: (A->B, C) and (A, B->C) *)
Definition amb1 : sid := mkSid [65;45;62;66] [67].
Definition amb2 : sid := mkSid [65] [66;45;62;67].
Theorem sid_print_not_injective : forall begin,
  amb1 <> amb2 /\ sid_print begin amb1 = sid_print begin amb2 /\ sid_eq amb1 amb2 = false /\ sid_ne amb1 amb2 = true.
Proof.
  intro begin. split; [discriminate|]. split; [|split; reflexivity].
  unfold sid_print, amb1, amb2. cbn [sid_snd sid_tgt]. f_equal.
Qed.

(* operator!= is the negation of operator== (ab2c959) *)
Theorem sid_ne_negb_eq : forall a b, sid_ne a b = negb (sid_eq a b).
Proof. intros. unfold sid_ne, sid_eq. rewrite negb_andb. reflexivity. Qed.

Theorem sid_ne_char : forall a b, sid_ne a b = true <-> a <> b.
Proof. intros a b. rewrite sid_ne_negb_eq, negb_true_iff, <- not_true_iff_false, sid_eq_char. reflexivity. Qed.

(* the operator as it was before the repair: true exactly when BOTH CompIDs differ *)
Theorem sid_ne_orig_char : forall a b, sid_ne_orig a b = true <-> (sid_snd a <> sid_snd b /\ sid_tgt a <> sid_tgt b).
Proof.
  intros a b. unfold sid_ne_orig. rewrite andb_true_iff, !negb_true_iff, !beq_neq.
  split; intros [A B]; split; congruence.
Qed.

Theorem sid_self : forall a, sid_eq a a = true /\ sid_ne a a = false /\ sid_eq_self a = true /\ sid_ne_self a = false.
Proof.
  intro a. unfold sid_eq, sid_ne. rewrite !beq_refl. repeat split.
Qed.

(* the mirror test of compid_check *)
Theorem sid_mirror_char : forall a snd tgt,
  (same_sender_comp_id a tgt = true <-> tgt = sid_snd a) /\ (same_target_comp_id a snd = true <-> snd = sid_tgt a).
Proof. intros. unfold same_sender_comp_id, same_target_comp_id. rewrite !beq_eq. split; reflexivity. Qed.
