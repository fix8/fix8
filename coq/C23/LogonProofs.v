(* C23: Session::process on an inbound Logon (model), acceptor and initiator branches. *)
From Coq Require Import NArith ZArith List Bool.
From F8 Require Import Sess.Bytes Sess.Msg Sess.Persist Sess.Session Sess.Wire Sess.SessLemmas Sess.ProcessLemmas
  C19.Run19 C19.DeliverProofs C22.Hyp C22.Spec_C22 C22.SendLemmas C22.HbProofs C22.InProofs C23.SessionID C23.SidProofs.
Import ListNotations.
Local Open Scope N_scope.

Definition lg_sci (m : msg) : bytes := match get_field T_SenderCompID (m_hdr m) with Some v => v | None => [] end.
Definition lg_tci (m : msg) : bytes := match get_field T_TargetCompID (m_hdr m) with Some v => v | None => [] end.
Definition lg_reset (m : msg) : bool := bool_field (get_field T_ResetSeqNumFlag (m_body m)).
Definition lg_hbi (m : msg) : N := int_field (get_field T_HeartBtInt (m_body m)).

(* the acceptor's two admission tests *)
Definition acc_idok (s : sess) (m : msg) : bool := negb (pr_ec (s_par s)) || beq (s_sci s) (lg_tci m).
Definition acc_listed (s : sess) (m : msg) : bool :=
  match pr_clients (s_par s) with [] => true | l => mem_bytes (lg_sci m) l end.

(* the sequence numbers after the reset / recovery step of the acceptor branch *)
Definition acc_numbers (reset : bool) (s : sess) : sess :=
  if reset then w_next_recv 1 (w_next_send 1 s)
  else let s1 := recover_seqnums s in
       let s2 := if s_req_send s1 =? 0 then s1 else w_next_send (s_req_send s1) s1 in
       if s_req_recv s2 =? 0 then s2 else w_next_recv (s_req_recv s2) s2.

(* the identity of the session as a SessionID, and the identity built from the Logon: id(tci, sci) *)
Definition own_sid (s : sess) : sid := mkSid (s_snd s) (s_tgt s).
Definition logon_sid (m : msg) : sid := mkSid (lg_tci m) (lg_sci m).

Lemma initiator_test_is_sid_ne : forall s m,
  sid_neq (lg_tci m) (lg_sci m) (s_snd s) (s_tgt s) = sid_ne (own_sid s) (logon_sid m).
Proof. reflexivity. Qed.

Lemma acc_idok_test : forall s m,
  negb (beq (s_sci s) (lg_tci m)) && pr_ec (s_par s) = negb (acc_idok s m).
Proof. intros. unfold acc_idok. destruct (beq (s_sci s) (lg_tci m)), (pr_ec (s_par s)); reflexivity. Qed.

Lemma acc_listed_test : forall s m,
  match pr_clients (s_par s) with [] => false | _ => negb (mem_bytes (lg_sci m) (pr_clients (s_par s))) end
  = negb (acc_listed s m).
Proof. intros. unfold acc_listed. destruct (pr_clients (s_par s)); reflexivity. Qed.

Lemma acc_numbers_eq : forall r s, exists a b, acc_numbers r s = w_next_recv b (w_next_send a s).
Proof.
  intros r s. exists (s_next_send (acc_numbers r s)), (s_next_recv (acc_numbers r s)).
  unfold acc_numbers, recover_seqnums. destruct r; [reflexivity|].
  destruct s as [st ns nr ac ls lr hb ro sn tg sci par bat per sh cl rd rqs rqr]. cbn.
  destruct (p_get_ctrl per) as [[a b]|]; cbn; destruct (rqs =? 0); cbn; destruct (rqr =? 0); reflexivity.
Qed.

(* the session after a refused Logon (either side) *)
Definition refused (s : sess) : sess := w_state st_session_terminated (stop (w_state st_logon_received s)).

Lemma refused_props : forall s,
  s_state (refused s) = st_session_terminated /\ s_shutdown (refused s) = true /\ s_hb (refused s) = s_hb s.
Proof.
  intros s. unfold refused. destruct (stop_eq (w_state st_logon_received s)) as (c & r & ->). repeat split.
Qed.

Section Logon.
Variable sc : schema.
Hypothesis SOK : schema_ok sc = true.
Variable decode : bytes -> decode_result.
Variable fl : bytes.
Variable now : Z.

Lemma enforce_logon_inseq : forall q m s,
  s_state s = st_logon_received -> beq (m_type m) mt_sequence_reset = false -> q = s_next_recv s ->
  enforce sc now q m s = (inl false, s, []).
Proof.
  intros q m s ST NR Q. pose proof (enforce_outcome sc now q m s) as O.
  replace (verdict_of s q m) with Pass in O; [exact O|]. symmetry. apply verdict_pass. rewrite ST.
  split; [reflexivity|]. split; [left; reflexivity|]. split; [exact NR|left; exact Q].
Qed.

Lemma logon_generated : forall h r, generated (generate_logon sc h r).
Proof.
  intros h r. unfold generate_logon.
  assert (G : generated (add_body' sc T_EncryptMethod s_0 (add_body' sc T_HeartBtInt (dec h) (new_msg mt_logon)))).
  { apply generated_add; [reflexivity|]. apply generated_add; [apply clean_nosoh, dec_clean|].
    apply generated_new. reflexivity. }
  destruct r; [apply generated_add; [reflexivity|]|]; exact G.
Qed.

Lemma logon_type : forall h r, m_type (generate_logon sc h r) = mt_logon.
Proof. intros h r. unfold generate_logon. destruct r; rewrite !add_body'_type; reflexivity. Qed.

Lemma logon_kind : forall h r,
  let m := generate_logon sc h r in msg_kind (m_type m) (m_body m) = KLogon (Some (dec h)).
Proof.
  intros h r. cbv zeta. rewrite logon_type. unfold msg_kind.
  cbn [beq mt_logon mt_heartbeat mt_test_request mt_logout N.eqb Pos.eqb andb]. f_equal.
  (* HeartBtInt goes in first; the fields added after it are others *)
  unfold generate_logon. destruct r; rewrite !add_body'_get_other by discriminate;
    (apply add_body'_get_same; [apply (schema_ok_split sc SOK)|constructor]).
Qed.

Section Inbound.
Variables (raw : bytes) (s : sess) (rest : bytes) (q : N) (m : msg).
Hypothesis F1 : find_after pat_34 raw = Some rest.
Hypothesis F2 : fast_atoi_u rest SOH 0 = Some q.
Hypothesis D : decode raw = DecOk m.
Hypothesis TY : m_type m = mt_logon.

Lemma dispatch_logon : dispatch sc decode now q m = bind (handle_logon sc now q m) (fun r => ret (r, false)).
Proof. unfold dispatch. rewrite TY. reflexivity. Qed.

Lemma process_refused : handle_logon sc now q m s = (inl false, refused s, []) ->
  exists s', process sc decode fl now raw s = (false, s', []) /\
             s_state s' = st_session_terminated /\ is_shutdown s' = true /\ s_hb s' = s_hb s.
Proof.
  intros H. destruct (process_handled sc decode fl now raw s rest q m F1 F2 D _ _ _ _ dispatch_logon H) as [p ->].
  destruct (refused_props s) as (A & B & C).
  eexists. split; [reflexivity|]. split; [exact A|]. split; [|exact C].
  unfold is_shutdown. cbn [s_shutdown w_per w_next_recv]. rewrite B. reflexivity.
Qed.

Section Acceptor.
Hypothesis RO : s_role s = Acceptor.
Hypothesis NC : s_state s <> st_continuous.

Theorem acceptor_refuses :
  acc_idok s m && acc_listed s m = false ->
  exists s', process sc decode fl now raw s = (false, s', []) /\
             s_state s' = st_session_terminated /\ is_shutdown s' = true /\ s_hb s' = s_hb s.
Proof.
  intros REF. apply process_refused. apply N.eqb_neq in NC.
  unfold handle_logon, bind, get, set_state, modify, ret. rewrite NC, RO.
  cbn [s_role s_sci s_par w_state]. fold (lg_tci m) (lg_sci m).
  rewrite acc_idok_test, acc_listed_test.
  destruct (acc_idok s m); [destruct (acc_listed s m); [discriminate|]|]; reflexivity.
Qed.

Theorem acceptor_only : forall b s' e,
  process sc decode fl now raw s = (b, s', e) -> s_state s' = st_continuous ->
  acc_idok s m && acc_listed s m = true.
Proof.
  intros b s' e P ST.
  destruct (acc_idok s m && acc_listed s m) eqn:A; [reflexivity|].
  destruct (acceptor_refuses A) as [s2 [P2 [ST2 _]]].
  rewrite P in P2. inversion P2; subst. rewrite ST in ST2. discriminate.
Qed.

Theorem acceptor_accepts :
  s_closed s = false -> s_batch s = [] -> nosoh (lg_sci m) = true -> nosoh (lg_tci m) = true ->
  acc_idok s m && acc_listed s m = true ->
  let s1 := acc_numbers (lg_reset m) (w_state st_logon_received s) in
  q = s_next_recv s1 ->
  exists s' out,
    process sc decode fl now raw s = (true, s', [EOut out]) /\
    kind_of out = KLogon (Some (dec (lg_hbi m))) /\
    s_state s' = st_continuous /\ s_hb s' = lg_hbi m /\
    s_snd s' = lg_tci m /\ s_tgt s' = lg_sci m /\
    s_next_send s' = s_next_send s1 + 1 /\ s_next_recv s' = s_next_recv s1 + 1 /\ s_shutdown s' = s_shutdown s.
Proof.
  intros CL BT NS1 NS2 ACC s1 Q.
  apply andb_true_iff in ACC. destruct ACC as [A1 A2]. apply N.eqb_neq in NC.
  destruct (acc_numbers_eq (lg_reset m) (w_state st_logon_received s)) as (a & b & E).
  (* the session that sends the answer: numbers, identity and interval are in place *)
  set (s3 := w_hb (lg_hbi m) (w_sid (lg_tci m) (lg_sci m) s1)).
  assert (OK3 : sess_ok s3 = true) by (unfold s3, s1; rewrite E; apply sess_ok_join; assumption).
  destruct (send_generated sc SOK now s3 _ false OK3 (logon_generated (lg_hbi m) (pr_rsn (s_par s))))
    as (p & out & SE & K).
  rewrite logon_kind in K. rewrite logon_type in SE.
  edestruct (process_handled sc decode fl now raw s rest q m F1 F2 D) as [p' P]; [exact dispatch_logon| |].
  { unfold handle_logon. rewrite bind_get, NC. unfold set_state at 1. rewrite bind_modify, RO.
    cbn [s_sci s_par w_state]. fold (lg_tci m) (lg_sci m) (lg_reset m) (lg_hbi m).
    rewrite acc_idok_test, A1, acc_listed_test, A2. cbn [negb].
    replace (if lg_reset m then _ else _) with (modify (acc_numbers (lg_reset m))) by (destruct (lg_reset m); reflexivity).
    rewrite !bind_modify. fold s1. unfold bind at 1.
    rewrite (enforce_logon_inseq q m (w_sid (lg_tci m) (lg_sci m) s1));
      [|unfold s1; rewrite E; reflexivity|rewrite TY; reflexivity|exact Q].
    rewrite bind_modify. fold s3. unfold bind, do_send, set_state, modify, ret. rewrite SE. reflexivity. }
  rewrite P. do 2 eexists. split; [reflexivity|]. split; [exact K|].
  unfold s3, s1. rewrite E. repeat split.
Qed.
End Acceptor.

Section Initiator.
Hypothesis RO : s_role s = Initiator.
Hypothesis NC : s_state s <> st_continuous.

(* handle_logon's test `id != _sid`, under enforcement *)
Theorem initiator_mismatch :
  pr_ec (s_par s) = true -> sid_ne (own_sid s) (logon_sid m) = true ->
  exists s', process sc decode fl now raw s = (false, s', []) /\
             s_state s' = st_session_terminated /\ is_shutdown s' = true.
Proof.
  intros EC NE. destruct process_refused as (s' & P & ST & SH & _); [|exists s'; auto].
  apply N.eqb_neq in NC.
  unfold handle_logon, bind, get, set_state, modify, ret. rewrite NC, RO.
  cbn [s_role s_snd s_tgt s_par w_state]. fold (lg_tci m) (lg_sci m).
  rewrite initiator_test_is_sid_ne, NE, EC. reflexivity.
Qed.

Theorem initiator_accepts :
  sid_ne (own_sid s) (logon_sid m) && pr_ec (s_par s) = false ->
  q = s_next_recv s ->
  exists s', process sc decode fl now raw s = (true, s', []) /\
             s_state s' = st_continuous /\ s_next_recv s' = s_next_recv s + 1 /\
             s_snd s' = s_snd s /\ s_tgt s' = s_tgt s /\ s_shutdown s' = s_shutdown s.
Proof.
  intros CND Q. apply N.eqb_neq in NC.
  edestruct (process_handled sc decode fl now raw s rest q m F1 F2 D) as [p P]; [exact dispatch_logon| |].
  { unfold handle_logon. rewrite bind_get, NC. unfold set_state at 1. rewrite bind_modify, RO.
    cbn [s_snd s_tgt s_par w_state]. fold (lg_tci m) (lg_sci m). rewrite initiator_test_is_sid_ne, CND.
    unfold bind at 1.
    rewrite (enforce_logon_inseq q m (w_state st_logon_received s) eq_refl); [|rewrite TY; reflexivity|exact Q].
    unfold bind, set_state, modify, ret. reflexivity. }
  rewrite P. eexists. split; [reflexivity|]. repeat split.
Qed.

Theorem initiator_not_mirrored :
  pr_ec (s_par s) = true -> (lg_tci m <> s_snd s \/ lg_sci m <> s_tgt s) ->
  exists s', process sc decode fl now raw s = (false, s', []) /\
             s_state s' = st_session_terminated /\ is_shutdown s' = true.
Proof.
  intros EC NM. apply (initiator_mismatch EC).
  apply sid_ne_char. unfold own_sid, logon_sid. intro E. inversion E. destruct NM as [N|N]; apply N; congruence.
Qed.

Theorem initiator_only : forall b s' e,
  pr_ec (s_par s) = true ->
  process sc decode fl now raw s = (b, s', e) -> s_state s' = st_continuous ->
  lg_tci m = s_snd s /\ lg_sci m = s_tgt s.
Proof.
  intros b s' e EC P ST.
  destruct (sid_ne (own_sid s) (logon_sid m)) eqn:NE.
  - destruct (initiator_mismatch EC NE) as [s2 [P2 [ST2 _]]].
    rewrite P in P2. inversion P2; subst. rewrite ST in ST2. discriminate.
  - rewrite sid_ne_negb_eq in NE. apply negb_false_iff in NE. apply sid_eq_char in NE.
    unfold own_sid, logon_sid in NE. inversion NE. split; reflexivity.
Qed.
End Initiator.
End Inbound.
End Logon.
