(* C24: decode_dow is spec_dow; Schedule::test on a daily schedule is the time-of-day test at every
   instant; on a weekly schedule it is [test_w] of the local weekday and time of day, which
   follows the window membership from one poll to the next under [weekly_hyp]; a schedule
   without end overflows. *)
From Coq Require Import ZArith List Bool Lia.
From F8 Require Import C24.Sched C24.Spec_C24.
Import ListNotations.
Local Open Scope Z_scope.

Lemma lower_fold : forall b, lower b = fold_case b.
Proof. reflexivity. Qed.

Lemma map_lower_fold : forall s, map lower s = map fold_case s.
Proof. reflexivity. Qed.

#[local] Hint Rewrite andb_true_iff orb_true_iff negb_true_iff andb_false_iff orb_false_iff negb_false_iff
  Z.gtb_ltb Z.geb_leb Z.leb_le Z.ltb_lt Z.leb_gt Z.ltb_ge : b2p.

Lemma daymap_range_cases : forall x,
  (x = 115 /\ daymap_range x = [0; 6]) \/ (x = 109 /\ daymap_range x = [1]) \/
  (x = 116 /\ daymap_range x = [2; 4]) \/ (x = 119 /\ daymap_range x = [3]) \/
  (x = 102 /\ daymap_range x = [5]) \/
  (x <> 115 /\ x <> 109 /\ x <> 116 /\ x <> 119 /\ x <> 102 /\ daymap_range x = []).
Proof.
  intro x.
  destruct (Z.eq_dec x 115) as [->|n1]; [auto|].
  destruct (Z.eq_dec x 109) as [->|n2]; [auto|].
  destruct (Z.eq_dec x 116) as [->|n3]; [auto|].
  destruct (Z.eq_dec x 119) as [->|n4]; [auto 6|].
  destruct (Z.eq_dec x 102) as [->|n5]; [auto 7|].
  do 5 right. repeat split; try assumption.
  unfold daymap_range, days. cbn [filter fst snd map].
  rewrite !(proj2 (Z.eqb_neq _ x)) by congruence. reflexivity.
Qed.

(* upper case letters fold to 97..122: a digit test sees the same before and after folding *)
Lemma fold_case_digit : forall a n, n < 65 ->
  (48 <=? fold_case a) && (fold_case a <=? n) = (48 <=? a) && (a <=? n).
Proof.
  intros a n Hn. unfold fold_case.
  destruct ((65 <=? a) && (a <=? 90)) eqn:E; [|reflexivity].
  rewrite andb_true_iff, !Z.leb_le in E.
  rewrite (proj2 (Z.leb_gt (a + 32) n)), (proj2 (Z.leb_gt a n)), !andb_false_r by lia. reflexivity.
Qed.

Lemma fold_case_digit_id : forall a, (48 <=? a) && (a <=? 54) = true -> fold_case a = a.
Proof.
  intros a H. rewrite andb_true_iff, !Z.leb_le in H.
  unfold fold_case. rewrite (proj2 (Z.leb_gt 65 a)) by lia. reflexivity.
Qed.

Ltac kill_eqb :=
  repeat match goal with
  | |- context [?a =? ?b] => destruct (Z.eqb_spec a b); try lia; try subst
  end.

(* the ranges of the multimap for 's' and 't' hold two days each, told apart by the second
   letter of the day's name: with the three single entries these are the prefixes su m tu w th f sa *)
Lemma daymap_prefixes : forall x r,
  match daymap_range x with
  | [] => -1
  | [d] => d
  | d1 :: d2 :: _ =>
      if Z.of_nat (length (x :: r)) =? 1 then -1
      else if day_name_1 d1 =? nth 1 (x :: r) 0 then d1
      else if day_name_1 d2 =? nth 1 (x :: r) 0 then d2 else -1
  end = lookup_prefix dow_prefixes (x :: r).
Proof.
  intros x r.
  destruct (daymap_range_cases x) as [[-> ->]|[[-> ->]|[[-> ->]|[[-> ->]|[[-> ->]|(n1&n2&n3&n4&n5&->)]]]]];
    try reflexivity.
  (* left: 's', 't', and a letter no day begins with *)
  all: destruct r as [|y u]; cbn [length];
    cbv [lookup_prefix dow_prefixes starts_with day_name_1 nth Z.to_nat Pos.to_nat Pos.iter_op Nat.add];
    kill_eqb; reflexivity.
Qed.

Lemma decode_dow_spec : forall s, decode_dow s = spec_dow s.
Proof.
  intros [|a t]; [reflexivity|].
  unfold decode_dow, spec_dow. rewrite !map_lower_fold.
  destruct t as [|b u]; cbn [map nth length]; set (x := fold_case a).
  - (* one character: the digit test is the same on the folded character *)
    cbn [Z.of_nat Pos.of_succ_nat]. change (1 =? 1) with true.
    assert (D : (48 <=? x) && (x <=? 57) && true && (48 <=? x) && (x <=? 54) = (48 <=? a) && (a <=? 54)).
    { rewrite <- (fold_case_digit a 54) by lia. fold x.
      apply eq_iff_eq_true. autorewrite with b2p. lia. }
    rewrite D. destruct ((48 <=? a) && (a <=? 54)) eqn:E.
    + unfold x. rewrite fold_case_digit_id by assumption. reflexivity.
    + apply (daymap_prefixes x []).
  - rewrite (proj2 (Z.eqb_neq (Z.of_nat _) 1)) at 1 by lia. rewrite !andb_false_r. cbn [andb].
    apply (daymap_prefixes x (fold_case b :: map fold_case u)).
Qed.

Lemma decode_dow_range : forall s, -1 <= decode_dow s <= 6.
Proof.
  intro s. rewrite decode_dow_spec. unfold spec_dow.
  assert (L : forall l, -1 <= lookup_prefix dow_prefixes l <= 6).
  { intro l. unfold lookup_prefix, dow_prefixes.
    repeat match goal with |- context [if ?c then _ else _] => destruct c end; lia. }
  destruct s as [|d [|e u]]; try apply L.
  destruct ((48 <=? d) && (d <=? 54)) eqn:E; [|apply L].
  apply andb_true_iff in E. destruct E as [E1 E2]. apply Z.leb_le in E1, E2. lia.
Qed.

Lemma decode_dow_prefix : forall p d t, In (p, d) dow_prefixes -> decode_dow (p ++ t) = d.
Proof.
  intros p d t H. rewrite decode_dow_spec.
  unfold dow_prefixes in H. cbn [In] in H.
  repeat (destruct H as [H|H]; [injection H as <- <-; destruct t as [|x [|y u]]; reflexivity|]).
  contradiction.
Qed.

Lemma day_val : day = ns_day. Proof. reflexivity. Qed.
Lemma minute_val : minute = ns_minute. Proof. reflexivity. Qed.
Lemma week_val : week = ns_week. Proof. reflexivity. Qed.

(* instants, start and end below 2^62 in magnitude: "now + offset" and "today + start/end" then
   stay inside int64 *)
Definition T62 : Z := 4611686018427387904.   (* 2^62 *)

Lemma toffset_local : forall c t, t + toffset c = local (s_utc c) t.
Proof. intros. unfold toffset, local. rewrite minute_val. reflexivity. Qed.

Lemma wday_of_dow : forall x, 0 <= x -> wday_of x = dow x.
Proof.
  intros x H. unfold wday_of, dow. rewrite Z.quot_div_nonneg by (unfold billion; lia).
  rewrite Z.div_div by (unfold billion; lia). reflexivity.
Qed.

Lemma rem_tod : forall x, 0 <= x -> Z.rem x day = tod x.
Proof. intros x H. unfold tod. rewrite day_val. apply Z.rem_mod_nonneg; unfold ns_day; lia. Qed.

Lemma tod_range : forall x, 0 <= tod x < ns_day.
Proof. intro x. unfold tod. apply Z.mod_pos_bound. unfold ns_day. lia. Qed.

Lemma dow_range : forall x, 0 <= dow x <= 6.
Proof. intro x. unfold dow. pose proof (Z.mod_pos_bound (x / ns_day + 4) 7). lia. Qed.

Lemma week_pos_eq : forall x, exists k, x + 4 * ns_day = k * ns_week + week_pos x.
Proof.
  intro x. unfold week_pos, dow, tod.
  pose proof (Z.div_mod x ns_day ltac:(unfold ns_day; lia)) as E1.
  pose proof (Z.div_mod (x / ns_day + 4) 7 ltac:(lia)) as E2.
  exists ((x / ns_day + 4) / 7). unfold ns_week, ns_day in *. lia.
Qed.

Lemma week_pos_range : forall x, 0 <= week_pos x < ns_week.
Proof.
  intro x. pose proof (tod_range x). pose proof (dow_range x).
  unfold week_pos, ns_week, ns_day in *. lia.
Qed.

Lemma week_pos_shift : forall x d, 0 <= d -> week_pos x + d < ns_week ->
  week_pos (x + d) = week_pos x + d.
Proof.
  intros x d Hd H. destruct (week_pos_eq x) as [k K]. destruct (week_pos_eq (x + d)) as [k' K'].
  pose proof (week_pos_range x). pose proof (week_pos_range (x + d)).
  unfold ns_week, ns_day in *. lia.
Qed.

(* the value of Schedule::test in terms of local weekday and time of day *)
Definition test_w (sd ed st en : Z) (prev : bool) (wd td : Z) : bool :=
  if prev then negb (day_off sd ed wd && (td >? en))
  else day_on sd ed wd && ((st <=? td) && (td <=? en)).

(* what the theorems assume of a schedule and of the polled instants, as booleans *)
Definition ranges_okb (c : sched) : bool :=
  fits64 (toffset c) && (- T62 <=? s_start c) && (s_start c <? T62)
  && (- T62 <=? s_end c) && (s_end c <? T62).

Definition instants_okb (c : sched) (ts : list Z) : bool :=
  forallb (fun t => (0 <=? local (s_utc c) t) && (local (s_utc c) t <? T62)) ts.

Definition instant_ok (c : sched) (t : Z) : Prop := 0 <= local (s_utc c) t < T62.

Lemma ranges_okb_prop : forall c, ranges_okb c = true ->
  fits64 (toffset c) = true /\ - T62 <= s_start c < T62 /\ - T62 <= s_end c < T62.
Proof.
  intros c H. unfold ranges_okb in H.
  rewrite !andb_true_iff, !Z.leb_le, !Z.ltb_lt in H. tauto.
Qed.

Lemma instants_okb_cons : forall c t ts, instants_okb c (t :: ts) = true ->
  instant_ok c t /\ instants_okb c ts = true.
Proof.
  intros c t ts H. unfold instants_okb in H. cbn [forallb] in H.
  rewrite !andb_true_iff, Z.leb_le, Z.ltb_lt in H. exact H.
Qed.

Lemma add64_ok : forall a b, - W63 <= a + b < W63 -> add64 a b = Some (a + b).
Proof.
  intros a b [H1 H2]. unfold add64, fits64.
  apply Z.leb_le in H1. apply Z.ltb_lt in H2. rewrite H1, H2. reflexivity.
Qed.

(* now.adjust(_toffset) *)
Lemma now_ok : forall c t, instant_ok c t -> add64 t (toffset c) = Some (local (s_utc c) t).
Proof.
  intros c t I. rewrite <- toffset_local. apply add64_ok.
  rewrite toffset_local. unfold instant_ok, T62, W63 in *. lia.
Qed.

Lemma in_range_pure : forall c x, ranges_okb c = true -> 0 <= x < T62 ->
  in_range_o x (x - tod x) (s_start c) (s_end c)
  = Some ((s_start c <=? tod x) && (tod x <=? s_end c)).
Proof.
  intros c x R Hx. apply ranges_okb_prop in R. destruct R as (_ & Hs & He).
  pose proof (tod_range x) as Ht.
  unfold in_range_o, T62, ns_day in *.
  rewrite !add64_ok by (unfold W63; lia).
  unfold in_range.
  assert (N : (x - tod x + s_end c =? errorticks) = false)
    by (apply Z.eqb_neq; unfold errorticks, W63; lia).
  rewrite N. cbn [negb]. f_equal. f_equal.
  - destruct (Z.leb_spec (x - tod x + s_start c) x); destruct (Z.leb_spec (s_start c) (tod x)); try reflexivity; lia.
  - destruct (Z.leb_spec x (x - tod x + s_end c)); destruct (Z.leb_spec (tod x) (s_end c)); try reflexivity; lia.
Qed.

Lemma test_o_daily : forall c prev t, ranges_okb c = true -> instant_ok c t -> s_sd c < 0 ->
  test_o c prev t = Some (daily_active (s_start c) (Some (s_end c)) (local (s_utc c) t)).
Proof.
  intros c prev t R I D. pose proof (ranges_okb_prop c R) as (Hf & _).
  unfold test_o. rewrite Hf, (now_ok c t I). cbn [negb]. unfold instant_ok in I.
  set (x := local (s_utc c) t) in *. rewrite rem_tod by lia.
  rewrite (proj2 (Z.ltb_lt _ _) D), in_range_pure by assumption.
  unfold daily_active. destruct ((s_start c <=? tod x) && (tod x <=? s_end c)); destruct prev; reflexivity.
Qed.

Lemma run_o_daily : forall c ts prev, ranges_okb c = true -> instants_okb c ts = true -> s_sd c < 0 ->
  run_o c prev ts
  = Some (map (fun t => active (s_sd c) (s_ed c) (s_start c) (Some (s_end c)) (local (s_utc c) t)) ts).
Proof.
  intros c ts. induction ts as [|t r IH]; intros prev R I D; [reflexivity|].
  apply instants_okb_cons in I. destruct I as [I1 I2].
  cbn [run_o map]. rewrite test_o_daily, IH by assumption.
  unfold active at 2. rewrite (proj2 (Z.ltb_lt _ _) D). reflexivity.
Qed.

Lemma test_o_weekly : forall c prev t, ranges_okb c = true -> instant_ok c t -> 0 <= s_sd c ->
  test_o c prev t =
  Some (test_w (s_sd c) (s_ed c) (s_start c) (s_end c) prev
               (dow (local (s_utc c) t)) (tod (local (s_utc c) t))).
Proof.
  intros c prev t R I D. pose proof (ranges_okb_prop c R) as (Hf & _ & He).
  unfold test_o. rewrite Hf, (now_ok c t I). cbn [negb]. unfold instant_ok in I.
  set (x := local (s_utc c) t) in *. rewrite rem_tod, wday_of_dow by lia.
  rewrite (proj2 (Z.ltb_ge _ _) D).
  unfold test_w. destruct prev; cbn [negb].
  - destruct (day_off (s_sd c) (s_ed c) (dow x)); [|reflexivity].
    pose proof (tod_range x) as Ht.
    rewrite add64_ok by (unfold T62, W63, ns_day in *; lia).
    cbn [andb]. f_equal.
    destruct (Z.gtb_spec x (x - tod x + s_end c)); destruct (Z.gtb_spec (tod x) (s_end c)); try reflexivity; lia.
  - destruct (day_on (s_sd c) (s_ed c) (dow x)); [|reflexivity].
    rewrite in_range_pure by assumption. cbn [andb].
    destruct ((s_start c <=? tod x) && (tod x <=? s_end c)); reflexivity.
Qed.

(* the hypotheses of the partial theorem as a boolean on the configuration *)
Definition weekly_hyp (sd ed st en : Z) : bool :=
  (0 <=? sd) && (sd <? ed) && (ed <=? 6) && (0 <=? st) && (st + ns_minute <=? en)
  && (en + ns_minute <? ns_day).

Lemma weekly_hyp_prop : forall sd ed st en, weekly_hyp sd ed st en = true ->
  0 <= sd /\ sd < ed /\ ed <= 6 /\ 0 <= st /\ st + ns_minute <= en /\ en + ns_minute < ns_day.
Proof.
  intros sd ed st en H. unfold weekly_hyp in H.
  rewrite !andb_true_iff, !Z.leb_le, !Z.ltb_lt in H. tauto.
Qed.

Lemma weekly_active_simple : forall sd ed st en x, weekly_hyp sd ed st en = true ->
  weekly_active sd ed st (Some en) x
  = (sd * ns_day + st <=? week_pos x) && (week_pos x <=? ed * ns_day + en).
Proof.
  intros sd ed st en x H. apply weekly_hyp_prop in H.
  pose proof (week_pos_range x).
  unfold weekly_active.
  rewrite (proj2 (Z.leb_le (sd * ns_day + st) (ed * ns_day + en)))
    by (unfold ns_day, ns_minute in *; lia).
  rewrite (proj2 (Z.leb_gt (week_pos x + ns_week) (ed * ns_day + en)))
    by (unfold ns_week, ns_day, ns_minute in *; lia).
  rewrite andb_false_r, orb_false_r. reflexivity.
Qed.

(* one poll at most a minute after an instant where the flag was the window membership: the
   margins of a minute in weekly_hyp keep the poll from jumping over [start, end] on the opening
   day or over the stretch from end to midnight on the closing day *)
Lemma weekly_step : forall sd ed st en x x', weekly_hyp sd ed st en = true ->
  0 <= x -> x <= x' <= x + ns_minute ->
  test_w sd ed st en (weekly_active sd ed st (Some en) x) (dow x') (tod x')
  = weekly_active sd ed st (Some en) x'.
Proof.
  intros sd ed st en x x' H Hx Hxx.
  rewrite !weekly_active_simple by assumption.
  apply weekly_hyp_prop in H.
  destruct (week_pos_eq x) as [k K]. destruct (week_pos_eq x') as [k' K'].
  pose proof (week_pos_range x). pose proof (tod_range x'). pose proof (dow_range x').
  assert (W' : week_pos x' = dow x' * ns_day + tod x') by reflexivity.
  unfold test_w, day_on, day_off.
  rewrite (proj2 (Z.ltb_lt sd ed)), Z.gtb_ltb, (proj2 (Z.ltb_ge ed sd)) by lia. cbn [andb orb].
  unfold ns_week, ns_day, ns_minute in *.
  apply Bool.eq_iff_eq_true.
  destruct ((_ <=? week_pos x) && _) eqn:A; autorewrite with b2p in A |- *; lia.
Qed.

Lemma gaps_ok_cons : forall a b r, gaps_ok (a :: b :: r) = true ->
  a <= b <= a + ns_minute /\ gaps_ok (b :: r) = true.
Proof.
  intros a b r H. cbn [gaps_ok] in H. rewrite !andb_true_iff, !Z.leb_le in H.
  split; [lia | apply H].
Qed.

Lemma active_weekly : forall sd ed st en x, 0 <= sd ->
  active sd ed st en x = weekly_active sd ed st en x.
Proof. intros. unfold active. rewrite (proj2 (Z.ltb_ge _ _)) by assumption. reflexivity. Qed.

(* invariant: the flag fed into a poll is the window membership at the previous instant *)
Lemma run_o_weekly_from : forall c ts t prev,
  ranges_okb c = true -> weekly_hyp (s_sd c) (s_ed c) (s_start c) (s_end c) = true ->
  instant_ok c t -> instants_okb c ts = true -> gaps_ok (t :: ts) = true ->
  prev = weekly_active (s_sd c) (s_ed c) (s_start c) (Some (s_end c)) (local (s_utc c) t) ->
  run_o c prev ts
  = Some (map (fun u => active (s_sd c) (s_ed c) (s_start c) (Some (s_end c)) (local (s_utc c) u)) ts).
Proof.
  intros c ts. induction ts as [|t' r IH]; intros t prev R H It I G P; [reflexivity|].
  apply instants_okb_cons in I. destruct I as [I1 I2].
  apply gaps_ok_cons in G. destruct G as [G1 G2].
  pose proof (weekly_hyp_prop _ _ _ _ H) as (S0 & _).
  cbn [run_o map].
  rewrite test_o_weekly, P, weekly_step by (unfold instant_ok, local in *; assumption || lia).
  rewrite (IH t' _ R H I1 I2 G2 eq_refl), active_weekly by assumption. reflexivity.
Qed.

Definition start_consistent (c : sched) (prev0 : bool) (ts : list Z) : bool :=
  match ts with
  | [] => true
  | t0 :: _ => Bool.eqb prev0 (active (s_sd c) (s_ed c) (s_start c) (Some (s_end c)) (local (s_utc c) t0))
  end.

(* the weekly theorem: the first instant is its own predecessor *)
Lemma run_o_weekly_exact : forall c ts prev0,
  ranges_okb c = true -> weekly_hyp (s_sd c) (s_ed c) (s_start c) (s_end c) = true ->
  instants_okb c ts = true -> gaps_ok ts = true -> start_consistent c prev0 ts = true ->
  run_o c prev0 ts
  = Some (map (fun u => active (s_sd c) (s_ed c) (s_start c) (Some (s_end c)) (local (s_utc c) u)) ts).
Proof.
  intros c [|t0 ts] prev0 R H I G P; [reflexivity|].
  apply Bool.eqb_prop in P.
  pose proof (weekly_hyp_prop _ _ _ _ H) as (S0 & _).
  rewrite active_weekly in P by assumption.
  pose proof (instants_okb_cons _ _ _ I) as [I1 _].
  apply (run_o_weekly_from c (t0 :: ts) t0 prev0); try assumption.
  cbn [gaps_ok]. rewrite Z.leb_refl, Z.sub_diag. exact G.
Qed.

Lemma open_end_ub : forall c prev t,
  fits64 (toffset c) = true -> instant_ok c t -> s_sd c < 0 -> s_end c = errorticks ->
  ns_day <= local (s_utc c) t ->
  test_o c prev t = None.
Proof.
  intros c prev t Hf I D E L.
  unfold test_o. rewrite Hf, (now_ok c t I). cbn [negb]. unfold instant_ok in I.
  set (x := local (s_utc c) t) in *. rewrite rem_tod by lia.
  rewrite (proj2 (Z.ltb_lt _ _) D).
  unfold in_range_o.
  assert (N : add64 (x - tod x) (s_end c) = None).
  { unfold add64, fits64. rewrite E.
    assert (ns_day <= x - tod x).
    { unfold tod. pose proof (Z.div_mod x ns_day ltac:(unfold ns_day; lia)).
      assert (1 <= x / ns_day) by (apply Z.div_le_lower_bound; unfold ns_day in *; lia).
      unfold ns_day in *. lia. }
    rewrite (proj2 (Z.ltb_ge _ _)), andb_false_r by (unfold errorticks, W63, ns_day in *; lia).
    reflexivity. }
  rewrite N. destruct (add64 (x - tod x) (s_start c)); reflexivity.
Qed.

Lemma all2_map_refl : forall (f : Z -> bool) ts,
  all2 (fun t b => Bool.eqb b (f t)) ts (map f ts) = true.
Proof.
  intros f ts. induction ts as [|t r IH]; [reflexivity|].
  cbn [map all2]. rewrite Bool.eqb_reflx. exact IH.
Qed.

Lemma all2_nth_error : forall A B (f : A -> B -> bool) l m i a b,
  all2 f l m = true -> nth_error l i = Some a -> nth_error m i = Some b -> f a b = true.
Proof.
  intros A B f. induction l as [|x l IH]; intros [|y m] i a b H Ha Hb; try discriminate H;
    [destruct i; discriminate Ha|].
  cbn [all2] in H. apply andb_true_iff in H. destruct H as [H1 H2].
  destruct i; cbn [nth_error] in *; [congruence | eauto].
Qed.

Lemma ok_run_of_exact : forall utc sd ed st en ts,
  c24_ok_run utc sd ed st en ts (Some (map (fun t => active sd ed st en (local utc t)) ts)) = true.
Proof.
  intros. unfold c24_ok_run.
  destruct (negb _); [reflexivity|].
  apply (all2_map_refl (fun t => active sd ed st en (local utc t))).
Qed.
