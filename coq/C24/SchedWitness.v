(* Concrete runs of the schedule model: counterexamples to the weekly clause and non-vacuity (C24). *)
From Coq Require Import ZArith List Bool Lia.
From F8 Require Import C24.Sched C24.Spec_C24 C24.SchedProofs.
Import ListNotations.
Local Open Scope Z_scope.

Fixpoint poll (t0 step : Z) (n : nat) : list Z :=
  match n with O => [] | S k => t0 :: poll (t0 + step) step k end.

Definition hms_ns (h m s : Z) : Z := ((h * 60 + m) * 60 + s) * 1000000000.
(* Sunday 2020-09-13 00:00:00 UTC *)
Definition sunday : Z := 1599955200 * 1000000000.
Definition at_ (d h m s : Z) : Z := sunday + d * ns_day + hms_ns h m s.

(* a run on a well-formed configuration, polled within the ranges and at gaps of at most a
   minute, that fails the oracle; which hypothesis of the weekly theorem ([weekly_hyp],
   [start_consistent]) it lacks is said at each witness *)
Definition refutes (c : sched) (prev0 : bool) (ts : list Z) : Prop :=
  cfg_ok (s_sd c) (s_ed c) (s_start c) (Some (s_end c)) = true /\
  ranges_okb c = true /\ instants_okb c ts = true /\ gaps_ok ts = true /\
  exists bits, run_o c prev0 ts = Some bits /\
    c24_ok_run (s_utc c) (s_sd c) (s_ed c) (s_start c) (Some (s_end c)) ts (Some bits) = false.

Lemma poll_affine : forall t0 step n a,
  poll (t0 + a * step) step n = map (fun k => t0 + k * step) (poll a 1 n).
Proof.
  intros t0 step. induction n; intro a; cbn [poll map]; [reflexivity|].
  rewrite <- IHn. do 2 f_equal. ring.
Qed.

Lemma In_poll_unit : forall n a k, In k (poll a 1 n) -> a <= k < a + Z.of_nat n.
Proof.
  induction n; intros a k H; [destruct H|].
  destruct H as [<-|H]; [|apply IHn in H]; lia.
Qed.

Lemma gaps_ok_poll : forall step, 0 <= step <= ns_minute ->
  forall n t0, gaps_ok (poll t0 step n) = true.
Proof.
  intros step H. induction n as [|[|n] IH]; intro t0; try reflexivity.
  specialize (IH (t0 + step)). cbn [poll gaps_ok] in *. rewrite IH.
  rewrite andb_true_r. apply andb_true_iff. split; apply Z.leb_le; lia.
Qed.

Lemma instants_okb_poll : forall c step, 0 <= step ->
  forall n t0, 0 <= local (s_utc c) t0 -> local (s_utc c) t0 + Z.of_nat n * step < T62 ->
  instants_okb c (poll t0 step n) = true.
Proof.
  intros c step H. unfold instants_okb, local.
  induction n; intros t0 L U; [reflexivity|]. cbn [poll forallb].
  rewrite Nat2Z.inj_succ, Z.mul_succ_l in U. pose proof (Z.mul_nonneg_nonneg (Z.of_nat n) step).
  rewrite IHn by lia. rewrite andb_true_r. apply andb_true_iff. split; [apply Z.leb_le | apply Z.ltb_lt]; lia.
Qed.

Lemma run_o_poll_const : forall c b step n t0,
  (forall k, 0 <= k < Z.of_nat n -> test_o c b (t0 + k * step) = Some b) ->
  run_o c b (poll t0 step n) = Some (repeat b n).
Proof.
  intros c b step. induction n; intros t0 H; [reflexivity|]. cbn [poll run_o repeat].
  replace t0 with (t0 + 0 * step) at 1 by lia. rewrite H by lia.
  rewrite IHn; [reflexivity|]. intros k Hk. rewrite <- (H (k + 1)) by lia. f_equal. lia.
Qed.

Lemma refutes_at : forall c prev0 ts bits i t,
  cfg_ok (s_sd c) (s_ed c) (s_start c) (Some (s_end c)) = true ->
  ranges_okb c = true -> instants_okb c ts = true -> gaps_ok ts = true ->
  run_o c prev0 ts = Some bits -> nth_error ts i = Some t ->
  nth_error bits i
  = Some (negb (active (s_sd c) (s_ed c) (s_start c) (Some (s_end c)) (local (s_utc c) t))) ->
  refutes c prev0 ts.
Proof.
  intros c prev0 ts bits i t C R I G Run Nt Nb. repeat split; try assumption.
  exists bits. split; [exact Run|]. unfold c24_ok_run. rewrite C, G.
  replace (forallb _ ts) with true.
  - apply not_true_is_false. intro A. pose proof (all2_nth_error _ _ _ _ _ _ _ _ A Nt Nb) as E.
    cbv beta in E. destruct (active _ _ _ _ _); discriminate E.
  - symmetry. apply forallb_forall. intros u Hu.
    apply (proj1 (forallb_forall _ _) I), andb_true_iff in Hu. apply Hu.
Qed.

Definition mon_fri : sched := mkSched (hms_ns 9 0 0) (hms_ns 17 0 0) 0 0 1 5.

(* Monday 09:00-17:00 with start day = end day, polled from Monday 08:59 *)
Definition w_sameday_c : sched := mkSched (hms_ns 9 0 0) (hms_ns 17 0 0) 0 0 1 1.
Definition w_sameday_ts : list Z := poll (at_ 1 8 59 0) ns_minute 3.

(* Friday 09:00 -> Monday 17:00, polled every minute for twenty hours from a Monday 16:59 *)
Definition w_wrap_c : sched := mkSched (hms_ns 9 0 0) (hms_ns 17 0 0) 0 0 5 1.
Definition w_wrap_ts : list Z := poll (at_ 8 16 59 0) ns_minute (Z.to_nat 1200).
(* with start day after end day the deactivation branch only looks at days strictly between
   the two, so the flag survives the whole day after the end day up to the end time *)
Lemma wrapping_stays_on : forall sd ed st en wd td,
  ed < sd -> wd * ns_day + td <= (ed + 1) * ns_day + en ->
  test_w sd ed st en true wd td = true.
Proof.
  intros sd ed st en wd td H W. unfold test_w, day_off. apply negb_true_iff.
  destruct (Z.gtb_spec td en); [|apply andb_false_r].
  destruct (Z.gtb_spec wd ed); [unfold ns_day in W; lia|].
  rewrite !andb_false_r, (proj2 (Z.ltb_ge sd ed)) by lia. reflexivity.
Qed.

Lemma refuted_wrapping :
  refutes w_wrap_c true w_wrap_ts /\ start_consistent w_wrap_c true w_wrap_ts = true /\
  exists bits i, run_o w_wrap_c true w_wrap_ts = Some bits /\
    nth_error w_wrap_ts i = Some (at_ 9 12 0 0) /\ nth_error bits i = Some true /\
    active 5 1 (hms_ns 9 0 0) (Some (hms_ns 17 0 0)) (at_ 9 12 0 0) = false.
Proof.
  assert (I : instants_okb w_wrap_c w_wrap_ts = true)
    by (apply instants_okb_poll; rewrite ?Z2Nat.id; reflexivity || discriminate).
  (* every poll falls between Monday 16:59 and Tuesday 12:58 of one week *)
  assert (Run : run_o w_wrap_c true w_wrap_ts = Some (repeat true (Z.to_nat 1200))).
  { apply run_o_poll_const. intros k Hk. rewrite Z2Nat.id in Hk by lia.
    assert (Ik : instant_ok w_wrap_c (at_ 8 16 59 0 + k * ns_minute))
      by (unfold instant_ok, local, at_, sunday, ns_day, hms_ns, ns_minute, T62, w_wrap_c, s_utc; lia).
    rewrite test_o_weekly; [f_equal | reflexivity | exact Ik | discriminate].
    apply (wrapping_stays_on 5 1 (hms_ns 9 0 0) (hms_ns 17 0 0)); [reflexivity|].
    change (local (s_utc w_wrap_c) (at_ 8 16 59 0 + k * ns_minute)) with (at_ 8 16 59 0 + k * ns_minute + 0).
    rewrite Z.add_0_r.
    fold (week_pos (at_ 8 16 59 0 + k * ns_minute)).
    rewrite week_pos_shift; change (week_pos (at_ 8 16 59 0)) with (ns_day + hms_ns 16 59 0);
      unfold ns_week, ns_day, hms_ns, ns_minute; lia. }
  assert (Nt : nth_error w_wrap_ts (Z.to_nat 1141) = Some (at_ 9 12 0 0)) by reflexivity.
  assert (Nb : nth_error (repeat true (Z.to_nat 1200)) (Z.to_nat 1141) = Some true) by reflexivity.
  split; [|split; [reflexivity | exact (ex_intro _ _ (ex_intro _ _ (conj Run (conj Nt (conj Nb eq_refl)))))]].
  apply (refutes_at w_wrap_c) with (5 := Run) (6 := Nt) (7 := Nb); [reflexivity | reflexivity | exact I |].
  apply gaps_ok_poll. unfold ns_minute. lia.
Qed.

(* mon_fri from Tuesday 20:00 *)
Definition w_inside_ts : list Z := poll (at_ 2 20 0 0) ns_minute 3.

(* mon_fri from Sunday noon *)
Definition w_initial_ts : list Z := poll (at_ 0 12 0 0) ns_minute 3.

(* Monday 09:00:00 -> Wednesday 09:00:30, polled from Monday 08:59:45 *)
Definition w_short_c : sched := mkSched (hms_ns 9 0 0) (hms_ns 9 0 30) 0 0 1 3.
Definition w_short_ts : list Z := poll (at_ 1 8 59 45) ns_minute 3.

(* Monday 09:00 -> Tuesday 23:59:30, polled from Tuesday 23:59:15 *)
Definition w_late_c : sched := mkSched (hms_ns 9 0 0) (hms_ns 23 59 30) 0 0 1 2.
Definition w_late_ts : list Z := poll (at_ 2 23 59 15) ns_minute 3.

(* Monday-Friday 09:00-17:00 at UTC+60 min, polled every minute for eight days from a Sunday
   midnight: every hypothesis of the weekly theorem holds, and the flag is on for 6241 polls *)
Definition nv_c : sched := mkSched (hms_ns 9 0 0) (hms_ns 17 0 0) 0 60 1 5.
Definition nv_ts : list Z := poll sunday ns_minute (Z.to_nat 11520).
(* the k-th poll is at local Sunday 01:00 + k minutes; the window is Monday 09:00 .. Friday 17:00 *)
Lemma nv_active : forall k, 0 <= k < 11520 ->
  active 1 5 (hms_ns 9 0 0) (Some (hms_ns 17 0 0)) (local 60 (sunday + k * ns_minute))
  = (1920 <=? k) && (k <=? 8160).
Proof.
  intros k Hk. rewrite active_weekly by discriminate. rewrite weekly_active_simple by reflexivity.
  destruct (Z.lt_ge_cases k 10020) as [L|L].
  - replace (local 60 (sunday + k * ns_minute)) with (local 60 sunday + k * ns_minute)
      by (unfold local; ring).
    rewrite week_pos_shift; change (week_pos (local 60 sunday)) with (60 * ns_minute);
      unfold ns_week, ns_day, ns_minute, hms_ns; [| lia | lia].
    apply eq_iff_eq_true. rewrite !andb_true_iff, !Z.leb_le. lia.
  - replace (local 60 (sunday + k * ns_minute))
      with (local 60 (sunday + 10020 * ns_minute) + (k - 10020) * ns_minute) by (unfold local; ring).
    rewrite week_pos_shift; change (week_pos (local 60 (sunday + 10020 * ns_minute))) with 0;
      unfold ns_week, ns_day, ns_minute, hms_ns; [| lia | lia].
    apply eq_iff_eq_true. rewrite !andb_true_iff, !Z.leb_le. lia.
Qed.

Lemma nonvacuous_weekly :
  ranges_okb nv_c = true /\ weekly_hyp 1 5 (hms_ns 9 0 0) (hms_ns 17 0 0) = true /\
  instants_okb nv_c nv_ts = true /\ gaps_ok nv_ts = true /\ start_consistent nv_c false nv_ts = true /\
  exists bits, run_o nv_c false nv_ts = Some bits /\
    Z.of_nat (length (filter (fun b => b) bits)) = 6241 /\ Z.of_nat (length bits) = 11520.
Proof.
  assert (R : ranges_okb nv_c = true) by reflexivity.
  assert (H : weekly_hyp 1 5 (hms_ns 9 0 0) (hms_ns 17 0 0) = true) by reflexivity.
  assert (I : instants_okb nv_c nv_ts = true)
    by (apply instants_okb_poll; rewrite ?Z2Nat.id; reflexivity || discriminate).
  assert (G : gaps_ok nv_ts = true) by (apply gaps_ok_poll; unfold ns_minute; lia).
  assert (S : start_consistent nv_c false nv_ts = true) by reflexivity.
  repeat (split; [assumption|]).
  set (A := fun u => active 1 5 (hms_ns 9 0 0) (Some (hms_ns 17 0 0)) (local 60 u)).
  exists (map A nv_ts).
  split; [exact (run_o_weekly_exact nv_c nv_ts false R H I G S)|].
  replace (map A nv_ts) with (map (fun k => (1920 <=? k) && (k <=? 8160)) (poll 0 1 (Z.to_nat 11520)));
    [split; reflexivity|].
  change nv_ts with (poll (sunday + 0 * ns_minute) ns_minute (Z.to_nat 11520)).
  rewrite poll_affine, map_map. apply map_ext_in. intros k Hk. apply In_poll_unit in Hk.
  rewrite Z2Nat.id in Hk by lia. symmetry. apply nv_active. lia.
Qed.

(* start_time="00:00:00" end_time="23:59:59": a well-formed element whose start is 0 ticks; it
   denotes, and create_schedule builds, the all-day schedule, which is active when polled *)
Definition midnight_x : xattrs :=
  mkX (Some [48; 48; 58; 48; 48; 58; 48; 48]) (Some [50; 51; 58; 53; 57; 58; 53; 57]) None None None None.
(* start_day="mo" end_day="fr" 00:00:00 .. 18:00:00 *)
Definition midnight_week_x : xattrs :=
  mkX (Some [48; 48; 58; 48; 48; 58; 48; 48]) (Some [49; 56; 58; 48; 48; 58; 48; 48]) None None
      (Some [109; 111]) (Some [102; 114]).
