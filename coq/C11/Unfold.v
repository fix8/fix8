(* C11: the nested fixpoints (copy_legal, src_ok, mb_encode, obj_of / content, nfields) rewritten
   with List.map. *)
From Coq Require Import NArith ZArith List Bool Lia.
From F8 Require Import Codec.Bytes Codec.Meta Codec.Extract Codec.Decode Codec.Encode Codec.Lemmas
                       C11.Copy C11.Spec_C11 C11.Hyp C11.ListLemmas.
Import ListNotations.
Local Open Scope N_scope.

Definition gcopy_of (force : bool) (groups : list (N * list mbase)) : list (N * list elem_copier) :=
  map (fun g => (fst g, map (copy_legal force) (snd g))) groups.

Lemma copy_legal_unfold force fp subs fields pos groups unknown to :
  copy_legal force (MB fp subs fields pos groups unknown) to =
  fold_res (copy_step force fields (gcopy_of force groups)) fp (0, to).
Proof.
  cbn [copy_legal]. f_equal. f_equal.
  induction groups as [|[f els] r IH]; [reflexivity|].
  cbn [gcopy_of map fst snd]. f_equal. exact IH.
Qed.

Definition group_ok (fp : list trait) (t0 : mbase) (g : N * list mbase) : bool :=
  (negb (group_in fp (fst g)) || is_some (find_sub (mb_subs t0) (fst g))) &&
  match snd g with
  | [] => true
  | els =>
    group_owned fp (fst g) &&
    match find_sub (mb_subs t0) (fst g) with
    | Some sg => forallb (fun e => src_ok e (create_group sg true)) els
    | None => false
    end
  end.

Lemma src_ok_unfold fp subs fields pos groups unknown t0 :
  src_ok (MB fp subs fields pos groups unknown) t0 =
  local_ok (MB fp subs fields pos groups unknown) t0 && target_ok t0 && forallb (group_ok fp t0) groups.
Proof.
  cbn [src_ok]. f_equal.
  induction groups as [|[f els] r IH]; [reflexivity|]. cbn [forallb]. f_equal; [|exact IH].
  unfold group_ok. cbn [fst snd]. f_equal. destruct els as [|e els]; [reflexivity|]. f_equal.
  destruct (find_sub (mb_subs t0) f) as [sg|]; [|reflexivity].
  cbn [forallb]. f_equal. induction els as [|x l IHl]; [reflexivity|]. cbn [forallb]. rewrite IHl. reflexivity.
Qed.

Fixpoint enc_els (c : ctx) (es : list mbase) : res (list N) :=
  match es with
  | [] => Ok []
  | e :: r => bind (mb_encode c e) (fun a => bind (enc_els c r) (fun b => Ok (a ++ b)))
  end.
Definition genc_of (c : ctx) (groups : list (N * list mbase)) : list (N * res (list N)) :=
  map (fun g => (fst g, enc_els c (snd g))) groups.

Lemma mb_encode_unfold c fp subs fields pos groups unknown :
  mb_encode c (MB fp subs fields pos groups unknown) =
  bind (enc_pos c fp (genc_of c groups) pos) (fun b => Ok (b ++ unknown)).
Proof.
  cbn [mb_encode]. f_equal. f_equal.
  induction groups as [|[f els] r IH]; [reflexivity|].
  cbn [genc_of map fst snd]. f_equal; [|exact IH]. f_equal.
  induction els as [|e els IHe]; [reflexivity|]. cbn [enc_els]. rewrite <- IHe. reflexivity.
Qed.

Fixpoint els_toks (es : list mbase) : list ctok :=
  match es with
  | [] => []
  | e :: r => TE :: content (obj_of e) ++ TEnd :: els_toks r
  end.
Definition group_toks (f : N) (o : option (list mbase)) : list ctok :=
  match o with
  | Some (x :: l) => TG f :: els_toks (x :: l) ++ [TEnd]
  | _ => []
  end.
Definition field_toks (groups : list (N * list mbase)) (e : N * list N) : list ctok :=
  TF (fst e) (Some (snd e)) :: group_toks (fst e) (map_find (fst e) groups).

Lemma content_obj_of fp subs fields pos groups unknown :
  content (obj_of (MB fp subs fields pos groups unknown)) = flat_map (field_toks groups) fields.
Proof.
  cbn [obj_of content].
  set (gt := (fix gl (gs : list (N * option (list obj))) : list (N * list ctok) := _) _).
  assert (Hg : forall f, afind f gt = option_map els_toks (map_find f groups)).
  { subst gt. intros f. induction groups as [|[g els] r IH]; [reflexivity|].
    cbn [afind map_find]. destruct (f =? g); [|exact IH]. cbn [option_map]. f_equal.
    induction els as [|e els IHe]; [reflexivity|]. cbn [els_toks]. rewrite <- IHe. reflexivity. }
  clearbody gt. induction fields as [|[f v] r IH]; [reflexivity|].
  cbn [map flat_map fst snd]. rewrite IH. f_equal. unfold field_toks, group_toks. cbn [fst snd]. f_equal.
  rewrite Hg. destruct (map_find f groups) as [[|x l]|]; reflexivity.
Qed.

Lemma content_eq s t : mb_fields t = mb_fields s ->
  (forall f, In f (map fst (mb_fields s)) ->
             group_toks f (map_find f (mb_groups s)) = group_toks f (map_find f (mb_groups t))) ->
  content (obj_of s) = content (obj_of t).
Proof.
  destruct s as [fp subs fields pos groups unknown], t as [fp' subs' fields' pos' groups' unknown'].
  cbn [mb_fields mb_groups]. intros -> H. rewrite !content_obj_of. apply flat_map_ext_in.
  intros e Hin. unfold field_toks. f_equal. apply H. apply in_map. exact Hin.
Qed.

Fixpoint nf_els (es : list mbase) : N :=
  match es with
  | [] => 0
  | e :: r => nfields e + nf_els r
  end.
Definition nf_trait (groups : list (N * list mbase)) (tr : trait) : N :=
  if t_present tr
  then 1 + (if t_group tr then match map_find (t_fnum tr) groups with Some els => nf_els els | None => 0 end else 0)
  else 0.

Lemma nfields_unfold s : nfields s = fold_right N.add 0 (map (nf_trait (mb_groups s)) (mb_fp s)).
Proof.
  destruct s as [fp subs fields pos groups unknown]. cbn [nfields mb_groups mb_fp].
  set (gs := (fix gl (gs : list (N * list mbase)) : list (N * N) := _) _).
  assert (Hg : forall f, map_find f gs = option_map nf_els (map_find f groups)).
  { subst gs. intros f. induction groups as [|[g els] r IH]; [reflexivity|].
    cbn [map_find]. destruct (f =? g); [|exact IH]. reflexivity. }
  clearbody gs. induction fp as [|tr r IH]; [reflexivity|].
  cbn [fold_right map]. rewrite IH. f_equal. unfold nf_trait. rewrite Hg.
  destruct (map_find (t_fnum tr) groups); reflexivity.
Qed.
