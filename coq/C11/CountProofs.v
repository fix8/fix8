(* C11: the oracle's count_fields (field tokens in the content of the observed object) equals nfields
   (present traits at every level) on a source that satisfies src_ok; same_content is reflexive. *)
From Coq Require Import NArith ZArith List Bool Lia.
From F8 Require Import Codec.Bytes Codec.Meta Codec.Extract Codec.Decode Codec.Encode Codec.Lemmas
                       C11.Copy C11.Spec_C11 C11.Hyp C11.ListLemmas C11.Unfold C11.EncRel C11.CopyProofs.
Import ListNotations.
Local Open Scope N_scope.

Definition isTF (t : ctok) : bool := match t with TF _ _ => true | _ => false end.
Definition tfc (l : list ctok) : N := N.of_nat (length (filter isTF l)).

Lemma tfc_app a b : tfc (a ++ b) = tfc a + tfc b.
Proof. unfold tfc. rewrite filter_app, app_length. lia. Qed.

Lemma count_fields_tfc o : count_fields o = tfc (content o).
Proof. reflexivity. Qed.

Lemma bytes_eqb_refl a : bytes_eqb a a = true.
Proof. induction a as [|x a IH]; cbn [bytes_eqb]; [reflexivity|rewrite N.eqb_refl, IH; reflexivity]. Qed.

Lemma ctoks_eqb_refl l : ctoks_eqb l l = true.
Proof.
  induction l as [|x l IH]; cbn [ctoks_eqb]; [reflexivity|]. rewrite IH, andb_true_r.
  destruct x as [f [v|]| | |]; cbn [ctok_eqb oval_eqb]; rewrite ?N.eqb_refl, ?bytes_eqb_refl; reflexivity.
Qed.

Lemma strictN_filter (p : N -> bool) l : strictN l = true -> strictN (filter p l) = true.
Proof. intros H. rewrite <- (map_id (filter p l)). apply strictN_map_filter. rewrite map_id. exact H. Qed.

Lemma sum_filter_present (h : N -> N) fp :
  sumN (map h (map t_fnum (filter t_present fp))) = sumN (map (fun tr => if t_present tr then h (t_fnum tr) else 0) fp).
Proof.
  induction fp as [|tr fp IH]; [reflexivity|]. cbn [filter map]. destruct (t_present tr); cbn [map]; rewrite ?sumN_cons, IH; reflexivity.
Qed.

Lemma tfc_flat_map {A} (f : A -> list ctok) l : tfc (flat_map f l) = sumN (map (fun x => tfc (f x)) l).
Proof.
  induction l as [|x l IH]; [reflexivity|]. cbn [flat_map map]. rewrite tfc_app, sumN_cons, IH. reflexivity.
Qed.

Lemma tfc_els_toks l : Forall (fun e => count_fields (obj_of e) = nfields e) l -> tfc (els_toks l) = nf_els l.
Proof.
  induction l as [|e l IH]; intros H; [reflexivity|]. inversion H as [|? ? He Hl]; subst.
  cbn [els_toks nf_els].
  change (TE :: content (obj_of e) ++ TEnd :: els_toks l) with ([TE] ++ content (obj_of e) ++ [TEnd] ++ els_toks l).
  rewrite !tfc_app, IH by exact Hl. rewrite <- count_fields_tfc, He. unfold tfc. cbn. lia.
Qed.

Theorem count_nfields : forall s t0, src_ok s t0 = true -> count_fields (obj_of s) = nfields s.
Proof.
  induction s as [fp subs fields pos groups unknown IH] using mbase_ind'. intros t0 H.
  rewrite src_ok_unfold in H. rewrite !andb_true_iff in H. destruct H as [[Hl Ht] Hg].
  set (s := MB fp subs fields pos groups unknown) in *.
  pose proof (local_ok_facts s t0 Hl) as LF.
  pose proof (pgroup_facts s t0 (group_ok_pgroup s t0 Ht Hg)) as GF.
  set (g := fun f => match map_find f groups with Some els => nf_els els | None => 0 end).
  assert (Hg1 : forall f, tfc (group_toks f (map_find f groups)) = g f).
  { intros f. unfold g. destruct (map_find f groups) as [[|x l]|] eqn:Em; try reflexivity.
    unfold group_toks. change (TG f :: ?a ++ [TEnd]) with ([TG f] ++ a ++ [TEnd]). rewrite !tfc_app, tfc_els_toks; [unfold tfc; cbn; lia|].
    rewrite Forall_forall in IH. specialize (IH _ (map_find_In _ _ _ Em)). cbn [snd] in IH.
    destruct (GF _ _ Em) as [_ Hne]. destruct Hne as (_ & _ & _ & sg & _ & Hok); [discriminate|].
    rewrite Forall_forall in *. intros e He. exact (IH e He _ (Hok e He)). }
  rewrite count_fields_tfc, nfields_unfold. subst s. rewrite content_obj_of, tfc_flat_map. cbn [mb_groups mb_fp].
  set (s := MB fp subs fields pos groups unknown) in *.
  transitivity (sumN (map (fun f => 1 + g f) (map fst fields))).
  - rewrite map_map. f_equal. apply map_ext. intros [f v]. unfold field_toks. cbn [fst snd].
    change (TF f (Some v) :: ?l) with ([TF f (Some v)] ++ l). rewrite tfc_app, Hg1. reflexivity.
  - rewrite (fields_keys s t0 LF : map fst fields = _), sum_filter_present. apply (f_equal sumN), map_ext_in.
    intros tr Hin. unfold nf_trait, g. destruct (t_present tr); [|reflexivity]. f_equal.
    destruct (t_group tr) eqn:Egr; [reflexivity|].
    (* a group filed under a tag that is no group field is empty *)
    destruct (map_find (t_fnum tr) groups) as [[|x l]|] eqn:Em; try reflexivity.
    destruct (GF _ _ Em) as [_ Hne]. destruct Hne as (_ & Hgi & _); [discriminate|]. unfold group_in in Hgi.
    rewrite (In_find_trait _ _ (NoDup_fnums s t0 LF) Hin : find_trait (mb_fp s) _ = _) in Hgi. congruence.
Qed.
