(* C11: the witness of c11_move_zero_count_repaired (Props/Properties_C11.v). *)
From Coq Require Import NArith ZArith List Bool.
From F8 Require Import Codec.Bytes Codec.Meta Codec.Extract Codec.Decode Codec.Encode Codec.Render Codec.Example
                       C11.Copy C11.Spec_C11 C11.Hyp C11.Examples.
Import ListNotations.
Local Open Scope N_scope.

Lemma c11_move_zero_count_repaired_lemma :
  exists c bytes m md, decoded_nock c bytes = Some m /\ find_msg (c_msgs c) (m_type m) = Some md /\
                       clone_ok c md m = true /\ map_find 73 (mb_groups (m_body m)) = None /\
                       exists nb nh nt t k, move_msg c m = Ok (nb, nh, nt, t, k) /\
                                            enc_of c t = enc_of c m /\ enc_of c m <> [].
Proof.
  exists ex_ctx, list_zero_bytes. eexists. exists md_list. split; [vm_compute; reflexivity|].
  split; [reflexivity|]. split; [vm_compute; reflexivity|]. split; [reflexivity|].
  do 5 eexists. split; [vm_compute; reflexivity|]. split; [reflexivity|vm_compute; discriminate].
Qed.
