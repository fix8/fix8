(* C11: the per-field output state (precision, value text) of every field of an observed object, at
   every level, and the examples whose rendering depends on it. *)
From Coq Require Import NArith ZArith List Bool.
From F8 Require Import Codec.Bytes Codec.Meta Codec.Extract Codec.Decode Codec.Encode Codec.Render Codec.Example
                       C11.Copy C11.Spec_C11 C11.Hyp C11.Examples C11.Precision.
Import ListNotations.
Local Open Scope N_scope.

(* the field objects of an observed object, in content order, each with its output state *)
Definition tok_state (t : ctok) : option (N * option (N * list N)) :=
  match t with
  | TF f (Some v) => Some (f, Some (field_state v))
  | TF f None => Some (f, None)
  | _ => None
  end.
Definition field_states (o : obj) : list (option (N * option (N * list N))) := map tok_state (content o).

(* ex_list with the order quantity built as Field<fp_type>(1.23456, 5) and an allocation share as
   Field<fp_type>(400.5, 0), rendered by the real conversions (C08's fast_atof / modp_dtoa) *)
Definition ex_ctx_p : ctx :=
  mkCtx (c_fields ex_ctx) (c_msgs ex_ctx) (c_header ex_ctx) (c_trailer ex_ctx) (c_hdr_init ex_ctx) (c_trl_init ex_ctx)
        (c_begin ex_ctx) render_c11.
Definition ex_alloc_p : mbase := addf (addf (create_group ex_allocs true) 80 [126; 48; 126; 52; 48; 48; 46; 53]) 79 [88].
Definition ex_order_p : mbase :=
  with_elems (addf (addf (addf (create_group ex_orders true) 78 [49]) 11 [79; 50])
                   38 [126; 53; 126; 49; 46; 50; 51; 52; 53; 54]) 78 [ex_alloc_p].
Definition ex_list_p : message :=
  let m := mk_message ex_ctx_p md_list true in
  let b := with_elems (addf (addf (m_body m) 73 [49]) 66 [76; 49]) 73 [ex_order_p] in
  mkMsg (m_type m) (ex_hdr_fields (m_hdr m)) b (m_trl m).
(* the same fields at the default precision *)
Definition ex_alloc_d : mbase := addf (addf (create_group ex_allocs true) 80 [52; 48; 48; 46; 53]) 79 [88].
Definition ex_order_d : mbase :=
  with_elems (addf (addf (addf (create_group ex_orders true) 78 [49]) 11 [79; 50])
                   38 [49; 46; 50; 51]) 78 [ex_alloc_d].
Definition ex_list_d : message :=
  let m := mk_message ex_ctx_p md_list true in
  let b := with_elems (addf (addf (m_body m) 73 [49]) 66 [76; 49]) 73 [ex_order_d] in
  mkMsg (m_type m) (ex_hdr_fields (m_hdr m)) b (m_trl m).
