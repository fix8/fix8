(* C11: strictly increasing key lists (strictN) and the association lists that stand for std::map and
   std::multimap (map_insert, map_set, pos_insert_k). *)
From Coq Require Import NArith ZArith List Bool Lia.
From F8 Require Import Codec.Bytes Codec.Meta Codec.Lemmas C11.Copy C11.Spec_C11 C11.Hyp.
Import ListNotations.
Local Open Scope N_scope.

Lemma strictN_cons x l : strictN (x :: l) = true <-> (forall y, In y l -> x < y) /\ strictN l = true.
Proof. cbn [strictN]. rewrite andb_true_iff, forallb_forall. setoid_rewrite N.ltb_lt. reflexivity. Qed.

Lemma strictN_NoDup l : strictN l = true -> NoDup l.
Proof.
  induction l as [|x l IH]; intros H; constructor; apply strictN_cons in H; destruct H as [Hx Hl].
  - intros Hin. specialize (Hx x Hin). lia.
  - apply IH. exact Hl.
Qed.

Lemma strictN_tail x l : strictN (x :: l) = true -> strictN l = true.
Proof. intros H. apply strictN_cons in H. tauto. Qed.

Lemma strictN_map_filter {A} (k : A -> N) (p : A -> bool) l :
  strictN (map k l) = true -> strictN (map k (filter p l)) = true.
Proof.
  induction l as [|x l IH]; intros H; [reflexivity|]. cbn [map] in H. apply strictN_cons in H. destruct H as [H1 H2].
  cbn [filter]. destruct (p x); [|apply IH; exact H2]. cbn [map]. apply strictN_cons. split; [|apply IH; exact H2].
  intros y Hy. apply in_map_iff in Hy. destruct Hy as [z [<- Hz]]. apply filter_In in Hz. apply H1. apply in_map. tauto.
Qed.

Lemma strict_unique {A} (key : A -> N) : forall l1 l2 : list A,
  strictN (map key l1) = true -> strictN (map key l2) = true ->
  (forall x, In x l1 <-> In x l2) -> l1 = l2.
Proof.
  induction l1 as [|a l1 IH]; intros [|b l2] H1 H2 Hin.
  - reflexivity.
  - destruct (proj2 (Hin b) (or_introl eq_refl)).
  - destruct (proj1 (Hin a) (or_introl eq_refl)).
  - cbn [map] in H1, H2. apply strictN_cons in H1, H2. destruct H1 as [Ha S1], H2 as [Hb S2].
    (* every element of a tail lies above its head, so the two heads are each other *)
    assert (Ha' : forall x, In x l1 -> key a < key x) by (intros x Hx; apply Ha, in_map, Hx).
    assert (Hb' : forall x, In x l2 -> key b < key x) by (intros x Hx; apply Hb, in_map, Hx).
    assert (Eab : a = b).
    { destruct (proj1 (Hin a) (or_introl eq_refl)) as [E|Ia]; [symmetry; exact E|].
      destruct (proj2 (Hin b) (or_introl eq_refl)) as [E|Ib]; [exact E|].
      specialize (Hb' a Ia). specialize (Ha' b Ib). lia. }
    subst b. f_equal. apply IH; try assumption.
    intros x. split; intros Hx.
    + destruct (proj1 (Hin x) (or_intror Hx)) as [<-|I]; [|exact I]. specialize (Ha' a Hx). lia.
    + destruct (proj2 (Hin x) (or_intror Hx)) as [<-|I]; [|exact I]. specialize (Hb' a Hx). lia.
Qed.

Lemma NoDup_map_inj {A B} (k : A -> B) l a b : NoDup (map k l) -> In a l -> In b l -> k a = k b -> a = b.
Proof.
  induction l as [|x l IH]; intros Hnd Ha Hb E; [destruct Ha|].
  cbn [map] in Hnd. inversion Hnd as [|? ? Hx Hl]; subst.
  destruct Ha as [->|Ha], Hb as [->|Hb].
  - reflexivity.
  - exfalso. apply Hx. rewrite E. apply in_map. exact Hb.
  - exfalso. apply Hx. rewrite <- E. apply in_map. exact Ha.
  - apply IH; assumption.
Qed.

Lemma Forall2_of_maps {A B C} (p1 : A -> C) (p2 : B -> C) (R : A -> B -> Prop) :
  forall l1 l2, map p1 l1 = map p2 l2 ->
  (forall a b, In a l1 -> In b l2 -> p1 a = p2 b -> R a b) -> Forall2 R l1 l2.
Proof.
  induction l1 as [|a l1 IH]; intros [|b l2] Hm HR; cbn [map] in Hm; try discriminate; constructor.
  - injection Hm as Hab _. apply HR; [left; reflexivity|left; reflexivity|exact Hab].
  - injection Hm as _ Hm. apply IH; [exact Hm|]. intros x y Hx Hy. apply HR; right; assumption.
Qed.

Lemma Forall2_diag {A} (R : A -> A -> Prop) l : (forall x, R x x) -> Forall2 R l l.
Proof. intros H. induction l; constructor; [apply H|assumption]. Qed.

Lemma Forall2_impl {A B} (R R' : A -> B -> Prop) l l' : (forall a b, R a b -> R' a b) -> Forall2 R l l' -> Forall2 R' l l'.
Proof. intros H HF. induction HF; constructor; [apply H|]; assumption. Qed.

Lemma pos_insert_k_In {A} p (x : A) l y : In y (pos_insert_k p x l) <-> y = (p, x) \/ In y l.
Proof.
  induction l as [|[q z] r IH]; cbn [pos_insert_k].
  - cbn. intuition.
  - destruct (p <? q); cbn [In].
    + intuition.
    + rewrite IH. intuition.
Qed.

Lemma pos_insert_k_strict {A} p (x : A) l :
  strictN (map fst l) = true -> ~ In p (map fst l) -> strictN (map fst (pos_insert_k p x l)) = true.
Proof.
  induction l as [|[q z] r IH]; intros S Hn; cbn [pos_insert_k]; [reflexivity|].
  cbn [map fst In] in S, Hn. pose proof (proj1 (strictN_cons _ _) S) as [Sq Sr].
  destruct (p <? q) eqn:E; cbn [map fst]; apply strictN_cons.
  - apply N.ltb_lt in E. split; [|exact S]. intros y [<-|Hy]; [exact E|]. specialize (Sq y Hy). lia.
  - apply N.ltb_ge in E. split; [|apply IH; tauto].
    intros y Hy. apply in_map_iff in Hy. destruct Hy as [[k w] [<- Hy]]. apply pos_insert_k_In in Hy.
    destruct Hy as [Ey|Hy]; [injection Ey as -> ->; cbn [fst]; lia|]. apply Sq. exact (in_map fst _ _ Hy).
Qed.

(* std::map::insert of a new key is the multimap's insert *)
Lemma map_insert_fresh {A} k (v : A) l : ~ In k (map fst l) -> map_insert k v l = pos_insert_k k v l.
Proof.
  induction l as [|[q z] r IH]; intros Hn; cbn [map_insert pos_insert_k]; [reflexivity|].
  cbn [map fst In] in Hn. destruct (k <? q); [reflexivity|].
  destruct (N.eqb_spec k q) as [->|_]; [tauto|]. rewrite IH by tauto. reflexivity.
Qed.

Lemma map_insert_present {A} k (v : A) l : strictN (map fst l) = true -> In k (map fst l) -> map_insert k v l = l.
Proof.
  induction l as [|[q z] r IH]; intros S Hin; [destruct Hin|]. cbn [map fst] in S, Hin. cbn [map_insert].
  pose proof (proj1 (strictN_cons _ _) S) as [Sq Sr].
  destruct (k <? q) eqn:E.
  - apply N.ltb_lt in E. destruct Hin as [->|Hin]; [lia|]. specialize (Sq k Hin). lia.
  - destruct (N.eqb_spec k q) as [_|E2]; [reflexivity|].
    destruct Hin as [Hq|Hin]; [congruence|]. rewrite (IH Sr Hin). reflexivity.
Qed.

Lemma map_insert_strict {A} k (v : A) l :
  strictN (map fst l) = true -> strictN (map fst (map_insert k v l)) = true.
Proof.
  intros S. destruct (in_dec N.eq_dec k (map fst l)) as [Hin|Hn].
  - rewrite map_insert_present; assumption.
  - rewrite map_insert_fresh by exact Hn. apply pos_insert_k_strict; assumption.
Qed.

Lemma In_map_find {A} k (v : A) l : NoDup (map fst l) -> In (k, v) l -> map_find k l = Some v.
Proof.
  induction l as [|[q z] r IH]; intros Hnd Hin; [destruct Hin|].
  cbn [map fst] in Hnd. inversion Hnd as [|? ? Hq Hr]; subst. cbn [map_find].
  destruct Hin as [E|Hin].
  - injection E as -> ->. rewrite N.eqb_refl. reflexivity.
  - destruct (N.eqb_spec k q) as [->|_]; [|apply IH; assumption].
    destruct Hq. exact (in_map fst _ _ Hin).
Qed.

Lemma map_find_iff {A} k (v : A) l : NoDup (map fst l) -> (map_find k l = Some v <-> In (k, v) l).
Proof. intros H. split; [apply map_find_In|apply In_map_find; exact H]. Qed.

Lemma option_ext {A} (a b : option A) : (forall v, a = Some v <-> b = Some v) -> a = b.
Proof.
  intros H. destruct a as [x|]; [symmetry; apply H; reflexivity|].
  destruct b as [y|]; [apply H; reflexivity|reflexivity].
Qed.

Lemma map_find_None {A} k (l : list (N * A)) : map_find k l = None <-> ~ In k (map fst l).
Proof.
  induction l as [|[q z] r IH]; cbn [map_find map fst In]; [intuition|].
  destruct (N.eqb_spec k q) as [->|E]; [intuition discriminate|]. rewrite IH. intuition.
Qed.

Lemma map_find_map_insert {A} k g (v : A) l : strictN (map fst l) = true ->
  map_find g (map_insert k v l) =
  if g =? k then Some (match map_find k l with Some x => x | None => v end) else map_find g l.
Proof.
  intros S. destruct (map_find k l) as [x|] eqn:Ek.
  - rewrite map_insert_present by (try apply (in_map fst _ _ (map_find_In _ _ _ Ek)); exact S).
    destruct (N.eqb_spec g k) as [->|_]; [exact Ek|reflexivity].
  - clear S. induction l as [|[q z] r IH]; cbn [map_insert map_find] in *.
    + destruct (g =? k); reflexivity.
    + destruct (N.eqb_spec k q) as [|Ekq]; [discriminate|]. destruct (k <? q); cbn [map_find].
      * destruct (g =? k); reflexivity.
      * destruct (N.eqb_spec g q) as [->|_]; [|apply IH; exact Ek].
        destruct (N.eqb_spec q k); [congruence|reflexivity].
Qed.

Lemma map_find_map_set {A} k g (v : A) l :
  map_find g (map_set k v l) = if g =? k then option_map (fun _ => v) (map_find k l) else map_find g l.
Proof.
  induction l as [|[q z] r IH]; cbn [map_set map_find].
  - destruct (g =? k); reflexivity.
  - destruct (N.eqb_spec k q) as [->|E]; cbn [map_find].
    + destruct (g =? q); reflexivity.
    + destruct (N.eqb_spec g q) as [->|_]; [|exact IH].
      destruct (N.eqb_spec q k); [congruence|reflexivity].
Qed.

Lemma map_set_keys {A} k (v : A) l : map fst (map_set k v l) = map fst l.
Proof.
  induction l as [|[q z] r IH]; cbn [map_set map fst]; [reflexivity|].
  destruct (k =? q); cbn [map fst]; [reflexivity|rewrite IH; reflexivity].
Qed.

Lemma map_set_same {A} k (v : A) l : map_find k l = Some v -> map_set k v l = l.
Proof.
  induction l as [|[q z] r IH]; cbn [map_find map_set]; [reflexivity|].
  destruct (N.eqb_spec k q) as [->|_]; intros H; [injection H as ->|rewrite (IH H)]; reflexivity.
Qed.

Lemma map_set_twice {A} k (v w : A) l : map_set k w (map_set k v l) = map_set k w l.
Proof.
  induction l as [|[q z] r IH]; cbn [map_set]; [reflexivity|].
  destruct (k =? q) eqn:E; cbn [map_set]; rewrite E; [reflexivity|rewrite IH; reflexivity].
Qed.

Lemma map_find_map_snd {A B} (h : A -> B) f (l : list (N * A)) :
  map_find f (map (fun e => (fst e, h (snd e))) l) = option_map h (map_find f l).
Proof.
  induction l as [|[k v] r IH]; [reflexivity|]. cbn [map map_find fst snd]. destruct (f =? k); [reflexivity|exact IH].
Qed.

Lemma list_eqb_refl a : list_eqb a a = true.
Proof. exact (Lemmas.list_eqb_refl a). Qed.

Lemma trait_eqb_eq a b : trait_eqb a b = true -> a = b.
Proof.
  unfold trait_eqb. rewrite !andb_true_iff. intros [[[[[[[[[[H1 H2] H3] H4] H5] H6] H7] H8] H9] H10] H11].
  destruct a, b; cbn in *.
  apply N.eqb_eq in H1, H2, H3, H4. apply eqb_prop in H5, H6, H7, H8, H9, H10, H11. subst. reflexivity.
Qed.

Lemma traits_eqb_eq a b : traits_eqb a b = true -> a = b.
Proof.
  revert b. induction a as [|x a IH]; intros [|y b]; cbn [traits_eqb]; try discriminate; [reflexivity|].
  rewrite andb_true_iff. intros [E H]. apply trait_eqb_eq in E. subst y. f_equal. apply IH. exact H.
Qed.

Lemma find_trait_In ts f tr : find_trait ts f = Some tr -> In tr ts /\ t_fnum tr = f.
Proof. exact (Lemmas.find_trait_In ts f tr). Qed.

Lemma find_trait_None ts f : find_trait ts f = None <-> ~ In f (map t_fnum ts).
Proof.
  induction ts as [|x r IH]; cbn [find_trait map In]; [intuition|].
  destruct (N.eqb_spec (t_fnum x) f) as [E|E]; [intuition discriminate|]. rewrite IH. intuition.
Qed.

Lemma static_eq_find a b : static_eq a b = true -> forall f,
  match find_trait a f, find_trait b f with
  | Some x, Some y => set_present false x = set_present false y
  | None, None => True
  | _, _ => False
  end.
Proof.
  unfold static_eq. intros H. apply traits_eqb_eq in H. revert b H.
  induction a as [|x a IH]; intros [|y b] H f; cbn [map] in H; try discriminate; cbn [find_trait]; [exact I|].
  assert (Hxy : set_present false x = set_present false y) by congruence.
  assert (Hab : map (set_present false) a = map (set_present false) b) by congruence.
  rewrite <- (f_equal t_fnum Hxy : t_fnum x = t_fnum y).
  destruct (t_fnum x =? f); [exact Hxy|apply IH; exact Hab].
Qed.
