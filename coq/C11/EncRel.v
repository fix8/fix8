(* C11: MessageBase::encode depends on an object only through the sequence of (tag, value) pairs of
   _pos, the static part of the trait table and the encodings of the groups' elements: two objects
   related in that way encode to the same bytes. *)
From Coq Require Import NArith ZArith List Bool Lia.
From F8 Require Import Codec.Bytes Codec.Meta Codec.Extract Codec.Decode Codec.Encode Codec.Lemmas
                       C11.Copy C11.Spec_C11 C11.Hyp C11.ListLemmas C11.Unfold.
Import ListNotations.
Local Open Scope N_scope.

Definition same_static (fp1 fp2 : list trait) : Prop :=
  forall f, match find_trait fp1 f, find_trait fp2 f with
            | Some a, Some b => set_present false a = set_present false b
            | None, None => True
            | _, _ => False
            end.

Lemma same_static_refl fp : same_static fp fp.
Proof. intros f. destruct (find_trait fp f); [reflexivity|exact I]. Qed.

Lemma same_static_some fp1 fp2 f a : same_static fp1 fp2 -> find_trait fp1 f = Some a ->
  exists b, find_trait fp2 f = Some b /\ set_present false a = set_present false b.
Proof.
  intros Hs H. specialize (Hs f). rewrite H in Hs. destruct (find_trait fp2 f) as [b|]; [|destruct Hs].
  exists b. split; [reflexivity|exact Hs].
Qed.

Lemma same_static_attr {A} (h : trait -> A) (d : A) fp1 fp2 f :
  same_static fp1 fp2 -> (forall a b, set_present false a = set_present false b -> h a = h b) ->
  match find_trait fp1 f with Some tr => h tr | None => d end =
  match find_trait fp2 f with Some tr => h tr | None => d end.
Proof.
  intros Hs Hh. specialize (Hs f).
  destruct (find_trait fp1 f), (find_trait fp2 f); try contradiction; [apply Hh; exact Hs|reflexivity].
Qed.

Lemma same_static_pos_of fp1 fp2 f : same_static fp1 fp2 -> pos_of fp1 f = pos_of fp2 f.
Proof. intros Hs. apply (same_static_attr getPos 0 _ _ f Hs). intros a b E. exact (f_equal getPos E). Qed.

Lemma same_static_group_in fp1 fp2 f : same_static fp1 fp2 -> group_in fp1 f = group_in fp2 f.
Proof. intros Hs. apply (same_static_attr t_group false _ _ f Hs). intros a b E. exact (f_equal t_group E). Qed.

(* the values may differ under the tags in [free]: those are suppressed, so never emitted *)
Definition entry_rel (free : N -> bool) (a b : N * (N * list N)) : Prop :=
  e_fnum a = e_fnum b /\ (free (e_fnum a) = true \/ e_val a = e_val b).

Lemma enc_pos_rel c fp1 fp2 genc1 genc2 (free : N -> bool) :
  same_static fp1 fp2 ->
  (forall f, free f = true -> suppress_in fp1 f = true) ->
  forall p1 p2, Forall2 (entry_rel free) p1 p2 ->
  (forall f r, In f (map e_fnum p1) -> group_in fp1 f = true -> free f = false ->
               map_find f genc1 = Some (Ok r) -> map_find f genc2 = Some (Ok r)) ->
  forall b, enc_pos c fp1 genc1 p1 = Ok b -> enc_pos c fp2 genc2 p2 = Ok b.
Proof.
  intros Hs Hfree p1 p2 HF. induction HF as [|[k1 [f1 v1]] [k2 [f2 v2]] p1 p2 [Ef Ev] HF IH]; intros Hg b H.
  - exact H.
  - unfold e_fnum, e_val in Ef, Ev. cbn [fst snd] in Ef, Ev. subst f2.
    assert (IH' : forall b, enc_pos c fp1 genc1 p1 = Ok b -> enc_pos c fp2 genc2 p2 = Ok b).
    { apply IH. intros f r Hin. apply Hg. right. exact Hin. }
    cbn [enc_pos] in *. specialize (Hs f1).
    destruct (find_trait fp1 f1) as [a|] eqn:E1; [|discriminate].
    destruct (find_trait fp2 f1) as [a2|] eqn:E2; [|destruct Hs].
    rewrite <- (f_equal t_suppress Hs : t_suppress a = t_suppress a2), <- (f_equal t_group Hs : t_group a = t_group a2),
            <- (f_equal t_ftype Hs : t_ftype a = t_ftype a2).
    destruct (t_suppress a) eqn:Es; [apply IH'; exact H|].
    (* an emitted field is not free: it carries the same value on both sides *)
    assert (Hnf : free f1 = false).
    { destruct (free f1) eqn:Efr; [|reflexivity]. apply Hfree in Efr. unfold suppress_in in Efr. rewrite E1, Es in Efr. discriminate. }
    assert (Hv : v1 = v2) by (destruct Ev as [Ev|Ev]; [congruence|exact Ev]).
    subst v2.
    destruct (t_group a && has_group_count_c c f1 v1) eqn:Eg.
    + destruct (map_find f1 genc1) as [ge|] eqn:Em; [|discriminate].
      destruct ge as [gb| | | |]; try discriminate. cbn [bind] in H.
      destruct (enc_pos c fp1 genc1 p1) as [rb| | | |] eqn:Er; try discriminate. cbn [bind] in H.
      apply andb_true_iff in Eg. destruct Eg as [Eg _].
      rewrite (Hg f1 gb); [|left; reflexivity|unfold group_in; rewrite E1; exact Eg|exact Hnf|exact Em].
      cbn [bind]. rewrite (IH' rb eq_refl). exact H.
    + destruct (enc_pos c fp1 genc1 p1) as [rb| | | |] eqn:Er; try discriminate. cbn [bind] in H.
      rewrite (IH' rb eq_refl). exact H.
Qed.

Lemma entry_rel_weaken (free free' : N -> bool) : forall r1 r2,
  (forall a, In a r1 -> free (e_fnum a) = true -> free' (e_fnum a) = true) ->
  Forall2 (entry_rel free) r1 r2 -> Forall2 (entry_rel free') r1 r2.
Proof.
  intros r1 r2 H HF. induction HF as [|a b r1 r2 [Ef Ev] HF IH]; constructor.
  - split; [exact Ef|]. destruct Ev as [Ev|Ev]; [left; apply H; [left; reflexivity|exact Ev]|right; exact Ev].
  - apply IH. intros x Hx. apply H. right. exact Hx.
Qed.

(* pos_set: a setter writes through the field's own pointer; the tag it sets is paired by value afterwards *)
Lemma pos_set_rel (free : N -> bool) g v : forall p1 p2,
  Forall2 (entry_rel free) p1 p2 -> NoDup (map e_fnum p1) ->
  Forall2 (entry_rel (fun f => free f && negb (f =? g))) (pos_set g v p1) (pos_set g v p2).
Proof.
  intros p1 p2 HF. induction HF as [|[k1 [f1 v1]] [k2 [f2 v2]] r1 r2 [Ef Ev] HF IH]; intros Hnd; [constructor|].
  unfold e_fnum, e_val in Ef, Ev. cbn [fst snd] in Ef, Ev. subst f2.
  cbn [map] in Hnd. inversion Hnd as [|? ? Hx Hr]; subst. unfold e_fnum at 1 in Hx. cbn [fst snd] in Hx.
  cbn [pos_set]. destruct (N.eqb_spec f1 g) as [->|E].
  - constructor.
    + split; [reflexivity|right; reflexivity].
    + apply (entry_rel_weaken free); [|exact HF]. intros a Ha Hfa. rewrite Hfa. cbn [andb]. apply negb_true_iff.
      apply N.eqb_neq. intros Heq. apply Hx. rewrite <- Heq. apply in_map. exact Ha.
  - constructor; [|apply IH; exact Hr].
    split; [reflexivity|]. unfold e_fnum, e_val. cbn [fst snd]. destruct Ev as [Ev|Ev]; [left|right; exact Ev].
    apply N.eqb_neq in E. rewrite Ev, E. reflexivity.
Qed.

Lemma pos_set_fnums g v p : map e_fnum (pos_set g v p) = map e_fnum p.
Proof.
  induction p as [|[k [f w]] r IH]; [reflexivity|]. cbn [pos_set]. destruct (f =? g); cbn [map]; [reflexivity|].
  rewrite IH. reflexivity.
Qed.

Lemma set_value_acc m f v :
  mb_fp (set_value m f v) = mb_fp m /\ mb_fields (set_value m f v) = map_set f v (mb_fields m) /\
  mb_pos (set_value m f v) = pos_set f v (mb_pos m) /\ mb_groups (set_value m f v) = mb_groups m /\
  mb_unknown (set_value m f v) = mb_unknown m.
Proof. destruct m; cbn. repeat split. Qed.

Definition enc_le (e e' : mbase) : Prop := forall c b, mb_encode c e = Ok b -> mb_encode c e' = Ok b.

Lemma enc_els_rel c els els' : Forall2 enc_le els els' ->
  forall r, enc_els c els = Ok r -> enc_els c els' = Ok r.
Proof.
  intros HF. induction HF as [|e e' els els' He HF IH]; intros r H; [exact H|].
  cbn [enc_els] in *. destruct (mb_encode c e) as [a| | | |] eqn:Ea; try discriminate. cbn [bind] in H.
  destruct (enc_els c els) as [b| | | |] eqn:Eb; try discriminate. cbn [bind] in H.
  rewrite (He c a Ea). cbn [bind]. rewrite (IH b eq_refl). exact H.
Qed.

Lemma mb_encode_rel c s t (free : N -> bool) :
  same_static (mb_fp s) (mb_fp t) ->
  (forall f, free f = true -> suppress_in (mb_fp s) f = true) ->
  Forall2 (entry_rel free) (mb_pos s) (mb_pos t) ->
  (forall f els, In f (map e_fnum (mb_pos s)) -> group_in (mb_fp s) f = true -> free f = false ->
                 map_find f (mb_groups s) = Some els ->
                 exists els', map_find f (mb_groups t) = Some els' /\ Forall2 enc_le els els') ->
  mb_unknown t = mb_unknown s ->
  forall b, mb_encode c s = Ok b -> mb_encode c t = Ok b.
Proof.
  destruct s as [fp subs fields pos groups unknown], t as [fp' subs' fields' pos' groups' unknown'].
  cbn [mb_fp mb_pos mb_groups mb_unknown]. intros Hfp Hfree Hpos Hg -> b. rewrite !mb_encode_unfold.
  destruct (enc_pos c fp (genc_of c groups) pos) as [bb| | | |] eqn:E; try discriminate.
  rewrite (enc_pos_rel c fp fp' (genc_of c groups) (genc_of c groups') free Hfp Hfree pos pos' Hpos) with (b := bb); [trivial| |exact E].
  intros f r Hin Hgi Hfr. unfold genc_of. rewrite !map_find_map_snd.
  destruct (map_find f groups) as [els|] eqn:Em; [|discriminate]. cbn [option_map]. intros Hr. injection Hr as Hr.
  destruct (Hg f els Hin Hgi Hfr Em) as (els' & -> & HF). cbn [option_map].
  rewrite (enc_els_rel c els els' HF _ Hr). reflexivity.
Qed.
