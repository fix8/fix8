(* C11: move_legal into a fresh empty target.  One turn of its loop does to the target what
   copy_legal's does, with the source's own group object in the place of the element-wise copy.  So
   the target satisfies copy_legal's invariant Inv, each element standing for its own copy (EP_refl),
   and content and encoding follow as for copy_legal; what is left to describe is the emptied source. *)
From Coq Require Import NArith ZArith List Bool Lia.
From F8 Require Import Codec.Bytes Codec.Meta Codec.Extract Codec.Decode Codec.Encode Codec.Lemmas
                       C11.Copy C11.Spec_C11 C11.Hyp C11.ListLemmas C11.Unfold C11.EncRel C11.CopyProofs C11.CountProofs.
Import ListNotations.
Local Open Scope N_scope.

Lemma map_insert_keys_set {A} k (v : A) l : map fst (map_set k v l) = map fst l.
Proof. apply map_set_keys. Qed.

Section Move.
Variables s t0 : mbase.
Hypothesis LF : loc_facts s t0.
Hypothesis TF : tgt_facts s t0.
Hypothesis Hown : owned_groups s t0.

(* the source while it is being emptied: the value of every transferred field, and the group object
   of every transferred group field, have become null pointers *)
Definition husk_fields (done : list trait) (F : list (N * option (list N))) : Prop :=
  (forall f, map_find f F = option_map (fun v => if cp s t0 done f then None else Some v) (map_find f (mb_fields s))) /\
  map fst F = map fst (mb_fields s).
Definition gone (done : list trait) (f : N) : bool := cp s t0 done f && group_in (mb_fp s) f.
Definition husk_groups (done : list trait) (K : list (N * option (list mbase))) : Prop :=
  (forall f, map_find f K = option_map (fun els => if gone done f then None else Some els) (map_find f (mb_groups s))) /\
  map fst K = map fst (mb_groups s).

(* the target is as copy_legal would leave it, but for the count *)
Definition MInv (done : list trait) (st : mstate) : Prop :=
  (exists n, Inv s t0 done (n, ms_to st)) /\
  husk_fields done (ms_fields st) /\ husk_groups done (ms_groups st) /\
  ms_moved st = N.of_nat (length (filter (fun tr => sel s t0 (t_fnum tr)) done)).

Lemma move_group_ok done pp rest n st :
  mb_fp s = done ++ pp :: rest -> Inv s t0 done (n, ms_to st) -> husk_groups done (ms_groups st) ->
  sel s t0 (t_fnum pp) = true ->
  exists G K, move_group pp st = Ok (mkMS (ms_moved st) (with_groups (ms_to st) G) (ms_fields st) K) /\
              group_turn s t0 (t_fnum pp) (ms_to st) G /\ husk_groups (done ++ [pp]) K.
Proof.
  intros Hfp HI [M2 M3] Hsel. pose proof (group_turn_none s t0 LF done pp rest n _ Hown Hfp HI) as Hnone.
  destruct HI as (_ & _ & _ & (I4 & I4s) & _). destruct (next_trait s t0 LF _ _ _ Hfp) as [Hfind Hnd].
  destruct st as [m [fp subs fields pos groups unknown] flds grps]. cbn [snd ms_moved ms_to ms_fields ms_groups mb_groups with_groups] in *.
  set (f := t_fnum pp) in *.
  assert (Hgi : group_in (mb_fp s) f = t_group pp) by (unfold group_in; rewrite Hfind; reflexivity).
  assert (Hgone : forall g, gone (done ++ [pp]) g = if g =? f then t_group pp else gone done g).
  { intros g. unfold gone. rewrite cp_snoc. fold f. destruct (N.eqb_spec g f) as [->|_]; [|reflexivity]. rewrite Hsel, Hgi. reflexivity. }
  assert (Hgf : gone done f = false) by (unfold gone, cp; rewrite Hnd; reflexivity).
  (* nothing handed over: the source's group objects stay as they are *)
  assert (Hkeep : (t_group pp = true -> map_find f (mb_groups s) = None) -> husk_groups (done ++ [pp]) grps).
  { intros H. split; [|exact M3]. intros g. rewrite M2, Hgone. destruct (N.eqb_spec g f) as [->|_]; [|reflexivity].
    rewrite Hgf. destruct (t_group pp); [rewrite H|]; reflexivity. }
  unfold move_group. fold f. cbn [ms_groups ms_to ms_moved ms_fields mb_groups with_groups].
  destruct (t_group pp) eqn:Egp.
  2:{ exists groups, grps. split; [reflexivity|]. split; [apply Hnone; left; reflexivity|apply Hkeep; discriminate]. }
  rewrite M2, Hgf. destruct (map_find f (mb_groups s)) as [els|] eqn:Eg; cbn [option_map].
  2:{ exists groups, grps. split; [reflexivity|]. split; [apply Hnone; right; reflexivity|apply Hkeep; reflexivity]. }
  set (G := match map_find f groups with Some _ => map_set f els groups | None => map_insert f els groups end).
  exists G, (map_set f None grps). split; [unfold G; destruct (map_find f groups); reflexivity|].
  assert (Hm : forall g, map_find g G = if g =? f then Some els else map_find g groups).
  { intros g. unfold G. destruct (map_find f groups) as [x|] eqn:Ex.
    - rewrite map_find_map_set, Ex. reflexivity.
    - rewrite (map_find_map_insert _ _ _ _ I4s), Ex. reflexivity. }
  unfold group_turn, husk_groups. cbn [mb_groups with_groups]. split; [split; [|split]|split].
  - intros g Hg. apply N.eqb_neq in Hg. rewrite Hm, Hg. reflexivity.
  - unfold GP. cbn [mb_groups]. rewrite Eg, Hm, N.eqb_refl. destruct els as [|e es].
    + rewrite Hsel, Hgi. reflexivity.
    + exists (e :: es). split; [reflexivity|]. apply Forall2_diag. exact EP_refl.
  - unfold G. destruct (map_find f groups); [rewrite map_set_keys; exact I4s|apply map_insert_strict; exact I4s].
  - intros g. rewrite map_find_map_set, !M2, Hgone. destruct (N.eqb_spec g f) as [->|_]; [rewrite Eg|]; reflexivity.
  - rewrite map_set_keys. exact M3.
Qed.

Lemma move_step_inv done pp rest st :
  mb_fp s = done ++ pp :: rest -> MInv done st ->
  exists st', move_step false pp st = Ok st' /\ MInv (done ++ [pp]) st'.
Proof.
  intros Hfp ([n HI] & [M4 M5] & MG & M6). destruct (next_trait s t0 LF _ _ _ Hfp) as [Hfind Hnd].
  unfold move_step. rewrite (wants_sel s t0 LF done pp n _ Hfind Hnd HI).
  destruct (sel s t0 (t_fnum pp)) eqn:Hsel.
  2:{ exists st. split; [reflexivity|]. split; [exists n; exact (inv_skip s t0 LF done pp rest n _ Hown Hfp Hsel HI)|].
    destruct MG as [M2 M3]. unfold husk_fields, husk_groups, gone. repeat split; try assumption.
    - intros g. rewrite (cp_skip s t0 done pp g Hnd Hsel). apply M4.
    - intros g. rewrite (cp_skip s t0 done pp g Hnd Hsel). apply M2.
    - rewrite filter_app. cbn [filter]. rewrite Hsel, app_nil_r. exact M6. }
  destruct (move_group_ok done pp rest n st Hfp HI MG Hsel) as (G & K & -> & HG & HK).
  cbn [bind ms_fields ms_to ms_moved ms_groups].
  destruct (present_value s t0 LF _ (proj1 (proj1 (sel_true s t0 _) Hsel))) as [v Hv].
  assert (Hcpf : cp s t0 done (t_fnum pp) = false) by (unfold cp; rewrite Hnd; reflexivity).
  rewrite M4, Hv, Hcpf. cbn [option_map].
  destruct (inv_put s t0 LF TF done pp rest n _ G v Hfp HI Hsel Hv HG) as (t' & -> & HI'). cbn [bind].
  eexists. split; [reflexivity|]. split; [eexists; exact HI'|]. cbn [ms_groups ms_fields ms_moved].
  split; [split|split; [exact HK|]].
  - intros g. rewrite map_find_map_set, !M4, cp_snoc. destruct (N.eqb_spec g (t_fnum pp)) as [->|_]; [rewrite Hsel, Hv|]; reflexivity.
  - rewrite map_set_keys. exact M5.
  - rewrite filter_app, app_length. cbn [filter]. rewrite Hsel, M6. cbn [length]. lia.
Qed.

End Move.

Definition moved_from (s : mbase) (k : husk) : Prop :=
  hk_fp k = mb_fp s /\
  map fst (hk_fields k) = map fst (mb_fields s) /\
  (forall f, In f (map fst (mb_fields s)) -> map_find f (hk_fields k) = Some None) /\
  map fst (hk_groups k) = map fst (mb_groups s) /\
  (forall f els, map_find f (mb_groups s) = Some els ->
                 map_find f (hk_groups k) = Some (if group_owned (mb_fp s) f then None else Some els)).

Theorem c11_move_legal_lemma : forall s t0, move_ok s t0 = true ->
  exists t k, move_legal false s t0 = Ok (top_fields (obj_of s), t, k) /\
    same_content (obj_of s) (obj_of t) = true /\ enc_le s t /\ moved_from s k.
Proof.
  intros s t0 H. unfold move_ok in H. rewrite !andb_true_iff, forallb_forall in H. destruct H as [[Hl Ht] Hg2].
  pose proof (local_ok_facts s t0 Hl) as LF. pose proof (target_ok_tgt s t0 Ht) as TF.
  destruct (target_ok_facts t0 Ht) as (Hnp & Hf0 & _).
  assert (Hown : owned_groups s t0).
  { intros f e es Hm. specialize (Hg2 _ (map_find_In _ _ _ Hm)). unfold group_owned in Hg2. cbn [fst snd is_nil orb] in Hg2.
    apply andb_true_iff in Hg2. split; [apply sel_true; split; [apply Hg2|apply Hnp]|apply Hg2]. }
  destruct (fold_res_inv (move_step false) (MInv s t0) (mb_fp s) (move_step_inv s t0 LF TF Hown)
              (mkMS 0 t0 (map (fun e => (fst e, Some (snd e))) (mb_fields s)) (map (fun e => (fst e, Some (snd e))) (mb_groups s))))
    as (st & Hfold & [n HI] & [M4 M5] & [M2 M3] & M6).
  { split; [exists 0; exact (inv_init s t0 TF)|]. cbn [ms_groups ms_fields ms_moved].
    unfold husk_fields, husk_groups. rewrite !map_map. repeat split; intros f; apply map_find_map_snd. }
  assert (Hcp : forall f, cp s t0 (mb_fp s) f = present_in (mb_fp s) f) by (intros f; rewrite cp_full; apply sel_present, Hnp).
  exists (ms_to st), (HK (mb_fp s) (ms_fields st) (ms_groups st) (mb_unknown s)).
  split; [|split; [|split; [|split; [|split; [|split; [|split]]]]]]; cbn [hk_fp hk_fields hk_groups].
  - unfold move_legal. rewrite Hfold. cbn [bind]. rewrite M6. do 3 f_equal. unfold top_fields.
    rewrite (filter_ext_in _ t_present).
    + rewrite <- (map_length t_fnum), <- (fields_keys s t0 LF), map_length. destruct s. cbn [obj_of o_fields mb_fields].
      rewrite map_length. reflexivity.
    + intros tr Hin. rewrite (sel_present s t0 Hnp).
      apply present_in_find, In_find_trait; [exact (NoDup_fnums s t0 LF)|exact Hin].
  - unfold same_content. rewrite (empty_content s t0 LF TF Hnp Hf0 n _ HI). apply ctoks_eqb_refl.
  - exact (empty_enc s t0 LF TF Hnp n _ HI).
  - reflexivity.
  - exact M5.
  - intros f Hin. apply in_map_iff in Hin. destruct Hin as ([f' v] & <- & Hin). cbn [fst].
    rewrite M4, Hcp, (lf_fpres _ _ LF _ Hin : present_in _ f' = true), (In_map_find _ _ _ (strictN_NoDup _ (lf_fstrict _ _ LF)) Hin).
    reflexivity.
  - exact M3.
  - intros f els Hm. rewrite M2, Hm. unfold gone, group_owned. rewrite Hcp. reflexivity.
Qed.
