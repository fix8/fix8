(* C11: copy_legal into a fresh target.  The loop over the source's trait table has an invariant (Inv)
   on the part of the table already visited; what one turn does to it is cut into the pieces that
   move_legal's loop shares (wants_sel, inv_skip, inv_put); the group elements are handled by induction
   over the group tree.  copy_spec: into an EMPTY target (same encoding, same content, count = nfields);
   copy_part: into any fresh target (header, trailer). *)
From Coq Require Import NArith ZArith List Bool Lia.
From F8 Require Import Codec.Bytes Codec.Meta Codec.Extract Codec.Decode Codec.Encode Codec.Lemmas
                       C11.Copy C11.Spec_C11 C11.Hyp C11.ListLemmas C11.Unfold C11.EncRel.
Import ListNotations.
Local Open Scope N_scope.

Definition EP (e e' : mbase) : Prop := enc_le e e' /\ content (obj_of e) = content (obj_of e').

Definition copies_to (sg : gmeta) (e : mbase) : Prop :=
  exists e', copy_legal false e (create_group sg true) = Ok (nfields e, e') /\ EP e e'.
Definition elem_post (e : mbase) : Prop := forall sg, src_ok e (create_group sg true) = true -> copies_to sg e.

Lemma EP_refl e : EP e e.
Proof. split; [intros c b H; exact H|reflexivity]. Qed.

Lemma group_toks_rel f l l' : Forall2 EP l l' -> group_toks f (Some l) = group_toks f (Some l').
Proof.
  intros HF. assert (Ht : els_toks l = els_toks l').
  { induction HF as [|a b l l' [_ Hab] HF IH]; [reflexivity|]. cbn [els_toks]. rewrite Hab, IH. reflexivity. }
  destruct HF; [reflexivity|]. unfold group_toks. rewrite Ht. reflexivity.
Qed.

Lemma fold_res_inv {A S} (step : A -> S -> res S) (I : list A -> S -> Prop) (l : list A) :
  (forall done x rest st, l = done ++ x :: rest -> I done st -> exists st', step x st = Ok st' /\ I (done ++ [x]) st') ->
  forall st, I [] st -> exists st', fold_res step l st = Ok st' /\ I l st'.
Proof.
  intros Hstep. enough (H : forall rest done st, l = done ++ rest -> I done st ->
                             exists st', fold_res step rest st = Ok st' /\ I l st') by (intros st; exact (H l [] st eq_refl)).
  induction rest as [|x rest IH]; intros done st Hl HI.
  - exists st. rewrite app_nil_r in Hl. subst done. split; [reflexivity|exact HI].
  - destruct (Hstep done x rest st Hl HI) as (st1 & Hs & HI1). cbn [fold_res]. rewrite Hs.
    apply (IH (done ++ [x])); [rewrite <- app_assoc; exact Hl|exact HI1].
Qed.

Record loc_facts (s t0 : mbase) : Prop := {
  lf_static : same_static (mb_fp s) (mb_fp t0);
  lf_strict : strictN (map t_fnum (mb_fp s)) = true;
  lf_small : forall tr, In tr (mb_fp s) -> getPos tr < 65536;
  lf_entry : forall e, In e (mb_pos s) ->
             present_in (mb_fp s) (e_fnum e) = true /\ map_find (e_fnum e) (mb_fields s) = Some (e_val e);
  lf_order : strictN (map (fun e => pos_of (mb_fp s) (e_fnum e)) (mb_pos s)) = true;
  lf_cover : forall tr, In tr (mb_fp s) -> t_present tr = true -> exists e, In e (mb_pos s) /\ e_fnum e = t_fnum tr;
  lf_fstrict : strictN (map fst (mb_fields s)) = true;
  lf_fpres : forall e, In e (mb_fields s) -> present_in (mb_fp s) (fst e) = true;
  lf_unk : mb_unknown s = []
}.

Lemma is_nil_eq {A} (l : list A) : is_nil l = true -> l = [].
Proof. destruct l; [reflexivity|discriminate]. Qed.

Lemma map_find_eqb f (fields : list (N * list N)) v :
  match map_find f fields with Some w => list_eqb v w | None => false end = true -> map_find f fields = Some v.
Proof. destruct (map_find f fields) as [w|]; [|discriminate]. intros H. apply list_eqb_eq in H. rewrite H. reflexivity. Qed.

Lemma covered_entry pos tr : covered pos tr = true -> t_present tr = true -> exists e, In e pos /\ e_fnum e = t_fnum tr.
Proof.
  unfold covered. intros H Hp. rewrite Hp in H. apply existsb_exists in H. destruct H as [e [He1 He2]].
  exists e. split; [exact He1|apply N.eqb_eq; exact He2].
Qed.

Lemma present_entry pos fp f :
  (forall tr, In tr fp -> t_present tr = true -> exists e : N * (N * list N), In e pos /\ e_fnum e = t_fnum tr) ->
  present_in fp f = true -> exists e, In e pos /\ e_fnum e = f.
Proof.
  intros Hc Hp. unfold present_in in Hp. destruct (find_trait fp f) as [tr|] eqn:Et; [|discriminate].
  destruct (find_trait_In _ _ _ Et) as [Hin <-]. exact (Hc tr Hin Hp).
Qed.

Lemma local_ok_facts s t0 : local_ok s t0 = true -> loc_facts s t0.
Proof.
  unfold local_ok. rewrite !andb_true_iff, !forallb_forall.
  intros [[[[[[[[[H1 H2] H3] H4] H5] H6] H7] H8] H9] H10].
  constructor; try assumption.
  - exact (static_eq_find _ _ H1).
  - intros tr Hin. apply N.ltb_lt, H3, Hin.
  - intros e Hin. specialize (H4 e Hin). apply andb_true_iff in H4. split; [apply H4|apply map_find_eqb, H4].
  - intros tr Hin. apply covered_entry, H6, Hin.
  - apply is_nil_eq. exact H10.
Qed.

Record tgt_facts (s t0 : mbase) : Prop := {
  tf_entry : forall e, In e (mb_pos t0) ->
             present_in (mb_fp t0) (e_fnum e) = true /\ fst e = pos_of (mb_fp t0) (e_fnum e) /\
             present_in (mb_fp s) (e_fnum e) = true /\ group_in (mb_fp t0) (e_fnum e) = false /\
             map_find (e_fnum e) (mb_fields t0) = Some (e_val e);
  tf_pstrict : strictN (map fst (mb_pos t0)) = true;
  tf_cover : forall tr, In tr (mb_fp t0) -> t_present tr = true -> exists e, In e (mb_pos t0) /\ e_fnum e = t_fnum tr;
  tf_fstrict : strictN (map fst (mb_fields t0)) = true;
  tf_fpres : forall e, In e (mb_fields t0) -> present_in (mb_fp t0) (fst e) = true;
  tf_gnil : forall g, In g (mb_groups t0) -> snd g = [];
  tf_gstrict : strictN (map fst (mb_groups t0)) = true;
  tf_unk : mb_unknown t0 = []
}.

Lemma part_target_facts s t0 : part_target_ok s t0 = true -> tgt_facts s t0.
Proof.
  unfold part_target_ok. rewrite !andb_true_iff, !forallb_forall.
  intros [[[[[[[H1 H2] H3] H4] H5] H6] H6b] H7].
  constructor; try assumption.
  - intros e Hin. specialize (H1 e Hin). unfold init_entry_ok in H1.
    rewrite !andb_true_iff, N.eqb_eq, negb_true_iff in H1. destruct H1 as [[[[Ha Hb] Hc] Hd] He].
    apply map_find_eqb in He. repeat split; assumption.
  - intros tr Hin. apply covered_entry, H3, Hin.
  - intros g Hin. apply is_nil_eq, H6, Hin.
  - apply is_nil_eq. exact H7.
Qed.

Definition pgroup_ok (s t0 : mbase) (g : N * list mbase) : bool :=
  (negb (group_in (mb_fp s) (fst g)) || is_some (find_sub (mb_subs t0) (fst g))) &&
  match snd g with
  | [] => true
  | els =>
    group_owned (mb_fp s) (fst g) && negb (present_in (mb_fp t0) (fst g)) &&
    match find_sub (mb_subs t0) (fst g) with
    | Some sg => forallb (fun e => src_ok e (create_group sg true)) els
    | None => false
    end
  end.

Definition grp_facts (s t0 : mbase) : Prop :=
  forall f els, map_find f (mb_groups s) = Some els ->
    (group_in (mb_fp s) f = true -> exists sg, find_sub (mb_subs t0) f = Some sg) /\
    (els <> [] ->
     present_in (mb_fp s) f = true /\ group_in (mb_fp s) f = true /\ present_in (mb_fp t0) f = false /\
     exists sg, find_sub (mb_subs t0) f = Some sg /\
                Forall (fun e => src_ok e (create_group sg true) = true) els).

Lemma pgroup_facts s t0 : forallb (pgroup_ok s t0) (mb_groups s) = true -> grp_facts s t0.
Proof.
  intros H f els Hm. rewrite forallb_forall in H. specialize (H _ (map_find_In _ _ _ Hm)).
  unfold pgroup_ok in H. cbn [fst snd] in H. apply andb_true_iff in H. destruct H as [Ha Hb]. split.
  - intros Hg. rewrite Hg in Ha. cbn [negb orb] in Ha.
    destruct (find_sub (mb_subs t0) f) as [x|]; [exists x; reflexivity|discriminate].
  - intros Hne. destruct els as [|e els]; [contradiction|].
    unfold group_owned in Hb. rewrite !andb_true_iff, negb_true_iff in Hb. destruct Hb as [[[Ho1 Ho2] Hp] Hm'].
    destruct (find_sub (mb_subs t0) f) as [sg|]; [|discriminate].
    repeat split; try assumption. exists sg. split; [reflexivity|].
    apply Forall_forall. apply forallb_forall. exact Hm'.
Qed.

Lemma same_static_suppress_in fp1 fp2 f : same_static fp1 fp2 -> suppress_in fp1 f = suppress_in fp2 f.
Proof. intros Hs. apply (same_static_attr t_suppress false _ _ f Hs). intros a b E. exact (f_equal t_suppress E). Qed.

Lemma copy_elems_ok sg f : forall els n t cur,
  Forall (copies_to sg) els -> map_find f (mb_groups t) = Some cur ->
  exists els', copy_elems sg f (map (copy_legal false) els) (n, t) =
               Ok (n + nf_els els, with_groups t (map_set f (cur ++ els') (mb_groups t))) /\
               Forall2 EP els els'.
Proof.
  induction els as [|e els IH]; intros n [fp subs fields pos groups unknown] cur HF Hcur; cbn [mb_groups with_groups] in *.
  - exists []. cbn [map copy_elems nf_els]. rewrite N.add_0_r, app_nil_r, (map_set_same _ _ _ Hcur). split; constructor.
  - inversion HF as [|? ? [e' [He HEP]] HF']; subst.
    cbn [map copy_elems]. rewrite He. cbn [bind fst snd]. unfold group_add. cbn [mb_groups with_groups]. rewrite Hcur.
    destruct (IH (n + nfields e) (MB fp subs fields pos (map_set f (cur ++ [e']) groups) unknown) (cur ++ [e']) HF')
      as (els' & Hr & HF2).
    + cbn [mb_groups]. rewrite map_find_map_set, N.eqb_refl, Hcur. reflexivity.
    + exists (e' :: els'). cbn [mb_groups with_groups nf_els] in *.
      rewrite Hr, map_set_twice, <- app_assoc, N.add_assoc. split; [reflexivity|constructor; assumption].
Qed.

Definition sumN (l : list N) : N := fold_right N.add 0 l.
Lemma sumN_cons x l : sumN (x :: l) = x + sumN l.
Proof. reflexivity. Qed.
Lemma sumN_snoc {A} (h : A -> N) l x : sumN (map h (l ++ [x])) = sumN (map h l) + h x.
Proof. induction l as [|y l IH]; cbn [app map]; rewrite !sumN_cons; [cbn; lia|rewrite IH; lia]. Qed.

Section Fold.
Variables s t0 : mbase.
Hypothesis LF : loc_facts s t0.
Hypothesis TF : tgt_facts s t0.
Hypothesis GF : grp_facts s t0.
Hypothesis HE : forall f els, map_find f (mb_groups s) = Some els -> Forall elem_post els.

(* sel f: tag f is transferred (present in the source, not in the fresh target); cp done f: and its
   trait is among those visited; cnt tr: what the turn of tr adds to the count; GP f t: the group f
   of the target t once the trait of f has been visited *)
Definition sel (f : N) : bool := present_in (mb_fp s) f && negb (present_in (mb_fp t0) f).
Definition in_done (done : list trait) (f : N) : bool := existsb (fun tr => t_fnum tr =? f) done.
Definition cp (done : list trait) (f : N) : bool := in_done done f && sel f.
Definition gcount (tr : trait) : N :=
  if t_group tr then match map_find (t_fnum tr) (mb_groups s) with Some els => nf_els els | None => 0 end else 0.
Definition cnt (tr : trait) : N := if sel (t_fnum tr) then 1 + gcount tr else 0.

Definition GP (f : N) (t : mbase) : Prop :=
  match map_find f (mb_groups s) with
  | Some (e :: es) => exists els', map_find f (mb_groups t) = Some els' /\ Forall2 EP (e :: es) els'
  | Some [] => if sel f && group_in (mb_fp s) f then map_find f (mb_groups t) = Some []   (* created if missing *)
               else map_find f (mb_groups t) = map_find f (mb_groups t0)
  | None => map_find f (mb_groups t) = map_find f (mb_groups t0)
  end.

(* after the traits [done]: the target's table is t0's with the transferred tags marked present;
   _fields and _pos are t0's and one entry per transferred tag (the value of the source's _fields,
   filed under the schema position); the group of a visited tag is as GP says, the others are
   t0's; the nested classes and _unknown are t0's; the count is the sum of cnt over [done] *)
Definition Inv (done : list trait) (st : N * mbase) : Prop :=
  (forall f, find_trait (mb_fp (snd st)) f =
             option_map (fun tr => if cp done f then set_present true tr else tr) (find_trait (mb_fp t0) f)) /\
  (strictN (map fst (mb_fields (snd st))) = true /\
   forall f v, In (f, v) (mb_fields (snd st)) <->
               In (f, v) (mb_fields t0) \/ (cp done f = true /\ map_find f (mb_fields s) = Some v)) /\
  (strictN (map fst (mb_pos (snd st))) = true /\
   forall k f v, In (k, (f, v)) (mb_pos (snd st)) <->
                 In (k, (f, v)) (mb_pos t0) \/
                 (cp done f = true /\ k = pos_of (mb_fp s) f /\ map_find f (mb_fields s) = Some v)) /\
  ((forall f, if in_done done f then GP f (snd st)
              else map_find f (mb_groups (snd st)) = map_find f (mb_groups t0)) /\
   strictN (map fst (mb_groups (snd st))) = true) /\
  mb_subs (snd st) = mb_subs t0 /\ mb_unknown (snd st) = mb_unknown t0 /\
  fst st = sumN (map cnt done).

Definition owned_groups : Prop :=
  forall f e es, map_find f (mb_groups s) = Some (e :: es) -> sel f = true /\ group_in (mb_fp s) f = true.

Lemma sel_true f : sel f = true <-> present_in (mb_fp s) f = true /\ present_in (mb_fp t0) f = false.
Proof. unfold sel. rewrite andb_true_iff, negb_true_iff. reflexivity. Qed.

Lemma GF_owned : owned_groups.
Proof.
  intros f e es Hm. destruct (GF _ _ Hm) as [_ Hne]. destruct Hne as (Hp & Hg & Hq & _); [discriminate|].
  split; [apply sel_true; split; assumption|exact Hg].
Qed.

Lemma in_done_In done f : in_done done f = true <-> In f (map t_fnum done).
Proof.
  unfold in_done. rewrite existsb_exists, in_map_iff. setoid_rewrite N.eqb_eq.
  split; intros (x & H1 & H2); exists x; split; assumption.
Qed.

Lemma in_done_app done pp g : in_done (done ++ [pp]) g = in_done done g || (t_fnum pp =? g).
Proof. unfold in_done. rewrite existsb_app. cbn [existsb]. rewrite orb_false_r. reflexivity. Qed.

Lemma cp_snoc done pp g : cp (done ++ [pp]) g = if g =? t_fnum pp then sel g else cp done g.
Proof.
  unfold cp. rewrite in_done_app, (N.eqb_sym (t_fnum pp) g).
  destruct (g =? t_fnum pp); [rewrite orb_true_r|rewrite orb_false_r]; reflexivity.
Qed.

Lemma cp_skip done pp g : in_done done (t_fnum pp) = false -> sel (t_fnum pp) = false -> cp (done ++ [pp]) g = cp done g.
Proof.
  intros Hnd Hsel. rewrite cp_snoc. destruct (N.eqb_spec g (t_fnum pp)) as [->|_]; [|reflexivity].
  unfold cp. rewrite Hsel, Hnd. reflexivity.
Qed.

Lemma NoDup_fnums : NoDup (map t_fnum (mb_fp s)).
Proof. apply strictN_NoDup. exact (lf_strict _ _ LF). Qed.

Lemma present_in_find fp f tr : find_trait fp f = Some tr -> present_in fp f = t_present tr.
Proof. intros H. unfold present_in. rewrite H. reflexivity. Qed.

Lemma present_in_done f : present_in (mb_fp s) f = true -> in_done (mb_fp s) f = true.
Proof.
  intros Hp. apply in_done_In. unfold present_in in Hp.
  destruct (find_trait (mb_fp s) f) as [tr|] eqn:E; [|discriminate].
  destruct (find_trait_In _ _ _ E) as [Hi <-]. apply in_map. exact Hi.
Qed.

Lemma cp_full f : cp (mb_fp s) f = sel f.
Proof.
  unfold cp. destruct (sel f) eqn:E; [|apply andb_false_r]. rewrite andb_true_r.
  apply present_in_done. apply sel_true in E. apply E.
Qed.

Lemma present_has_entry f : present_in (mb_fp s) f = true -> exists e, In e (mb_pos s) /\ e_fnum e = f.
Proof. exact (present_entry _ _ f (lf_cover _ _ LF)). Qed.

Lemma present_value f : present_in (mb_fp s) f = true -> exists v, map_find f (mb_fields s) = Some v.
Proof.
  intros Hp. destruct (present_has_entry f Hp) as (e & He & <-).
  exists (e_val e). apply (lf_entry _ _ LF e He).
Qed.

Lemma fields_keys : map fst (mb_fields s) = map t_fnum (filter t_present (mb_fp s)).
Proof.
  apply (strict_unique (fun x => x)); rewrite ?map_id.
  - exact (lf_fstrict _ _ LF).
  - apply strictN_map_filter. exact (lf_strict _ _ LF).
  - intros f. rewrite !in_map_iff. split.
    + intros ([f' v] & <- & Hin). pose proof (lf_fpres _ _ LF _ Hin) as Hp. cbn [fst] in *. unfold present_in in Hp.
      destruct (find_trait (mb_fp s) f') as [tr|] eqn:Et; [|discriminate]. destruct (find_trait_In _ _ _ Et) as [Hi Hf].
      exists tr. split; [exact Hf|]. apply filter_In. split; assumption.
    + intros (tr & <- & Hin). apply filter_In in Hin. destruct Hin as [Hi Hp].
      rewrite <- (present_in_find _ _ _ (In_find_trait _ _ NoDup_fnums Hi)) in Hp.
      destruct (present_value _ Hp) as [v Hv]. exists (t_fnum tr, v). split; [reflexivity|exact (map_find_In _ _ _ Hv)].
Qed.

Lemma pos_of_inj f g : present_in (mb_fp s) f = true -> present_in (mb_fp s) g = true ->
  pos_of (mb_fp s) f = pos_of (mb_fp s) g -> f = g.
Proof.
  intros Hf Hg E.
  destruct (present_has_entry f Hf) as (ef & Hef & <-). destruct (present_has_entry g Hg) as (eg & Heg & <-).
  f_equal. apply (NoDup_map_inj (fun e => pos_of (mb_fp s) (e_fnum e)) (mb_pos s)); try assumption.
  apply strictN_NoDup. exact (lf_order _ _ LF).
Qed.

Lemma t0_find_of_s f tr : find_trait (mb_fp s) f = Some tr ->
  exists y, find_trait (mb_fp t0) f = Some y /\ set_present false tr = set_present false y.
Proof. exact (same_static_some _ _ _ _ (lf_static _ _ LF)). Qed.

Lemma pos_of_t0 f : pos_of (mb_fp t0) f = pos_of (mb_fp s) f.
Proof. symmetry. apply same_static_pos_of. exact (lf_static _ _ LF). Qed.

Lemma next_trait done pp rest : mb_fp s = done ++ pp :: rest ->
  find_trait (mb_fp s) (t_fnum pp) = Some pp /\ in_done done (t_fnum pp) = false.
Proof.
  intros Hfp. pose proof NoDup_fnums as Hnd. split.
  - apply In_find_trait; [exact Hnd|]. rewrite Hfp. apply in_elt.
  - rewrite Hfp, map_app in Hnd. apply NoDup_remove_2 in Hnd.
    apply not_true_is_false. rewrite in_done_In. intros Hi. apply Hnd, in_or_app. left. exact Hi.
Qed.

Lemma inv_pos_entry done n t k g w : Inv done (n, t) -> In (k, (g, w)) (mb_pos t) ->
  present_in (mb_fp s) g = true /\ k = pos_of (mb_fp s) g /\ (present_in (mb_fp t0) g = true \/ cp done g = true).
Proof.
  intros (_ & _ & (_ & I3b) & _) Hin. cbn [snd] in I3b. apply I3b in Hin. destruct Hin as [Hin|(Hc & Hk & _)].
  - destruct (tf_entry _ _ TF _ Hin) as (P1 & P2 & P3 & _). unfold e_fnum in *. cbn [fst snd] in *.
    rewrite pos_of_t0 in P2. auto.
  - split; [|auto]. unfold cp in Hc. apply andb_true_iff in Hc. apply sel_true. apply Hc.
Qed.

(* what the group part of a turn may do: replace the target's _groups by G, which differs at most at f *)
Definition group_turn (f : N) (t : mbase) (G : list (N * list mbase)) : Prop :=
  (forall g, g <> f -> map_find g G = map_find g (mb_groups t)) /\ GP f (with_groups t G) /\ strictN (map fst G) = true.

Lemma GP_untouched f t : owned_groups -> sel f && group_in (mb_fp s) f = false ->
  map_find f (mb_groups t) = map_find f (mb_groups t0) -> GP f t.
Proof.
  intros Hown Hsg H. unfold GP. rewrite Hsg. destruct (map_find f (mb_groups s)) as [[|e es]|] eqn:Eg; try exact H.
  destruct (Hown f e es Eg) as [H1 H2]. rewrite H1, H2 in Hsg. discriminate.
Qed.

Lemma group_turn_none done pp rest n t : owned_groups -> mb_fp s = done ++ pp :: rest -> Inv done (n, t) ->
  t_group pp = false \/ map_find (t_fnum pp) (mb_groups s) = None -> group_turn (t_fnum pp) t (mb_groups t).
Proof.
  intros Hown Hfp (_ & _ & _ & (I4 & I4s) & _) H. destruct (next_trait _ _ _ Hfp) as [Hfind Hnd].
  specialize (I4 (t_fnum pp)). rewrite Hnd in I4. destruct t. cbn [snd mb_groups with_groups] in *.
  split; [reflexivity|]. split; [|exact I4s]. destruct H as [H|H].
  - apply GP_untouched; [exact Hown| |exact I4]. unfold group_in. rewrite Hfind, H. apply andb_false_r.
  - unfold GP. rewrite H. exact I4.
Qed.

Lemma wants_sel done pp n t : find_trait (mb_fp s) (t_fnum pp) = Some pp -> in_done done (t_fnum pp) = false ->
  Inv done (n, t) -> wants false pp t = sel (t_fnum pp).
Proof.
  intros Hfind Hnd (I1 & _). cbn [snd] in I1. destruct (t0_find_of_s _ _ Hfind) as (y & Hy & _).
  unfold wants, legal_absent, sel, cp in *. rewrite I1, Hy, Hnd. cbn [orb andb option_map].
  rewrite (present_in_find _ _ _ Hfind), (present_in_find _ _ _ Hy). reflexivity.
Qed.

Lemma inv_skip done pp rest n t : owned_groups -> mb_fp s = done ++ pp :: rest -> sel (t_fnum pp) = false ->
  Inv done (n, t) -> Inv (done ++ [pp]) (n, t).
Proof.
  intros Hown Hfp Hsel (I1 & (I2a & I2b) & (I3a & I3b) & (I4 & I4s) & I5 & I6 & I7). cbn [fst snd] in *.
  destruct (next_trait _ _ _ Hfp) as [_ Hnd].
  pose proof (fun g => cp_skip done pp g Hnd Hsel) as Hc.
  refine (conj _ (conj (conj I2a _) (conj (conj I3a _) (conj (conj _ I4s) (conj I5 (conj I6 _)))))); cbn [fst snd].
  - intros g. rewrite Hc. apply I1.
  - intros g w. rewrite Hc. apply I2b.
  - intros k g w. rewrite Hc. apply I3b.
  - intros g. rewrite in_done_app. specialize (I4 g). destruct (in_done done g); [exact I4|]. cbn [orb].
    destruct (N.eqb_spec (t_fnum pp) g) as [<-|_]; [|exact I4].
    apply GP_untouched; [exact Hown|rewrite Hsel; reflexivity|exact I4].
  - rewrite sumN_snoc, <- I7. unfold cnt. rewrite Hsel. lia.
Qed.

Lemma inv_put done pp rest n t G v :
  mb_fp s = done ++ pp :: rest -> Inv done (n, t) -> sel (t_fnum pp) = true ->
  map_find (t_fnum pp) (mb_fields s) = Some v -> group_turn (t_fnum pp) t G ->
  exists t', put_field false (with_groups t G) (t_fnum pp) v = Ok t' /\ Inv (done ++ [pp]) (n + cnt pp, t').
Proof.
  intros Hfp HI Hsel Hv (HG & HGP & HGs). destruct t as [fp subs fields pos groups unknown].
  pose proof HI as (I1 & (I2a & I2b) & (I3a & I3b) & (I4 & _) & I5 & I6 & I7).
  cbn [fst snd mb_fp mb_subs mb_fields mb_pos mb_groups mb_unknown with_groups] in *.
  destruct (next_trait _ _ _ Hfp) as [Hfind Hnd]. set (f := t_fnum pp) in *.
  assert (Hcpf : cp done f = false) by (unfold cp; rewrite Hnd; reflexivity).
  pose proof (proj1 (sel_true f) Hsel) as [Hsp Htp].
  (* the target's own trait for f: not present, positioned as in the source *)
  destruct (t0_find_of_s f pp Hfind) as (y & Hy & _).
  assert (Hty : find_trait fp f = Some y) by (rewrite I1, Hy, Hcpf; reflexivity).
  assert (Hyp : t_present y = false) by (rewrite <- (present_in_find _ _ _ Hy); exact Htp).
  assert (Hgy : getPos y = pos_of (mb_fp s) f) by (rewrite <- pos_of_t0; unfold pos_of; rewrite Hy; reflexivity).
  assert (Hkey : pos_key (getPos y) = pos_of (mb_fp s) f).
  { rewrite Hgy. apply N.mod_small. unfold pos_of. rewrite Hfind. apply (lf_small _ _ LF), (find_trait_In _ _ _ Hfind). }
  unfold put_field, add_field. cbn [mb_fp]. rewrite Hty, Hyp. eexists. split; [reflexivity|].
  unfold mark_present, add_field_decoder, pos_insert. cbn [with_fp with_pos with_fields mb_fp mb_fields mb_pos]. rewrite Hkey.
  (* neither the tag nor its position is in the target yet *)
  assert (Hfresh : ~ In f (map fst fields)).
  { intros Hk. apply in_map_iff in Hk. destruct Hk as ([k w] & Hk1 & Hk). cbn [fst] in Hk1. subst k. apply I2b in Hk.
    destruct Hk as [Hk|[Hk _]]; [|congruence].
    apply (tf_fpres _ _ TF) in Hk. cbn [fst] in Hk. congruence. }
  assert (Hpfresh : ~ In (pos_of (mb_fp s) f) (map fst pos)).
  { intros Hk. apply in_map_iff in Hk. destruct Hk as ([k [g w]] & Hk1 & Hk). cbn [fst] in Hk1. subst k.
    destruct (inv_pos_entry done n (MB fp subs fields pos groups unknown) _ g w HI Hk) as (Hp & Hpos & Hor).
    apply pos_of_inj in Hpos; [|exact Hsp|exact Hp]. subst g. destruct Hor; congruence. }
  refine (conj _ (conj (conj _ _) (conj (conj _ _) (conj (conj _ HGs) (conj I5 (conj I6 _)))))); cbn [fst snd mb_fp mb_fields mb_pos mb_groups].
  - intros g. rewrite find_trait_upd by reflexivity. rewrite cp_snoc. fold f.
    destruct (N.eqb_spec g f) as [->|_]; [|apply I1]. rewrite Hty, Hy, Hsel. reflexivity.
  - apply map_insert_strict. exact I2a.
  - intros g w. rewrite (map_insert_fresh _ _ _ Hfresh), pos_insert_k_In, I2b, cp_snoc. fold f.
    destruct (N.eqb_spec g f) as [->|Hgf]; [rewrite Hsel, Hcpf, Hv|]; intuition congruence.
  - apply pos_insert_k_strict; assumption.
  - intros k g w. rewrite pos_insert_k_In, I3b, cp_snoc. fold f.
    destruct (N.eqb_spec g f) as [->|Hgf]; [rewrite Hsel, Hcpf, Hv|]; intuition congruence.
  - intros g. rewrite in_done_app. fold f. destruct (N.eqb_spec f g) as [<-|Hfg].
    + rewrite orb_true_r. exact HGP.
    + rewrite orb_false_r. specialize (I4 g). unfold GP in *. cbn [mb_groups] in *. rewrite (HG g) by congruence. exact I4.
  - rewrite sumN_snoc, <- I7. reflexivity.
Qed.

Lemma copy_group_ok done pp rest n t :
  mb_fp s = done ++ pp :: rest -> Inv done (n, t) -> sel (t_fnum pp) = true ->
  exists G, copy_group (gcopy_of false (mb_groups s)) pp (n, t) = Ok (n + gcount pp, with_groups t G) /\
            group_turn (t_fnum pp) t G.
Proof.
  intros Hfp HI Hsel. pose proof (group_turn_none done pp rest n t GF_owned Hfp HI) as Hnone.
  destruct HI as (_ & _ & _ & (I4 & I4s) & I5 & _). destruct (next_trait _ _ _ Hfp) as [Hfind Hnd].
  destruct t as [fp subs fields pos groups unknown]. cbn [snd mb_subs mb_groups with_groups] in *.
  set (f := t_fnum pp) in *. specialize (I4 f). rewrite Hnd in I4.
  assert (Hgi : group_in (mb_fp s) f = t_group pp) by (unfold group_in; rewrite Hfind; reflexivity).
  unfold copy_group, gcount, gcopy_of. fold f. cbn [snd]. rewrite map_find_map_snd.
  destruct (t_group pp) eqn:Egp.
  2:{ exists groups. rewrite N.add_0_r. split; [reflexivity|apply Hnone; left; reflexivity]. }
  destruct (map_find f (mb_groups s)) as [els|] eqn:Eg; cbn [option_map].
  2:{ exists groups. rewrite N.add_0_r. split; [reflexivity|apply Hnone; right; reflexivity]. }
  destruct (GF _ _ Eg) as [Hex Hne]. destruct (Hex Hgi) as [sg Hsg]. rewrite <- I5 in Hsg.
  unfold find_add_group. cbn [mb_subs mb_groups with_groups]. rewrite Hsg. cbn [bind fst snd].
  set (G1 := map_insert f [] groups).
  (* the target's group object: fresh (from t0, or just created), hence empty *)
  assert (Hcur : map_find f G1 = Some []).
  { unfold G1. rewrite (map_find_map_insert _ _ _ _ I4s), N.eqb_refl, I4.
    destruct (map_find f (mb_groups t0)) as [x|] eqn:Ex; [|reflexivity].
    f_equal. exact (tf_gnil _ _ TF _ (map_find_In _ _ _ Ex)). }
  assert (HFe : Forall (copies_to sg) els).
  { destruct els as [|e es]; [constructor|].
    destruct Hne as (_ & _ & _ & sg2 & Hsg2 & Hok); [discriminate|]. replace sg2 with sg in Hok by congruence.
    pose proof (HE _ _ Eg) as Hpost. rewrite Forall_forall in Hpost, Hok. apply Forall_forall. intros e0 He0.
    exact (Hpost e0 He0 sg (Hok e0 He0)). }
  destruct (copy_elems_ok sg f els n (MB fp subs fields pos G1 unknown) [] HFe Hcur) as (els' & -> & HF2).
  cbn [mb_groups with_groups app]. exists (map_set f els' G1). split; [reflexivity|].
  unfold group_turn. cbn [mb_groups with_groups]. split; [|split].
  - intros g Hg. apply N.eqb_neq in Hg. unfold G1. rewrite map_find_map_set, Hg, (map_find_map_insert _ _ _ _ I4s), Hg. reflexivity.
  - assert (Hm : map_find f (map_set f els' G1) = Some els') by (rewrite map_find_map_set, N.eqb_refl, Hcur; reflexivity).
    unfold GP. cbn [mb_groups]. rewrite Eg, Hm. destruct HF2 as [|e e' es es' He HF2].
    + rewrite Hsel, Hgi. reflexivity.
    + exists (e' :: es'). split; [reflexivity|constructor; assumption].
  - rewrite map_set_keys. apply map_insert_strict. exact I4s.
Qed.

Lemma step_inv done pp rest st :
  mb_fp s = done ++ pp :: rest -> Inv done st ->
  exists st', copy_step false (mb_fields s) (gcopy_of false (mb_groups s)) pp st = Ok st' /\ Inv (done ++ [pp]) st'.
Proof.
  intros Hfp HI. destruct st as [n t]. destruct (next_trait _ _ _ Hfp) as [Hfind Hnd].
  unfold copy_step. cbn [snd]. rewrite (wants_sel done pp n t Hfind Hnd HI).
  destruct (sel (t_fnum pp)) eqn:Hsel.
  2:{ exists (n, t). split; [reflexivity|]. exact (inv_skip done pp rest n t GF_owned Hfp Hsel HI). }
  destruct (copy_group_ok done pp rest n t Hfp HI Hsel) as (G & -> & HG). cbn [bind fst snd].
  destruct (present_value _ (proj1 (proj1 (sel_true _) Hsel))) as [v Hv]. rewrite Hv.
  destruct (inv_put done pp rest n t G v Hfp HI Hsel Hv HG) as (t' & -> & HI'). cbn [bind].
  eexists. split; [reflexivity|]. unfold cnt in HI'. rewrite Hsel in HI'.
  replace (n + gcount pp + 1) with (n + (1 + gcount pp)) by lia. exact HI'.
Qed.

Lemma inv_init : Inv [] (0, t0).
Proof.
  refine (conj _ (conj (conj (tf_fstrict _ _ TF) _) (conj (conj (tf_pstrict _ _ TF) _)
         (conj (conj _ (tf_gstrict _ _ TF)) (conj eq_refl (conj eq_refl eq_refl)))))); cbn [fst snd].
  - intros f. destruct (find_trait (mb_fp t0) f); reflexivity.
  - intros f v. cbn. intuition discriminate.
  - intros k f v. cbn. intuition discriminate.
  - intros f. reflexivity.
Qed.

Lemma copy_inv : exists n t, copy_legal false s t0 = Ok (n, t) /\ Inv (mb_fp s) (n, t).
Proof.
  destruct (fold_res_inv _ Inv (mb_fp s) step_inv (0, t0) inv_init) as [[n t] [Hr HI]]. exists n, t. split; [|exact HI].
  revert Hr. clear. destruct s. rewrite copy_legal_unfold. exact (fun H => H).
Qed.

End Fold.

Section After.
Variables s t0 : mbase.
Hypothesis LF : loc_facts s t0.
Hypothesis TF : tgt_facts s t0.
Variables (n : N) (t : mbase).
Hypothesis HI : Inv s t0 (mb_fp s) (n, t).

Lemma after_fp : same_static (mb_fp s) (mb_fp t).
Proof.
  destruct HI as (I1 & _). cbn [snd] in I1. intros f. rewrite I1.
  pose proof (lf_static _ _ LF f) as Hs.
  destruct (find_trait (mb_fp s) f) as [a|], (find_trait (mb_fp t0) f) as [b|]; cbn [option_map]; try exact Hs.
  destruct (cp s t0 (mb_fp s) f); [|exact Hs]. rewrite Hs. destruct b; reflexivity.
Qed.

Lemma after_unknown : mb_unknown t = mb_unknown s.
Proof.
  destruct HI as (_ & _ & _ & _ & _ & I6 & _). cbn [snd] in I6.
  rewrite I6, (tf_unk _ _ TF), (lf_unk _ _ LF). reflexivity.
Qed.

Lemma t0_present_entry f : present_in (mb_fp t0) f = true -> exists e, In e (mb_pos t0) /\ e_fnum e = f.
Proof. exact (present_entry _ _ f (tf_cover _ _ TF)). Qed.

Lemma after_pos_keys :
  map (fun e => (pos_of (mb_fp s) (e_fnum e), e_fnum e)) (mb_pos s) = map (fun e => (fst e, e_fnum e)) (mb_pos t).
Proof.
  destruct HI as (_ & _ & (I3a & I3b) & _). cbn [snd] in I3a, I3b.
  apply (strict_unique fst).
  - rewrite map_map. exact (lf_order _ _ LF).
  - rewrite map_map. exact I3a.
  - intros [k f]. rewrite !in_map_iff. split.
    + intros (e & He & Hin). injection He as <- <-. destruct (lf_entry _ _ LF e Hin) as [Hp Hv].
      destruct (present_in (mb_fp t0) (e_fnum e)) eqn:Ept.
      * destruct (t0_present_entry _ Ept) as ([k0 [f0 v0]] & He0 & Hf0).
        destruct (tf_entry _ _ TF _ He0) as (_ & Hk & _). rewrite (pos_of_t0 s t0 LF), Hf0 in Hk.
        exists (k0, (f0, v0)). split; [rewrite <- Hk, <- Hf0; reflexivity|]. apply I3b. left. exact He0.
      * exists (pos_of (mb_fp s) (e_fnum e), (e_fnum e, e_val e)). split; [reflexivity|].
        apply I3b. right. rewrite (cp_full s t0). split; [apply sel_true; split; assumption|]. split; [reflexivity|exact Hv].
    + intros ([k' [f' v']] & He & Hin). unfold e_fnum in He. cbn [fst snd] in He. injection He as -> ->.
      destruct (inv_pos_entry s t0 LF TF _ n t k f v' HI Hin) as (Hp & -> & _).
      destruct (present_has_entry s t0 LF f Hp) as (e & He1 & <-). exists e. split; [reflexivity|exact He1].
Qed.

Lemma after_pos_rel : Forall2 (entry_rel (present_in (mb_fp t0))) (mb_pos s) (mb_pos t).
Proof.
  apply (Forall2_of_maps _ _ _ _ _ after_pos_keys).
  intros a [k [f w]] Ha Hb E. unfold e_fnum in E. cbn [fst snd] in E. injection E as _ Ef.
  unfold entry_rel, e_fnum, e_val. cbn [fst snd]. split; [exact Ef|].
  destruct HI as (_ & _ & (_ & I3b) & _). cbn [snd] in I3b. apply I3b in Hb.
  destruct Hb as [Hb|(_ & _ & Hw)].
  - left. destruct (tf_entry _ _ TF _ Hb) as (Hp & _). unfold e_fnum in *. cbn [fst snd] in *. rewrite Ef. exact Hp.
  - right. destruct (lf_entry _ _ LF a Ha) as [_ Hv]. unfold e_fnum, e_val in Hv. rewrite Ef, Hw in Hv.
    injection Hv as ->. reflexivity.
Qed.

Lemma after_groups f els :
  In f (map e_fnum (mb_pos s)) -> group_in (mb_fp s) f = true -> present_in (mb_fp t0) f = false ->
  map_find f (mb_groups s) = Some els ->
  exists els', map_find f (mb_groups t) = Some els' /\ Forall2 enc_le els els'.
Proof.
  intros Hin Hg Hp Hm. apply in_map_iff in Hin. destruct Hin as (e & <- & Hin).
  destruct (lf_entry _ _ LF e Hin) as [Hps _].
  destruct HI as (_ & _ & _ & (I4 & _) & _). cbn [snd] in I4. specialize (I4 (e_fnum e)).
  rewrite (present_in_done s _ Hps) in I4. unfold GP in I4. rewrite Hm in I4. destruct els as [|e1 es].
  - rewrite (proj2 (sel_true s t0 _) (conj Hps Hp)), Hg in I4. exists []. split; [exact I4|constructor].
  - destruct I4 as (els' & Hm' & HF). exists els'. split; [exact Hm'|].
    exact (Forall2_impl _ _ _ _ (fun a b H => proj1 H) HF).
Qed.

Lemma after_enc c : (forall f, present_in (mb_fp t0) f = true -> suppress_in (mb_fp s) f = true) ->
  forall b, mb_encode c s = Ok b -> mb_encode c t = Ok b.
Proof.
  intros Hsup. exact (mb_encode_rel c s t _ after_fp Hsup after_pos_rel after_groups after_unknown).
Qed.

(* Message::encode first writes MsgType into the header: the same after a setter has written v into f0 of both *)
Lemma after_enc_set c f0 v :
  (forall f, present_in (mb_fp t0) f = true -> f <> f0 -> suppress_in (mb_fp s) f = true) ->
  forall b, mb_encode c (set_value s f0 v) = Ok b -> mb_encode c (set_value t f0 v) = Ok b.
Proof.
  intros Hsup. destruct (set_value_acc s f0 v) as (S1 & _ & S3 & S4 & S5), (set_value_acc t f0 v) as (T1 & _ & T3 & T4 & T5).
  apply (mb_encode_rel c _ _ (fun f => present_in (mb_fp t0) f && negb (f =? f0))); rewrite ?S1, ?S3, ?S4, ?S5, ?T1, ?T3, ?T4, ?T5.
  - exact after_fp.
  - intros f Hf. apply andb_true_iff in Hf. destruct Hf as [Hf1 Hf2]. apply negb_true_iff, N.eqb_neq in Hf2. exact (Hsup f Hf1 Hf2).
  - apply pos_set_rel; [exact after_pos_rel|].
    apply NoDup_map_inv with (f := pos_of (mb_fp s)). rewrite map_map. apply strictN_NoDup. exact (lf_order _ _ LF).
  - intros f els Hin Hgi Hfr. rewrite pos_set_fnums in Hin. apply after_groups; [exact Hin|exact Hgi|].
    (* a field the constructor owns is no group field *)
    destruct (present_in (mb_fp t0) f) eqn:Ep; [|reflexivity].
    destruct (t0_present_entry f Ep) as (e & He & <-). destruct (tf_entry _ _ TF e He) as (_ & _ & _ & Hng & _).
    rewrite (same_static_group_in _ _ _ (lf_static _ _ LF)) in Hgi. congruence.
  - exact after_unknown.
Qed.

Lemma after_fields f :
  map_find f (mb_fields t) =
  if present_in (mb_fp t0) f then map_find f (mb_fields t0) else map_find f (mb_fields s).
Proof.
  destruct HI as (_ & (I2a & I2b) & _). cbn [snd] in I2a, I2b.
  apply option_ext. intros v. rewrite (map_find_iff _ _ _ (strictN_NoDup _ I2a)), I2b, (cp_full s t0). unfold sel.
  destruct (present_in (mb_fp t0) f) eqn:Ep.
  - rewrite andb_false_r, (map_find_iff _ _ _ (strictN_NoDup _ (tf_fstrict _ _ TF))). intuition discriminate.
  - rewrite andb_true_r. split.
    + intros [Hin|[_ Hv]]; [|exact Hv]. apply (tf_fpres _ _ TF) in Hin. cbn [fst] in Hin. congruence.
    + intros Hv. right. split; [|exact Hv]. exact (lf_fpres _ _ LF _ (map_find_In _ _ _ Hv)).
Qed.

End After.

Lemma target_ok_facts t0 : target_ok t0 = true ->
  (forall f, present_in (mb_fp t0) f = false) /\ mb_fields t0 = [] /\ mb_pos t0 = [] /\
  (forall g, In g (mb_groups t0) -> snd g = []) /\ strictN (map fst (mb_groups t0)) = true /\ mb_unknown t0 = [].
Proof.
  unfold target_ok. rewrite !andb_true_iff, !forallb_forall. intros [[[[[H1 H2] H3] H4] H4b] H5].
  repeat split; try (apply is_nil_eq; assumption); try assumption.
  - intros f. unfold present_in. destruct (find_trait (mb_fp t0) f) as [tr|] eqn:E; [|reflexivity].
    apply negb_true_iff, H1, (find_trait_In _ _ _ E).
  - intros g Hg. apply is_nil_eq, H4, Hg.
Qed.

Lemma target_ok_tgt s t0 : target_ok t0 = true -> tgt_facts s t0.
Proof.
  intros H. destruct (target_ok_facts t0 H) as (Hp & Hf & Hq & Hg & Hgs & Hu).
  constructor; rewrite ?Hf, ?Hq; try reflexivity; try assumption.
  - intros e [].
  - (* no trait of the table is present (the first one with a tag need not be the trait itself) *)
    intros tr Hin Hpr. unfold target_ok in H. rewrite !andb_true_iff, forallb_forall in H.
    destruct H as [[[[[H1 _] _] _] _] _]. specialize (H1 tr Hin). rewrite Hpr in H1. discriminate.
  - intros e [].
Qed.

Lemma group_ok_pgroup s t0 : target_ok t0 = true ->
  forallb (group_ok (mb_fp s) t0) (mb_groups s) = true -> forallb (pgroup_ok s t0) (mb_groups s) = true.
Proof.
  intros Ht H. destruct (target_ok_facts t0 Ht) as (Hp & _).
  rewrite forallb_forall in *. intros g Hg. specialize (H g Hg). unfold group_ok in H. unfold pgroup_ok.
  apply andb_true_iff in H. destruct H as [Ha Hb]. rewrite Ha. cbn [andb].
  destruct (snd g) as [|e es]; [reflexivity|]. apply andb_true_iff in Hb. destruct Hb as [Hb1 Hb2].
  rewrite Hb1, Hp. exact Hb2.
Qed.

Section Empty.
Variables s t0 : mbase.
Hypothesis LF : loc_facts s t0.
Hypothesis TF : tgt_facts s t0.
Hypothesis Hnp : forall f, present_in (mb_fp t0) f = false.
Hypothesis Hf0 : mb_fields t0 = [].
Variables (n : N) (t : mbase).
Hypothesis HI : Inv s t0 (mb_fp s) (n, t).

Lemma empty_enc : enc_le s t.
Proof. intros c. apply (after_enc s t0 LF TF n t HI c). intros f Hf. rewrite Hnp in Hf. discriminate. Qed.

Lemma sel_present f : sel s t0 f = present_in (mb_fp s) f.
Proof. unfold sel. rewrite Hnp. apply andb_true_r. Qed.

Lemma empty_fields : mb_fields t = mb_fields s.
Proof.
  destruct HI as (_ & (I2a & I2b) & _). cbn [snd] in I2a, I2b.
  apply (strict_unique fst); [exact I2a|exact (lf_fstrict _ _ LF)|].
  intros [f v]. rewrite I2b, Hf0. split.
  - intros [[]|[_ Hv]]. apply map_find_In. exact Hv.
  - intros Hin. right. rewrite (cp_full s t0), sel_present. split; [exact (lf_fpres _ _ LF _ Hin)|].
    apply In_map_find; [apply strictN_NoDup; exact (lf_fstrict _ _ LF)|exact Hin].
Qed.

Lemma empty_content : content (obj_of s) = content (obj_of t).
Proof.
  apply content_eq; [exact empty_fields|]. intros f Hin.
  apply in_map_iff in Hin. destruct Hin as ([f' v] & <- & Hin). pose proof (lf_fpres _ _ LF _ Hin) as Hp. cbn [fst] in *.
  destruct HI as (_ & _ & _ & (I4 & _) & _). cbn [snd] in I4. specialize (I4 f').
  rewrite (present_in_done s _ Hp) in I4. unfold GP in I4.
  (* a group object of the fresh target is empty: no tokens *)
  assert (H0 : group_toks f' (map_find f' (mb_groups t0)) = []).
  { destruct (map_find f' (mb_groups t0)) as [x|] eqn:Ex; [|reflexivity].
    pose proof (tf_gnil _ _ TF _ (map_find_In _ _ _ Ex)) as Hx. cbn [snd] in Hx. rewrite Hx. reflexivity. }
  destruct (map_find f' (mb_groups s)) as [[|e es]|].
  - destruct (sel s t0 f' && group_in (mb_fp s) f'); rewrite I4; [reflexivity|symmetry; exact H0].
  - destruct I4 as (els' & -> & HF). apply group_toks_rel. exact HF.
  - rewrite I4. symmetry. exact H0.
Qed.

Lemma empty_count : n = nfields s.
Proof.
  destruct HI as (_ & _ & _ & _ & _ & _ & I7). cbn [fst] in I7. rewrite I7.
  transitivity (sumN (map (nf_trait (mb_groups s)) (mb_fp s))).
  - f_equal. apply map_ext_in. intros tr Hin. unfold cnt, nf_trait, gcount. rewrite sel_present.
    rewrite (present_in_find _ _ _ (In_find_trait _ _ (NoDup_fnums s t0 LF) Hin)). reflexivity.
  - symmetry. apply nfields_unfold.
Qed.

End Empty.

Theorem copy_spec : forall s t0, src_ok s t0 = true ->
  exists t, copy_legal false s t0 = Ok (nfields s, t) /\ EP s t.
Proof.
  induction s as [fp subs fields pos groups unknown IH] using mbase_ind'. intros t0 H.
  rewrite src_ok_unfold in H. rewrite !andb_true_iff in H. destruct H as [[Hl Ht] Hg].
  set (s := MB fp subs fields pos groups unknown) in *.
  pose proof (local_ok_facts s t0 Hl) as LF.
  pose proof (target_ok_tgt s t0 Ht) as TF.
  pose proof (pgroup_facts s t0 (group_ok_pgroup s t0 Ht Hg)) as GF.
  destruct (target_ok_facts t0 Ht) as (Hnp & Hf0 & _).
  assert (HE : forall f els, map_find f (mb_groups s) = Some els -> Forall elem_post els).
  { intros f els Hm. rewrite Forall_forall in IH. specialize (IH _ (map_find_In _ _ _ Hm)). cbn [snd] in IH.
    rewrite Forall_forall in IH. apply Forall_forall. intros e He sg Hok. exact (IH e He _ Hok). }
  destruct (copy_inv s t0 LF TF GF HE) as (n & t & Hr & HI). exists t. rewrite Hr.
  rewrite (empty_count s t0 LF Hnp n t HI). split; [reflexivity|]. split.
  - exact (empty_enc s t0 LF TF Hnp n t HI).
  - exact (empty_content s t0 LF TF Hnp Hf0 n t HI).
Qed.

Record part_post (s t0 : mbase) (t : mbase) : Prop := {
  pp_fp : same_static (mb_fp s) (mb_fp t);
  pp_fields : forall f, map_find f (mb_fields t) =
                        if present_in (mb_fp t0) f then map_find f (mb_fields t0) else map_find f (mb_fields s);
  pp_has : forall f, map_find f (mb_fields s) <> None -> map_find f (mb_fields t) <> None;
  pp_init : forall f, present_in (mb_fp t0) f = true -> exists e, In e (mb_pos t0) /\ e_fnum e = f;
  pp_enc : forall c, (forall f, present_in (mb_fp t0) f = true -> suppress_in (mb_fp s) f = true) ->
           forall b, mb_encode c s = Ok b -> mb_encode c t = Ok b;
  pp_enc_set : forall c f0 v,
           (forall f, present_in (mb_fp t0) f = true -> f <> f0 -> suppress_in (mb_fp s) f = true) ->
           forall b, mb_encode c (set_value s f0 v) = Ok b -> mb_encode c (set_value t f0 v) = Ok b
}.

Theorem copy_part : forall s t0, part_ok s t0 = true ->
  exists n t, copy_legal false s t0 = Ok (n, t) /\ part_post s t0 t.
Proof.
  intros s t0 H. unfold part_ok in H. rewrite !andb_true_iff in H. destruct H as [[Hl Ht] Hg].
  pose proof (local_ok_facts s t0 Hl) as LF.
  pose proof (part_target_facts s t0 Ht) as TF.
  pose proof (pgroup_facts s t0 Hg) as GF.
  assert (HE : forall f els, map_find f (mb_groups s) = Some els -> Forall elem_post els).
  { intros f els _. apply Forall_forall. intros e _ sg Hok. exact (copy_spec e _ Hok). }
  destruct (copy_inv s t0 LF TF GF HE) as (n & t & Hr & HI). exists n, t. split; [exact Hr|]. constructor.
  - exact (after_fp s t0 LF n t HI).
  - exact (after_fields s t0 LF TF n t HI).
  - intros f Hs. rewrite (after_fields s t0 LF TF n t HI). destruct (present_in (mb_fp t0) f) eqn:Ep; [|exact Hs].
    destruct (t0_present_entry s t0 TF f Ep) as (e & He & <-).
    destruct (tf_entry _ _ TF e He) as (_ & _ & _ & _ & Hv). rewrite Hv. discriminate.
  - exact (t0_present_entry s t0 TF).
  - exact (after_enc s t0 LF TF n t HI).
  - exact (after_enc_set s t0 LF TF n t HI).
Qed.
