(* C11: Message::clone.  A clone of a message that satisfies clone_ok encodes to the bytes of the
   original (c11_clone_lemma). *)
From Coq Require Import NArith ZArith List Bool Lia.
From F8 Require Import Codec.Bytes Codec.Meta Codec.Extract Codec.Decode Codec.Encode Codec.Lemmas C07.Chksum
                       C11.Copy C11.Spec_C11 C11.Hyp C11.ListLemmas C11.Unfold C11.EncRel C11.CopyProofs.
Import ListNotations.
Local Open Scope N_scope.

Lemma part_type_clear c m g f : part_type c (clear_suppress m g) f = part_type c m f.
Proof.
  unfold part_type. destruct m as [fp subs fields pos groups unknown]. cbn [clear_suppress with_fp mb_fp].
  rewrite find_trait_upd by reflexivity. destruct (N.eqb_spec f g) as [->|_]; [|reflexivity].
  destruct (find_trait fp g); reflexivity.
Qed.

Lemma part_type_set_value c m g v f : part_type c (set_value m g v) f = part_type c m f.
Proof. destruct m; reflexivity. Qed.

Lemma part_type_static c a b f : same_static (mb_fp a) (mb_fp b) -> part_type c a f = part_type c b f.
Proof.
  intros H. unfold part_type. f_equal. apply (same_static_attr t_ftype ft_string _ _ f H).
  intros x y E. exact (f_equal t_ftype E).
Qed.

Lemma fields_clear m g : mb_fields (clear_suppress m g) = mb_fields m.
Proof. destruct m; reflexivity. Qed.

Lemma fields_after_set m f v g : g <> f -> map_find g (mb_fields (set_value m f v)) = map_find g (mb_fields m).
Proof.
  intros Hg. destruct (set_value_acc m f v) as (_ & -> & _). rewrite map_find_map_set.
  apply N.eqb_neq in Hg. rewrite Hg. reflexivity.
Qed.

#[local] Hint Rewrite part_type_clear part_type_set_value fields_clear : msg_parts.

(* Message::encode reads the parts through their encodings, the static part of their tables and
   three field lookups *)
Lemma msg_encode_parts_cong c m t :
  m_type t = m_type m ->
  (forall b, mb_encode c (set_value (m_hdr m) Common_MsgType (m_type m)) = Ok b ->
             mb_encode c (set_value (m_hdr t) Common_MsgType (m_type m)) = Ok b) ->
  (forall b, mb_encode c (m_body m) = Ok b -> mb_encode c (m_body t) = Ok b) ->
  (forall b, mb_encode c (m_trl m) = Ok b -> mb_encode c (m_trl t) = Ok b) ->
  same_static (mb_fp (m_hdr m)) (mb_fp (m_hdr t)) ->
  same_static (mb_fp (m_trl m)) (mb_fp (m_trl t)) ->
  map_find Common_BeginString (mb_fields (m_hdr m)) = map_find Common_BeginString (mb_fields (m_hdr t)) ->
  (map_find Common_BodyLength (mb_fields (m_hdr m)) <> None -> map_find Common_BodyLength (mb_fields (m_hdr t)) <> None) ->
  (map_find Common_CheckSum (mb_fields (m_trl m)) <> None -> map_find Common_CheckSum (mb_fields (m_trl t)) <> None) ->
  forall pre body cs m', msg_encode_parts c m = Ok (pre, body, cs, m') ->
  exists t', msg_encode_parts c t = Ok (pre, body, cs, t').
Proof.
  intros Hty Hh Hb Ht Sh St F8 F9 F10 pre body cs m' H.
  unfold msg_encode_parts in *. rewrite Hty. cbv zeta in H |- *.
  destruct (mb_encode c (set_value (m_hdr m) Common_MsgType (m_type m))) as [hb| | | |] eqn:Eh; try discriminate.
  rewrite (Hh hb eq_refl). cbn [bind] in *.
  destruct (mb_encode c (m_body m)) as [bb| | | |] eqn:Eb; try discriminate. rewrite (Hb bb eq_refl). cbn [bind] in *.
  destruct (mb_encode c (m_trl m)) as [tb| | | |] eqn:Et; try discriminate. rewrite (Ht tb eq_refl). cbn [bind] in *.
  (* the header: types and lookups are those of the parts before encode touched them *)
  autorewrite with msg_parts in H |- *.
  rewrite !fields_after_set in H |- * by discriminate.
  rewrite <- !(part_type_static c _ _ _ Sh), <- F8.
  destruct (map_find Common_BeginString (mb_fields (m_hdr m))) as [bsv|]; [|discriminate].
  destruct (map_find Common_BodyLength (mb_fields (m_hdr m))) as [x9|]; [|discriminate].
  destruct (map_find Common_BodyLength (mb_fields (m_hdr t))) as [y9|]; [|destruct F9; [discriminate|reflexivity]].
  match type of H with (if ?X then _ else _) = _ => destruct X; [discriminate|] end.
  destruct (map_find Common_CheckSum (mb_fields (m_trl m))) as [x10|]; [|discriminate].
  destruct (map_find Common_CheckSum (mb_fields (m_trl t))) as [y10|]; [|destruct F10; [discriminate|reflexivity]].
  match type of H with match ?X with _ => _ end = _ => destruct X as [[ck rd]|]; [|discriminate] end.
  autorewrite with msg_parts in H |- *. rewrite <- (part_type_static c _ _ _ St).
  injection H as <- <- <- _. eexists. reflexivity.
Qed.

(* a source that has never been encoded still suppresses the fields its header / trailer constructor
   owns; [allow] excepts MsgType, which Message::encode writes into the header *)
Lemma owned_suppressed allow s t0 t : part_post s t0 t -> owned_ok allow s t0 = true ->
  forall f, present_in (mb_fp t0) f = true ->
  suppress_in (mb_fp s) f = true \/ (allow = true /\ f = Common_MsgType).
Proof.
  intros PP Ho f Hp. destruct (pp_init _ _ _ PP f Hp) as (e & He & <-).
  unfold owned_ok in Ho. rewrite forallb_forall in Ho. specialize (Ho e He).
  apply orb_true_iff in Ho. destruct Ho as [Ho|Ho]; [left; exact Ho|right].
  apply andb_true_iff in Ho. rewrite N.eqb_eq in Ho. exact Ho.
Qed.

Theorem c11_clone_lemma : forall c m md,
  find_msg (c_msgs c) (m_type m) = Some md -> clone_ok c md m = true ->
  forall b m1, msg_encode c m = Ok (b, m1) ->
  exists t m2, clone c m = Ok t /\ msg_encode c t = Ok (b, m2).
Proof.
  intros c m md Hfind Hok b m1 Henc.
  unfold clone_ok in Hok. rewrite !andb_true_iff in Hok.
  destruct Hok as [[[[[[Hb Hh] Ht] Hoh] Hot] H8] Hty].
  set (t0 := mk_message c md true) in *.
  destruct (copy_spec _ _ Hb) as [tb [Cb [EPb _]]].
  destruct (copy_part _ _ Hh) as (nh & th & Ch & PPh).
  destruct (copy_part _ _ Ht) as (nt & ttr & Ct & PPt).
  apply list_eqb_eq in Hty.
  unfold clone. rewrite Hfind. fold t0. rewrite Cb. cbn [bind]. rewrite Ch. cbn [bind]. rewrite Ct. cbn [bind snd].
  set (tm := mkMsg (m_type t0) th tb ttr).
  unfold msg_encode in *.
  destruct (msg_encode_parts c m) as [[[[pre body] cs] m']| | | |] eqn:Ep; try discriminate.
  cbn [bind] in Henc. injection Henc as <- <-.
  destruct (msg_encode_parts_cong c m tm) with (pre := pre) (body := body) (cs := cs) (m' := m') as [t' Ht'].
  - cbn [tm m_type]. unfold t0, mk_message. cbn [m_type]. symmetry. exact Hty.
  - cbn [tm m_hdr]. apply (pp_enc_set _ _ _ PPh). intros f Hf Hne.
    destruct (owned_suppressed _ _ _ _ PPh Hoh f Hf) as [Hx|[_ Hx]]; [exact Hx|contradiction].
  - cbn [tm m_body]. intros b0. apply EPb.
  - cbn [tm m_trl]. apply (pp_enc _ _ _ PPt). intros f Hf.
    destruct (owned_suppressed _ _ _ _ PPt Hot f Hf) as [Hx|[Hx _]]; [exact Hx|discriminate].
  - exact (pp_fp _ _ _ PPh).
  - exact (pp_fp _ _ _ PPt).
  - cbn [tm m_hdr]. rewrite (pp_fields _ _ _ PPh). unfold same_field in H8.
    destruct (present_in (mb_fp (m_hdr t0)) Common_BeginString); [|reflexivity].
    destruct (map_find Common_BeginString (mb_fields (m_hdr m))) as [v|],
             (map_find Common_BeginString (mb_fields (m_hdr t0))) as [w|]; try discriminate; [|reflexivity].
    apply list_eqb_eq in H8. subst w. reflexivity.
  - exact (pp_has _ _ _ PPh Common_BodyLength).
  - exact (pp_has _ _ _ PPt Common_CheckSum).
  - exact Ep.
  - exists tm, t'. split; [reflexivity|]. rewrite Ht'. reflexivity.
Qed.
