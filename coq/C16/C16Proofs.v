(* C16.  A run of plain messages through send_process (any type but SequenceReset, SOH-free contents, any
   end_of_batch flags) leaves the session as `after_sends` says: numbers n0, n0+1, ..., wire ++ batch buffer = the
   encodings in order, control record current.  Then: what acceptance by the numbering automaton means, and the
   control record after Session::process. *)
From Coq Require Import NArith ZArith List Bool Lia.
From F8 Require Import Sess.Bytes Sess.Msg Sess.Persist Sess.Session Sess.SimpleCodec Sess.Wire
  Sess.SessLemmas Sess.SendLemmas Sess.ProcessLemmas C16.Spec_C16.
Import ListNotations.
Local Open Scope N_scope.

Section Proofs.
Variable sc : schema.
Hypothesis WS : wf_schema sc = true.

Definition wire_n (now : Z) (s0 : sess) (n : N) (m : msg) : bytes := encode sc (stamped sc now s0 n m).
Definition wires (now : Z) (s0 : sess) : N -> list msg -> list bytes := imap (wire_n now s0).

Lemma wire_n_read : forall now s0 n m, wf_sess s0 = true -> plain_msg m = true ->
  let t := tokens (wire_n now s0 n m) in
  tok_get (dec T_PossDupFlag) t = None /\ tok_get (dec T_MsgType) t = Some (m_type m) /\
  tok_get (dec T_MsgSeqNum) t = Some (dec n).
Proof.
  intros now s0 n m W P.
  destruct (filled_ok sc now (w_next_send n s0) m WS W P) as [Wf Ty Bo Sq Du].
  destruct (plain_fields m P) as (_ & _ & _ & _ & _ & _ & B43 & _).
  change (wire_n now s0 n m) with (encode sc (filled sc now (w_next_send n s0) m)). cbv zeta.
  rewrite (tok_get_encode sc _ T_PossDupFlag Wf), (tok_get_encode sc _ T_MsgSeqNum Wf) by discriminate.
  rewrite (tok_get_encode_type sc _ Wf).
  rewrite Du, Bo, (get_none_of_has _ _ B43), Ty, Sq. repeat split.
Qed.

Lemma num_out_wire : forall alts now s0 n m,
  wf_sess s0 = true -> plain_msg m = true -> num_out alts n (wire_n now s0 n m) = Some (n + 1).
Proof.
  intros alts now s0 n m W P. destruct (wire_n_read now s0 n m W P) as (R43 & R35 & R34).
  destruct (plain_fields m P) as (_ & _ & Ht & _).
  unfold num_out, is_possdup, is_gapfill, tagb. rewrite R43, R35, R34. cbn [flag_set].
  change [52] with mt_sequence_reset. rewrite Ht, beq_refl. reflexivity.
Qed.

Lemma num_events_wires : forall alts now s0 ms n tl,
  wf_sess s0 = true -> Forall (fun m => plain_msg m = true) ms ->
  num_events alts n (map EOut (wires now s0 n ms) ++ tl) = num_events alts (n + N.of_nat (length ms)) tl.
Proof.
  intros alts now s0 ms n tl W F. revert n. unfold wires.
  induction F as [|m r P _ IH]; intro n; cbn [imap map app num_events length].
  - rewrite N.add_0_r. reflexivity.
  - rewrite num_out_wire, IH by assumption. f_equal. lia.
Qed.

(* what a plain send_process leaves alone *)
Definition frame (s s' : sess) : Prop :=
  s_closed s' = s_closed s /\ s_snd s' = s_snd s /\ s_tgt s' = s_tgt s /\
  p_kind (s_per s') = p_kind (s_per s) /\ s_next_recv s' = s_next_recv s.

Lemma frame_refl : forall s, frame s s.
Proof. intros; repeat split. Qed.
Lemma frame_trans : forall a b c, frame a b -> frame b c -> frame a c.
Proof. unfold frame. intros a b c (A1&A2&A3&A4&A5) (B1&B2&B3&B4&B5). repeat split; congruence. Qed.

Lemma frame_sym : forall a b, frame a b -> frame b a.
Proof. unfold frame. intros a b (A1&A2&A3&A4&A5). repeat split; congruence. Qed.

Lemma wf_sess_frame : forall s s', frame s s' -> wf_sess s = true -> wf_sess s' = true.
Proof. unfold frame, wf_sess. intros s s' (_&A&B&_) H. rewrite A, B. exact H. Qed.

Lemma plain_set_eob : forall b m, plain_msg (set_eob b m) = plain_msg m.
Proof. reflexivity. Qed.

Lemma wire_frame : forall now s0 s m, frame s0 s -> wire sc now s m = wire_n now s0 (s_next_send s) m.
Proof.
  intros now s0 s m (_ & A & B & _). unfold wire, wire_n. rewrite filled_stamped, (stamped_frame sc now s s0) by assumption.
  reflexivity.
Qed.

Lemma wire_n_eob : forall now s0 n b m, wire_n now s0 n (set_eob b m) = wire_n now s0 n m.
Proof. intros. unfold wire_n. rewrite stamped_set_eob. reflexivity. Qed.

(* s is what s0 (socket open, buffer empty) has become after the plain messages `done` went through send_process:
   `out` is on the wire, the encodings of `pend` are in the batch buffer *)
Record after_sends (now : Z) (s0 s : sess) (done pend : list msg) (out : list bytes) : Prop := {
  se_open : s_closed s0 = false;
  se_wf : wf_sess s0 = true;
  se_frame : frame s0 s;
  se_plain : Forall (fun m => plain_msg m = true) done;
  se_next : s_next_send s = s_next_send s0 + N.of_nat (length done);
  se_batch : s_batch s = concat (map (encode sc) pend);
  se_out : (out ++ map (encode sc) pend)%list = wires now s0 (s_next_send s0) done;
  se_flush : done = [] \/ m_eob (last done (new_msg [])) = true -> pend = [];
  se_ctrl : done <> [] -> p_kind (s_per s0) = PFile -> p_get_ctrl (s_per s) = Some (s_next_send s, s_next_recv s)
}.

Lemma sent_init : forall now s, s_closed s = false -> wf_sess s = true -> s_batch s = [] -> after_sends now s s [] [] [].
Proof.
  intros now s C W B. constructor; try assumption; try reflexivity.
  - apply frame_refl.
  - constructor.
  - cbn. lia.
  - intro H. contradiction.
Qed.

Lemma sent_state : forall now s0 s done pend out st,
  after_sends now s0 s done pend out -> after_sends now s0 (w_state st s) done pend out.
Proof. intros now s0 s done pend out st []. constructor; assumption. Qed.

Lemma sent_step : forall now s0 s done pend out m,
  after_sends now s0 s done pend out -> plain_msg m = true ->
  exists s' pend' o,
    send_process sc now s m = (true, s', map EOut o) /\ after_sends now s0 s' (done ++ [m]) pend' (out ++ o).
Proof.
  intros now s0 s done pend out m [O W FR PL NX B OUT FL CT] P.
  pose proof FR as (F1 & F2 & F3 & F4 & F5). destruct (wf_schema_fields sc WS) as (Nb & _).
  assert (WE : wire sc now s m = wire_n now s0 (s_next_send s0 + N.of_nat (length done)) m)
    by (rewrite <- NX; apply wire_frame; exact FR).
  assert (BE : (s_batch s ++ wire sc now s m)%list = concat (map (encode sc) (pend ++ [filled sc now s m]))).
  { rewrite B, map_app, concat_app. cbn [map concat]. rewrite app_nil_r. reflexivity. }
  rewrite send_process_plain, plain_result_eq by (congruence || exact (plain_increments m P)).
  set (s' := persisted sc m _ _).
  assert (S' : s_closed s' = s_closed s /\ s_snd s' = s_snd s /\ s_tgt s' = s_tgt s /\
               p_kind (s_per s') = p_kind (s_per s) /\ s_next_recv s' = s_next_recv s /\
               s_next_send s' = s_next_send s + 1 /\
               s_batch s' = if m_eob m then [] else (s_batch s ++ wire sc now s m)%list)
    by (subst s'; rewrite persisted_kind; unfold persisted; rewrite (plain_increments m P); destruct (m_eob m); repeat split).
  destruct S' as (S1 & S2 & S3 & S4 & S5 & S6 & S7).
  exists s', (if m_eob m then [] else pend ++ [filled sc now s m])%list,
         (if m_eob m then map (encode sc) pend ++ [wire sc now s m] else [])%list.
  split.
  - f_equal. destruct (m_eob m); [|reflexivity]. rewrite BE, out_events_encodes, map_app by exact Nb. reflexivity.
  - constructor; try assumption.
    + unfold frame. rewrite S1, S2, S3, S4, S5. exact FR.
    + apply Forall_app. split; [exact PL|]. constructor; [exact P|constructor].
    + rewrite app_length, S6, NX. cbn [length]. lia.
    + rewrite S7. destruct (m_eob m); [reflexivity|exact BE].
    + unfold wires in *. rewrite imap_app. cbn [imap]. rewrite <- OUT, <- WE.
      destruct (m_eob m); rewrite ?map_app, !app_nil_r, <- ?app_assoc; reflexivity.
    + intros [Z|L]; [destruct done; discriminate|]. rewrite last_last in L. rewrite L. reflexivity.
    + intros _ K. apply persisted_ctrl. destruct (m_eob m); exact (eq_trans F4 K).
Qed.

Lemma sent_run : forall now s0 ms s done pend out,
  after_sends now s0 s done pend out -> Forall (fun m => plain_msg m = true) ms ->
  exists s' pend' o, send_seq sc now s ms = (N.of_nat (length ms), s', map EOut o) /\
                     after_sends now s0 s' (done ++ ms) pend' (out ++ o) /\ (ms = [] -> pend' = pend /\ o = []).
Proof. intros now s0. apply (send_seq_ind sc now _ (after_sends now s0)). intros. eapply sent_step; eassumption. Qed.

Lemma sent_flushed : forall now s0 s s' done ms pend' out o,
  after_sends now s0 s done [] out -> after_sends now s0 s' (done ++ ms) pend' (out ++ o) ->
  (ms = [] -> pend' = [] /\ o = []) -> (ms <> [] -> m_eob (last ms (new_msg [])) = true) ->
  pend' = [] /\ o = wires now s0 (s_next_send s0 + N.of_nat (length done)) ms.
Proof.
  intros now s0 s s' done ms pend' out o I I' NI L. destruct ms as [|m r]; [exact (NI eq_refl)|].
  assert (PE : pend' = []).
  { apply (se_flush _ _ _ _ _ _ I'). right. rewrite last_app_ne by discriminate. apply L. discriminate. }
  split; [exact PE|]. subst pend'.
  pose proof (se_out _ _ _ _ _ _ I) as O. pose proof (se_out _ _ _ _ _ _ I') as O'.
  unfold wires in *. rewrite imap_app, <- O in O'. cbn [map] in O'. rewrite !app_nil_r in O'.
  apply app_inv_head in O'. exact O'.
Qed.

Lemma sent_from : forall now s ms,
  s_closed s = false -> wf_sess s = true -> s_batch s = [] ->
  Forall (fun m => plain_msg m = true) ms -> (ms <> [] -> m_eob (last ms (new_msg [])) = true) ->
  let ws := wires now s (s_next_send s) ms in
  exists s', send_seq sc now s ms = (N.of_nat (length ms), s', map EOut ws) /\ after_sends now s s' ms [] ws.
Proof.
  intros now s ms C W B F L. pose proof (sent_init now s C W B) as I.
  destruct (sent_run now s ms s [] [] [] I F) as (s' & pend' & o & E & I' & NI).
  destruct (sent_flushed now s s s' [] ms pend' [] o I I' NI L) as [-> ->].
  cbn [length N.of_nat app] in E, I'. rewrite N.add_0_r in E, I'. exists s'. split; assumption.
Qed.

Definition plain_tv (tv : N * bytes) : bool :=
  negb (fst tv =? T_MsgSeqNum) && negb (fst tv =? T_PossDupFlag) && nosoh (snd tv).

Definition plain_spec (sp : msgspec) : bool :=
  (ms_custom sp =? 0) && negb (ms_noinc sp) && negb (beq (ms_type sp) mt_sequence_reset) && nosoh (ms_type sp) &&
  forallb plain_tv (ms_hdr sp) && forallb plain_tv (ms_body sp).

Lemma plain_tv_fields : forall tv, plain_tv tv = true ->
  fst tv <> T_MsgSeqNum /\ fst tv <> T_PossDupFlag /\ nosoh (snd tv) = true.
Proof.
  intros tv H. unfold plain_tv in H. apply andb_true_iff in H. destruct H as [H H3].
  apply andb_true_iff in H. destruct H as [H1 H2].
  apply negb_true_iff in H1. apply negb_true_iff in H2. apply N.eqb_neq in H1. apply N.eqb_neq in H2. auto.
Qed.

Lemma plain_spec_fields : forall sp, plain_spec sp = true ->
  ms_custom sp = 0 /\ ms_noinc sp = false /\ beq (ms_type sp) mt_sequence_reset = false /\ nosoh (ms_type sp) = true /\
  forallb plain_tv (ms_hdr sp) = true /\ forallb plain_tv (ms_body sp) = true.
Proof.
  intros sp H. unfold plain_spec in H. repeat (apply andb_true_iff in H; destruct H as [H ?]).
  repeat match goal with X : negb _ = true |- _ => apply negb_true_iff in X end.
  apply N.eqb_eq in H. auto 10.
Qed.

Lemma plain_with_hdr : forall p t v x, plain_msg x = true -> plain_tv (t, v) = true ->
  plain_msg (with_hdr (add_field p t v (m_hdr x)) x) = true.
Proof.
  intros p t v x H T. destruct (plain_tv_fields _ T) as (N34 & N43 & NV). cbn [fst snd] in *.
  destruct (plain_fields x H) as (Hc & Hn & Ht & H34 & H43 & B34 & B43 & ND & Nty & Vh & Vb).
  unfold plain_msg. cbn [with_hdr m_custom m_noinc m_type m_hdr m_body].
  rewrite Hc, Hn, Ht, B34, B43, Nty, Vb, !has_add_other, H34, H43 by congruence.
  rewrite (NoDup_nodupb _ (nodup_add p t v _ ND)), (vals_ok_add p t v _ NV Vh). reflexivity.
Qed.

Lemma plain_with_body : forall p t v x, plain_msg x = true -> plain_tv (t, v) = true ->
  plain_msg (with_body (add_field p t v (m_body x)) x) = true.
Proof.
  intros p t v x H T. destruct (plain_tv_fields _ T) as (N34 & N43 & NV). cbn [fst snd] in *.
  destruct (plain_fields x H) as (Hc & Hn & Ht & H34 & H43 & B34 & B43 & ND & Nty & Vh & Vb).
  unfold plain_msg. cbn [with_body m_custom m_noinc m_type m_hdr m_body].
  rewrite Hc, Hn, Ht, H34, H43, Nty, Vh, !has_add_other, B34, B43 by congruence.
  rewrite (NoDup_nodupb _ ND), (vals_ok_add p t v _ NV Vb). reflexivity.
Qed.

Lemma plain_new : forall t, beq t mt_sequence_reset = false -> nosoh t = true -> plain_msg (new_msg t) = true.
Proof. intros t H N. unfold plain_msg. cbn [new_msg m_custom m_noinc m_type m_hdr m_body]. rewrite H, N. reflexivity. Qed.

Lemma build_plain : forall sp m, plain_spec sp = true -> build_msg sc sp = Some m ->
  plain_msg m = true /\ m_eob m = true.
Proof.
  intros sp m P E. destruct (plain_spec_fields sp P) as (_ & _ & Ht & Nt & Ph & Pb).
  rewrite forallb_forall in Ph, Pb.
  apply (build_msg_ind sc (fun x => plain_msg x = true /\ m_eob x = true) sp m E).
  - split; [apply plain_new; assumption|reflexivity].
  - intros t v p x I [Px Ex]. split; [apply plain_with_hdr; auto|exact Ex].
  - intros t v p x I [Px Ex]. split; [apply plain_with_body; auto|exact Ex].
Qed.

Lemma plain_wrap : forall m, plain_msg m = true -> plain_msg (set_noinc false (set_custom 0 m)) = true.
Proof.
  intros m P. destruct (plain_fields m P) as (Hc & Hn & _). unfold plain_msg in *.
  cbn [set_noinc set_custom m_custom m_noinc m_type m_hdr m_body]. rewrite Hc, Hn in P. exact P.
Qed.

Lemma build_all_plain : forall l ms, forallb plain_spec l = true -> build_all sc l = Some ms ->
  Forall (fun m => plain_msg m = true /\ m_eob m = true) ms.
Proof.
  apply (build_all_Forall sc plain_spec). intros sp m P B.
  destruct (build_plain sp m P B) as [Pm Em]. destruct (plain_spec_fields sp P) as (Hc & Hn & _). rewrite Hc, Hn.
  split; [apply plain_wrap; exact Pm|exact Em].
Qed.

Lemma logon_plain : forall hb rsn, plain_msg (generate_logon sc hb rsn) = true /\ m_eob (generate_logon sc hb rsn) = true.
Proof.
  intros hb rsn. unfold generate_logon.
  assert (B : forall t v x, plain_tv (t, v) = true -> plain_msg x = true /\ m_eob x = true ->
                            plain_msg (add_body' sc t v x) = true /\ m_eob (add_body' sc t v x) = true).
  { intros t v x T [Px Ex]. apply add_body'_ind; [split; assumption|]. intro p. split; [apply plain_with_body; assumption|exact Ex]. }
  assert (B2 : plain_msg (add_body' sc T_EncryptMethod s_0 (add_body' sc T_HeartBtInt (dec hb) (new_msg mt_logon))) = true /\
               m_eob (add_body' sc T_EncryptMethod s_0 (add_body' sc T_HeartBtInt (dec hb) (new_msg mt_logon))) = true).
  { apply B; [reflexivity|]. apply B; [|split; reflexivity].
    unfold plain_tv. cbn [fst snd]. rewrite (clean_nosoh _ (dec_clean hb)). reflexivity. }
  destruct rsn; [apply B; [reflexivity|exact B2]|exact B2].
Qed.

Definition plain_op (o : op) : bool :=
  match o with
  | OSend sp => plain_spec sp
  | OBatch l => forallb plain_spec l
  | OClock _ => true
  | _ => false
  end.

Definition wf_start (p : startp) : bool := nosoh (sp_snd p) && nosoh (sp_tgt p).

End Proofs.

(* the control clause judges an IN operation by its return values as well *)
Definition not_in (oper : op) : Prop := match oper with OIn _ => False | _ => True end.

(* what acceptance by the numbering automaton means: the numbers of the new messages are the canonical
   decimals of a strictly increasing sequence inside [e, e'), hence pairwise different *)
Definition new_seq (raw : bytes) : option bytes :=
  let t := tokens raw in
  if is_possdup t then None else if is_gapfill t then None else tok_get (tagb T_MsgSeqNum) t.

Fixpoint new_seqs (evs : list event) : list bytes :=
  match evs with
  | [] => []
  | EOut raw :: evs' => match new_seq raw with Some v => v :: new_seqs evs' | None => new_seqs evs' end
  | _ :: evs' => new_seqs evs'
  end.

Inductive increasing : N -> list N -> N -> Prop :=
| inc_nil : forall e e', e <= e' -> increasing e [] e'
| inc_cons : forall e n ns e', e <= n -> increasing (n + 1) ns e' -> increasing e (n :: ns) e'.

Lemma increasing_weaken : forall e0 e ns e', e0 <= e -> increasing e ns e' -> increasing e0 ns e'.
Proof. intros e0 e ns e' L H. inversion H; subst; constructor; try lia; assumption. Qed.

Lemma increasing_lower : forall e ns e', increasing e ns e' -> Forall (fun n => e <= n) ns.
Proof.
  induction 1 as [|e n ns e' L _ IH]; constructor; [exact L|].
  eapply Forall_impl; [|exact IH]. cbn. intros; lia.
Qed.

Lemma increasing_nodup : forall e ns e', increasing e ns e' -> NoDup ns.
Proof.
  induction 1 as [|e n ns e' L H IH]; constructor; [|exact IH].
  intro I. apply increasing_lower in H. rewrite Forall_forall in H. specialize (H n I). lia.
Qed.

Lemma num_events_increasing : forall evs e e',
  num_events [] e evs = Some e' -> exists ns, new_seqs evs = map dec ns /\ increasing e ns e'.
Proof.
  induction evs as [|ev evs IH]; intros e e' H; cbn [num_events] in H.
  - inversion H; subst. exists []. split; [reflexivity|constructor; lia].
  - destruct ev; try (cbn [new_seqs]; apply IH; exact H); [|discriminate].
    destruct (num_out [] e b) as [e1|] eqn:NO; [|discriminate].
    destruct (IH e1 e' H) as (ns & EQ & INC).
    cbn [new_seqs]. unfold new_seq. unfold num_out in NO.
    destruct (is_possdup (tokens b)); [inversion NO; subst; exists ns; split; assumption|].
    destruct (is_gapfill (tokens b)).
    + inversion NO; subst. exists ns. split; [assumption|].
      eapply increasing_weaken; [|exact INC]. destruct (newseq_of (tokens b)); lia.
    + destruct (tok_get (tagb T_MsgSeqNum) (tokens b)) as [v|]; [|discriminate].
      destruct (beq v (dec e)) eqn:BV; [|discriminate].
      inversion NO; subst. apply beq_eq in BV. subst v.
      exists (e :: ns). split; [cbn [map]; rewrite EQ; reflexivity|constructor; [lia|exact INC]].
Qed.

Theorem c16_unique_lemma : forall evs e e',
  num_events [] e evs = Some e' -> NoDup (new_seqs evs).
Proof.
  intros evs e e' H. destruct (num_events_increasing evs e e' H) as (ns & EQ & INC).
  rewrite EQ. clear EQ. apply increasing_nodup in INC.
  induction INC as [|n ns NI _ IH]; cbn [map]; [constructor|constructor; [|exact IH]].
  intro I. apply in_map_iff in I. destruct I as (x & E & I). apply dec_inj in E. subst. contradiction.
Qed.

Lemma update_persist_current : forall s, p_kind (s_per (update_persist_seqnums s)) = PFile ->
  p_get_ctrl (s_per (update_persist_seqnums s)) =
  Some (s_next_send (update_persist_seqnums s), s_next_recv (update_persist_seqnums s)).
Proof.
  intros s K. unfold update_persist_seqnums in *. destruct (p_attached (s_per s)) eqn:A.
  - cbn [w_per s_per s_next_send s_next_recv] in *. rewrite p_put_ctrl_kind in K. apply p_put_ctrl_get. exact K.
  - unfold p_attached in A. rewrite K in A. discriminate.
Qed.

Theorem c16_process_control_lemma : forall sc decode now seqnum m s b s1 e1,
  process_body sc decode now seqnum m s = (inl b, s1, e1) ->
  p_kind (s_per s1) = PFile ->
  p_get_ctrl (s_per s1) = Some (s_next_send s1, s_next_recv s1).
Proof.
  intros sc decode now seqnum m s b s1 e1 H K. unfold process_body in H.
  destruct (dispatch sc decode now seqnum m s) as [[[rr|ex] sa] ea] eqn:DI;
    [rewrite (bind_inl _ DI) in H|rewrite (bind_inr _ DI) in H; discriminate].
  rewrite !bind_modify in H. set (su := update_persist_seqnums _) in H.
  (* a stop after it changes neither the persister nor the numbers *)
  assert (E : s_per s1 = s_per su /\ s_next_send s1 = s_next_send su /\ s_next_recv s1 = s_next_recv su).
  { destruct (snd rr); [rewrite bind_modify in H; destruct (stop_eq su) as (c & r & ST); rewrite ST in H|rewrite bind_ret in H];
      inversion H; repeat split. }
  destruct E as (A & B & C). rewrite A, B, C in *. apply update_persist_current. exact K.
Qed.

(* the Reject path (an f8Exception without force_logoff): since /repo beb4ce7 it ends with update_persist_seqnums too *)
Lemma c16_reject_control_lemma : forall sc now seqnum mt text s1 e1,
  let r := process_catch sc now seqnum mt (inr (Exc text false), s1, e1) in
  p_kind (s_per (snd (fst r))) = PFile ->
  p_get_ctrl (s_per (snd (fst r))) = Some (s_next_send (snd (fst r)), s_next_recv (snd (fst r))).
Proof.
  intros sc now seqnum mt text s1 e1. unfold process_catch.
  destruct (handle_outbound_reject sc now seqnum mt text s1) as [[b s2] e2]. cbn [fst snd].
  apply update_persist_current.
Qed.

Lemma c16_inbound_control_lemma : forall sc decode now seqnum mt m s,
  let r := process_body sc decode now seqnum m s in
  (match fst (fst r) with inr (Exc _ true) => False | _ => True end) ->
  let r' := process_catch sc now seqnum mt r in
  p_kind (s_per (snd (fst r'))) = PFile ->
  p_get_ctrl (s_per (snd (fst r'))) = Some (s_next_send (snd (fst r')), s_next_recv (snd (fst r'))).
Proof.
  intros sc decode now seqnum mt m s r NF.
  destruct r as [[[b|[text force]] s1] e1] eqn:R; cbn [fst snd] in NF.
  - cbn [process_catch fst snd]. intro K. eapply c16_process_control_lemma; [exact R|exact K].
  - destruct force; [contradiction|]. apply c16_reject_control_lemma.
Qed.

(* witnesses on the demo schema, evaluated in Props/Properties_C16.v *)
From F8 Require Import Sess.Demo.

Definition last_snap (tr : trace) : option snap :=
  match rev tr with st :: _ => st_snap st | [] => None end.

Definition all_new_seqs_of (tr : trace) : list bytes := new_seqs (concat (map st_events tr)).

Definition ctrl_and_seq (tr : trace) : option (option (N * N) * N * N) :=
  match last_snap tr with Some sn => Some (sn_ctrl sn, sn_send sn, sn_recv sn) | None => None end.

(* a session right after Session::start (initiator, file persister): the Logon went out as 1 *)
Definition st0 : sess :=
  snd (fst (start demo_schema T0 (demo_init PFile) (new_session (demo_init PFile) (p_empty PFile)))).

Definition m_order : msg := mkMsg [68] [] [mkF 1 11 [65]; mkF 2 55 [66]] 0 false true.
Definition m_custom7 : msg := set_custom 7 m_order.
Definition m_noinc1 : msg := set_noinc true m_order.
Definition m_seqreset : msg := mkMsg [52] [] [mkF 1 123 [89]; mkF 2 36 [57]] 0 false true.

Definition ctrl_vs_seq (r : bool * sess * list event) : option (N * N) * N * N :=
  let s := snd (fst r) in (p_get_ctrl (s_per s), s_next_send s, s_next_recv s).

(* a NEW message sent with a custom sequence number *)
Definition h_custom : list op := [OStart (demo_init PFile) None; OSend (mkSpec [68] [] [(11, [65]); (55, [66])] 7 false true)].

(* the session's own Logout (sent with no_increment by the heartbeat supervisor) *)
Definition h_supervisor : list op :=
  [OStart (demo_init PFile) None; OIn [demo_logon_in 1];
   OTick (T0 + 40 * NS)%Z; OTick (T0 + 41 * NS)%Z].

Definition txt_x : bytes := [120].

(* an inbound message with a missing mandatory field is answered with a Reject *)
Definition h_reject : list op :=
  [OStart (demo_init PFile) None; OIn [demo_logon_in 1];
   OIn [demo_inbound [68] 2 [mkF 1 11 [65]]]].          (* Symbol (55) is mandatory and missing *)

(* singles, a batch of three and an admin send *)
Definition h_plain : list op :=
  [OSend (demo_order [65]); OBatch [demo_order [66]; demo_order [67]; demo_admin [48]];
   OSend (demo_admin [49]); OClock (T0 + 5)%Z; OSend (demo_order [68])].

Definition all_new_seqs (tr : trace) : list bytes := all_new_seqs_of tr.
