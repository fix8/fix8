(* C16: the control clause for send-side histories: START, then SEND / BATCH of ANY messages (custom number,
   no_increment, SequenceReset included; only MsgSeqNum and PossDupFlag not preset in the header: that would be a
   retransmission, which does not persist), TICK (the supervisor's no_increment Logout included), CLOCK, STOP:
   after every operation that put something on the wire the control record is (next_send, next_recv). *)
From Coq Require Import NArith ZArith List Bool Lia.
From F8 Require Import Sess.Bytes Sess.Msg Sess.Persist Sess.Session Sess.SimpleCodec Sess.Wire
  Sess.SessLemmas Sess.SendLemmas Sess.ProcessLemmas C16.Spec_C16 C16.C16Proofs.
Import ListNotations.
Local Open Scope N_scope.

Lemma c16_ok_ctrl : forall ops tr, c16_ok ops tr = true -> c16_ctrl_ok ops tr = true.
Proof.
  unfold c16_ok, c16_ctrl_ok.
  assert (G : forall ops tr o, c16_steps o ops tr = true -> c16_ctrl_steps (o_sp o) ops tr = true).
  { induction ops as [|oper ops IH]; intros tr o H; destruct tr as [|st tr]; cbn [c16_steps c16_ctrl_steps] in *; try discriminate; [reflexivity|].
    destruct (c16_step o oper st) as [o'|] eqn:ST; [|discriminate].
    assert (F : ctrl_clause (match oper with OStart p _ => p | _ => o_sp o end) oper st = true /\
                o_sp o' = match oper with OStart p _ => p | _ => o_sp o end).
    { unfold c16_step in ST.
      destruct oper; cbn zeta beta iota in ST;
        match type of ST with match ?X with _ => _ end = _ => destruct X; [|discriminate] end;
        match type of ST with (if ?C then _ else _) = _ => destruct C eqn:CC; [|discriminate] end;
        inversion ST; subst; split; try reflexivity; exact CC. }
    destruct F as [F1 F2]. rewrite F1. cbn [andb]. rewrite <- F2. apply IH. exact H. }
  intros ops tr H. apply (G ops tr ost0 H).
Qed.

Lemma has_out_app : forall a b, has_out (a ++ b) = has_out a || has_out b.
Proof. intros. unfold has_out. apply existsb_app. Qed.

Section Control.
Variable sc : schema.

Definition weak (s : sess) : Prop :=
  p_kind (s_per s) = PFile -> p_get_ctrl (s_per s) = None \/ p_get_ctrl (s_per s) = Some (s_next_send s, s_next_recv s).
Definition strong (s : sess) : Prop :=
  p_kind (s_per s) = PFile -> p_get_ctrl (s_per s) = Some (s_next_send s, s_next_recv s).

Lemma strong_weak : forall s, strong s -> weak s.
Proof. intros s H K. right. apply H. exact K. Qed.

Lemma weak_eq : forall s s', s_per s' = s_per s -> s_next_send s' = s_next_send s -> s_next_recv s' = s_next_recv s ->
  (weak s -> weak s') /\ (strong s -> strong s').
Proof. intros s s' A B C. unfold weak, strong. rewrite A, B, C. tauto. Qed.

(* what every part of the send side does to the control record: an absent or current record stays so, and
   whenever something reaches the wire the record is current afterwards.  s_state does not enter: a w_state
   around either session disappears by conversion *)
Definition keeps (s s' : sess) (evs : list event) : Prop :=
  p_kind (s_per s') = p_kind (s_per s) /\ (weak s -> weak s') /\ (strong s -> strong s') /\
  (has_out evs = true -> strong s').

Lemma keeps_eq : forall s s', s_per s' = s_per s -> s_next_send s' = s_next_send s -> s_next_recv s' = s_next_recv s ->
  keeps s s' [].
Proof.
  intros s s' A B C. destruct (weak_eq s s' A B C) as [W S].
  split; [rewrite A; reflexivity|]. split; [exact W|]. split; [exact S|]. intro Z; discriminate Z.
Qed.

Lemma keeps_trans : forall a b c e1 e2, keeps a b e1 -> keeps b c e2 -> keeps a c (e1 ++ e2).
Proof.
  intros a b c e1 e2 (K1 & W1 & S1 & H1) (K2 & W2 & S2 & H2).
  split; [congruence|]. split; [auto|]. split; [auto|].
  intro HO. rewrite has_out_app in HO. apply orb_true_iff in HO. destruct HO; auto.
Qed.

Lemma keeps_stop : forall s, keeps s (stop s) [].
Proof. intros s. destruct (stop_eq s) as (c & r & ->). apply keeps_eq; reflexivity. Qed.

Lemma send_ctrl : forall now s m, fresh_hdr m = true ->
  keeps s (snd (fst (send_process sc now s m))) (snd (send_process sc now s m)).
Proof.
  intros now s m F. rewrite (send_process_fresh sc now s m F). cbv zeta.
  set (enc := encode sc _).
  assert (P : forall s1 evs, s_per s1 = s_per s -> keeps s (persisted sc m enc s1) evs).
  { intros s1 evs E.
    assert (S : strong (persisted sc m enc s1)).
    { intro KF. apply persisted_ctrl. rewrite persisted_kind in KF. exact KF. }
    split; [rewrite persisted_kind, E; reflexivity|]. split; [intros _; apply strong_weak; exact S|]. split; intros _; exact S. }
  destruct (m_eob m); [destruct (s_closed s)|]; cbn [fst snd]; try (apply P; reflexivity).
  destruct (s_batch s); apply keeps_eq; reflexivity.
Qed.

Lemma send_ctrl' : forall now s m custom noinc, fresh_hdr m = true ->
  keeps s (snd (fst (send sc now s m custom noinc))) (snd (send sc now s m custom noinc)).
Proof. intros now s m custom noinc F. unfold send. apply send_ctrl. destruct (custom =? 0); destruct noinc; exact F. Qed.

Lemma send_seq_ctrl : forall now ms s, Forall (fun m => fresh_hdr m = true) ms ->
  keeps s (snd (fst (send_seq sc now s ms))) (snd (send_seq sc now s ms)).
Proof.
  induction ms as [|m r IH]; intros s F; [apply keeps_eq; reflexivity|].
  inversion F as [|? ? Fm Fr]; subst. cbn [send_seq].
  pose proof (send_ctrl now s m Fm) as K1. destruct (send_process sc now s m) as [[ok s1] e1].
  pose proof (IH s1 Fr) as K2. destruct (send_seq sc now s1 r) as [[n s2] e2].
  exact (keeps_trans _ _ _ _ _ K1 K2).
Qed.

Lemma send_batch_ctrl : forall now l s, Forall (fun m => fresh_hdr m = true) l ->
  keeps s (snd (fst (send_batch sc now s l))) (snd (send_batch sc now s l)).
Proof.
  intros now l s F. rewrite send_batch_seq. apply send_seq_ctrl.
  destruct l as [|a [|b r]]; try exact F. apply marked_Forall; [intros ? ? H; exact H|exact F].
Qed.

Lemma fresh_add_body' : forall t v m, fresh_hdr (add_body' sc t v m) = fresh_hdr m.
Proof. intros t v m. apply add_body'_ind; reflexivity. Qed.
Lemma fresh_heartbeat : forall id, fresh_hdr (generate_heartbeat sc id) = true.
Proof. intros id. unfold generate_heartbeat. destruct id; [|rewrite fresh_add_body']; reflexivity. Qed.
Lemma fresh_test_request : forall id, fresh_hdr (generate_test_request sc id) = true.
Proof. intros. unfold generate_test_request. rewrite fresh_add_body'. reflexivity. Qed.
Lemma fresh_logout : forall t, fresh_hdr (generate_logout sc t) = true.
Proof. intros t. unfold generate_logout. destruct t; [rewrite fresh_add_body'|]; reflexivity. Qed.
Lemma fresh_logon : forall hb rsn, fresh_hdr (generate_logon sc hb rsn) = true.
Proof. intros. unfold generate_logon. destruct rsn; rewrite !fresh_add_body'; reflexivity. Qed.

Lemma heartbeat_ctrl : forall now s,
  keeps s (snd (fst (heartbeat_service sc now s))) (snd (heartbeat_service sc now s)).
Proof.
  intros now s. unfold heartbeat_service.
  destruct (is_shutdown s); [apply keeps_eq; reflexivity|].
  (* first send: the heartbeat, if due *)
  assert (A : exists s1 e1,
    (if (Z.of_N (s_hb s) <=? secs_between now (s_last_sent s))%Z
     then let '(_, sa, ea) := send sc now s (generate_heartbeat sc []) 0 false in (sa, ea) else (s, [])) = (s1, e1) /\
    keeps s s1 e1).
  { destruct (Z.of_N (s_hb s) <=? secs_between now (s_last_sent s))%Z; [|exists s, []; split; [|apply keeps_eq]; reflexivity].
    pose proof (send_ctrl' now s (generate_heartbeat sc []) 0 false (fresh_heartbeat [])) as SC.
    destruct (send sc now s (generate_heartbeat sc []) 0 false) as [[ok sa] ea]. exists sa, ea. split; [reflexivity|exact SC]. }
  destruct A as (s1 & e1 & EQ & K1). rewrite EQ.
  destruct (Z.of_N (s_hb s1 + s_hb s1 / 5) <? secs_between now (s_last_recv s1))%Z; [|exact K1].
  destruct (s_state s1 =? st_test_request_sent).
  - pose proof (send_ctrl' now s1 (generate_logout sc (if pr_sd (s_par s1) then None else Some txt_ignored)) 0 true (fresh_logout _)) as K2.
    destruct (send sc now s1 _ 0 true) as [[ok s2] e2]. cbn [fst snd] in *.
    apply (keeps_trans _ _ _ _ _ K1). rewrite <- (app_nil_r e2).
    exact (keeps_trans _ (w_state st_logoff_sent s2) _ _ _ K2 (keeps_stop _)).
  - destruct (negb (s_state s1 =? st_session_terminated)); [|exact K1].
    pose proof (send_ctrl' now s1 (generate_test_request sc txt_test) 0 false (fresh_test_request _)) as K2.
    destruct (send sc now s1 _ 0 false) as [[ok s2] e2]. cbn [fst snd] in *.
    exact (keeps_trans _ _ _ _ _ K1 K2).
Qed.

Definition fresh_tv (tv : N * bytes) : bool := negb (fst tv =? T_MsgSeqNum) && negb (fst tv =? T_PossDupFlag).
Definition fresh_spec (sp : msgspec) : bool := forallb fresh_tv (ms_hdr sp).

Definition ctl_op (o : op) : bool :=
  match o with
  | OSend sp => fresh_spec sp
  | OBatch l => forallb fresh_spec l
  | OTick _ | OClock _ | OStop => true
  | _ => false
  end.

Lemma build_fresh : forall sp m, fresh_spec sp = true -> build_msg sc sp = Some m -> fresh_hdr m = true.
Proof.
  intros sp m P E. unfold fresh_spec in P. rewrite forallb_forall in P.
  apply (build_msg_ind sc (fun x => fresh_hdr x = true) sp m E); [reflexivity| |intros t v p x _ F; exact F].
  intros t v p x I F. specialize (P _ I). unfold fresh_tv in P. cbn [fst] in P.
  apply andb_true_iff in P. destruct P as [N1 N2]. apply negb_true_iff in N1, N2. apply N.eqb_neq in N1, N2.
  unfold fresh_hdr in *. cbn [with_hdr m_hdr]. rewrite !has_add_other by congruence. exact F.
Qed.

Lemma build_all_fresh : forall l ms, forallb fresh_spec l = true -> build_all sc l = Some ms ->
  Forall (fun m => fresh_hdr m = true) ms.
Proof. apply (build_all_Forall sc fresh_spec). intros sp m P B. exact (build_fresh sp m P B). Qed.

Definition CW (w : world) (sp : startp) : Prop :=
  match w_sess w with
  | None => True
  | Some s => p_kind (s_per s) = sp_pk sp /\ weak s
  end.

(* the clause after an operation other than IN during which s became s' and evs, tl were emitted *)
Lemma clause_after : forall w sp oper s s' evs tl,
  w_sess w = Some s' -> p_kind (s_per s) = sp_pk sp -> weak s -> keeps s s' evs -> has_out tl = false -> not_in oper ->
  ctrl_clause sp oper (mkStep (evs ++ tl) (snd (snapshot w))) = true /\ CW (fst (snapshot w)) sp.
Proof.
  intros w sp oper s s' evs tl E K W (K' & W' & _ & H') HT NI. split.
  - unfold ctrl_clause. cbn [st_events st_snap].
    destruct (sp_pk sp) eqn:PK; try reflexivity.
    destruct (snapshot_snap w s' E) as [d SN]. rewrite SN. unfold ctrl_of. rewrite K', K. cbn [sn_ctrl sn_send sn_recv].
    replace (match oper with OIn _ => has_ret _ | _ => false end) with false by (destruct oper; try reflexivity; contradiction).
    rewrite has_out_app, HT, !orb_false_r. destruct (has_out evs); [|reflexivity].
    rewrite (H' eq_refl) by congruence. rewrite !N.eqb_refl. reflexivity.
  - unfold CW. rewrite snapshot_sess, E. split; [congruence|auto].
Qed.

Lemma clause_nosession : forall w sp oper evs, w_sess w = None ->
  ctrl_clause sp oper (mkStep evs (snd (snapshot w))) = true /\ CW (fst (snapshot w)) sp.
Proof.
  intros w sp oper evs E. unfold ctrl_clause, CW. rewrite snapshot_sess. unfold snapshot. rewrite E. cbn.
  split; [destruct (sp_pk sp); reflexivity|exact I].
Qed.

Lemma ctl_op_step : forall w sp oper,
  CW w sp -> ctl_op oper = true ->
  ctrl_clause sp oper (mkStep (snd (run_op sc w oper)) (snd (snapshot (fst (run_op sc w oper))))) = true /\
  CW (fst (snapshot (fst (run_op sc w oper)))) sp.
Proof.
  intros w sp oper C P. unfold CW in C.
  destruct oper; try discriminate; cbn [ctl_op] in P; cbn [run_op];
    (destruct (w_sess w) as [s|] eqn:E; [destruct C as [K W]|apply clause_nosession; exact E]).
  - (* SEND *)
    destruct (negb (ms_ok m)); [apply (clause_after w sp _ s s [] [exc_std]); auto; try exact I; apply keeps_eq; reflexivity|].
    destruct (build_msg sc m) as [msg|] eqn:BM; [|apply (clause_after w sp _ s s [] [exc_f8]); auto; try exact I; apply keeps_eq; reflexivity].
    pose proof (send_ctrl' (w_now w) s msg (ms_custom m) (ms_noinc m) (build_fresh m msg P BM)) as SC.
    destruct (send sc (w_now w) s msg (ms_custom m) (ms_noinc m)) as [[ok s1] e1].
    apply (clause_after (with_sess w s1) sp _ s s1 e1); auto; exact I.
  - (* BATCH *)
    destruct (negb (specs_ok l)); [apply (clause_after w sp _ s s [] [exc_std]); auto; try exact I; apply keeps_eq; reflexivity|].
    destruct (build_all sc l) as [ms|] eqn:BA; [|apply (clause_after w sp _ s s [] [exc_f8]); auto; try exact I; apply keeps_eq; reflexivity].
    pose proof (send_batch_ctrl (w_now w) ms s (build_all_fresh l ms P BA)) as SC.
    destruct (send_batch sc (w_now w) s ms) as [[n s1] e1].
    apply (clause_after (with_sess w s1) sp _ s s1 e1); auto; exact I.
  - (* TICK *)
    pose proof (heartbeat_ctrl t s) as SC. destruct (heartbeat_service sc t s) as [[r s1] e1].
    apply (clause_after (with_sess (with_now w t) s1) sp _ s s1 e1); auto; exact I.
  - (* CLOCK *)
    apply (clause_after (with_now w t) sp _ s s [] []); auto; try exact I. apply keeps_eq; reflexivity.
  - (* STOP *)
    apply (clause_after (with_sess w (stop s)) sp _ s (stop s) [] []); auto; try exact I. apply keeps_stop.
Qed.

Lemma ctl_steps : forall ops w sp,
  CW w sp -> forallb ctl_op ops = true -> c16_ctrl_steps sp ops (run_ops sc w ops) = true.
Proof.
  induction ops as [|oper ops IH]; intros w sp C P; [reflexivity|].
  cbn [forallb] in P. apply andb_true_iff in P. destruct P as [P1 P2].
  destruct (ctl_op_step w sp oper C P1) as (ST & C').
  rewrite run_ops_cons. cbn [c16_ctrl_steps].
  replace (match oper with OStart p0 _ => p0 | _ => sp end) with sp by (destruct oper; try discriminate; reflexivity).
  rewrite ST. apply IH; assumption.
Qed.

Lemma ctl_start : forall p t,
  ctrl_clause p (OStart p t) (mkStep (snd (run_op sc world0 (OStart p t))) (snd (snapshot (fst (run_op sc world0 (OStart p t)))))) = true /\
  CW (fst (snapshot (fst (run_op sc world0 (OStart p t))))) p.
Proof.
  intros p t. rewrite (run_start sc). cbv zeta. set (now := match t with Some t' => t' | None => T0 end).
  (* a new session on an empty persister: the right kind, no control record yet *)
  assert (N : forall s, s_per s = p_empty (sp_pk p) -> p_kind (s_per s) = sp_pk p /\ weak s).
  { intros s E. unfold weak. rewrite E, p_empty_ctrl. split; [reflexivity|intros _; left; reflexivity]. }
  destruct (start_new sc now p (p_empty (sp_pk p))) as (s2 & st & ES & _ & _ & P2 & _). rewrite ES.
  destruct (N s2 P2) as [K2 W2].
  pose proof (send_seq_ctrl now (start_msgs sc p (s_hb s2)) s2 (start_msgs_Forall sc _ p _ (fresh_logon _ _))) as SC.
  destruct (send_seq sc now s2 (start_msgs sc p (s_hb s2))) as [[n s3] e3]. cbn [fst snd] in *.
  apply (clause_after (mkWorld (Some (w_state st s3)) now p (p_empty PFile) []) p _ s2 (w_state st s3) e3);
    try assumption; try reflexivity.
Qed.

End Control.

Lemma c16_control_lemma : forall (sc : schema) (p : startp) (t : option Z) (ops : list op),
  forallb ctl_op ops = true ->
  c16_ctrl_ok (OStart p t :: ops) (run_history sc (OStart p t :: ops)) = true.
Proof.
  intros sc p t ops P. destruct (ctl_start sc p t) as (ST & C).
  unfold c16_ctrl_ok, run_history. rewrite run_ops_cons. cbn [c16_ctrl_steps]. rewrite ST. apply ctl_steps; assumption.
Qed.
