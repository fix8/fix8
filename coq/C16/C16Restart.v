(* C16: c16_ok on every history START; plain SEND / BATCH, CLOCK, RESTART (a new session object on the same
   persister: the file persister re-opened on its files, a memory persister replaced), both roles, all persisters:
   the numbering starts or continues with the recovered control record (initiator), the configured start number,
   or 1, as the oracle expects, and every send keeps the control record current. *)
From Coq Require Import NArith ZArith List Bool Lia.
From F8 Require Import Sess.Bytes Sess.Msg Sess.Persist Sess.Session Sess.SimpleCodec Sess.Wire
  Sess.SessLemmas Sess.SendLemmas C16.Spec_C16 C16.C16Proofs.
Import ListNotations.
Local Open Scope N_scope.

Definition plain_or_restart (o : op) : bool := match o with ORestart => true | _ => plain_op o end.

Lemma plain_op_restart : forall o, plain_op o = true -> plain_or_restart o = true.
Proof. intros o H. destruct o; try exact H. reflexivity. Qed.

(* c16_step once start parameters and expected number are chosen *)
Definition judge (sp : startp) (e0 : N) (oper : op) (st : step) (o : ost) : option ost :=
  match num_events [] e0 (st_events st) with
  | None => None
  | Some e' =>
    if ctrl_clause sp oper st then
      Some (mkOst e' sp (match st_snap st with Some sn => sn_ctrl sn | None => o_ctrl o end)
                  (match st_snap st with Some sn => sn_state sn | None => o_state o end))
    else None
  end.

Lemma c16_step_judge : forall o oper st, not_in oper ->
  c16_step o oper st =
  match oper with
  | OStart p _ => judge p (start_number p None) oper st o
  | ORestart => judge (o_sp o) (start_number (o_sp o) (o_ctrl o)) oper st o
  | _ => judge (o_sp o) (o_expect o) oper st o
  end.
Proof. intros o oper st H. destruct oper; try reflexivity. contradiction. Qed.

Lemma num_events_quiet : forall alts e tl, has_out tl = false -> num_events alts e tl = Some e.
Proof.
  induction tl as [|ev tl IH]; intro H; [reflexivity|].
  destruct ev; cbn in H |- *; try discriminate; apply IH; exact H.
Qed.

Lemma p_reopen_ctrl : forall p, p_kind p = PFile -> p_get_ctrl (p_reopen p) = p_get_ctrl p.
Proof. intros p K. unfold p_reopen, p_get_ctrl. rewrite K. reflexivity. Qed.

Lemma p_reopen_kind : forall p, p_kind (p_reopen p) = p_kind p.
Proof. intros p. unfold p_reopen. destruct (p_kind p) eqn:K; try exact K. reflexivity. Qed.

Section Restart.
Variable sc : schema.
Hypothesis WS : wf_schema sc = true.

(* between operations: socket open, nothing buffered, the oracle expects the session's next number and remembers
   the control record of the last snapshot *)
Definition Inv (w : world) (o : ost) : Prop :=
  exists s, w_sess w = Some s /\ s_closed s = false /\ s_batch s = [] /\ wf_sess s = true /\
            wf_start (w_sp w) = true /\ p_kind (s_per s) = sp_pk (w_sp w) /\
            o_expect o = s_next_send s /\ o_sp o = w_sp w /\ o_ctrl o = ctrl_of s.

(* after an operation other than IN during which s0 became s and exactly the plain messages ms went out *)
Lemma judged : forall w o oper now s0 s ms tl,
  not_in oper -> w_sess w = Some s -> after_sends sc now s0 s ms [] (wires sc now s0 (s_next_send s0) ms) ->
  has_out tl = false -> wf_start (w_sp w) = true -> p_kind (s_per s0) = sp_pk (w_sp w) ->
  exists o', judge (w_sp w) (s_next_send s0) oper
               (mkStep (map EOut (wires sc now s0 (s_next_send s0) ms) ++ tl) (snd (snapshot w))) o = Some o' /\
             Inv (fst (snapshot w)) o'.
Proof.
  intros w o oper now s0 s ms tl NI E [O W FR PL NX B OUT FL CT] HT WP K.
  pose proof FR as (F1 & F2 & F3 & F4 & F5). destruct (snapshot_snap w s E) as [d SN].
  unfold judge. cbn [st_events st_snap]. rewrite num_events_wires, num_events_quiet, SN by assumption.
  assert (CC : ctrl_clause (w_sp w) oper
                 (mkStep (map EOut (wires sc now s0 (s_next_send s0) ms) ++ tl)
                         (Some (mkSnap (s_state s) (s_next_send s) (s_next_recv s) (ctrl_of s) d))) = true).
  { unfold ctrl_clause, ctrl_of. cbn [st_events st_snap sn_ctrl sn_send sn_recv]. rewrite <- K, <- F4.
    destruct (p_kind (s_per s)) eqn:KK; try reflexivity.
    replace (match oper with OIn _ => has_ret _ | _ => false end) with false by (destruct oper; try reflexivity; contradiction).
    rewrite orb_false_r. destruct ms as [|m r]; [cbn [wires imap map app]; rewrite HT; reflexivity|].
    rewrite CT by (discriminate || (symmetry; exact F4)). rewrite !N.eqb_refl. reflexivity. }
  rewrite CC. eexists. split; [reflexivity|].
  exists s. rewrite snapshot_sess, snapshot_sp. cbn [o_expect o_sp o_ctrl sn_ctrl].
  split; [exact E|]. split; [congruence|]. split; [rewrite B; reflexivity|].
  split; [apply (wf_sess_frame s0); assumption|]. split; [exact WP|]. split; [congruence|].
  split; [symmetry; exact NX|]. split; reflexivity.
Qed.

Lemma quiet_step : forall w o oper tl s,
  not_in oper -> w_sess w = Some s -> s_closed s = false -> s_batch s = [] -> wf_sess s = true ->
  wf_start (w_sp w) = true -> p_kind (s_per s) = sp_pk (w_sp w) -> has_out tl = false ->
  exists o', judge (w_sp w) (s_next_send s) oper (mkStep tl (snd (snapshot w))) o = Some o' /\ Inv (fst (snapshot w)) o'.
Proof.
  intros w o oper tl s NI E C B W WP K HT.
  apply (judged w o oper 0%Z s s [] tl); try assumption. apply sent_init; assumption.
Qed.

(* Connection::start on the persister the world provides, at START and at RESTART *)
Lemma started : forall w o oper ctrl,
  not_in oper -> wf_start (w_sp w) = true ->
  (sp_pk (w_sp w) = PFile -> p_kind (w_disk w) = PFile /\ p_get_ctrl (w_disk w) = ctrl) ->
  exists o', judge (w_sp w) (start_number (w_sp w) ctrl) oper
               (mkStep (snd (do_start sc w)) (snd (snapshot (fst (do_start sc w))))) o = Some o' /\
             Inv (fst (snapshot (fst (do_start sc w)))) o'.
Proof.
  intros w o oper ctrl NI WP HD. unfold do_start.
  set (p := w_sp w) in *. set (per := match sp_pk p with PFile => w_disk w | k => p_empty k end).
  assert (PK : p_kind per = sp_pk p /\ p_get_ctrl per = match sp_pk p with PFile => ctrl | _ => None end).
  { subst per. destruct (sp_pk p); [split; reflexivity|split; reflexivity|exact (HD eq_refl)]. }
  destruct PK as [PK PC].
  pose proof WP as WP0. apply andb_true_iff in WP0. destruct WP0 as [Ws Wt].
  destruct (start_new sc (w_now w) p per) as (s2 & st & ES & C2 & B2 & P2 & N2 & S2 & T2). rewrite ES.
  assert (W2 : wf_sess s2 = true) by (unfold wf_sess; rewrite S2, T2; destruct (sp_role p); rewrite ?Ws, ?Wt; reflexivity).
  (* the session starts with the number the oracle expects *)
  assert (NN : start_number p ctrl = s_next_send s2).
  { rewrite N2. unfold start_send, start_number. destruct (sp_role p); [|reflexivity].
    rewrite PC. destruct (pr_rsn (sp_par p)); [reflexivity|].
    destruct (sp_ss p =? 0); [|reflexivity]. destruct (sp_pk p); destruct ctrl as [[a b]|]; reflexivity. }
  (* what goes out at start (the initiator's Logon) is plain *)
  destruct (sent_from sc WS (w_now w) s2 (start_msgs sc p (s_hb s2)) C2 W2 B2) as (s3 & E3 & I3).
  { apply start_msgs_Forall. apply (logon_plain sc). }
  { intro NE. rewrite (start_msgs_last sc _ _ _ NE). apply (logon_plain sc). }
  rewrite E3, NN. cbn [fst snd].
  apply (judged (mkWorld (Some (w_state st s3)) (w_now w) p (w_disk w) (w_snap w)) o oper (w_now w) s2
                (w_state st s3) (start_msgs sc p (s_hb s2)) [ERet 0%Z]);
    try assumption; try reflexivity; [apply sent_state; exact I3|rewrite P2; exact PK].
Qed.

Lemma op_step : forall w o oper,
  Inv w o -> plain_or_restart oper = true ->
  exists o', c16_step o oper (mkStep (snd (run_op sc w oper)) (snd (snapshot (fst (run_op sc w oper))))) = Some o' /\
             Inv (fst (snapshot (fst (run_op sc w oper)))) o'.
Proof.
  intros w o oper (s & E & C & B & W & WP & K & X & SP & CT) P.
  destruct oper; try discriminate; cbn [plain_or_restart plain_op] in P;
    rewrite c16_step_judge, SP, ?X by exact I; cbn [run_op]; rewrite ?E.
  - (* SEND *)
    destruct (ms_ok m); cbn [negb fst snd]; [|apply quiet_step; assumption || reflexivity].
    destruct (build_msg sc m) as [msg|] eqn:BM; [|apply quiet_step; assumption || reflexivity].
    destruct (build_plain sc m msg P BM) as [Pm EB]. destruct (plain_spec_fields m P) as (Hc & Hn & _).
    destruct (sent_from sc WS (w_now w) s [msg] C W B) as (s' & ES & I'); [constructor; [exact Pm|constructor]|intros _; exact EB|].
    unfold send. rewrite Hc, Hn. cbn [N.eqb]. rewrite (send_seq_single sc _ _ _ _ _ ES). cbn [fst snd].
    apply (judged (with_sess w s') o _ (w_now w) s s' [msg] [ERet 1%Z]); assumption || reflexivity.
  - (* BATCH *)
    destruct (specs_ok l); cbn [negb fst snd]; [|apply quiet_step; assumption || reflexivity].
    destruct (build_all sc l) as [ms|] eqn:BA; [|apply quiet_step; assumption || reflexivity].
    destruct (batched_Forall (fun m => plain_msg m = true) (fun _ _ H => H) ms (build_all_plain sc l ms P BA)) as [FP LE].
    destruct (sent_from sc WS (w_now w) s (batched ms) C W B FP LE) as (s' & ES & I').
    rewrite send_batch_seq, ES. cbn [fst snd].
    apply (judged (with_sess w s') o _ (w_now w) s s' (batched ms) [ERet _]); assumption || reflexivity.
  - (* CLOCK *)
    cbn [fst snd]. apply (quiet_step (with_now w t)); assumption || reflexivity.
  - (* RESTART: the file persister is re-opened on its files, any other is replaced *)
    unfold teardown. rewrite E.
    apply (started (mkWorld None (w_now w) (w_sp w) _ (w_snap w))); [exact I|exact WP|]. cbn [w_sp w_disk].
    intro KP. rewrite KP in K. rewrite K. split; [rewrite p_reopen_kind; exact K|].
    rewrite p_reopen_ctrl, CT by exact K. unfold ctrl_of. rewrite K. reflexivity.
Qed.

Lemma start_step : forall p t, wf_start p = true ->
  exists o', c16_step ost0 (OStart p t) (mkStep (snd (run_op sc world0 (OStart p t)))
                                               (snd (snapshot (fst (run_op sc world0 (OStart p t)))))) = Some o' /\
             Inv (fst (snapshot (fst (run_op sc world0 (OStart p t))))) o'.
Proof.
  intros p t WP. rewrite c16_step_judge by exact I.
  replace (run_op sc world0 (OStart p t))
    with (do_start sc (mkWorld None (match t with Some t' => t' | None => T0 end) p (p_empty PFile) []))
    by (destruct t; reflexivity).
  apply (started (mkWorld None _ p (p_empty PFile) [])); [exact I|exact WP|]. intros _. split; reflexivity.
Qed.

Lemma steps : forall ops w o,
  Inv w o -> forallb plain_or_restart ops = true -> c16_steps o ops (run_ops sc w ops) = true.
Proof.
  induction ops as [|oper ops IH]; intros w o I P; [reflexivity|].
  cbn [forallb] in P. apply andb_true_iff in P. destruct P as [P1 P2].
  destruct (op_step w o oper I P1) as (o' & ST & I').
  rewrite run_ops_cons. cbn [c16_steps]. rewrite ST. apply IH; assumption.
Qed.

End Restart.

Theorem c16_restart_lemma : forall (sc : schema) (p : startp) (t : option Z) (ops : list op),
  wf_schema sc = true -> wf_start p = true -> forallb plain_or_restart ops = true ->
  c16_ok (OStart p t :: ops) (run_history sc (OStart p t :: ops)) = true.
Proof.
  intros sc p t ops WS WP P. destruct (start_step sc WS p t WP) as (o' & ST & I).
  unfold c16_ok, run_history. rewrite run_ops_cons. cbn [c16_steps]. rewrite ST. apply steps; assumption.
Qed.

(* two restarts on a file persister *)
From F8 Require Import Sess.Demo.
Definition h_restart : list op :=
  [OSend (demo_order [65]); OBatch [demo_order [66]; demo_admin [48]]; ORestart; OSend (demo_order [67]); ORestart; OSend (demo_admin [49])].
