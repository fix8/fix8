(* Crash safety of the FilePersister model (tree since a892b9a: the record is written before its
   index entry).  Every crash point leaves the disk of an operation boundary, possibly with the
   bytes of the put in progress appended to the data file and no index entry for them; such a disk
   satisfies the invariant of the C26 refinement proof for the state after the completed
   operations, and the refinement theorem gives the answers after the reopen. *)
From Coq Require Import PeanoNat NArith List Bool Lia.
From F8 Require Import C26.SMap C26.PersistSpec C26.PersistProofs C26.MemPersist C26.FilePersist
  C26.FileLemmas C26.FileProofs C26.SpecProofs C27.Crash C27.Spec_C27.
Import ListNotations.
Local Open Scope N_scope.

Lemma never_lost_app : forall a b m, never_lost_from m (a ++ b) = true -> never_lost_from m a = true.
Proof.
  induction a as [|o r IH]; intros b m H; [reflexivity|]. cbn [app never_lost_from] in *.
  destruct (slot_step m o); try discriminate; eapply IH; eauto.
Qed.

Lemma never_lost_reopen_safe : forall a m after, never_lost_from m a = true -> m <> SLost ->
  no_reopen after = true -> reopen_safe_from m (a ++ OReopen :: after) = true.
Proof.
  induction a as [|o r IH]; intros m after H Hm Ha; cbn [app never_lost_from reopen_safe_from] in *.
  - destruct m; try contradiction; apply no_reopen_safe, Ha.
  - assert (slot_step m o <> SLost) by (destruct (slot_step m o); congruence).
    assert (never_lost_from (slot_step m o) r = true) by (destruct (slot_step m o); congruence).
    destruct m; try contradiction; apply IH; auto.
Qed.

(* the operations before the crash, cut anywhere, then the reopen and what follows: admissible
   for the refinement theorem, and nothing in it is clipped *)
Lemma prefix_good : forall a b after,
  ops_wf ((a ++ b) ++ OReopen :: after) = true -> zero_free ((a ++ b) ++ OReopen :: after) = true ->
  never_lost (a ++ b) = true -> no_reopen after = true ->
  file_good file_empty (a ++ OReopen :: after) /\ clip a = a /\ clip after = after.
Proof.
  intros a b after Hw Hz Hl Ha. unfold ops_wf, zero_free in *.
  rewrite !forallb_app, !app_length in *. cbn [forallb length] in *.
  rewrite !andb_true_iff, N.ltb_lt in Hw. rewrite !andb_true_iff in Hz.
  destruct Hw as [[[Hwa _] [_ Hwf]] Hn], Hz as [[Hza _] [_ Hzf]].
  destruct (ops_wf_clip a Hwa) as [Hba Hca], (ops_wf_clip after Hwf) as [Hbf Hcf].
  split; [|auto]. exists SVirgin, 0. split; [apply finv_empty|].
  unfold zero_free. rewrite !forallb_app, app_length. cbn [forallb length]. rewrite Hba, Hbf, Hza, Hzf.
  repeat split; [lia|]. apply never_lost_reopen_safe; [eapply never_lost_app; eauto|discriminate|exact Ha].
Qed.

Definition torn (d0 d : disk) : Prop :=
  exists b, len b <= MAX_MSG_LENGTH /\ d = {| d_idx := d_idx d0; d_dat := d_dat d0 ++ b |}.

Lemma torn_refl : forall d, torn d d.
Proof.
  intros [i t]. exists []. cbn [d_idx d_dat]. rewrite app_nil_r. split; [apply N.le_0_l|reflexivity].
Qed.

(* cut before its last call, an operation has at most appended its record to the data file: the
   index write is the last call of a put *)
Lemma sys_prefix : forall st o k, (k < length (file_sys st o))%nat ->
  torn (f_disk st) (exec_all (f_disk st) (firstn k (file_sys st o))).
Proof.
  intros st o k Hk.
  destruct o as [seq b|seq|s t| | | | | ]; cbn [file_sys] in *; try (cbn in Hk; lia).
  - destruct (seq =? 0); [cbn in Hk; lia|].
    destruct (sfind seq (f_index st)); [cbn in Hk; lia|].
    destruct (N.ltb_spec MAX_MSG_LENGTH (len b)) as [Hl|Hl]; [cbn in Hk; lia|]. cbn [length] in Hk.
    destruct k as [|[|[|[|k]]]]; try apply torn_refl; [|lia].
    exists b. split; [exact Hl|].
    unfold exec_all. cbn [firstn fold_left exec_sys fst d_idx d_dat]. rewrite write_at_end. reflexivity.
  - destruct (seq =? 0); [cbn in Hk; lia|].
    destruct (sfind seq (f_index st)) as [[off sz]|]; [|cbn in Hk; lia]. cbn [length] in Hk.
    destruct k as [|k]; [apply torn_refl|lia].
  - cbn [length] in Hk. destruct k as [|[|k]]; try apply torn_refl. lia.
Qed.

Lemma crash_run_exec : forall ops st k,
  match crash_run st ops k with
  | None => exec file_step st ops = None
  | Some (Crashed d done i) =>
    exists stj, exec file_step st (firstn (length done) ops) = Some (stj, done) /\
                (length done <= length ops)%nat /\ torn (f_disk stj) d
  end.
Proof.
  unfold crash_run. induction ops as [|o r IH]; intros st k; cbn [crash_run_with].
  - exists st. cbn [length firstn exec]. auto using torn_refl.
  - destruct (Nat.leb_spec (length (file_sys st o)) k) as [Hk|Hk].
    + cbn [exec]. destruct (file_step st o) as [[st' x]|] eqn:Es; [|reflexivity].
      specialize (IH st' (k - length (file_sys st o))%nat).
      destruct (crash_run_with file_sys file_step st' r _) as [[d done i]|]; [|rewrite IH; reflexivity].
      destruct IH as [stj [E1 [E2 E3]]]. exists stj. cbn [length firstn exec]. rewrite Es, E1.
      repeat split; auto. lia.
    + exists st. cbn [length firstn exec]. split; [reflexivity|]. split; [lia|]. apply sys_prefix, Hk.
Qed.

(* EVERY crash point: after the reopen the store answers exactly as the contract does from
   the state after the n operations that had returned *)
Lemma c27_crash_exact : forall pre k after,
  ops_wf (pre ++ OReopen :: after) = true -> zero_free (pre ++ OReopen :: after) = true ->
  never_lost pre = true -> no_reopen after = true ->
  exists n, (n <= length pre)%nat /\
    c27_result pre k after =
    Some (n, spec_outputs (firstn n pre), snd (spec_run (state_after (firstn n pre)) after)).
Proof.
  intros pre k after Hw Hz Hl Ha.
  assert (Good : forall j, file_good file_empty (firstn j pre ++ OReopen :: after) /\
                           clip (firstn j pre) = firstn j pre /\ clip after = after).
  { intros j. apply (prefix_good _ (skipn j pre)); rewrite ?firstn_skipn; auto. }
  unfold c27_result, c27_model, c27_model_with. fold crash_run.
  pose proof (crash_run_exec pre file_empty k) as Hc.
  destruct (crash_run file_empty pre k) as [[d done i]|].
  2:{ exfalso. destruct (Good (length pre)) as [G _]. rewrite firstn_all in G.
      destruct (file_exec_refines _ _ _ G) as [s [E _]]. congruence. }
  destruct Hc as [stj [E1 [Hn [b [Hb ->]]]]].
  remember (length done) as n eqn:En. exists n. split; [exact Hn|].
  destruct (Good n) as [G [C1 C2]].
  destruct (file_exec_refines _ _ _ G) as [s [E [A [mode [m [I [Hbd [Hzf [Hm Hr]]]]]]]]].
  rewrite C1 in *. rewrite E in E1. injection E1 as -> <-.
  (* the reopened store: the index file is untouched, so the index is that of stj *)
  assert (Hmode : mode <> SLost) by (intros ->; discriminate Hr).
  unfold recover. cbn [d_idx]. rewrite (finv_replay _ _ _ I Hmode).
  destruct (finv_append stj mode m b I Hb) as [A' I'].
  (* the same fixpoint, by conversion *)
  change (run_with file_step) with (run file_step).
  rewrite (run_sim _ file_step fabs clip_op file_good file_good_step after).
  - cbn [result_of o_done o_after]. fold (clip after). rewrite <- En, A', A, C2. reflexivity.
  - exists mode, (m + 1). split; [exact I'|]. cbn [forallb length reopen_safe_from] in *.
    rewrite Nat2N.inj_succ in Hm. destruct mode; try contradiction; repeat split; auto; lia.
Qed.

Lemma c27_atomic_partial_lemma : forall pre k after,
  ops_wf (pre ++ OReopen :: after) = true -> zero_free (pre ++ OReopen :: after) = true ->
  never_lost pre = true -> no_reopen after = true ->
  c27_ok pre after (c27_result pre k after) = true.
Proof.
  intros pre k after Hw Hz Hl Ha. destruct (c27_crash_exact pre k after Hw Hz Hl Ha) as [n [Hn ->]].
  apply Nat.leb_le in Hn. cbn [c27_ok]. unfold cand_ok, spec_outputs, state_after.
  rewrite Hn, !spec_run_eqb. reflexivity.
Qed.

Definition f31_pre : list op := [OPut 1 [77; 83; 71; 45; 79; 78; 69]; OCtlPut 2 1; OPut 2 [77; 83; 71; 45; 84; 87; 79]].
Definition f31_after : list op := [OCtlGet; OGet 1; OGet 2].

(* F32: killed after the third call of put(2, "BBBBBB"), call 9 = 2 + 4 + 3 *)
Definition f32_pre : list op := [OCtlPut 1 1; OPut 1 [65; 65; 65; 65]; OPut 2 [66; 66; 66; 66; 66; 66]].
Definition f32_after : list op := [OGet 2; OPut 2 [68; 68]; OPut 3 [67; 67; 67; 67; 67; 67; 67; 67]; OGet 2].

(* killed between the data write and the index write of put(2,[13;14]), call 11 = 2 + 4 + 2 + 3 *)
Definition nv_pre : list op := [OCtlPut 3 4; OPut 1 [10; 11; 12]; OCtlPut 5 6; OPut 2 [13; 14]].
Definition nv_after : list op := [OCtlGet; OGet 1; OGet 2; OPut 2 [15]; OCtlPut 7 8; OCtlGet; OGet 2].

Definition cb_pre : list op :=
  [OCtlPut 4294967295 8193; OPut 1 [1; 2]; OCtlPut 65536 2147483648; OPut 2 [3]].
Definition cb_after : list op := [OCtlGet; OGet 1; OCtlPut 8192 4294967295; OCtlGet].
