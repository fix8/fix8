(* Session group: the send path (Sess.Session, Sess.Wire).  One send_process call: what it writes, for any message
   (send_process_writes); its closed form when MsgSeqNum / PossDupFlag are not preset (send_process_fresh: `stamped` is
   the message as encoded, `persisted` what happens to store, control record and next_send), and for a plain message
   (send_process_plain, filled_ok).  Runs: send_seq, of which send_batch is an instance, with one induction for any
   step invariant (send_seq_ind).  Histories: run_ops step by step, Session::start on a new session (start_new),
   messages built from specs (build_msg_ind). *)
From Coq Require Import NArith ZArith List Bool Lia.
From F8 Require Import Sess.Bytes Sess.Msg Sess.Persist Sess.Session Sess.SimpleCodec Sess.Wire Sess.SessLemmas.
Import ListNotations.
Local Open Scope N_scope.

Definition is_some {A} (o : option A) : bool := match o with Some _ => true | None => false end.

Fixpoint nodupb (l : list N) : bool :=
  match l with
  | [] => true
  | x :: l' => negb (existsb (N.eqb x) l') && nodupb l'
  end.

Lemma existsb_eqb_In : forall a l, existsb (N.eqb a) l = true <-> In a l.
Proof.
  intros a l. rewrite existsb_exists. split.
  - intros (x & I & E). apply N.eqb_eq in E. subst. exact I.
  - intro I. exists a. split; [exact I|apply N.eqb_refl].
Qed.

Lemma nodupb_NoDup : forall l, nodupb l = true -> NoDup l.
Proof.
  induction l; cbn [nodupb]; intro H; [constructor|].
  apply andb_true_iff in H. destruct H as [H1 H2]. constructor; [|apply IHl; exact H2].
  rewrite <- existsb_eqb_In. apply negb_true_iff in H1. congruence.
Qed.

Lemma NoDup_nodupb : forall l, NoDup l -> nodupb l = true.
Proof.
  induction 1 as [|a l NI _ IH]; cbn [nodupb]; [reflexivity|]. rewrite IH, andb_true_r.
  apply negb_true_iff, not_true_is_false. rewrite existsb_eqb_In. exact NI.
Qed.

(* f applied to n, n + 1, ... and the elements of l: the wire messages, their classification and
   their store entries of a run of sends are instances *)
Fixpoint imap {A B : Type} (f : N -> A -> B) (n : N) (l : list A) : list B :=
  match l with
  | [] => []
  | a :: r => f n a :: imap f (n + 1) r
  end.

Lemma imap_app : forall (A B : Type) (f : N -> A -> B) a b n,
  imap f n (a ++ b) = (imap f n a ++ imap f (n + N.of_nat (length a)) b)%list.
Proof.
  induction a as [|x a IH]; intros b n; cbn [imap app length].
  - rewrite N.add_0_r. reflexivity.
  - rewrite IH. replace (n + 1 + N.of_nat (length a)) with (n + N.of_nat (S (length a))) by lia. reflexivity.
Qed.

Lemma imap_length : forall (A B : Type) (f : N -> A -> B) l n, length (imap f n l) = length l.
Proof. induction l; intros; cbn; [reflexivity|]. rewrite IHl. reflexivity. Qed.

Lemma map_imap : forall (A B C : Type) (g : B -> C) (f : N -> A -> B) l n,
  map g (imap f n l) = imap (fun k a => g (f k a)) n l.
Proof. induction l; intros; cbn [imap map]; [reflexivity|]. rewrite IHl. reflexivity. Qed.

Lemma imap_map : forall (A A' B : Type) (f : N -> A -> B) (h : A' -> A) l n,
  imap f n (map h l) = imap (fun k a => f k (h a)) n l.
Proof. induction l; intros; cbn [imap map]; [reflexivity|]. rewrite IHl. reflexivity. Qed.

Lemma imap_ext : forall (A B : Type) (f g : N -> A -> B) l n,
  (forall k a, f k a = g k a) -> imap f n l = imap g n l.
Proof. induction l; intros n H; cbn [imap]; [reflexivity|]. rewrite H, IHl by exact H. reflexivity. Qed.

Lemma p_put_kind : forall p k v, p_kind (p_put p k v) = p_kind p.
Proof.
  intros. unfold p_put. destruct (p_kind p) eqn:K; try exact K; destruct (k =? 0); try exact K;
  destruct (store_get k (p_store p)); try exact K; reflexivity.
Qed.

Lemma p_put_ctrl_kind : forall p a b, p_kind (p_put_ctrl p a b) = p_kind p.
Proof. intros. unfold p_put_ctrl. destruct (p_kind p) eqn:K; try exact K; reflexivity. Qed.

Lemma p_put_ctrl_store : forall p a b, p_store (p_put_ctrl p a b) = p_store p.
Proof. intros. unfold p_put_ctrl. destruct (p_kind p); reflexivity. Qed.

Lemma p_put_ctrl_get : forall p a b, p_kind p = PFile -> p_get_ctrl (p_put_ctrl p a b) = Some (a, b).
Proof. intros p a b K. unfold p_get_ctrl, p_put_ctrl. rewrite K. reflexivity. Qed.

Lemma p_empty_ctrl : forall k, p_get_ctrl (p_empty k) = None.
Proof. destruct k; reflexivity. Qed.

(* the schema knows the header fields the session itself adds *)
Definition wf_schema (sc : schema) : bool :=
  nosoh (sc_begin sc) && is_some (assoc T_MsgSeqNum (sc_hdr sc)) && is_some (assoc T_SendingTime (sc_hdr sc)) &&
  is_some (assoc T_SenderCompID (sc_hdr sc)) && is_some (assoc T_TargetCompID (sc_hdr sc)).

Definition wf_sess (s : sess) : bool := nosoh (s_snd s) && nosoh (s_tgt s).

Definition plain_msg (m : msg) : bool :=
  (m_custom m =? 0) && negb (m_noinc m) && negb (beq (m_type m) mt_sequence_reset) &&
  negb (has_field T_MsgSeqNum (m_hdr m)) && negb (has_field T_PossDupFlag (m_hdr m)) &&
  negb (has_field T_MsgSeqNum (m_body m)) && negb (has_field T_PossDupFlag (m_body m)) &&
  nodupb (tags (m_hdr m)) && nosoh (m_type m) && vals_ok (m_hdr m) && vals_ok (m_body m).

(* MsgSeqNum and PossDupFlag not preset in the header: not a retransmission *)
Definition fresh_hdr (m : msg) : bool :=
  negb (has_field T_MsgSeqNum (m_hdr m)) && negb (has_field T_PossDupFlag (m_hdr m)).

Lemma has_add_other : forall p t v l t', t' <> t -> has_field t' (add_field p t v l) = has_field t' l.
Proof. intros. unfold has_field. rewrite get_add_other by assumption. reflexivity. Qed.

Lemma last_app_ne : forall (A : Type) (a b : list A) d, b <> [] -> last (a ++ b) d = last b d.
Proof.
  induction a as [|x a IH]; intros b d H; [reflexivity|]. cbn [app].
  destruct (a ++ b) as [|y l] eqn:E; [destruct a; [contradiction|discriminate]|].
  change (last (x :: y :: l) d) with (last (y :: l) d). rewrite <- E. apply IH. exact H.
Qed.

(* the session after a buffer went to the socket *)
Definition sent (now : Z) (k : N) (p : persister) (s : sess) : sess :=
  w_next_send k (w_per p (w_batch [] (w_last_sent now s))).

Section Send.
Variable sc : schema.

(* m as it goes out: the session's CompIDs where the application gave none, then MsgSeqNum n and SendingTime now *)
Definition addressed (s : sess) (m : msg) : msg :=
  let m1 := if has_field T_SenderCompID (m_hdr m) then m else add_hdr' sc T_SenderCompID (s_snd s) m in
  if has_field T_TargetCompID (m_hdr m1) then m1 else add_hdr' sc T_TargetCompID (s_tgt s) m1.

Definition stamped (now : Z) (s : sess) (n : N) (m : msg) : msg :=
  add_hdr' sc T_SendingTime (fmt_time now) (add_hdr' sc T_MsgSeqNum (dec n) (addressed s m)).

Definition own_fields (now : Z) (s : sess) (n : N) : list (N * bytes) :=
  [(T_SenderCompID, s_snd s); (T_TargetCompID, s_tgt s); (T_MsgSeqNum, dec n); (T_SendingTime, fmt_time now)].

(* what add_hdr' of the session's own fields keeps holds of the stamped message *)
Lemma stamped_ind : forall (P : msg -> Prop) now s n m,
  P m -> (forall t v x, In (t, v) (own_fields now s n) -> P x -> P (add_hdr' sc t v x)) -> P (stamped now s n m).
Proof.
  intros P now s n m H0 H. unfold stamped, addressed.
  (* membership by left / right: cbn would unfold fmt_time *)
  apply H; [do 3 right; left; reflexivity|]. apply H; [do 2 right; left; reflexivity|].
  destruct (has_field T_SenderCompID (m_hdr m)); destruct (has_field T_TargetCompID _);
    repeat (apply H; [(left; reflexivity) || (right; left; reflexivity)|]); exact H0.
Qed.

Lemma own_fields_tags : forall now s n t v, In (t, v) (own_fields now s n) ->
  In t [T_SenderCompID; T_TargetCompID; T_MsgSeqNum; T_SendingTime].
Proof. intros now s n t v I. apply (in_map fst) in I. exact I. Qed.

Lemma own_fields_nosoh : forall now s n t v, wf_sess s = true -> In (t, v) (own_fields now s n) -> nosoh v = true.
Proof.
  intros now s n t v W I. apply andb_true_iff in W. destruct W as [Ws Wt].
  destruct I as [E|[E|[E|[E|[]]]]]; inversion E; subst; try assumption.
  - apply clean_nosoh, dec_clean.
  - apply fmt_time_nosoh.
Qed.

Lemma addressed_get : forall s m t, t <> T_SenderCompID -> t <> T_TargetCompID ->
  get_field t (m_hdr (addressed s m)) = get_field t (m_hdr m).
Proof.
  intros s m t H1 H2. unfold addressed.
  destruct (has_field T_SenderCompID (m_hdr m)); destruct (has_field T_TargetCompID _);
    rewrite ?add_hdr'_get_other by assumption; reflexivity.
Qed.

Definition filled (now : Z) (s : sess) (m : msg) : msg :=
  let m1 := if has_field T_SenderCompID (m_hdr m) then m else add_hdr' sc T_SenderCompID (s_snd s) m in
  let m2 := if has_field T_TargetCompID (m_hdr m1) then m1 else add_hdr' sc T_TargetCompID (s_tgt s) m1 in
  add_hdr' sc T_SendingTime (fmt_time now) (add_hdr' sc T_MsgSeqNum (dec (s_next_send s)) m2).

Definition wire (now : Z) (s : sess) (m : msg) : bytes := encode sc (filled now s m).

Lemma filled_stamped : forall now s m, filled now s m = stamped now s (s_next_send s) m.
Proof. reflexivity. Qed.

Lemma stamped_frame : forall now s s0 n m,
  s_snd s = s_snd s0 -> s_tgt s = s_tgt s0 -> stamped now s n m = stamped now s0 n m.
Proof. intros now s s0 n m A B. unfold stamped, addressed. rewrite A, B. reflexivity. Qed.

Lemma out_events_encodes : forall ms, nosoh (sc_begin sc) = true ->
  out_events (concat (map (encode sc) ms)) = map EOut (map (encode sc) ms).
Proof. intros ms H. unfold out_events. rewrite frames_encodes by exact H. apply app_nil_r. Qed.

Lemma out_events_encode : forall m, nosoh (sc_begin sc) = true -> out_events (encode sc m) = [EOut (encode sc m)].
Proof. intros m B. pose proof (out_events_encodes [m] B) as E. cbn [map concat] in E. rewrite app_nil_r in E. exact E. Qed.

(* the end_of_batch flag is not part of what is encoded *)
Lemma add_hdr'_set_eob : forall tag v b m, add_hdr' sc tag v (set_eob b m) = set_eob b (add_hdr' sc tag v m).
Proof. intros. unfold add_hdr', add_hdr. cbn [set_eob m_hdr]. destruct (assoc tag (sc_hdr sc)); reflexivity. Qed.

Lemma stamped_set_eob : forall now s n b m, stamped now s n (set_eob b m) = set_eob b (stamped now s n m).
Proof.
  intros. unfold stamped, addressed. cbn [set_eob m_hdr].
  destruct (has_field T_SenderCompID (m_hdr m)); rewrite ?add_hdr'_set_eob; cbn [set_eob m_hdr];
    destruct (has_field T_TargetCompID _); rewrite ?add_hdr'_set_eob; reflexivity.
Qed.

(* any message: send_process writes batch buffer, persister and next_send; if the socket takes something it is a
   non-empty buffer, the batch buffer is emptied and last_sent = now.  The witnesses are read off s' *)
Lemma send_process_writes : forall now s m ok s' e,
  send_process sc now s m = (ok, s', e) ->
  (s' = w_next_send (s_next_send s') (w_per (s_per s') (w_batch (s_batch s') s)) /\ e = []) \/
  (exists buf, buf <> [] /\ s' = sent now (s_next_send s') (s_per s') s /\ e = out_events buf).
Proof.
  intros now s m ok s' e H. unfold send_process in H. cbv zeta in H.
  destruct (if has_field T_MsgSeqNum _ then _ else _) as [m3 is_dup].
  set (enc := encode sc _) in H. assert (NE : enc <> []) by apply encode_not_nil. clearbody enc.
  destruct s as [st ns nr ac ls lr hb ro sn tg sci par batch per sh cl rd rqs rqr].
  cbn [s_batch s_closed] in H.
  destruct (m_eob m); [destruct batch, cl|]; cbn [negb] in H;
    try (destruct is_dup; [|destruct (_ && _ && _)]); inversion H; subst;
    first [ left; split; reflexivity
          | right; eexists; split; [|split; reflexivity]; (exact NE || discriminate) ].
Qed.

Definition out_seq (s : sess) (m : msg) : N := if m_custom m =? 0 then s_next_send s else m_custom m.

Definition increments (m : msg) : bool :=
  (m_custom m =? 0) && negb (m_noinc m) && negb (beq (m_type m) mt_sequence_reset).

(* the end of send_process, from the state s1 the socket step left: store, control record, next_send *)
Definition persisted (m : msg) (enc : bytes) (s1 : sess) : sess :=
  let nxt := if increments m then s_next_send s1 + 1 else s_next_send s1 in
  let per1 := if p_attached (s_per s1)
              then p_put_ctrl (if is_admin sc (m_type m) then s_per s1 else p_put (s_per s1) (s_next_send s1) enc)
                              nxt (s_next_recv s1)
              else s_per s1 in
  w_next_send nxt (w_per per1 s1).

Theorem send_process_fresh : forall now s m, fresh_hdr m = true ->
  send_process sc now s m =
  let enc := encode sc (stamped now s (out_seq s m) m) in
  if m_eob m then
    if s_closed s then (false, match s_batch s with [] => s | _ => w_batch (s_batch s ++ enc) s end, [])
    else (true, persisted m enc (w_batch [] (w_last_sent now s)), out_events (s_batch s ++ enc))
  else (true, persisted m enc (w_batch (s_batch s ++ enc) s), []).
Proof.
  intros now s m F. apply andb_true_iff in F. destruct F as [H34 H43]. apply negb_true_iff in H34, H43.
  assert (E : has_field T_MsgSeqNum (m_hdr (addressed s m)) = false).
  { unfold has_field in *. rewrite addressed_get by discriminate. exact H34. }
  unfold send_process, persisted, stamped, increments, out_seq, addressed in *. cbv zeta. rewrite H43, E.
  destruct ((m_custom m =? 0) && negb (m_noinc m) && negb (beq (m_type m) mt_sequence_reset));
    (destruct (m_eob m); [destruct (s_batch s); destruct (s_closed s)|]); reflexivity.
Qed.

Lemma persisted_kind : forall m enc s1, p_kind (s_per (persisted m enc s1)) = p_kind (s_per s1).
Proof.
  intros. unfold persisted. cbn [w_next_send w_per s_per].
  destruct (p_attached (s_per s1)); [|reflexivity]. rewrite p_put_ctrl_kind.
  destruct (is_admin sc (m_type m)); [reflexivity|apply p_put_kind].
Qed.

Lemma persisted_ctrl : forall m enc s1, p_kind (s_per s1) = PFile ->
  p_get_ctrl (s_per (persisted m enc s1)) = Some (s_next_send (persisted m enc s1), s_next_recv (persisted m enc s1)).
Proof.
  intros m enc s1 K. unfold persisted, p_attached. rewrite K. cbn [w_next_send w_per s_per s_next_send s_next_recv].
  apply p_put_ctrl_get. destruct (is_admin sc (m_type m)); [exact K|rewrite p_put_kind; exact K].
Qed.

(* the persister after send_process: ptr is what is handed to put *)
Definition per_after (s : sess) (m : msg) (ptr : bytes) : persister :=
  if p_attached (s_per s) then
    p_put_ctrl (if is_admin sc (m_type m) then s_per s else p_put (s_per s) (s_next_send s) ptr)
               (s_next_send s + 1) (s_next_recv s)
  else s_per s.

Definition plain_result (now : Z) (s : sess) (m : msg) : bool * sess * list event :=
  let enc := wire now s m in
  if m_eob m then
    match s_batch s with
    | [] => (true, w_next_send (s_next_send s + 1) (w_per (per_after s m enc) (w_batch [] (w_last_sent now s))),
             out_events enc)
    | _ => (true, w_next_send (s_next_send s + 1) (w_per (per_after s m enc) (w_batch [] (w_last_sent now s))),
            out_events (s_batch s ++ enc)%list)
    end
  else (true, w_next_send (s_next_send s + 1) (w_per (per_after s m enc) (w_batch (s_batch s ++ enc)%list s)), []).

Lemma plain_fields : forall m, plain_msg m = true ->
  m_custom m = 0 /\ m_noinc m = false /\ beq (m_type m) mt_sequence_reset = false /\
  has_field T_MsgSeqNum (m_hdr m) = false /\ has_field T_PossDupFlag (m_hdr m) = false /\
  has_field T_MsgSeqNum (m_body m) = false /\ has_field T_PossDupFlag (m_body m) = false /\
  NoDup (tags (m_hdr m)) /\ nosoh (m_type m) = true /\ vals_ok (m_hdr m) = true /\ vals_ok (m_body m) = true.
Proof.
  intros m H. unfold plain_msg in H.
  repeat (apply andb_true_iff in H; destruct H as [H ?]).
  repeat match goal with X : negb _ = true |- _ => apply negb_true_iff in X end.
  apply N.eqb_eq in H. repeat split; try assumption. apply nodupb_NoDup. assumption.
Qed.

Lemma has_after_add_other : forall tag v m t, t <> tag ->
  has_field t (m_hdr (add_hdr' sc tag v m)) = has_field t (m_hdr m).
Proof. intros. unfold has_field. rewrite add_hdr'_get_other by assumption. reflexivity. Qed.

Lemma plain_increments : forall m, plain_msg m = true -> increments m = true.
Proof. intros m P. destruct (plain_fields m P) as (Hc & Hn & Ht & _). unfold increments. rewrite Hc, Hn, Ht. reflexivity. Qed.

(* plain_result in the terms of send_process_fresh: per_after is the persister of `persisted` when the number
   advances, and [] ++ enc is enc *)
Lemma plain_result_eq : forall now s m, increments m = true ->
  plain_result now s m =
  (true,
   persisted m (wire now s m) (if m_eob m then w_batch [] (w_last_sent now s) else w_batch (s_batch s ++ wire now s m) s),
   if m_eob m then out_events (s_batch s ++ wire now s m) else []).
Proof.
  intros now s m I. unfold plain_result, persisted, per_after. rewrite I.
  destruct (m_eob m); [destruct (s_batch s)|]; reflexivity.
Qed.

Theorem send_process_plain : forall now s m,
  plain_msg m = true -> s_closed s = false ->
  send_process sc now s m = plain_result now s m.
Proof.
  intros now s m P C. destruct (plain_fields m P) as (Hc & _ & _ & H34 & H43 & _).
  rewrite send_process_fresh by (unfold fresh_hdr; rewrite H34, H43; reflexivity).
  rewrite plain_result_eq by exact (plain_increments m P). unfold out_seq, wire. rewrite Hc, C.
  destruct (m_eob m); reflexivity.
Qed.

Fixpoint send_seq (now : Z) (s : sess) (ms : list msg) : N * sess * list event :=
  match ms with
  | [] => (0, s, [])
  | m :: r =>
    let '(ok, s1, e1) := send_process sc now s m in
    let '(n, s2, e2) := send_seq now s1 r in
    ((if ok then 1 else 0) + n, s2, (e1 ++ e2)%list)
  end.

(* write_batch: end_of_batch is set on the last message of a vector and cleared on the others *)
Fixpoint marked (l : list msg) : list msg :=
  match l with
  | [] => []
  | m :: r => set_eob (match r with [] => true | _ => false end) m :: marked r
  end.

Lemma send_batch_loop_seq : forall now l s cnt evs,
  send_batch_loop sc now s l cnt evs =
  (let '(n, s', e) := send_seq now s (marked l) in (cnt + n, s', (evs ++ e)%list)).
Proof.
  induction l as [|m r IH]; intros s cnt evs; cbn [send_batch_loop marked send_seq].
  - rewrite N.add_0_r, app_nil_r. reflexivity.
  - destruct (send_process sc now s _) as [[ok s1] e1].
    rewrite IH. destruct (send_seq now s1 (marked r)) as [[n s2] e2].
    rewrite app_assoc. destruct ok; f_equal; f_equal; lia.
Qed.

Lemma send_seq_one : forall now s m,
  send_seq now s [m] = (let '(ok, s1, e1) := send_process sc now s m in ((if ok then 1 else 0), s1, e1)).
Proof.
  intros. cbn [send_seq]. destruct (send_process sc now s m) as [[ok s1] e1].
  rewrite N.add_0_r, app_nil_r. reflexivity.
Qed.

Lemma send_seq_single : forall now s m s' e, send_seq now s [m] = (1, s', e) -> send_process sc now s m = (true, s', e).
Proof.
  intros now s m s' e H. rewrite send_seq_one in H. destruct (send_process sc now s m) as [[ok s1] e1].
  destruct ok; inversion H; reflexivity.
Qed.

(* the messages of a send_batch call as they reach send_process *)
Definition batched (l : list msg) : list msg := match l with [] => [] | [m] => [m] | _ => marked l end.

Lemma send_batch_seq : forall now s l, send_batch sc now s l = send_seq now s (batched l).
Proof.
  intros now s l. destruct l as [|m1 [|m2 r]]; [reflexivity|symmetry; apply send_seq_one|].
  change (send_batch sc now s (m1 :: m2 :: r)) with (send_batch_loop sc now s (m1 :: m2 :: r) 0 []).
  rewrite send_batch_loop_seq. change (batched (m1 :: m2 :: r)) with (marked (m1 :: m2 :: r)).
  destruct (send_seq now s (marked (m1 :: m2 :: r))) as [[n s'] e]. reflexivity.
Qed.

Lemma marked_norm : forall l, map (set_eob true) (marked l) = map (set_eob true) l.
Proof. induction l; cbn [marked map]; [reflexivity|]. rewrite IHl. reflexivity. Qed.

Lemma marked_length : forall l, length (marked l) = length l.
Proof. induction l; cbn; [reflexivity|]. rewrite IHl. reflexivity. Qed.

Lemma marked_last : forall l d, l <> [] -> m_eob (last (marked l) d) = true.
Proof.
  induction l as [|m r IH]; intros d H; [contradiction|]. destruct r as [|m' r']; [reflexivity|].
  change (last (marked (m :: m' :: r')) d) with (last (marked (m' :: r')) d). apply IH. discriminate.
Qed.

Lemma marked_Forall : forall (P : msg -> Prop), (forall b m, P m -> P (set_eob b m)) ->
  forall l, Forall P l -> Forall P (marked l).
Proof. intros P H. induction 1; cbn [marked]; constructor; auto. Qed.

Lemma batched_Forall : forall (P : msg -> Prop), (forall b m, P m -> P (set_eob b m)) ->
  forall ms, Forall (fun m => P m /\ m_eob m = true) ms ->
  Forall P (batched ms) /\ (batched ms <> [] -> m_eob (last (batched ms) (new_msg [])) = true).
Proof.
  intros P H ms F.
  assert (FP : Forall P ms) by (eapply Forall_impl; [|exact F]; intros a [A _]; exact A).
  destruct ms as [|a [|b r]].
  - split; [constructor|intro Z; contradiction].
  - split; [exact FP|intros _]. apply (Forall_inv F).
  - split; [apply marked_Forall; assumption|intros _; apply marked_last; discriminate].
Qed.

(* one induction over a run, for any invariant I (state, messages sent so far, buffered, on the wire)
   that a send_process step on a message satisfying Pm re-establishes *)
Lemma send_seq_ind : forall now (Pm : msg -> Prop) (I : sess -> list msg -> list msg -> list bytes -> Prop),
  (forall s done pend out m, I s done pend out -> Pm m ->
     exists s' pend' o, send_process sc now s m = (true, s', map EOut o) /\ I s' (done ++ [m]) pend' (out ++ o)) ->
  forall ms s done pend out, I s done pend out -> Forall Pm ms ->
  exists s' pend' o, send_seq now s ms = (N.of_nat (length ms), s', map EOut o) /\ I s' (done ++ ms) pend' (out ++ o) /\
                     (ms = [] -> pend' = pend /\ o = []).
Proof.
  intros now Pm I ST. induction ms as [|m r IH]; intros s done pend out H F.
  - exists s, pend, []. rewrite !app_nil_r. split; [reflexivity|]. split; [exact H|]. intros _. split; reflexivity.
  - inversion F as [|? ? Fm Fr]; subst.
    destruct (ST s done pend out m H Fm) as (s1 & pend1 & o1 & E1 & H1).
    destruct (IH s1 _ _ _ H1 Fr) as (s' & pend' & o' & E' & H' & _).
    exists s', pend', (o1 ++ o')%list. cbn [send_seq]. rewrite E1, E', map_app.
    rewrite <- !app_assoc in H'. split; [|split; [exact H'|discriminate]]. f_equal. f_equal. cbn [length]. lia.
Qed.

End Send.

Section Wire.
Variable sc : schema.

Lemma wf_schema_fields : wf_schema sc = true ->
  nosoh (sc_begin sc) = true /\ (exists p, assoc T_MsgSeqNum (sc_hdr sc) = Some p) /\
  (exists p, assoc T_SendingTime (sc_hdr sc) = Some p).
Proof.
  intro H. unfold wf_schema in H. repeat (apply andb_true_iff in H; destruct H as [H ?]).
  split; [exact H|]. split.
  - destruct (assoc T_MsgSeqNum (sc_hdr sc)) as [p|]; [exists p; reflexivity|discriminate].
  - destruct (assoc T_SendingTime (sc_hdr sc)) as [p|]; [exists p; reflexivity|discriminate].
Qed.

Lemma stamped_kept : forall now s n m,
  wf_sess s = true -> NoDup (tags (m_hdr m)) -> vals_ok (m_hdr m) = true ->
  let x := stamped sc now s n m in
  m_type x = m_type m /\ m_body x = m_body m /\ NoDup (tags (m_hdr x)) /\ vals_ok (m_hdr x) = true /\
  get_field T_PossDupFlag (m_hdr x) = get_field T_PossDupFlag (m_hdr m).
Proof.
  intros now s n m W ND V x. subst x. pattern (stamped sc now s n m). apply stamped_ind; [repeat split; assumption|].
  intros t v x I (T & B & N' & V' & D). rewrite add_hdr'_type, add_hdr'_body. repeat split; try assumption.
  - apply add_hdr'_nodup. exact N'.
  - apply add_hdr'_vals; [eapply own_fields_nosoh; eassumption|exact V'].
  - rewrite add_hdr'_get_other; [exact D|].
    apply own_fields_tags in I. intro E. subst t. repeat (destruct I as [I|I]; [discriminate I|]). exact I.
Qed.

Record filled_facts (now : Z) (s : sess) (m : msg) : Prop := {
  ff_wf : wf_msg sc (filled sc now s m) = true;
  ff_type : m_type (filled sc now s m) = m_type m;
  ff_body : m_body (filled sc now s m) = m_body m;
  ff_seq : get_field T_MsgSeqNum (m_hdr (filled sc now s m)) = Some (dec (s_next_send s));
  ff_dup : get_field T_PossDupFlag (m_hdr (filled sc now s m)) = None
}.

Lemma filled_ok : forall now s m,
  wf_schema sc = true -> wf_sess s = true -> plain_msg m = true -> filled_facts now s m.
Proof.
  intros now s m WS WSS P.
  destruct (plain_fields m P) as (_ & _ & _ & _ & H43 & _ & _ & ND & Nty & Vh & Vb).
  destruct (wf_schema_fields WS) as (Nb & [p34 A34] & _).
  destruct (stamped_kept now s (s_next_send s) m WSS ND Vh) as (T & B & _ & V & D). rewrite <- filled_stamped in *.
  constructor; try assumption.
  - unfold wf_msg. rewrite Nb, T, B, Nty, V, Vb. reflexivity.
  - unfold filled. rewrite add_hdr'_get_other by discriminate. eapply add_hdr'_get_same; [exact A34|].
    (* the header is still duplicate-free when MsgSeqNum is added *)
    fold (addressed sc s m). unfold addressed.
    destruct (has_field T_SenderCompID (m_hdr m)); destruct (has_field T_TargetCompID _);
      repeat apply add_hdr'_nodup; exact ND.
  - rewrite D. apply get_none_of_has. exact H43.
Qed.

End Wire.

Section Histories.
Variable sc : schema.

Lemma run_ops_cons : forall w o l,
  run_ops sc w (o :: l) =
  mkStep (snd (run_op sc w o)) (snd (snapshot (fst (run_op sc w o)))) ::
  run_ops sc (fst (snapshot (fst (run_op sc w o)))) l.
Proof.
  intros. cbn [run_ops]. destruct (run_op sc w o) as [w1 evs]. cbn [fst snd].
  destruct (snapshot w1) as [w2 sn]. reflexivity.
Qed.

Lemma snapshot_sess : forall w, w_sess (fst (snapshot w)) = w_sess w.
Proof.
  intros w. unfold snapshot. destruct (w_sess w) as [s|] eqn:E; [|exact E].
  destruct (p_kind (s_per s)); try exact E; reflexivity.
Qed.

Lemma snapshot_sp : forall w, w_sp (fst (snapshot w)) = w_sp w.
Proof.
  intros w. unfold snapshot. destruct (w_sess w) as [s|]; [|reflexivity].
  destruct (p_kind (s_per s)); reflexivity.
Qed.

(* the control record a snapshot shows *)
Definition ctrl_of (s : sess) : option (N * N) :=
  match p_kind (s_per s) with PFile => p_get_ctrl (s_per s) | _ => None end.

Lemma snapshot_snap : forall w s, w_sess w = Some s ->
  exists d, snd (snapshot w) = Some (mkSnap (s_state s) (s_next_send s) (s_next_recv s) (ctrl_of s) d).
Proof. intros w s E. unfold snapshot, ctrl_of. rewrite E. destruct (p_kind (s_per s)); eexists; reflexivity. Qed.

Lemma run_start : forall p t,
  run_op sc world0 (OStart p t) =
  (let now := match t with Some t' => t' | None => T0 end in
   let '(r, s, evs) := start sc now p (new_session p (p_empty (sp_pk p))) in
   (mkWorld (Some s) now p (p_empty PFile) [], (evs ++ [ERet r])%list)).
Proof.
  intros p t. destruct t as [t'|]; cbn [run_op]; unfold do_start, with_now, world0;
    cbn [w_sess w_now w_sp w_disk w_snap]; destruct (sp_pk p); reflexivity.
Qed.

Definition start_send (p : startp) (per : persister) : N :=
  match sp_role p with
  | Acceptor => 1
  | Initiator =>
    if pr_rsn (sp_par p) then 1
    else if sp_ss p =? 0 then match p_get_ctrl per with Some (a, _) => a | None => 1 end
    else sp_ss p
  end.

Definition start_msgs (p : startp) (hb : N) : list msg :=
  match sp_role p with
  | Initiator => [generate_logon sc hb (pr_rsn (sp_par p))]
  | Acceptor => []
  end.

Lemma start_msgs_Forall : forall (P : msg -> Prop) p hb,
  P (generate_logon sc hb (pr_rsn (sp_par p))) -> Forall P (start_msgs p hb).
Proof. intros P p hb H. unfold start_msgs. destruct (sp_role p); repeat constructor. exact H. Qed.

Lemma start_msgs_last : forall p hb d, start_msgs p hb <> [] -> last (start_msgs p hb) d = generate_logon sc hb (pr_rsn (sp_par p)).
Proof. intros p hb d. unfold start_msgs. destruct (sp_role p); [reflexivity|intro H; contradiction]. Qed.

(* Session::start on a new session, either role: start_msgs go out from a state s2 that has the socket open, nothing
   buffered, the given persister and the number start_send; only the session state changes afterwards *)
Lemma start_new : forall now p per,
  exists s2 st,
    start sc now p (new_session p per) =
    (let '(_, s3, e3) := send_seq sc now s2 (start_msgs p (s_hb s2)) in (0%Z, w_state st s3, e3)) /\
    s_closed s2 = false /\ s_batch s2 = [] /\ s_per s2 = per /\ s_next_send s2 = start_send p per /\
    s_snd s2 = match sp_role p with Initiator => sp_snd p | Acceptor => [] end /\
    s_tgt s2 = match sp_role p with Initiator => sp_tgt p | Acceptor => [] end.
Proof.
  intros now p per. unfold start, new_session, start_send, start_msgs. destruct (sp_role p).
  - cbv zeta. set (s2 := if pr_rsn (sp_par p) then _ else _). exists s2, st_logon_sent. split.
    + rewrite send_seq_one. unfold send. cbn [N.eqb]. destruct (send_process sc now _ _) as [[ok s3] e3]. reflexivity.
    + subst s2. destruct (pr_rsn (sp_par p)); [repeat split|].
      unfold recover_seqnums. cbn [s_per atomic_init w_down w_state w_next_send w_next_recv].
      destruct (p_get_ctrl per) as [[a b]|]; destruct (sp_ss p =? 0); destruct (sp_rs p =? 0); repeat split.
  - cbv zeta. set (sa := mkSess _ _ _ _ _ _ _ _ _ _ _ _ _ _ _ _ _ _ _). exists sa, st_wait_for_logon.
    split; [reflexivity|repeat split].
Qed.

Definition with_hdr (h : list field) (m : msg) : msg := mkMsg (m_type m) h (m_body m) (m_custom m) (m_noinc m) (m_eob m).
Definition with_body (b : list field) (m : msg) : msg := mkMsg (m_type m) (m_hdr m) b (m_custom m) (m_noinc m) (m_eob m).

Lemma add_fields_ind : forall (f : N -> bytes -> msg -> option msg) (P : msg -> Prop) l m m',
  add_fields f l m = Some m' -> P m ->
  (forall t v x y, In (t, v) l -> f t v x = Some y -> P x -> P y) -> P m'.
Proof.
  intros f P. induction l as [|[t v] l IH]; intros m m' E H0 H; cbn [add_fields] in E.
  - inversion E; subst. exact H0.
  - destruct (f t v m) as [m1|] eqn:F; [|discriminate].
    apply (IH m1 m' E); [apply (H t v m m1); [left; reflexivity|exact F|exact H0]|].
    intros t' v' x y I. apply H. right. exact I.
Qed.

(* a built message is reached from new_msg by add_field of the listed header pairs, then of the listed body pairs *)
Lemma build_msg_ind : forall (P : msg -> Prop) sp m,
  build_msg sc sp = Some m ->
  P (new_msg (ms_type sp)) ->
  (forall t v p x, In (t, v) (ms_hdr sp) -> P x -> P (with_hdr (add_field p t v (m_hdr x)) x)) ->
  (forall t v p x, In (t, v) (ms_body sp) -> P x -> P (with_body (add_field p t v (m_body x)) x)) ->
  P m.
Proof.
  intros P sp m E H0 Hh Hb. unfold build_msg in E. destruct (find_def (ms_type sp) (sc_msgs sc)); [|discriminate].
  destruct (add_fields (add_hdr sc) (ms_hdr sp) (new_msg (ms_type sp))) as [m1|] eqn:E1; [|discriminate].
  apply (add_fields_ind _ P _ _ _ E).
  - apply (add_fields_ind _ P _ _ _ E1 H0). intros t v x y I A. unfold add_hdr in A.
    destruct (assoc t (sc_hdr sc)) as [p|]; [|discriminate]. inversion A. apply Hh. exact I.
  - intros t v x y I A. unfold add_body in A. destruct (find_def (m_type x) (sc_msgs sc)) as [d|]; [|discriminate].
    destruct (assoc t (d_pos d)) as [p|]; [|discriminate]. inversion A. apply Hb. exact I.
Qed.

(* add_body': how the session fills the body of its own messages *)
Lemma add_body'_cases : forall t v m,
  add_body' sc t v m = m \/
  (exists p, add_body' sc t v m =
             mkMsg (m_type m) (m_hdr m) (add_field p t v (m_body m)) (m_custom m) (m_noinc m) (m_eob m)).
Proof.
  intros. unfold add_body', add_body.
  destruct (find_def (m_type m) (sc_msgs sc)) as [d|]; [|left; reflexivity].
  destruct (assoc t (d_pos d)) as [p|]; [right; exists p|left]; reflexivity.
Qed.

Lemma add_body'_ind : forall (P : msg -> Prop) t v m,
  P m -> (forall p, P (with_body (add_field p t v (m_body m)) m)) -> P (add_body' sc t v m).
Proof. intros P t v m H0 H. destruct (add_body'_cases t v m) as [E|[p E]]; rewrite E; [exact H0|apply H]. Qed.

Lemma build_all_Forall : forall (Q : msgspec -> bool) (P : msg -> Prop),
  (forall sp m, Q sp = true -> build_msg sc sp = Some m -> P (set_noinc (ms_noinc sp) (set_custom (ms_custom sp) m))) ->
  forall l ms, forallb Q l = true -> build_all sc l = Some ms -> Forall P ms.
Proof.
  intros Q P H. induction l as [|sp l IH]; intros ms F E; cbn [build_all] in E.
  - inversion E. constructor.
  - cbn [forallb] in F. apply andb_true_iff in F. destruct F as [F1 F2].
    destruct (build_msg sc sp) as [m|] eqn:B; [|discriminate].
    destruct (build_all sc l) as [ms'|]; [|discriminate]. inversion E; subst.
    constructor; [apply H; assumption|apply IH; [exact F2|reflexivity]].
Qed.

End Histories.
