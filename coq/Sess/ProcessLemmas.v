(* Session group: the inbound side (Sess.Session).  The laws of the state / event / exception monad M of the
   handlers, what Session::stop writes, Session::process when the handler returns.  What a handler needs
   about a send it makes (send_process_writes, `sent`, out_events_encode, add_body'_cases) is in
   Sess.SendLemmas, which comes with this file. *)
From Coq Require Import NArith ZArith List Bool Lia.
From F8 Require Import Sess.Bytes Sess.Msg Sess.Persist Sess.Session Sess.SessLemmas.
From F8 Require Export Sess.SendLemmas.
Import ListNotations.
Local Open Scope N_scope.

Lemma bind_get : forall B (f : sess -> M B) s, bind get f s = f s s.
Proof. intros. unfold bind, get. destruct (f s s) as [[r s2] e2]. reflexivity. Qed.
Lemma bind_ret : forall A B (a : A) (f : A -> M B) s, bind (ret a) f s = f a s.
Proof. intros. unfold bind, ret. destruct (f a s) as [[r s2] e2]. reflexivity. Qed.
Lemma bind_modify : forall B g (f : unit -> M B) s, bind (modify g) f s = f tt (g s).
Proof. intros. unfold bind, modify. destruct (f tt (g s)) as [[r s2] e2]. reflexivity. Qed.

Lemma bind_assoc : forall A B C (x : M A) (f : A -> M B) (g : B -> M C) s,
  bind (bind x f) g s = bind x (fun a => bind (f a) g) s.
Proof.
  intros. unfold bind. destruct (x s) as [[[a|ex] s1] e1]; [|reflexivity].
  destruct (f a s1) as [[[b|ex] s2] e2]; [|reflexivity].
  destruct (g b s2) as [[r s3] e3]. rewrite app_assoc. reflexivity.
Qed.

Lemma bind_cong : forall A B (x y : M A) (f : A -> M B) s, x s = y s -> bind x f s = bind y f s.
Proof. intros A B x y f s E. unfold bind. rewrite E. reflexivity. Qed.

(* the first computation is known: it returned, threw, or returned without doing anything *)
Lemma bind_inl : forall {A B} {x : M A} (f : A -> M B) {s a s1 e1},
  x s = (inl a, s1, e1) ->
  bind x f s = (let '(r, s2, e2) := f a s1 in (r, s2, (e1 ++ e2)%list)).
Proof. intros. unfold bind. rewrite H. reflexivity. Qed.
Lemma bind_inr : forall {A B} {x : M A} (f : A -> M B) {s ex s1 e1},
  x s = (inr ex, s1, e1) -> bind x f s = (inr ex, s1, e1).
Proof. intros. unfold bind. rewrite H. reflexivity. Qed.
Lemma bind_skip : forall A B (x : M A) (f : A -> M B) a s, x s = (inl a, s, []) -> bind x f s = f a s.
Proof. intros A B x f a s E. rewrite (bind_inl f E). destruct (f a s) as [[r s2] e2]. reflexivity. Qed.

Lemma stop_eq : forall s, exists c r, stop s = w_down true c r s.
Proof.
  intros s. unfold stop. destruct (s_shutdown s) eqn:E; [|do 2 eexists; reflexivity].
  exists (s_closed s), (s_reader s). destruct s. cbn in E. subst. reflexivity.
Qed.

(* the handler returned and the message was not a Logout: its result, one more message received, the control
   record written *)
Lemma process_returns : forall sc decode fl now raw rest q m,
  find_after pat_34 raw = Some rest -> fast_atoi_u rest SOH 0 = Some q -> decode raw = DecOk m ->
  forall s r s1 e1,
  dispatch sc decode now q m s = (inl (r, false), s1, e1) ->
  process sc decode fl now raw s = (r, update_persist_seqnums (w_next_recv (s_next_recv s1 + 1) s1), e1).
Proof.
  intros sc decode fl now raw rest q m F1 F2 D s r s1 e1 DI. unfold process. rewrite F1, F2, D.
  unfold process_body, process_catch.
  rewrite (bind_inl _ DI). cbn [snd fst]. rewrite !bind_modify, bind_ret. cbn [ret]. rewrite app_nil_r. reflexivity.
Qed.
