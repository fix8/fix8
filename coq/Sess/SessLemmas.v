(* Session group: bytes, fields and the encoder (Sess.Bytes, Sess.Msg).  Decimals (dec injective, read back by undec,
   digits `clean`); an encoded message is the tokens of its tag/value pairs, read back when no value contains SOH
   (tokens_encode, tok_get_encode); the Positions multimap under insert / remove / add_field and add_hdr'; framing:
   frames cuts a concatenation of encoded messages into these messages (frames_encodes). *)
From Coq Require Import NArith ZArith List Bool Lia.
From Coq Require Decimal DecimalN.
From F8 Require Import Sess.Bytes Sess.Msg Sess.Persist Sess.Session.
Import ListNotations.
Local Open Scope N_scope.

Lemma beq_refl : forall a, beq a a = true.
Proof. induction a; cbn; [reflexivity|]. rewrite N.eqb_refl. exact IHa. Qed.

Lemma beq_eq : forall a b, beq a b = true <-> a = b.
Proof.
  induction a; destruct b; cbn; split; intro H; try reflexivity; try discriminate.
  - apply andb_true_iff in H. destruct H as [H1 H2]. apply N.eqb_eq in H1. apply IHa in H2. congruence.
  - inversion H; subst. rewrite N.eqb_refl. apply beq_refl.
Qed.

Lemma beq_neq : forall a b, beq a b = false <-> a <> b.
Proof.
  intros a b. rewrite <- not_true_iff_false, beq_eq. reflexivity.
Qed.

Lemma uint_of_bytes_of_uint : forall u, uint_of_bytes (bytes_of_uint u) = Some u.
Proof. induction u; cbn [bytes_of_uint uint_of_bytes]; try rewrite IHu; reflexivity. Qed.

Lemma bytes_of_uint_inj : forall u v, bytes_of_uint u = bytes_of_uint v -> u = v.
Proof.
  intros u v H. assert (E : uint_of_bytes (bytes_of_uint u) = uint_of_bytes (bytes_of_uint v)) by (rewrite H; reflexivity).
  rewrite !uint_of_bytes_of_uint in E. congruence.
Qed.

Lemma dec_inj : forall a b, dec a = dec b -> a = b.
Proof.
  intros a b H. unfold dec in H. apply bytes_of_uint_inj in H.
  rewrite <- (DecimalN.Unsigned.of_to a), <- (DecimalN.Unsigned.of_to b). rewrite H. reflexivity.
Qed.

Lemma beq_dec : forall a b, beq (dec a) (dec b) = (a =? b).
Proof.
  intros a b. destruct (a =? b) eqn:E.
  - apply N.eqb_eq in E. subst. apply beq_refl.
  - apply beq_neq. intro H. apply dec_inj in H. apply N.eqb_neq in E. contradiction.
Qed.

Lemma dec_nonempty : forall n, dec n <> [].
Proof.
  intros n H. unfold dec in H.
  assert (U : N.to_uint n = Decimal.Nil) by (destruct (N.to_uint n); cbn in H; try discriminate; reflexivity).
  pose proof (DecimalN.Unsigned.of_to n) as E. rewrite U in E. cbn in E. subst n. cbn in U. discriminate.
Qed.

Lemma undec_dec : forall n, undec (dec n) = Some n.
Proof.
  intros n. unfold undec. pose proof (dec_nonempty n) as NE.
  destruct (dec n) eqn:E; [contradiction|]. rewrite <- E. unfold dec.
  rewrite uint_of_bytes_of_uint. rewrite DecimalN.Unsigned.of_to. reflexivity.
Qed.

(* a digit string contains neither SOH nor '=' nor NUL *)
Definition clean (b : N) : bool := negb (b =? SOH) && negb (b =? ch_eq) && negb (b =? 0).

Lemma bytes_of_uint_digits : forall u, forallb is_digit (bytes_of_uint u) = true.
Proof. induction u; cbn [bytes_of_uint forallb]; try rewrite IHu; reflexivity. Qed.

Lemma dec_digits : forall n, forallb is_digit (dec n) = true.
Proof. intros; apply bytes_of_uint_digits. Qed.

Lemma digit_clean : forall b, is_digit b = true -> clean b = true.
Proof.
  intros b H. unfold is_digit in H. apply andb_true_iff in H. destruct H as [H1 H2].
  apply N.leb_le in H1. apply N.leb_le in H2. unfold clean, SOH, ch_eq.
  rewrite (proj2 (N.eqb_neq b 1)), (proj2 (N.eqb_neq b 61)), (proj2 (N.eqb_neq b 0)) by lia. reflexivity.
Qed.

Lemma forallb_impl : forall (A : Type) (f g : A -> bool) l,
  (forall x, f x = true -> g x = true) -> forallb f l = true -> forallb g l = true.
Proof.
  induction l; cbn; intros; [reflexivity|]. apply andb_true_iff in H0. destruct H0.
  rewrite H by assumption. cbn. apply IHl; assumption.
Qed.

Lemma dec_clean : forall n, forallb clean (dec n) = true.
Proof. intros. eapply forallb_impl; [apply digit_clean|apply dec_digits]. Qed.

Definition nosoh (l : bytes) : bool := forallb (fun b => negb (b =? SOH)) l.
Definition noeq (l : bytes) : bool := forallb (fun b => negb (b =? ch_eq)) l.

Lemma clean_parts : forall b, clean b = true ->
  negb (b =? SOH) = true /\ negb (b =? ch_eq) = true /\ negb (b =? 0) = true.
Proof.
  intros b H. unfold clean in H. apply andb_true_iff in H. destruct H as [H H0].
  apply andb_true_iff in H. destruct H as [H1 H2]. auto.
Qed.

Lemma clean_nosoh : forall l, forallb clean l = true -> nosoh l = true.
Proof. intros l. apply forallb_impl. intros x H. apply (clean_parts x H). Qed.
Lemma clean_noeq : forall l, forallb clean l = true -> noeq l = true.
Proof. intros l. apply forallb_impl. intros x H. apply (clean_parts x H). Qed.

Lemma split_aux_app : forall sep a rest cur,
  forallb (fun b => negb (b =? sep)) a = true ->
  split_aux sep (a ++ sep :: rest) cur = (rev cur ++ a)%list :: split_aux sep rest [].
Proof.
  induction a as [|x a IH]; intros rest cur H; cbn [app split_aux].
  - rewrite N.eqb_refl. rewrite app_nil_r. reflexivity.
  - cbn in H. apply andb_true_iff in H. destruct H as [H1 H2].
    apply negb_true_iff in H1. rewrite H1. rewrite IH by assumption. cbn [rev]. rewrite <- app_assoc. reflexivity.
Qed.

Lemma cut_aux_app : forall sep a rest cur,
  forallb (fun b => negb (b =? sep)) a = true ->
  cut_aux sep (a ++ sep :: rest) cur = ((rev cur ++ a)%list, Some rest).
Proof.
  induction a as [|x a IH]; intros rest cur H; cbn [app cut_aux].
  - rewrite N.eqb_refl. rewrite app_nil_r. reflexivity.
  - cbn in H. apply andb_true_iff in H. destruct H as [H1 H2].
    apply negb_true_iff in H1. rewrite H1. rewrite IH by assumption. cbn [rev]. rewrite <- app_assoc. reflexivity.
Qed.

Lemma split_aux_nonempty : forall sep l cur, split_aux sep l cur <> [].
Proof. induction l; intros; cbn; [discriminate|]. destruct (a =? sep); [discriminate|apply IHl]. Qed.

Definition enc_tok (tv : bytes * bytes) : bytes := (fst tv ++ [ch_eq] ++ snd tv ++ [SOH])%list.
Definition enc_toks (l : list (bytes * bytes)) : bytes := flat_map enc_tok l.

Definition tok_ok (tv : bytes * bytes) : bool := nosoh (fst tv) && noeq (fst tv) && nosoh (snd tv).

Lemma nosoh_app : forall a b, nosoh (a ++ b) = nosoh a && nosoh b.
Proof. intros; unfold nosoh; apply forallb_app. Qed.

Lemma tokens_enc_toks : forall l, forallb tok_ok l = true -> tokens (enc_toks l) = l.
Proof.
  unfold tokens, split_on.
  induction l as [|[t v] l IH]; intro H.
  - reflexivity.
  - cbn [forallb] in H. apply andb_true_iff in H. destruct H as [H1 H2].
    unfold tok_ok in H1. cbn [fst snd] in H1. apply andb_true_iff in H1. destruct H1 as [H1 Hv].
    apply andb_true_iff in H1. destruct H1 as [Ht1 Ht2].
    cbn [enc_toks flat_map]. unfold enc_tok at 1. cbn [fst snd].
    replace ((t ++ [ch_eq] ++ v ++ [SOH]) ++ flat_map enc_tok l)%list
      with ((t ++ [ch_eq] ++ v) ++ SOH :: flat_map enc_tok l)%list
      by (rewrite <- !app_assoc; reflexivity).
    rewrite split_aux_app.
    2:{ change (nosoh (t ++ [ch_eq] ++ v) = true). rewrite !nosoh_app. rewrite Ht1, Hv. reflexivity. }
    cbn [rev app].
    pose proof (split_aux_nonempty SOH (flat_map enc_tok l) []) as NE.
    destruct (split_aux SOH (flat_map enc_tok l) []) as [|y ys] eqn:E; [contradiction|].
    specialize (IH H2). fold (enc_toks l) in E. fold (enc_toks l) in IH. rewrite E in IH.
    replace (removelast ((t ++ ch_eq :: v)%list :: y :: ys)) with ((t ++ ch_eq :: v)%list :: removelast (y :: ys)) by reflexivity.
    cbn [map]. rewrite IH.
    f_equal. unfold cut. rewrite cut_aux_app by exact Ht2. reflexivity.
Qed.

Definition ftok (f : field) : bytes * bytes := (dec (f_tag f), f_val f).

Lemma tok_get_fields : forall t l rest,
  tok_get (dec t) (map ftok l ++ rest) =
  match get_field t l with Some v => Some v | None => tok_get (dec t) rest end.
Proof.
  induction l as [|f l IH]; intros rest; cbn [map app tok_get get_field]; [reflexivity|].
  unfold ftok at 1. rewrite beq_dec. destruct (f_tag f =? t); [reflexivity|apply IH].
Qed.

Lemma pad_aux_digits : forall w n acc, forallb is_digit acc = true -> forallb is_digit (pad_aux w n acc) = true.
Proof.
  induction w; intros n acc H; cbn [pad_aux]; [exact H|].
  apply IHw. cbn [forallb]. rewrite H. rewrite andb_true_r.
  unfold is_digit, ch_0. assert (L : n mod 10 < 10) by (apply N.mod_lt; discriminate).
  revert L. generalize (n mod 10). intros k L.
  apply andb_true_iff. split; apply N.leb_le; lia.
Qed.
Lemma pad_clean : forall w n, forallb clean (pad w n) = true.
Proof. intros. eapply forallb_impl; [apply digit_clean|]. apply pad_aux_digits. reflexivity. Qed.

Lemma nosoh_pad : forall w n, nosoh (pad w n) = true.
Proof. intros. apply clean_nosoh, pad_clean. Qed.

Lemma fmt_time_nosoh : forall t, nosoh (fmt_time t) = true.
Proof.
  intros. unfold fmt_time. destruct (civil_of_days (t / NS / 86400)) as [[y mo] d].
  rewrite !nosoh_app. rewrite !nosoh_pad. reflexivity.
Qed.

Lemma pad_aux_length : forall w n acc, length (pad_aux w n acc) = (w + length acc)%nat.
Proof. induction w; intros; cbn [pad_aux]; [reflexivity|]. rewrite IHw. cbn [length]. lia. Qed.
Lemma pad_length : forall w n, length (pad w n) = w.
Proof. intros. unfold pad. rewrite pad_aux_length. cbn. lia. Qed.

(* Message::encode in three pieces: what BodyLength counts, the two fields in front of it, the CheckSum over both *)
Definition payload (m : msg) : bytes :=
  (enc_field T_MsgType (m_type m) ++ enc_fields (m_hdr m) ++ enc_fields (m_body m))%list.
Definition preamble (sc : schema) (m : msg) : bytes :=
  (enc_field 8 (sc_begin sc) ++ enc_field 9 (dec (N.of_nat (length (payload m)))))%list.
Definition chk_of (sc : schema) (m : msg) : N := bytesum (preamble sc m ++ payload m)%list mod 256.

Lemma encode_eq : forall sc m,
  encode sc m = (preamble sc m ++ payload m ++ enc_field 10 (pad 3 (chk_of sc m)))%list.
Proof. reflexivity. Qed.

Definition msg_toks (sc : schema) (m : msg) : list (bytes * bytes) :=
  ([(dec 8, sc_begin sc); (dec 9, dec (N.of_nat (length (payload m)))); (dec T_MsgType, m_type m)] ++
   map ftok (m_hdr m) ++ map ftok (m_body m) ++ [(dec 10, pad 3 (chk_of sc m))])%list.

Lemma enc_fields_toks : forall l, enc_fields l = enc_toks (map ftok l).
Proof.
  induction l; cbn [enc_fields enc_toks flat_map map]; [reflexivity|].
  fold (enc_fields l). fold (enc_toks (map ftok l)). rewrite IHl. reflexivity.
Qed.

Lemma enc_toks_app : forall a b, enc_toks (a ++ b) = (enc_toks a ++ enc_toks b)%list.
Proof. intros. unfold enc_toks. apply flat_map_app. Qed.

Lemma enc_tok_field : forall t v, enc_tok (dec t, v) = enc_field t v.
Proof. reflexivity. Qed.

Lemma encode_toks : forall sc m, encode sc m = enc_toks (msg_toks sc m).
Proof.
  intros. rewrite encode_eq. unfold msg_toks, preamble.
  cbn [app]. unfold enc_toks. cbn [flat_map]. fold enc_toks.
  rewrite !flat_map_app. cbn [flat_map]. rewrite !enc_tok_field.
  change (flat_map enc_tok (map ftok (m_hdr m))) with (enc_toks (map ftok (m_hdr m))).
  change (flat_map enc_tok (map ftok (m_body m))) with (enc_toks (map ftok (m_body m))).
  rewrite <- !enc_fields_toks. rewrite app_nil_r.
  unfold payload at 2. rewrite <- !app_assoc. reflexivity.
Qed.

Definition vals_ok (l : list field) : bool := forallb (fun f => nosoh (f_val f)) l.
Definition wf_msg (sc : schema) (m : msg) : bool :=
  nosoh (sc_begin sc) && nosoh (m_type m) && vals_ok (m_hdr m) && vals_ok (m_body m).

Lemma tok_ok_dec : forall t v, nosoh v = true -> tok_ok (dec t, v) = true.
Proof.
  intros. unfold tok_ok. cbn [fst snd]. rewrite (clean_nosoh _ (dec_clean t)), (clean_noeq _ (dec_clean t)), H. reflexivity.
Qed.

Lemma toks_ok_fields : forall l, vals_ok l = true -> forallb tok_ok (map ftok l) = true.
Proof.
  induction l; cbn [map forallb vals_ok]; intro H; [reflexivity|].
  apply andb_true_iff in H. destruct H as [H1 H2]. unfold ftok at 1. rewrite tok_ok_dec by exact H1.
  apply IHl. exact H2.
Qed.

Lemma msg_toks_ok : forall sc m, wf_msg sc m = true -> forallb tok_ok (msg_toks sc m) = true.
Proof.
  intros sc m H. unfold wf_msg in H.
  apply andb_true_iff in H. destruct H as [H Hb].
  apply andb_true_iff in H. destruct H as [H Hh].
  apply andb_true_iff in H. destruct H as [Hs Ht].
  unfold msg_toks. rewrite !forallb_app. cbn [forallb].
  rewrite !tok_ok_dec; try assumption.
  - rewrite (toks_ok_fields _ Hh), (toks_ok_fields _ Hb). reflexivity.
  - apply clean_nosoh, pad_clean.
  - apply clean_nosoh, dec_clean.
Qed.

Theorem tokens_encode : forall sc m, wf_msg sc m = true -> tokens (encode sc m) = msg_toks sc m.
Proof. intros. rewrite encode_toks. apply tokens_enc_toks. apply msg_toks_ok. assumption. Qed.

Lemma tok_get_encode : forall sc m t,
  wf_msg sc m = true -> t <> 8 -> t <> 9 -> t <> T_MsgType ->
  tok_get (dec t) (tokens (encode sc m)) =
  match get_field t (m_hdr m) with
  | Some v => Some v
  | None => match get_field t (m_body m) with
            | Some v => Some v
            | None => if t =? 10 then Some (pad 3 (chk_of sc m)) else None
            end
  end.
Proof.
  intros sc m t W H8 H9 H35. rewrite tokens_encode by exact W. unfold msg_toks.
  cbn [app tok_get]. rewrite !beq_dec.
  rewrite (proj2 (N.eqb_neq 8 t)), (proj2 (N.eqb_neq 9 t)), (proj2 (N.eqb_neq T_MsgType t)) by (intro E; symmetry in E; contradiction).
  rewrite tok_get_fields. destruct (get_field t (m_hdr m)); [reflexivity|].
  rewrite tok_get_fields. destruct (get_field t (m_body m)); [reflexivity|].
  cbn [tok_get]. rewrite beq_dec. rewrite N.eqb_sym. reflexivity.
Qed.

Lemma tok_get_encode_type : forall sc m,
  wf_msg sc m = true -> tok_get (dec T_MsgType) (tokens (encode sc m)) = Some (m_type m).
Proof.
  intros. rewrite tokens_encode by assumption. unfold msg_toks. cbn [app tok_get].
  rewrite !beq_dec. reflexivity.
Qed.

Definition tags (l : list field) : list N := map f_tag l.

Lemma get_field_none : forall t l, ~ In t (tags l) -> get_field t l = None.
Proof.
  induction l; cbn [get_field tags map]; intro H; [reflexivity|].
  destruct (f_tag a =? t) eqn:E.
  - apply N.eqb_eq in E. exfalso. apply H. left. exact E.
  - apply IHl. intro I. apply H. right. exact I.
Qed.

Lemma get_field_in : forall t l v, get_field t l = Some v -> In t (tags l).
Proof.
  induction l; cbn [get_field tags map]; intros v H; [discriminate|].
  destruct (f_tag a =? t) eqn:E.
  - apply N.eqb_eq in E. left. exact E.
  - right. eapply IHl. exact H.
Qed.

Lemma get_field_notin : forall t l, get_field t l = None -> ~ In t (tags l).
Proof.
  induction l; cbn [get_field tags map]; intros H; [intros []|].
  destruct (f_tag a =? t) eqn:E; [discriminate|]. intros [I|I]; [apply N.eqb_neq in E; contradiction|].
  apply IHl; assumption.
Qed.

Lemma has_get : forall t l, has_field t l = match get_field t l with Some _ => true | None => false end.
Proof. reflexivity. Qed.

Lemma get_none_of_has : forall t l, has_field t l = false -> get_field t l = None.
Proof. intros t l H. rewrite has_get in H. destruct (get_field t l); [discriminate|reflexivity]. Qed.

Lemma has_field_in : forall t l, has_field t l = true <-> In t (tags l).
Proof.
  intros. rewrite has_get. split.
  - destruct (get_field t l) eqn:E; [intros _; eapply get_field_in; exact E|discriminate].
  - intro I. destruct (get_field t l) eqn:E; [reflexivity|]. destruct (get_field_notin t l E I).
Qed.

Lemma get_insert_other : forall t f l, f_tag f <> t -> get_field t (insert_field f l) = get_field t l.
Proof.
  induction l as [|g l IH]; intro H; cbn [insert_field get_field].
  - apply N.eqb_neq in H. rewrite H. reflexivity.
  - destruct (f_pos g <=? f_pos f); cbn [get_field].
    + rewrite IH by exact H. reflexivity.
    + apply N.eqb_neq in H. rewrite H. reflexivity.
Qed.

Lemma get_insert_same : forall p t v l, ~ In t (tags l) -> get_field t (insert_field (mkF p t v) l) = Some v.
Proof.
  induction l as [|g l IH]; intro H; cbn [insert_field get_field f_tag f_val f_pos].
  - rewrite N.eqb_refl. reflexivity.
  - cbn [tags map] in H. destruct (f_pos g <=? p); cbn [get_field f_tag f_val].
    + destruct (f_tag g =? t) eqn:E; [apply N.eqb_eq in E; exfalso; apply H; left; exact E|].
      apply IH. intro I. apply H. right. exact I.
    + rewrite N.eqb_refl. reflexivity.
Qed.

Lemma tags_insert : forall f l x, In x (tags (insert_field f l)) <-> x = f_tag f \/ In x (tags l).
Proof.
  induction l as [|g l IH]; intro x; cbn [insert_field tags map].
  - cbn. intuition congruence.
  - destruct (f_pos g <=? f_pos f); cbn [map In].
    + fold (tags (insert_field f l)). fold (tags l). rewrite IH. intuition congruence.
    + fold (tags l). intuition congruence.
Qed.

Lemma nodup_insert : forall f l, ~ In (f_tag f) (tags l) -> NoDup (tags l) -> NoDup (tags (insert_field f l)).
Proof.
  induction l as [|g l IH]; intros H ND; cbn [insert_field tags map].
  - constructor; [intros []|constructor].
  - cbn [tags map] in H, ND. inversion ND as [|? ? Hn ND']; subst.
    destruct (f_pos g <=? f_pos f); cbn [map].
    + constructor.
      * fold (tags (insert_field f l)). rewrite tags_insert. intros [E|I]; [apply H; left; exact E|contradiction].
      * apply IH; [intro I; apply H; right; exact I|exact ND'].
    + constructor; [exact H|exact ND].
Qed.

Lemma get_remove_other : forall t t' l, t' <> t -> get_field t' (remove_field t l) = get_field t' l.
Proof.
  induction l as [|g l IH]; intro H; cbn [remove_field get_field]; [reflexivity|].
  destruct (f_tag g =? t) eqn:E; cbn [get_field].
  - apply N.eqb_eq in E. destruct (f_tag g =? t') eqn:E'; [apply N.eqb_eq in E'; congruence|reflexivity].
  - rewrite IH by exact H. reflexivity.
Qed.

Lemma tags_remove_sub : forall t l x, In x (tags (remove_field t l)) -> In x (tags l).
Proof.
  induction l as [|g l IH]; intros x; cbn [remove_field tags map]; [auto|].
  destruct (f_tag g =? t); cbn [map In]; [intro; right; assumption|].
  intros [H|H]; [left; exact H|right; apply IH; exact H].
Qed.

Lemma nodup_remove : forall t l, NoDup (tags l) -> NoDup (tags (remove_field t l)) /\ ~ In t (tags (remove_field t l)).
Proof.
  induction l as [|g l IH]; intro ND; cbn [remove_field tags map].
  - split; [constructor|intros []].
  - cbn [tags map] in ND. inversion ND as [|? ? Hn ND']; subst.
    destruct (f_tag g =? t) eqn:E.
    + apply N.eqb_eq in E. subst t. split; assumption.
    + destruct (IH ND') as [A B]. cbn [map]. split.
      * constructor; [intro I; apply Hn; eapply tags_remove_sub; exact I|exact A].
      * intros [I|I]; [apply N.eqb_neq in E; contradiction|contradiction].
Qed.

Lemma get_pos_some : forall t l p, get_pos t l = Some p -> In t (tags l).
Proof.
  induction l; cbn [get_pos tags map]; intros p H; [discriminate|].
  destruct (f_tag a =? t) eqn:E; [left; apply N.eqb_eq; exact E|right; eapply IHl; exact H].
Qed.
Lemma get_pos_none : forall t l, get_pos t l = None -> ~ In t (tags l).
Proof.
  induction l; cbn [get_pos tags map]; intros H; [intros []|].
  destruct (f_tag a =? t) eqn:E; [discriminate|]. intros [I|I]; [apply N.eqb_neq in E; contradiction|].
  apply IHl; assumption.
Qed.

Lemma get_add_same : forall p t v l, NoDup (tags l) -> get_field t (add_field p t v l) = Some v.
Proof.
  intros p t v l ND. unfold add_field. destruct (get_pos t l) eqn:E.
  - apply get_insert_same. apply nodup_remove. exact ND.
  - apply get_insert_same. apply get_pos_none. exact E.
Qed.

Lemma get_add_other : forall p t v l t', t' <> t -> get_field t' (add_field p t v l) = get_field t' l.
Proof.
  intros p t v l t' H. unfold add_field. destruct (get_pos t l).
  - rewrite get_insert_other by (cbn; congruence). apply get_remove_other. exact H.
  - apply get_insert_other. cbn. congruence.
Qed.

Lemma nodup_add : forall p t v l, NoDup (tags l) -> NoDup (tags (add_field p t v l)).
Proof.
  intros p t v l ND. unfold add_field. destruct (get_pos t l) eqn:E.
  - destruct (nodup_remove t l ND) as [A B]. apply nodup_insert; assumption.
  - apply nodup_insert; [apply get_pos_none; exact E|exact ND].
Qed.

Lemma forallb_insert : forall (P : field -> bool) f l, forallb P (insert_field f l) = P f && forallb P l.
Proof.
  induction l as [|g l IH]; cbn [insert_field forallb]; [reflexivity|].
  destruct (f_pos g <=? f_pos f); cbn [forallb]; [|reflexivity].
  rewrite IH. destruct (P f), (P g); reflexivity.
Qed.

Lemma forallb_remove : forall (P : field -> bool) t l, forallb P l = true -> forallb P (remove_field t l) = true.
Proof.
  induction l as [|g l IH]; intro H; cbn [remove_field]; [reflexivity|].
  cbn [forallb] in H. apply andb_true_iff in H. destruct H as [H1 H2].
  destruct (f_tag g =? t); [exact H2|]. cbn [forallb]. rewrite H1. apply IH. exact H2.
Qed.

Lemma forallb_add : forall (P : field -> bool) p t v l,
  (forall q, P (mkF q t v) = true) -> forallb P l = true -> forallb P (add_field p t v l) = true.
Proof.
  intros P p t v l Hf Hl. unfold add_field.
  destruct (get_pos t l); rewrite forallb_insert, Hf; [apply forallb_remove|]; exact Hl.
Qed.

Lemma vals_ok_insert : forall f l, nosoh (f_val f) = true -> vals_ok l = true -> vals_ok (insert_field f l) = true.
Proof. intros f l Hf Hl. unfold vals_ok. rewrite forallb_insert, Hf. exact Hl. Qed.
Lemma vals_ok_remove : forall t l, vals_ok l = true -> vals_ok (remove_field t l) = true.
Proof. intros t l. apply forallb_remove. Qed.
Lemma vals_ok_add : forall p t v l, nosoh v = true -> vals_ok l = true -> vals_ok (add_field p t v l) = true.
Proof. intros p t v l H. apply forallb_add. intro q. exact H. Qed.

Lemma add_hdr'_cases : forall sc tag v m,
  (add_hdr' sc tag v m = m /\ assoc tag (sc_hdr sc) = None) \/
  (exists p, assoc tag (sc_hdr sc) = Some p /\
             add_hdr' sc tag v m = mkMsg (m_type m) (add_field p tag v (m_hdr m)) (m_body m) (m_custom m) (m_noinc m) (m_eob m)).
Proof.
  intros. unfold add_hdr', add_hdr. destruct (assoc tag (sc_hdr sc)) as [p|].
  - right. exists p. split; reflexivity.
  - left. split; reflexivity.
Qed.

Lemma add_hdr'_type : forall sc tag v m, m_type (add_hdr' sc tag v m) = m_type m.
Proof. intros. destruct (add_hdr'_cases sc tag v m) as [[E _]|[p [_ E]]]; rewrite E; reflexivity. Qed.
Lemma add_hdr'_body : forall sc tag v m, m_body (add_hdr' sc tag v m) = m_body m.
Proof. intros. destruct (add_hdr'_cases sc tag v m) as [[E _]|[p [_ E]]]; rewrite E; reflexivity. Qed.
Lemma add_hdr'_custom : forall sc tag v m, m_custom (add_hdr' sc tag v m) = m_custom m.
Proof. intros. destruct (add_hdr'_cases sc tag v m) as [[E _]|[p [_ E]]]; rewrite E; reflexivity. Qed.
Lemma add_hdr'_noinc : forall sc tag v m, m_noinc (add_hdr' sc tag v m) = m_noinc m.
Proof. intros. destruct (add_hdr'_cases sc tag v m) as [[E _]|[p [_ E]]]; rewrite E; reflexivity. Qed.
Lemma add_hdr'_eob : forall sc tag v m, m_eob (add_hdr' sc tag v m) = m_eob m.
Proof. intros. destruct (add_hdr'_cases sc tag v m) as [[E _]|[p [_ E]]]; rewrite E; reflexivity. Qed.

Lemma add_hdr'_get_other : forall sc tag v m t, t <> tag ->
  get_field t (m_hdr (add_hdr' sc tag v m)) = get_field t (m_hdr m).
Proof.
  intros. destruct (add_hdr'_cases sc tag v m) as [[E _]|[p [_ E]]]; rewrite E; [reflexivity|].
  cbn [m_hdr]. apply get_add_other. assumption.
Qed.

Lemma add_hdr'_get_same : forall sc tag v m p, assoc tag (sc_hdr sc) = Some p -> NoDup (tags (m_hdr m)) ->
  get_field tag (m_hdr (add_hdr' sc tag v m)) = Some v.
Proof.
  intros sc tag v m p A ND. destruct (add_hdr'_cases sc tag v m) as [[_ E]|[q [_ E]]]; [congruence|].
  rewrite E. cbn [m_hdr]. apply get_add_same. exact ND.
Qed.

Lemma add_hdr'_nodup : forall sc tag v m, NoDup (tags (m_hdr m)) -> NoDup (tags (m_hdr (add_hdr' sc tag v m))).
Proof.
  intros. destruct (add_hdr'_cases sc tag v m) as [[E _]|[p [_ E]]]; rewrite E; [assumption|].
  cbn [m_hdr]. apply nodup_add. assumption.
Qed.

Lemma add_hdr'_forallb : forall (P : field -> bool) sc tag v m,
  (forall q, P (mkF q tag v) = true) -> forallb P (m_hdr m) = true -> forallb P (m_hdr (add_hdr' sc tag v m)) = true.
Proof.
  intros. destruct (add_hdr'_cases sc tag v m) as [[E _]|[p [_ E]]]; rewrite E; [assumption|].
  cbn [m_hdr]. apply forallb_add; assumption.
Qed.

Lemma add_hdr'_vals : forall sc tag v m, nosoh v = true -> vals_ok (m_hdr m) = true ->
  vals_ok (m_hdr (add_hdr' sc tag v m)) = true.
Proof. intros sc tag v m H. apply add_hdr'_forallb. intro q. exact H. Qed.

Lemma cut_app : forall sep a rest,
  forallb (fun b => negb (b =? sep)) a = true -> cut sep (a ++ sep :: rest) = (a, Some rest).
Proof. intros. unfold cut. rewrite cut_aux_app by assumption. reflexivity. Qed.

Lemma encode_length : forall sc m,
  length (encode sc m) =
  (2 + length (sc_begin sc) + 1 + 2 + length (dec (N.of_nat (length (payload m)))) + 1 + length (payload m) + 7)%nat.
Proof.
  intros. rewrite encode_eq. unfold preamble, enc_field. rewrite !app_length. cbn [length].
  rewrite pad_length. change (length (dec 8)) with 1%nat. change (length (dec 9)) with 1%nat.
  change (length (dec 10)) with 2%nat. lia.
Qed.

(* frame_len on 8=b|9=lenb|...: the total length is read off BeginString and BodyLength alone *)
Lemma frame_len_shape : forall b lenb n tl,
  nosoh b = true -> nosoh lenb = true -> undec lenb = Some n ->
  let raw := (56 :: 61 :: (b ++ SOH :: 57 :: 61 :: (lenb ++ SOH :: tl)))%list in
  let tot := (S (S (length b)) + 1 + 2 + length lenb + 1 + N.to_nat n + 7)%nat in
  (tot <= length raw)%nat -> frame_len raw = Some tot.
Proof.
  intros b lenb n tl Hb Hl Hu raw tot Hle. subst raw. unfold frame_len.
  assert (C1 : cut SOH (56 :: 61 :: (b ++ SOH :: 57 :: 61 :: (lenb ++ SOH :: tl)))%list
               = ((56 :: 61 :: b)%list, Some (57 :: 61 :: (lenb ++ SOH :: tl))%list)).
  { apply (cut_app SOH (56 :: 61 :: b)). cbn [forallb]. unfold SOH. cbn [N.eqb negb andb]. exact Hb. }
  rewrite C1. rewrite (cut_app SOH lenb) by exact Hl. rewrite Hu.
  cbn [length]. fold tot. apply Nat.leb_le in Hle. cbn [length] in Hle. rewrite Hle. reflexivity.
Qed.

Lemma encode_shape : forall sc m,
  encode sc m = (56 :: 61 :: (sc_begin sc ++ SOH :: 57 :: 61 :: (dec (N.of_nat (length (payload m))) ++ SOH ::
                 (payload m ++ enc_field 10 (pad 3 (chk_of sc m))))))%list.
Proof.
  intros. rewrite encode_eq. unfold preamble. unfold enc_field at 1 2.
  change (dec 8) with [56]. change (dec 9) with [57]. unfold ch_eq.
  cbn [app]. rewrite <- !app_assoc. cbn [app]. rewrite <- !app_assoc. reflexivity.
Qed.

Lemma frame_len_encode : forall sc m rest,
  nosoh (sc_begin sc) = true ->
  frame_len (encode sc m ++ rest) = Some (length (encode sc m)).
Proof.
  intros sc m rest W.
  (* the frame fits into the input; L is taken through the same rewriting as the goal *)
  assert (L : (length (encode sc m) <= length (encode sc m ++ rest))%nat) by (rewrite app_length; lia).
  rewrite encode_length in L |- *. rewrite <- (Nat2N.id (length (payload m))) at 2.
  rewrite encode_shape in L |- *. cbn [app] in L |- *. rewrite <- !app_assoc in L |- *. cbn [app] in L |- *.
  rewrite <- !app_assoc in L |- *. cbn [app] in L |- *. rewrite <- app_assoc in L |- *.
  apply frame_len_shape; [exact W|apply clean_nosoh, dec_clean|apply undec_dec|rewrite Nat2N.id; exact L].
Qed.

Lemma encode_nonempty : forall sc m, (0 < length (encode sc m))%nat.
Proof. intros. rewrite encode_length. lia. Qed.

Lemma encode_not_nil : forall sc m, encode sc m <> [].
Proof. intros sc m E. pose proof (encode_nonempty sc m) as L. rewrite E in L. exact (Nat.lt_irrefl 0 L). Qed.

Lemma frames_aux_encodes : forall sc ms fuel acc,
  nosoh (sc_begin sc) = true ->
  (length (concat (map (encode sc) ms)) <= fuel)%nat ->
  frames_aux fuel (concat (map (encode sc) ms)) acc = ((rev acc ++ map (encode sc) ms)%list, []).
Proof.
  induction ms as [|m ms IH]; intros fuel acc W F.
  - cbn [map concat]. rewrite app_nil_r. destruct fuel; reflexivity.
  - cbn [map concat] in *. rewrite app_length in F.
    pose proof (encode_nonempty sc m) as NE.
    destruct fuel as [|fuel]; [lia|]. cbn [frames_aux].
    destruct (encode sc m ++ concat (map (encode sc) ms))%list eqn:E.
    { apply (f_equal (@length N)) in E. rewrite app_length in E. cbn in E. lia. }
    rewrite <- E. rewrite frame_len_encode by exact W.
    destruct (length (encode sc m)) eqn:LE; [lia|]. rewrite <- LE.
    rewrite firstn_app, skipn_app. rewrite Nat.sub_diag. cbn [firstn skipn].
    rewrite firstn_all, skipn_all. rewrite app_nil_r. cbn [app].
    rewrite IH by (try exact W; lia). cbn [rev]. rewrite <- app_assoc. reflexivity.
Qed.

Theorem frames_encodes : forall sc ms,
  nosoh (sc_begin sc) = true ->
  frames (concat (map (encode sc) ms)) = (map (encode sc) ms, []).
Proof. intros. unfold frames. rewrite frames_aux_encodes; [reflexivity|assumption|lia]. Qed.
