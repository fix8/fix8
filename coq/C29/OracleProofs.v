(* The executable oracle c29_ok holds on every run of the model, whatever the rotation count:
   one lemma per clause of [step_ok], one per operation. *)
From Coq Require Import NArith List Ascii Bool Lia.
From F8 Require Import C29.Rotate C29.Spec_C29 C29.RotateProofs C29.RotateTheorems.
Import ListNotations.
Local Open Scope char_scope.
Local Open Scope N_scope.

Lemma shift_ok_of_shifted : forall g n d d',
  (forall k, 1 <= k <= n -> shifted g n d d' k) -> shift_ok g n d d' = true.
Proof.
  intros g n d d' Hsh. unfold shift_ok. apply forallb_forall. intros k Hk.
  apply in_range1 in Hk. rewrite (Hsh k Hk).
  destruct (lookup d (g (k - 1))) as [c|].
  - apply opt_eqb_refl.
  - destruct (k =? n).
    + rewrite opt_eqb_refl. cbn [andb]. apply orb_true_r.
    + reflexivity.
Qed.

Lemma cap_ok_of_frame : forall g n d d',
  (forall k, n < k -> lookup d' (g k) = lookup d (g k)) -> cap_ok g n d d' = true.
Proof.
  intros g n d d' H. unfold cap_ok. apply forallb_forall. intros j Hj.
  apply in_range1 in Hj. rewrite H by lia. destruct (lookup d (g (n + j))); reflexivity.
Qed.

Lemma untouched_ok_of_frame : forall own d d',
  (forall x, ~ In x own -> lookup d' x = lookup d x) -> untouched_ok own d d' = true.
Proof.
  intros own d d' H. unfold untouched_ok. apply forallb_forall. intros e _.
  destruct (existsb (str_eqb (fst e)) own) eqn:E; [reflexivity|].
  cbn [orb]. rewrite H; [apply opt_eqb_refl|].
  intros Hin. assert (existsb (str_eqb (fst e)) own = true); [|congruence].
  apply existsb_exists. exists (fst e). split; [exact Hin|apply str_eqb_refl].
Qed.

Lemma not_in_1 : forall (x a : str), ~ In x [a] -> x <> a.
Proof. intros x a H E. apply H. left. congruence. Qed.
Lemma not_in_2 : forall (x a b : str), ~ In x [a; b] -> x <> a /\ x <> b.
Proof. intros x a b H. split; intros E; apply H; [left|right; left]; congruence. Qed.

Lemma fresh_nil : forall d n, lookup d n = Some [] -> fresh d n = true.
Proof. intros d n H. unfold fresh. rewrite H. reflexivity. Qed.

Lemma open2_ok : forall name d,
  let d' := open_trunc (name ++ s_idx)%list (open_trunc name d) in
  fresh d' name = true /\ fresh d' (name ++ s_idx)%list = true /\
  untouched_ok [name; (name ++ s_idx)%list] d d' = true.
Proof.
  intros name d d'. unfold d'. split; [|split].
  - apply fresh_nil, lookup_open2_live.
  - apply fresh_nil, lookup_open2_live.
  - apply untouched_ok_of_frame. intros x Hx. apply not_in_2 in Hx.
    apply lookup_open2_other; apply Hx.
Qed.

Lemma step_rotate_ok : forall c force d,
  exists d', step c (OpRotate force) d = Ok d' /\ step_ok c (OpRotate force) d d' = true.
Proof.
  intros [name rotnum append compress] force d.
  cbn [step step_ok c_name c_rotnum c_append c_compress].
  change ((0 <? rotnum) && (negb append || force)) with (rotates rotnum append force).
  destruct (rotates rotnum append force) eqn:Hrot.
  - destruct (rotate_sem name rotnum append compress force d Hrot) as [d' [Hrun [Hfresh Hsh]]].
    pose proof (rotate_frame _ _ _ _ _ _ _ Hrun) as Hfr.
    exists d'. split; [exact Hrun|].
    rewrite (shift_ok_of_shifted _ _ _ _ Hsh), (fresh_nil _ _ Hfresh). cbn [andb].
    rewrite cap_ok_of_frame.
    + cbn [andb]. apply untouched_ok_of_frame. intros x Hx. apply Hfr. intros k Hk E.
      apply Hx. apply in_family. exists k. auto.
    + intros k Hk. apply Hfr. intros j Hj E. apply gen_log_inj in E. lia.
  - rewrite rotate_eq, Hrot. eexists. split; [reflexivity|].
    apply andb_true_iff. split.
    + destruct append.
      * rewrite lookup_open_app, str_eqb_refl. apply opt_eqb_refl.
      * apply fresh_nil. rewrite lookup_open_trunc, str_eqb_refl. reflexivity.
    + apply untouched_ok_of_frame. intros x Hx. apply lookup_reopen_other, not_in_1, Hx.
Qed.

Lemma step_write_ok : forall c m d,
  exists d', step c (OpWrite m) d = Ok d' /\ step_ok c (OpWrite m) d d' = true.
Proof.
  intros c m d. cbn [step step_ok]. eexists. split; [reflexivity|].
  apply andb_true_iff. split.
  - unfold appended. rewrite lookup_append_to, str_eqb_refl. apply opt_eqb_refl.
  - apply untouched_ok_of_frame. intros x Hx. apply not_in_1 in Hx.
    rewrite lookup_append_to, (str_eqb_neq (c_name c) x) by congruence. reflexivity.
Qed.

Lemma step_storewrite_ok : forall c m d,
  exists d', step c (OpStoreWrite m) d = Ok d' /\ step_ok c (OpStoreWrite m) d d' = true.
Proof.
  intros c m d. cbn [step step_ok]. eexists. split; [reflexivity|].
  change ["."; "i"; "d"; "x"] with s_idx.
  pose proof (idx_name_neq (c_name c)) as Hne.
  repeat (apply andb_true_iff; split).
  - unfold appended. rewrite lookup_append_to, (str_eqb_neq _ _ (not_eq_sym Hne)).
    rewrite lookup_append_to, str_eqb_refl. apply opt_eqb_refl.
  - unfold appended. rewrite lookup_append_to, str_eqb_refl.
    rewrite lookup_append_to, (str_eqb_neq _ _ Hne). apply opt_eqb_refl.
  - apply untouched_ok_of_frame. intros x Hx. apply not_in_2 in Hx. destruct Hx as [H1 H2].
    rewrite !lookup_append_to, !str_eqb_neq by congruence. reflexivity.
Qed.

Lemma step_init_ok : forall c purge d,
  exists d', step c (OpInit purge) d = Ok d' /\ step_ok c (OpInit purge) d d' = true.
Proof.
  intros [name rotnum append compress] purge d.
  cbn [step step_ok c_name c_rotnum c_append c_compress].
  change ["."; "i"; "d"; "x"] with s_idx.
  destruct (purge && (0 <? rotnum)) eqn:E.
  - apply andb_true_iff in E. destruct E as [-> Hpos]. rewrite Hpos. apply N.ltb_lt in Hpos.
    destruct (initialise_sem name rotnum d Hpos) as [d' [Hrun [Hf1 [Hf2 Hsh]]]].
    pose proof (initialise_frame _ _ _ _ _ Hrun) as Hfr.
    exists d'. split; [exact Hrun|].
    rewrite (shift_ok_of_shifted (gen_db name)) by (intros k Hk; apply Hsh; exact Hk).
    rewrite (shift_ok_of_shifted (gen_idx name)) by (intros k Hk; apply Hsh; exact Hk).
    rewrite (fresh_nil _ _ Hf1), (fresh_nil _ _ Hf2). cbn [andb].
    rewrite !cap_ok_of_frame.
    + cbn [andb]. apply untouched_ok_of_frame. intros x Hx. apply Hfr. intros k Hk.
      split; intros E; apply Hx; apply in_or_app; [left|right]; apply in_family; exists k; auto.
    + intros k Hk. apply Hfr. intros j Hj. split; intros E.
      * exact (gen_db_idx_disjoint name j k (eq_sym E)).
      * apply gen_idx_inj in E. lia.
    + intros k Hk. apply Hfr. intros j Hj. split; intros E.
      * apply gen_db_inj in E. lia.
      * exact (gen_db_idx_disjoint name k j E).
  - rewrite initialise_eq, E. eexists. split; [reflexivity|].
    destruct (open2_ok name d) as [Hf1 [Hf2 Hun]]. destruct purge.
    + cbn [andb] in E. rewrite E, orb_true_r, Hf1, Hf2, Hun. reflexivity.
    + destruct (lookup d name) as [c0|] eqn:Ed; cbn [orb is_none].
      * rewrite untouched_ok_of_frame by reflexivity. rewrite Ed, !opt_eqb_refl. reflexivity.
      * rewrite Hf1, Hf2, Hun. apply orb_true_r.
Qed.

Lemma step_ok_model : forall c o d,
  exists d', step c o d = Ok d' /\ step_ok c o d d' = true.
Proof.
  intros c [force|m|purge|m] d.
  - apply step_rotate_ok.
  - apply step_write_ok.
  - apply step_init_ok.
  - apply step_storewrite_ok.
Qed.

Theorem model_ok : forall c ops d,
  exists tr, run c ops d = Trace tr /\ c29_ok c d ops (Trace tr) = true.
Proof.
  intros c ops. induction ops as [|o ops IH]; intros d.
  - exists []. split; reflexivity.
  - destruct (step_ok_model c o d) as [d' [Hs Hok]].
    destruct (IH d') as [tr [Hr Htr]].
    exists (d' :: tr). cbn [run]. rewrite Hs, Hr. split; [reflexivity|].
    cbn [c29_ok steps_ok]. rewrite Hok. exact Htr.
Qed.
