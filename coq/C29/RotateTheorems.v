(* FileLogger::rotate and FilePersister::initialise as a whole: the result of either routine,
   before and after the repair, in terms of the shifting loops, and what that result does to
   the directory. *)
From Coq Require Import NArith List Ascii Bool Lia.
From F8 Require Import C29.Rotate C29.Spec_C29 C29.RotateProofs.
Import ListNotations.
Local Open Scope char_scope.
Local Open Scope N_scope.

Lemma kept_le : forall rotnum, rotnum <= cap -> kept rotnum = rotnum.
Proof. intros. unfold kept. apply N.min_l. assumption. Qed.

Lemma gen_log_0 : forall name compress, gen_log name compress 0 = name.
Proof. reflexivity. Qed.
Lemma gen_db_0 : forall name, gen_db name 0 = name.
Proof. reflexivity. Qed.
Lemma gen_idx_0 : forall name, gen_idx name 0 = (name ++ s_idx)%list.
Proof. reflexivity. Qed.

(* Both routines start their loop at the last index of a vector of 1 + kept rotnum names; before
   the repair a64fc7d they started it at rotnum, which is the same index up to the cap. *)
Lemma loop_start : forall (orig : bool) rotnum len,
  len = kept rotnum + 1 -> orig && (cap <? rotnum) = false ->
  (if orig then rotnum else len - 1) = kept rotnum.
Proof.
  intros orig rotnum len Hlen E. destruct orig; [|lia].
  cbn [andb] in E. apply N.ltb_ge in E. symmetry. apply kept_le. exact E.
Qed.

Definition rotates (rotnum : N) (append force : bool) : bool :=
  (0 <? rotnum) && (negb append || force).

Lemma rotates_of : forall rotnum append force,
  0 < rotnum -> (append = false \/ force = true) -> rotates rotnum append force = true.
Proof.
  intros rotnum append force Hpos Hflag. unfold rotates. apply andb_true_iff.
  split; [apply N.ltb_lt; exact Hpos|]. destruct Hflag as [->| ->]; [reflexivity|apply orb_true_r].
Qed.

Lemma lookup_reopen_other : forall (append : bool) name d x, x <> name ->
  lookup ((if append then open_app name else open_trunc name) d) x = lookup d x.
Proof.
  intros append name d x Hx. destruct append; [rewrite lookup_open_app|rewrite lookup_open_trunc];
    rewrite (str_eqb_neq name x) by congruence; reflexivity.
Qed.

Lemma rotate_gen_eq : forall orig name rotnum append compress force d,
  rotates rotnum append force = true ->
  rotate_gen orig name rotnum append compress force d =
  if orig && (cap <? rotnum) then OOB
  else Ok ((if append then open_app name else open_trunc name)
             (shift (gen_log name compress) (kept rotnum) d)).
Proof.
  intros orig name rotnum append compress force d Hrot.
  unfold rotates in Hrot. unfold rotate_gen. rewrite Hrot.
  apply andb_true_iff in Hrot. destruct Hrot as [Hpos _]. apply N.ltb_lt in Hpos.
  destruct (build_names_spec name (log_gen_name name compress) (gen_log name compress) rotnum)
    as [v [Hbuild Hv]]; [apply gen_log_0|apply gen_log_pos|].
  rewrite Hbuild. pose proof (proj1 Hv) as Hlen.
  destruct (orig && (cap <? rotnum)) eqn:E.
  - apply andb_true_iff in E. destruct E as [-> E]. apply N.ltb_lt in E.
    rewrite shift_loop_oob; [reflexivity| | |]; unfold kept in Hlen; lia.
  - rewrite (loop_start orig rotnum (vlen v) Hlen E).
    rewrite (shift_loop_shift v _ _ Hv) by lia. reflexivity.
Qed.

Lemma rotate_gen_idle : forall orig name rotnum append compress force d,
  rotates rotnum append force = false ->
  rotate_gen orig name rotnum append compress force d =
  Ok ((if append then open_app name else open_trunc name) d).
Proof.
  intros orig name rotnum append compress force d H. unfold rotates in H. unfold rotate_gen.
  rewrite H. reflexivity.
Qed.

Lemma rotate_eq : forall name rotnum append compress force d,
  rotate name rotnum append compress force d =
  Ok ((if append then open_app name else open_trunc name)
        (if rotates rotnum append force then shift (gen_log name compress) (kept rotnum) d else d)).
Proof.
  intros. unfold rotate. destruct (rotates rotnum append force) eqn:Hrot.
  - apply (rotate_gen_eq false), Hrot.
  - apply rotate_gen_idle, Hrot.
Qed.

Lemma rotate_frame : forall name rotnum append compress force d d',
  rotate name rotnum append compress force d = Ok d' ->
  forall x, (forall k, k <= kept rotnum -> x <> gen_log name compress k) -> lookup d' x = lookup d x.
Proof.
  intros name rotnum append compress force d d' Hrun x Hx.
  rewrite rotate_eq in Hrun. injection Hrun as <-.
  rewrite lookup_reopen_other by (apply (Hx 0); lia).
  destruct (rotates rotnum append force); [apply shift_frame, Hx|reflexivity].
Qed.

Lemma rotate_sem : forall name rotnum append compress force d,
  rotates rotnum append force = true ->
  exists d', rotate name rotnum append compress force d = Ok d' /\
    lookup d' name = Some [] /\
    (forall k, 1 <= k <= kept rotnum -> shifted (gen_log name compress) (kept rotnum) d d' k).
Proof.
  intros name rotnum append compress force d Hrot.
  rewrite rotate_eq, Hrot. eexists. split; [reflexivity|].
  assert (Hn : 0 < kept rotnum).
  { apply andb_true_iff in Hrot. destruct Hrot as [Hpos _]. apply N.ltb_lt in Hpos. unfold kept, cap. lia. }
  set (n := kept rotnum) in *. set (g := gen_log name compress).
  pose proof (gen_log_inj name compress) as Hinj. fold g in Hinj.
  split.
  - pose proof (shift_live g Hinj n d Hn) as Hz. change (g 0) with name in Hz.
    destruct append; [rewrite lookup_open_app, str_eqb_refl, Hz|rewrite lookup_open_trunc, str_eqb_refl];
      reflexivity.
  - intros k Hk. unfold shifted. rewrite lookup_reopen_other; [exact (shift_shifted g Hinj n d k Hk)|].
    intros E. apply (Hinj k 0) in E. lia.
Qed.

Lemma rotate_orig_oob : forall name rotnum append compress force d,
  rotate_orig name rotnum append compress force d = OOB <->
  rotates rotnum append force = true /\ cap < rotnum.
Proof.
  intros name rotnum append compress force d. unfold rotate_orig.
  destruct (rotates rotnum append force) eqn:Hrot.
  - rewrite rotate_gen_eq by exact Hrot. cbn [andb].
    destruct (N.ltb_spec cap rotnum) as [Hlt|Hge]; split; auto.
    + discriminate.
    + intros [_ Hlt]. lia.
  - rewrite rotate_gen_idle by exact Hrot. split; [discriminate|intros [H _]; discriminate H].
Qed.

Lemma idx_name_neq : forall name, name <> (name ++ s_idx)%list.
Proof. intros name H. apply app_self_nil in H. discriminate H. Qed.

Lemma lookup_open2 : forall name d x,
  lookup (open_trunc (name ++ s_idx)%list (open_trunc name d)) x =
  if str_eqb (name ++ s_idx)%list x then Some []
  else if str_eqb name x then Some [] else lookup d x.
Proof. intros. rewrite !lookup_open_trunc. reflexivity. Qed.

Lemma lookup_open2_live : forall name d,
  lookup (open_trunc (name ++ s_idx)%list (open_trunc name d)) name = Some [] /\
  lookup (open_trunc (name ++ s_idx)%list (open_trunc name d)) (name ++ s_idx)%list = Some [].
Proof.
  intros name d. rewrite !lookup_open2, !str_eqb_refl.
  destruct (str_eqb (name ++ s_idx)%list name); split; reflexivity.
Qed.

Lemma lookup_open2_other : forall name d x, x <> name -> x <> (name ++ s_idx)%list ->
  lookup (open_trunc (name ++ s_idx)%list (open_trunc name d)) x = lookup d x.
Proof. intros name d x H1 H2. rewrite lookup_open2, !str_eqb_neq by congruence. reflexivity. Qed.

Lemma initialise_gen_eq : forall orig name rotnum d, 0 < rotnum ->
  initialise_gen orig name rotnum true d =
  if orig && (cap <? rotnum) then OOB
  else Ok (open_trunc (name ++ s_idx)%list (open_trunc name
             (shift2 (gen_db name) (gen_idx name) (kept rotnum) d))).
Proof.
  intros orig name rotnum d Hpos. unfold initialise_gen. rewrite orb_true_r. cbn [andb].
  rewrite (proj2 (N.ltb_lt 0 rotnum) Hpos).
  destruct (build_names_spec name (db_gen_name name) (gen_db name) rotnum)
    as [v [Hbuild Hv]]; [apply gen_db_0|apply gen_db_pos|].
  destruct (build_names_spec (name ++ s_idx)%list (idx_gen_name name) (gen_idx name) rotnum)
    as [v' [Hbuild' Hv']]; [apply gen_idx_0|apply gen_idx_pos|].
  rewrite Hbuild, Hbuild'. pose proof (proj1 Hv) as Hlen.
  destruct (orig && (cap <? rotnum)) eqn:E.
  - apply andb_true_iff in E. destruct E as [-> E]. apply N.ltb_lt in E.
    rewrite shift_loop2_oob; [reflexivity| | |]; unfold kept in Hlen; lia.
  - rewrite (loop_start orig rotnum (vlen v) Hlen E).
    rewrite (shift_loop2_shift2 v _ v' _ _ Hv Hv') by lia. reflexivity.
Qed.

Lemma initialise_eq : forall name rotnum purge d,
  initialise name rotnum purge d =
  Ok (if purge && (0 <? rotnum)
      then open_trunc (name ++ s_idx)%list (open_trunc name
             (shift2 (gen_db name) (gen_idx name) (kept rotnum) d))
      else if match lookup d name with None => true | Some _ => false end || purge
           then open_trunc (name ++ s_idx)%list (open_trunc name d) else d).
Proof.
  intros name rotnum purge d. destruct (purge && (0 <? rotnum)) eqn:E.
  - apply andb_true_iff in E. destruct E as [-> Hpos].
    apply (initialise_gen_eq false), N.ltb_lt, Hpos.
  - unfold initialise, initialise_gen. rewrite E. destruct (_ || purge); reflexivity.
Qed.

(* off the index names the double loop is the data loop, off the data names the index loop *)
Lemma shift2_db : forall name n d,
  agree (fun x => forall k, k <= n -> x <> gen_idx name k)
        (shift2 (gen_db name) (gen_idx name) n d) (shift (gen_db name) n d).
Proof.
  intros name n d. apply shift2_fst; [|intros x _; reflexivity]. intros k Hk. split.
  - intros j _. apply gen_db_idx_disjoint.
  - intros H. exact (H k Hk eq_refl).
Qed.

Lemma shift2_idx : forall name n d,
  agree (fun x => forall k, k <= n -> x <> gen_db name k)
        (shift2 (gen_db name) (gen_idx name) n d) (shift (gen_idx name) n d).
Proof.
  intros name n d. apply shift2_snd; [|intros x _; reflexivity]. intros k Hk. split.
  - intros H. exact (H k Hk eq_refl).
  - intros j _ E. exact (gen_db_idx_disjoint name j k (eq_sym E)).
Qed.

Lemma initialise_frame : forall name rotnum purge d d',
  initialise name rotnum purge d = Ok d' ->
  forall x, (forall k, k <= kept rotnum -> x <> gen_db name k /\ x <> gen_idx name k) ->
  lookup d' x = lookup d x.
Proof.
  intros name rotnum purge d d' Hrun x Hx. rewrite initialise_eq in Hrun. injection Hrun as <-.
  assert (H0 : x <> name /\ x <> (name ++ s_idx)%list) by (apply (Hx 0); lia).
  destruct (purge && (0 <? rotnum)).
  - rewrite lookup_open2_other, shift2_db; [|intros k Hk; apply (Hx k Hk)|apply H0|apply H0].
    apply shift_frame. intros k Hk. apply (Hx k Hk).
  - destruct (_ || purge); [apply lookup_open2_other; apply H0|reflexivity].
Qed.

Lemma initialise_sem : forall name rotnum d,
  0 < rotnum ->
  exists d', initialise name rotnum true d = Ok d' /\
    lookup d' name = Some [] /\ lookup d' (name ++ s_idx)%list = Some [] /\
    (forall k, 1 <= k <= kept rotnum ->
       shifted (gen_db name) (kept rotnum) d d' k /\ shifted (gen_idx name) (kept rotnum) d d' k).
Proof.
  intros name rotnum d Hpos.
  rewrite initialise_eq. cbn [andb]. rewrite (proj2 (N.ltb_lt 0 rotnum) Hpos).
  eexists. split; [reflexivity|].
  split; [apply lookup_open2_live|]. split; [apply lookup_open2_live|].
  intros k Hk. unfold shifted. split.
  - rewrite lookup_open2_other, shift2_db.
    + exact (shift_shifted _ (gen_db_inj name) _ d k Hk).
    + intros j _. apply gen_db_idx_disjoint.
    + intros E. apply (gen_db_inj name k 0) in E. lia.
    + apply (gen_db_idx_disjoint name k 0).
  - rewrite lookup_open2_other, shift2_idx.
    + exact (shift_shifted _ (gen_idx_inj name) _ d k Hk).
    + intros j _ E. exact (gen_db_idx_disjoint name j k (eq_sym E)).
    + intros E. exact (gen_db_idx_disjoint name 0 k (eq_sym E)).
    + intros E. apply (gen_idx_inj name k 0) in E. lia.
Qed.

Lemma initialise_orig_oob : forall name rotnum d,
  cap < rotnum -> initialise_orig name rotnum true d = OOB.
Proof.
  intros name rotnum d Hcap. unfold initialise_orig.
  rewrite initialise_gen_eq by (unfold cap in Hcap; lia).
  rewrite (proj2 (N.ltb_lt cap rotnum) Hcap). reflexivity.
Qed.
