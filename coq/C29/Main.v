(* The test vectors of Props/Properties_C29.v. *)
From Coq Require Import NArith List Ascii Bool.
From F8 Require Import C29.Rotate C29.Spec_C29 C29.RotateProofs.
Import ListNotations.
Local Open Scope char_scope.
Local Open Scope N_scope.

Lemma ok_not_oob : forall r : res, (exists d', r = Ok d') -> r <> OOB.
Proof. intros r [d' ->]. discriminate. Qed.

Definition w_log : str := ["l"; "o"; "g"].
Definition w_db : str := ["d"; "b"].

(* distinct one-letter contents, so that it shows which generation went where *)
Definition nv_dir : dir :=
  [ (w_log, ["A"]); (w_log ++ ["."; "1"], ["B"]); (w_log ++ ["."; "2"], ["E"]);
    (w_log ++ ["."; "3"], ["C"]); (w_log ++ ["."; "4"], ["D"]); (["o"; "t"; "h"; "e"; "r"], ["X"]) ]%list.

(* the routine completes, and on the names of [e] the directory it leaves is [e] *)
Definition yields (r : res) (e : dir) : Prop :=
  forall x, In x (map fst e) ->
    match r with Ok d' => lookup d' x = lookup e x | _ => False end.

Definition yieldsb (r : res) (e : dir) : bool :=
  match r with
  | Ok d' => forallb (fun x => opt_eqb (lookup d' x) (lookup e x)) (map fst e)
  | _ => false
  end.

Lemma yieldsb_sound : forall r e, yieldsb r e = true -> yields r e.
Proof.
  intros [d'| |] e H x Hx; try discriminate H.
  apply opt_eqb_eq. exact (proj1 (forallb_forall _ _) H x Hx).
Qed.

Lemma c29_nonvacuous_lemma :
  0 < 3 /\ kept 3 = 3 /\ kept 1025 = 1024 /\
  yields (rotate w_log 3 false false false nv_dir)
    [ (w_log, []); (w_log ++ ["."; "1"], ["A"]); (w_log ++ ["."; "2"], ["B"]);
      (w_log ++ ["."; "3"], ["E"]); (w_log ++ ["."; "4"], ["D"]);
      (["o"; "t"; "h"; "e"; "r"], ["X"]) ]%list /\
  yields (rotate w_log 1025 false false false nv_dir)
    [ (w_log, []); (w_log ++ ["."; "1"], ["A"]); (w_log ++ ["."; "2"], ["B"]);
      (w_log ++ ["."; "3"], ["E"]); (w_log ++ ["."; "4"], ["C"]); (w_log ++ ["."; "5"], ["D"]);
      (["o"; "t"; "h"; "e"; "r"], ["X"]) ]%list /\
  c29_ok (mkcfg w_log 3 false false) nv_dir [OpRotate false; OpWrite ["w"]; OpRotate true]
         (run (mkcfg w_log 3 false false) [OpRotate false; OpWrite ["w"]; OpRotate true] nv_dir) = true.
Proof.
  split; [reflexivity|]. split; [reflexivity|]. split; [reflexivity|].
  split; [|split].
  - apply yieldsb_sound. vm_compute. reflexivity.
  - apply yieldsb_sound. vm_compute. reflexivity.
  - vm_compute. reflexivity.
Qed.
