(* Directories under rename, the instrumented vector and the name lists built in it, the two
   shifting loops as functions of the directory (for ALL directories, by induction on the loop
   counter), and the generation names: injective, data and index names disjoint. *)
From Coq Require Import NArith List Ascii Bool Lia.
From Coq Require Decimal DecimalN FinFun.
From F8 Require Import C29.Rotate C29.Spec_C29.
Import ListNotations.
Local Open Scope char_scope.
Local Open Scope N_scope.

Lemma str_eqb_spec : forall a b, reflect (a = b) (str_eqb a b).
Proof.
  induction a as [|x a IH]; destruct b as [|y b]; cbn [str_eqb]; try (constructor; congruence).
  destruct (Ascii.eqb_spec x y) as [->|Hxy]; cbn [andb].
  - destruct (IH b) as [->|Hab]; constructor; congruence.
  - constructor; congruence.
Qed.

Lemma str_eqb_refl : forall a, str_eqb a a = true.
Proof. intros a. destruct (str_eqb_spec a a); congruence. Qed.

Lemma str_eqb_neq : forall a b, a <> b -> str_eqb a b = false.
Proof. intros a b H. destruct (str_eqb_spec a b); congruence. Qed.

Lemma str_eqb_sym : forall a b, str_eqb a b = str_eqb b a.
Proof. intros a b. destruct (str_eqb_spec a b), (str_eqb_spec b a); congruence. Qed.

Lemma opt_eqb_refl : forall x, opt_eqb x x = true.
Proof. intros [c|]; cbn [opt_eqb]; [apply str_eqb_refl|reflexivity]. Qed.

Lemma opt_eqb_eq : forall a b, opt_eqb a b = true -> a = b.
Proof.
  intros [a|] [b|] H; cbn [opt_eqb] in H; try discriminate H; [|reflexivity].
  destruct (str_eqb_spec a b); congruence.
Qed.

Lemma lookup_dremove : forall d n x,
  lookup (dremove n d) x = if str_eqb n x then None else lookup d x.
Proof.
  induction d as [|[k c] t IH]; intros n x; cbn [dremove filter lookup fst].
  - destruct (str_eqb n x); reflexivity.
  - fold (dremove n t). destruct (str_eqb_spec k n) as [->|Hkn]; cbn [negb].
    + rewrite IH. destruct (str_eqb n x); reflexivity.
    + cbn [lookup]. rewrite IH. destruct (str_eqb_spec k x) as [->|Hkx].
      * rewrite str_eqb_neq by congruence. reflexivity.
      * reflexivity.
Qed.

Lemma lookup_dset : forall d n c x,
  lookup (dset n c d) x = if str_eqb n x then Some c else lookup d x.
Proof.
  intros. unfold dset. cbn [lookup]. rewrite lookup_dremove. destruct (str_eqb n x); reflexivity.
Qed.

Lemma lookup_rename : forall d a b x,
  lookup (rename a b d) x =
  match lookup d a with
  | None => lookup d x
  | Some c => if str_eqb a b then lookup d x
              else if str_eqb b x then Some c
              else if str_eqb a x then None else lookup d x
  end.
Proof.
  intros. unfold rename. destruct (lookup d a) as [c|]; [|reflexivity].
  destruct (str_eqb a b); [reflexivity|].
  rewrite lookup_dset, lookup_dremove. reflexivity.
Qed.

Lemma lookup_rename_other : forall d a b x,
  x <> a -> x <> b -> lookup (rename a b d) x = lookup d x.
Proof.
  intros d a b x Ha Hb. rewrite lookup_rename, (str_eqb_neq b x), (str_eqb_neq a x) by congruence.
  destruct (lookup d a); [destruct (str_eqb a b)|]; reflexivity.
Qed.

Lemma lookup_rename_src : forall d a b, a <> b -> lookup (rename a b d) a = None.
Proof.
  intros d a b Hab. rewrite lookup_rename, (str_eqb_neq a b), (str_eqb_neq b a), str_eqb_refl by congruence.
  destruct (lookup d a); reflexivity.
Qed.

Lemma lookup_rename_dst : forall d a b, a <> b ->
  lookup (rename a b d) b = match lookup d a with Some c => Some c | None => lookup d b end.
Proof.
  intros d a b Hab. rewrite lookup_rename, (str_eqb_neq a b Hab), str_eqb_refl. reflexivity.
Qed.

Lemma lookup_open_trunc : forall d n x,
  lookup (open_trunc n d) x = if str_eqb n x then Some [] else lookup d x.
Proof. intros. apply lookup_dset. Qed.

Lemma lookup_open_app : forall d n x,
  lookup (open_app n d) x =
  if str_eqb n x then (match lookup d n with Some c => Some c | None => Some [] end) else lookup d x.
Proof.
  intros. unfold open_app. destruct (lookup d n) as [c|] eqn:E.
  - destruct (str_eqb_spec n x) as [<-|]; [exact E|reflexivity].
  - apply lookup_dset.
Qed.

Lemma lookup_append_to : forall d n m x,
  lookup (append_to n m d) x =
  if str_eqb n x then Some ((match lookup d n with Some c => c | None => [] end) ++ m)%list
  else lookup d x.
Proof. intros. apply lookup_dset. Qed.

Lemma tget_leaf : forall p, tget Leaf p = None.
Proof. destruct p; reflexivity. Qed.

Lemma tget_tset_same : forall t p x, tget (tset t p x) p = Some x.
Proof.
  intros t p. revert t. induction p as [q IH|q IH|]; intros t x; destruct t; cbn [tset tget]; auto.
Qed.

Lemma tget_tset_other : forall t p q x, p <> q -> tget (tset t p x) q = tget t q.
Proof.
  intros t p. revert t. induction p as [p IH|p IH|]; intros t q x Hne; destruct t; destruct q;
    cbn [tset tget]; try rewrite tget_leaf; try reflexivity;
    try (rewrite IH by congruence; try rewrite tget_leaf; reflexivity); congruence.
Qed.

Lemma vget_vpush : forall v x i, vget (vpush v x) i = if i =? vlen v then Some x else vget v i.
Proof.
  intros v x i. unfold vget, vpush. cbn [vlen vtree].
  destruct (N.eqb_spec i (vlen v)) as [->|Hne].
  - rewrite (proj2 (N.ltb_lt _ _)) by lia. apply tget_tset_same.
  - rewrite tget_tset_other.
    + destruct (N.ltb_spec i (vlen v)), (N.ltb_spec i (vlen v + 1)); try lia; reflexivity.
    + intros E. apply (f_equal Pos.pred_N) in E. rewrite !N.pos_pred_succ in E. congruence.
Qed.

Lemma vget_oob : forall v i, vlen v <= i -> vget v i = None.
Proof. intros v i H. unfold vget. rewrite (proj2 (N.ltb_ge _ _) H). reflexivity. Qed.

Definition holds (v : vec) (g : N -> str) (len : N) : Prop :=
  vlen v = len /\ forall i, i < len -> vget v i = Some (g i).

Lemma holds_empty : forall g, holds vempty g 0.
Proof. intros g. split; [reflexivity|]. intros i Hi. lia. Qed.

Lemma holds_push : forall v g len, holds v g len -> holds (vpush v (g len)) g (len + 1).
Proof.
  intros v g len [Hlen Hget]. split.
  - cbn [vpush vlen]. lia.
  - intros i Hi. rewrite vget_vpush, Hlen.
    destruct (N.eqb_spec i len) as [->|Hne]; [reflexivity|apply Hget; lia].
Qed.

Lemma names_loop_spec : forall mk g rotnum, (forall k, 0 < k -> g k = mk k) ->
  forall fuel ii acc,
  (N.to_nat (kept rotnum - ii) < fuel)%nat -> ii <= kept rotnum -> holds acc g (ii + 1) ->
  exists v, names_loop fuel mk rotnum ii acc = Some v /\ holds v g (kept rotnum + 1).
Proof.
  intros mk g rotnum Hg. induction fuel as [|f IH]; intros ii acc Hf Hle Hacc; [lia|].
  cbn [names_loop].
  replace ((ii <? rotnum) && (ii <? max_rotation)) with (ii <? kept rotnum).
  - destruct (N.ltb_spec ii (kept rotnum)) as [Hlt|Hge].
    + apply IH; [lia|lia|]. rewrite <- Hg by lia. apply holds_push. exact Hacc.
    + exists acc. split; [reflexivity|]. replace (kept rotnum) with ii by lia. exact Hacc.
  - unfold kept, cap, max_rotation.
    destruct (N.ltb_spec ii (N.min rotnum 1024)), (N.ltb_spec ii rotnum), (N.ltb_spec ii 1024);
      try lia; reflexivity.
Qed.

Lemma build_names_spec : forall first mk g rotnum,
  g 0 = first -> (forall k, 0 < k -> g k = mk k) ->
  exists v, build_names first mk rotnum = Some v /\ holds v g (kept rotnum + 1).
Proof.
  intros first mk g rotnum H0 Hg. unfold build_names. apply (names_loop_spec mk g rotnum Hg).
  - unfold names_fuel, kept, cap, max_rotation. lia.
  - lia.
  - rewrite <- H0. apply (holds_push vempty g 0), holds_empty.
Qed.

(* for (ii = n; ii; --ii) body (ii - 1) *)
Definition loop (body : N -> dir -> dir) : N -> dir -> dir :=
  N.peano_rect (fun _ => dir -> dir) (fun d => d) (fun j rest d => rest (body j d)).

Lemma loop_succ : forall body n d, loop body (N.succ n) d = loop body n (body n d).
Proof. intros. unfold loop. rewrite N.peano_rect_succ. reflexivity. Qed.

(* the logger's loop over the family of names g, and the persister's over g and g' *)
Definition shift (g : N -> str) : N -> dir -> dir :=
  loop (fun j => rename (g j) (g (N.succ j))).
Definition shift2 (g g' : N -> str) : N -> dir -> dir :=
  loop (fun j d => rename (g' j) (g' (N.succ j)) (rename (g j) (g (N.succ j)) d)).

Lemma shift_loop_shift : forall v g len, holds v g len ->
  forall fuel ii d, ii < len -> (N.to_nat ii <= fuel)%nat ->
  shift_loop fuel v ii d = Ok (shift g ii d).
Proof.
  intros v g len [_ Hget]. induction fuel as [|f IH]; intros ii d Hii Hf.
  - replace ii with 0 by lia. reflexivity.
  - cbn [shift_loop]. destruct (N.eqb_spec ii 0) as [->|Hnz]; [reflexivity|].
    rewrite !Hget by lia. remember (ii - 1) as j. replace ii with (N.succ j) by lia.
    rewrite IH by lia. unfold shift. rewrite loop_succ. reflexivity.
Qed.

Lemma shift_loop2_shift2 : forall v g v' g' len, holds v g len -> holds v' g' len ->
  forall fuel ii d, ii < len -> (N.to_nat ii <= fuel)%nat ->
  shift_loop2 fuel v v' ii d = Ok (shift2 g g' ii d).
Proof.
  intros v g v' g' len [_ Hget] [_ Hget']. induction fuel as [|f IH]; intros ii d Hii Hf.
  - replace ii with 0 by lia. reflexivity.
  - cbn [shift_loop2]. destruct (N.eqb_spec ii 0) as [->|Hnz]; [reflexivity|].
    rewrite !Hget, !Hget' by lia. remember (ii - 1) as j. replace ii with (N.succ j) by lia.
    rewrite IH by lia. unfold shift2. rewrite loop_succ. reflexivity.
Qed.

Lemma shift_loop_oob : forall v fuel ii d,
  vlen v <= ii -> ii <> 0 -> (0 < fuel)%nat -> shift_loop fuel v ii d = OOB.
Proof.
  intros v fuel ii d Hlen Hii Hf. destruct fuel as [|f]; [lia|].
  cbn [shift_loop]. rewrite (proj2 (N.eqb_neq ii 0) Hii), (vget_oob v ii Hlen).
  destruct (vget v (ii - 1)); reflexivity.
Qed.

Lemma shift_loop2_oob : forall v v' fuel ii d,
  vlen v <= ii -> ii <> 0 -> (0 < fuel)%nat -> shift_loop2 fuel v v' ii d = OOB.
Proof.
  intros v v' fuel ii d Hlen Hii Hf. destruct fuel as [|f]; [lia|].
  cbn [shift_loop2]. rewrite (proj2 (N.eqb_neq ii 0) Hii), (vget_oob v ii Hlen).
  destruct (vget v (ii - 1)); reflexivity.
Qed.

(* generation k after the loop ii = n ... 1 has taken d to d': a missing generation k-1 leaves a
   hole at k, except that the oldest generation, n, then survives *)
Definition shifted (g : N -> str) (n : N) (d d' : dir) (k : N) : Prop :=
  lookup d' (g k) = match lookup d (g (k - 1)) with
                    | Some c => Some c
                    | None => if k =? n then lookup d (g k) else None
                    end.

Lemma shift_frame : forall g n d x,
  (forall k, k <= n -> x <> g k) -> lookup (shift g n d) x = lookup d x.
Proof.
  intros g. induction n as [|n IH] using N.peano_ind; intros d x Hx; [reflexivity|].
  unfold shift. rewrite loop_succ. fold (shift g).
  rewrite IH by (intros k Hk; apply Hx; lia). apply lookup_rename_other; apply Hx; lia.
Qed.

Lemma shift_live : forall g, (forall j k, g j = g k -> j = k) ->
  forall n d, 0 < n -> lookup (shift g n d) (g 0) = None.
Proof.
  intros g Hinj. induction n as [|n IH] using N.peano_ind; intros d Hn; [lia|].
  unfold shift. rewrite loop_succ. fold (shift g).
  destruct (N.eq_dec n 0) as [->|Hnz]; [|apply IH; lia].
  apply lookup_rename_src. intros E. discriminate (Hinj _ _ E).
Qed.

Lemma shift_shifted : forall g, (forall j k, g j = g k -> j = k) ->
  forall n d k, 1 <= k <= n -> shifted g n d (shift g n d) k.
Proof.
  intros g Hinj. induction n as [|n IH] using N.peano_ind; intros d k Hk; [lia|].
  assert (Hne : forall i j, i <> j -> g i <> g j) by (intros i j Hij E; exact (Hij (Hinj _ _ E))).
  unfold shifted, shift. rewrite loop_succ. fold (shift g).
  destruct (N.eq_dec k (N.succ n)) as [->|Hkn].
  - (* the first rename fills generation n+1, which no later iteration touches *)
    rewrite shift_frame by (intros j Hj; apply Hne; lia).
    rewrite lookup_rename_dst by (apply Hne; lia).
    rewrite N.eqb_refl. replace (N.succ n - 1) with n by lia. reflexivity.
  - rewrite (IH _ k) by lia. rewrite (proj2 (N.eqb_neq _ _) Hkn).
    rewrite lookup_rename_other by (apply Hne; lia).
    destruct (lookup d (g (k - 1))); [reflexivity|].
    destruct (N.eqb_spec k n) as [->|_]; [|reflexivity].
    (* generation n has just been renamed away *)
    apply lookup_rename_src, Hne. lia.
Qed.

(* On the names in P the double loop acts like the single loop of the family that lies in P,
   when the other family lies outside: a rename over names outside P is invisible on P. *)
Definition agree (P : str -> Prop) (d1 d2 : dir) : Prop := forall x, P x -> lookup d1 x = lookup d2 x.

Lemma rename_agree : forall (P : str -> Prop) a b d1 d2,
  P a -> agree P d1 d2 -> agree P (rename a b d1) (rename a b d2).
Proof. intros P a b d1 d2 Ha H x Hx. rewrite !lookup_rename, (H a Ha), (H x Hx). reflexivity. Qed.

Lemma rename_foreign : forall (P : str -> Prop) a b d1 d2,
  ~ P a -> ~ P b -> agree P d1 d2 -> agree P (rename a b d1) d2.
Proof.
  intros P a b d1 d2 Ha Hb H x Hx. rewrite lookup_rename_other; [apply H; exact Hx| |]; congruence.
Qed.

Lemma shift2_fst : forall g g' (P : str -> Prop) n,
  (forall k, k <= n -> P (g k) /\ ~ P (g' k)) ->
  forall d1 d2, agree P d1 d2 -> agree P (shift2 g g' n d1) (shift g n d2).
Proof.
  intros g g' P. induction n as [|n IH] using N.peano_ind; intros HP d1 d2 H; [exact H|].
  unfold shift2, shift. rewrite !loop_succ. apply IH; [intros k Hk; apply HP; lia|].
  apply rename_foreign; [apply HP; lia|apply HP; lia|].
  apply rename_agree; [apply HP; lia|exact H].
Qed.

Lemma shift2_snd : forall g g' (P : str -> Prop) n,
  (forall k, k <= n -> ~ P (g k) /\ P (g' k)) ->
  forall d1 d2, agree P d1 d2 -> agree P (shift2 g g' n d1) (shift g' n d2).
Proof.
  intros g g' P. induction n as [|n IH] using N.peano_ind; intros HP d1 d2 H; [exact H|].
  unfold shift2, shift. rewrite !loop_succ. apply IH; [intros k Hk; apply HP; lia|].
  apply rename_agree; [apply HP; lia|].
  apply rename_foreign; [apply HP; lia|apply HP; lia|exact H].
Qed.

Lemma chars_of_uint_inj : forall u v, chars_of_uint u = chars_of_uint v -> u = v.
Proof.
  induction u; destruct v; cbn [chars_of_uint]; intros H; try discriminate; try reflexivity;
    (injection H as H; f_equal; apply IHu; exact H).
Qed.

Lemma dec_inj : forall j k, dec j = dec k -> j = k.
Proof.
  intros j k H. unfold dec in H. apply chars_of_uint_inj in H.
  rewrite <- (DecimalN.Unsigned.of_to j), <- (DecimalN.Unsigned.of_to k), H. reflexivity.
Qed.

Definition isdig (c : ascii) : Prop := In c ["0"; "1"; "2"; "3"; "4"; "5"; "6"; "7"; "8"; "9"].

Lemma dec_digits : forall k, Forall isdig (dec k).
Proof.
  intros k. unfold dec. induction (N.to_uint k); cbn [chars_of_uint]; constructor;
    try assumption; unfold isdig; cbn [In]; tauto.
Qed.

Definition bnd (s : str) : Prop := match s with [] => True | c :: _ => ~ isdig c end.

(* where the digits end is determined by what follows them *)
Lemma digits_boundary : forall a b s1 s2,
  Forall isdig a -> Forall isdig b -> bnd s1 -> bnd s2 ->
  (a ++ s1 = b ++ s2)%list -> a = b /\ s1 = s2.
Proof.
  induction a as [|x a IH]; destruct b as [|y b]; cbn [app]; intros s1 s2 Ha Hb B1 B2 H.
  - split; [reflexivity|exact H].
  - subst s1. cbn [bnd] in B1. inversion Hb; subst. contradiction.
  - subst s2. cbn [bnd] in B2. inversion Ha; subst. contradiction.
  - injection H as Hxy H. inversion Ha; subst. inversion Hb; subst.
    destruct (IH b s1 s2) as [E1 E2]; auto. split; congruence.
Qed.

Lemma not_dig_dot : ~ isdig ".".
Proof. unfold isdig. cbn [In]. intuition discriminate. Qed.
Lemma not_dig_i : ~ isdig "i".
Proof. unfold isdig. cbn [In]. intuition discriminate. Qed.

Lemma bnd_sfx : forall compress : bool, bnd (if compress then ["."; "g"; "z"] else []).
Proof. intros [|]; cbn [bnd]; [exact not_dig_dot|exact I]. Qed.

Lemma app_self_nil : forall (s t : str), s = (s ++ t)%list -> t = [].
Proof.
  intros s t H. rewrite <- (app_nil_r s) in H at 1. apply app_inv_head in H. congruence.
Qed.

Lemma gen_log_inj : forall name compress j k,
  gen_log name compress j = gen_log name compress k -> j = k.
Proof.
  intros name compress j k. unfold gen_log.
  destruct (N.eqb_spec j 0) as [->|Hj]; destruct (N.eqb_spec k 0) as [->|Hk]; intros H.
  - reflexivity.
  - apply app_self_nil in H. discriminate H.
  - symmetry in H. apply app_self_nil in H. discriminate H.
  - apply app_inv_head in H. cbn [app] in H. injection H as H.
    apply digits_boundary in H; try apply dec_digits; try apply bnd_sfx.
    apply dec_inj. tauto.
Qed.

Lemma gen_db_is_log : forall name k, gen_db name k = gen_log name false k.
Proof.
  intros. unfold gen_db, gen_log. destruct (k =? 0); [reflexivity|].
  rewrite app_nil_r. reflexivity.
Qed.

Lemma gen_db_inj : forall name j k, gen_db name j = gen_db name k -> j = k.
Proof. intros name j k. rewrite !gen_db_is_log. apply gen_log_inj. Qed.

Lemma gen_idx_inj : forall name j k, gen_idx name j = gen_idx name k -> j = k.
Proof. intros name j k H. unfold gen_idx in H. apply app_inv_tail in H. eapply gen_db_inj; eauto. Qed.

Lemma gen_db_idx_disjoint : forall name j k, gen_db name j <> gen_idx name k.
Proof.
  intros name j k. unfold gen_idx, gen_db.
  destruct (N.eqb_spec j 0) as [->|Hj]; destruct (N.eqb_spec k 0) as [->|Hk]; intros H.
  - apply app_self_nil in H. discriminate H.
  - rewrite <- !app_assoc in H. apply app_self_nil in H. discriminate H.
  - apply app_inv_head in H. cbn [app] in H. injection H as H.
    assert (E : (dec j ++ [] = [] ++ ["i"; "d"; "x"])%list) by (rewrite app_nil_r; exact H).
    apply digits_boundary in E; try apply dec_digits; try constructor; try exact I.
    + destruct E as [_ E]. discriminate E.
    + cbn [bnd]. exact not_dig_i.
  - rewrite <- !app_assoc in H. apply app_inv_head in H. cbn [app] in H. injection H as H.
    assert (E : (dec j ++ [] = dec k ++ ["."; "i"; "d"; "x"])%list) by (rewrite app_nil_r; exact H).
    apply digits_boundary in E; try apply dec_digits; try exact I.
    + destruct E as [_ E]. discriminate E.
    + cbn [bnd]. exact not_dig_dot.
Qed.

Lemma gen_log_pos : forall name compress k, 0 < k -> gen_log name compress k = log_gen_name name compress k.
Proof. intros name compress k Hk. unfold gen_log. rewrite (proj2 (N.eqb_neq k 0)) by lia. reflexivity. Qed.

Lemma gen_db_pos : forall name k, 0 < k -> gen_db name k = db_gen_name name k.
Proof. intros name k Hk. unfold gen_db. rewrite (proj2 (N.eqb_neq k 0)) by lia. reflexivity. Qed.

Lemma gen_idx_pos : forall name k, 0 < k -> gen_idx name k = idx_gen_name name k.
Proof. intros name k Hk. unfold gen_idx. rewrite gen_db_pos by exact Hk. reflexivity. Qed.

Lemma range1_length : forall n, length (range1 n) = N.to_nat n.
Proof. intros. unfold range1. rewrite map_length, seq_length. reflexivity. Qed.

Lemma range0_seq : forall n, range0 n = map N.of_nat (seq 0 (S (N.to_nat n))).
Proof. intros. unfold range0, range1. reflexivity. Qed.

Lemma range0_length : forall n, length (range0 n) = S (N.to_nat n).
Proof. intros. rewrite range0_seq, map_length, seq_length. reflexivity. Qed.

Lemma NoDup_range0 : forall n, NoDup (range0 n).
Proof.
  intros. rewrite range0_seq. apply FinFun.Injective_map_NoDup; [|apply seq_NoDup].
  intros a b H. lia.
Qed.

Lemma in_range1 : forall n k, In k (range1 n) <-> 1 <= k <= n.
Proof.
  intros n k. unfold range1. rewrite in_map_iff. split.
  - intros [i [Hi Hin]]. apply in_seq in Hin. lia.
  - intros H. exists (N.to_nat k). split; [lia|]. apply in_seq. lia.
Qed.

Lemma in_range0 : forall n k, In k (range0 n) <-> k <= n.
Proof.
  intros n k. unfold range0. cbn [In]. rewrite in_range1. lia.
Qed.

Lemma in_family : forall (g : N -> str) n x, In x (map g (range0 n)) <-> exists k, k <= n /\ x = g k.
Proof.
  intros g n x. rewrite in_map_iff. split.
  - intros [k [Hk Hin]]. exists k. rewrite in_range0 in Hin. auto.
  - intros [k [Hk ->]]. exists k. rewrite in_range0. auto.
Qed.
