(* C25: the oracle (C25/Spec_C25.v) on the model -- what a run puts on the wire is numbered consecutively, carries
   exactly the submitted type and body, and the greedy interleaving check of the oracle accepts every linearisation
   of pairwise different submissions. *)
From Coq Require Import NArith ZArith List Bool Lia Arith.
From F8 Require Import Sess.Bytes Sess.Msg Sess.Persist Sess.Session Sess.SimpleCodec Sess.Wire
  Sess.SessLemmas Sess.SendLemmas C16.Spec_C16 C16.C16Proofs C17.Spec_C17 C17.C17Proofs
  C25.Conc C25.Syntax C25.Spec_C25 C25.ConcProofs.
Import ListNotations.
Local Open Scope N_scope.

(* the linear tokenizer is the tokenizer *)
Lemma fsplit_aux_eq : forall sep l cur, fsplit_aux sep l cur = split_aux sep l cur.
Proof.
  intros sep l. induction l as [|b l IH]; intro cur; cbn [fsplit_aux split_aux]; rewrite <- !rev_alt; [reflexivity|].
  destruct (b =? sep); rewrite ?IH; reflexivity.
Qed.
Lemma ftokens_eq : forall raw, ftokens raw = tokens raw.
Proof. intro raw. unfold ftokens, tokens, fsplit, split_on. rewrite fsplit_aux_eq. reflexivity. Qed.
Lemma fnew_msg_of_eq : forall raw, fnew_msg_of raw = new_msg_of raw.
Proof. intro raw. unfold fnew_msg_of, new_msg_of. rewrite ftokens_eq. reflexivity. Qed.

Definition body_item (m : msg) : item := (m_type m, map ftok (m_body m)).

Lemma tok_eqb_refl : forall x, tok_eqb x x = true.
Proof. intros [a b]. unfold tok_eqb. cbn. rewrite !beq_refl. reflexivity. Qed.

Lemma item_eqb_refl : forall x, item_eqb x x = true.
Proof.
  intros [t b]. unfold item_eqb, toks_perm. cbn [fst snd]. rewrite beq_refl, Nat.eqb_refl. cbn [andb].
  apply forallb_forall. intros x _. apply Nat.eqb_refl.
Qed.

Definition std_tag (t : N) : bool := existsb (N.eqb t) HDR_TAGS.

Lemma is_hdr_tok_dec : forall t, is_hdr_tok (dec t) = std_tag t.
Proof.
  intros t. unfold is_hdr_tok, std_tag. induction HDR_TAGS as [|h l IH]; [reflexivity|].
  cbn [existsb]. rewrite beq_dec, IH, N.eqb_sym. reflexivity.
Qed.

Definition sorted_out (m : msg) : Prop :=
  (forall x, In x (tags (m_hdr m)) -> std_tag x = true) /\ (forall x, In x (tags (m_body m)) -> std_tag x = false).

(* a part all of whose tags are standard (b = true) or all not (b = false), filtered as wire_item does *)
Lemma filter_ftok : forall b l, (forall x, In x (tags l) -> std_tag x = b) ->
  filter (fun tv => negb (is_hdr_tok (fst tv))) (map ftok l) = if b then [] else map ftok l.
Proof.
  intros b. induction l as [|f l IH]; intro H; [destruct b; reflexivity|]. cbn [map filter ftok fst].
  rewrite is_hdr_tok_dec, (H (f_tag f)) by (left; reflexivity). rewrite IH by (intros x I; apply H; right; exact I).
  destruct b; reflexivity.
Qed.

Lemma wire_item_encode : forall sc M, wf_msg sc M = true -> sorted_out M -> wire_item (encode sc M) = body_item M.
Proof.
  intros sc M W [SH SB]. unfold wire_item, body_item. rewrite ftokens_eq.
  rewrite (tok_get_encode_type sc M W). rewrite (tokens_encode sc M W). unfold msg_toks.
  rewrite !filter_app. cbn [filter fst]. rewrite !is_hdr_tok_dec.
  change (std_tag 8) with true. change (std_tag 9) with true. change (std_tag T_MsgType) with true. change (std_tag 10) with true.
  cbn [negb app]. rewrite (filter_ftok true _ SH), (filter_ftok false _ SB). rewrite app_nil_r. reflexivity.
Qed.

Lemma tags_add_field : forall p t v l x, In x (tags (add_field p t v l)) -> x = t \/ In x (tags l).
Proof.
  intros p t v l x H. unfold add_field in H. destruct (get_pos t l); apply tags_insert in H; cbn [f_tag] in H; [|exact H].
  destruct H as [H|H]; [left; exact H|right]. eapply tags_remove_sub. exact H.
Qed.

Lemma stamped_sorted : forall sc now s n m, sorted_out m -> sorted_out (stamped sc now s n m).
Proof.
  intros sc now s n m SO. apply stamped_ind; [exact SO|]. intros t v x I [SH SB]. split; [|rewrite add_hdr'_body; exact SB].
  intros y Iy. destruct (add_hdr'_cases sc t v x) as [[E _]|[p [_ E]]]; rewrite E in Iy; [apply SH; exact Iy|].
  cbn [m_hdr] in Iy. apply tags_add_field in Iy. destruct Iy as [->|Iy]; [|apply SH; exact Iy].
  apply own_fields_tags in I. repeat (destruct I as [<-|I]; [reflexivity|]). destruct I.
Qed.

Section Oracle.
Variable sc : schema.
Variable now : Z.
Hypothesis WS : wf_schema sc = true.
Variable s0 : sess.
Hypothesis W0 : wf_sess s0 = true.

Lemma wire_n_item : forall n m, plain_msg m = true -> sorted_out m -> wire_item (wire_n sc now s0 n m) = body_item m.
Proof.
  intros n m P SO. destruct (filled_ok sc now (w_next_send n s0) m WS W0 P) as [W Ty Bo _ _].
  change (wire_n sc now s0 n m) with (encode sc (filled sc now (w_next_send n s0) m)).
  rewrite (wire_item_encode sc _ W (stamped_sorted sc now _ _ m SO)). unfold body_item. rewrite Ty, Bo. reflexivity.
Qed.

Lemma wires_numbered : forall ms n, Forall (fun m => plain_msg m = true) ms ->
  numbered_from n (wires sc now s0 n ms) = true.
Proof.
  induction ms as [|m r IH]; intros n H; [reflexivity|]. inversion H; subst. unfold wires. cbn [imap numbered_from].
  rewrite fnew_msg_of_eq, (new_msg_of_wire sc WS) by assumption. rewrite N.eqb_refl. apply IH. assumption.
Qed.

Lemma wires_items : forall ms n, Forall (fun m => plain_msg m = true /\ sorted_out m) ms ->
  map wire_item (wires sc now s0 n ms) = map body_item ms.
Proof.
  induction ms as [|m r IH]; intros n H; [reflexivity|]. inversion H as [|? ? [P SO] H']; subst. unfold wires. cbn [imap map].
  rewrite wire_n_item by assumption. f_equal. apply IH. assumption.
Qed.

Lemma wires_stored : forall ms n, Forall (fun m => plain_msg m = true) ms ->
  stored_ok true (concat (imap (adds_n sc now s0) n ms)) (wires sc now s0 n ms) = true.
Proof.
  intros ms n F. pose proof (sentrel_run sc WS now s0 ms n W0 F) as SR. unfold stored_ok. cbn [negb orb].
  destruct (sentrel_ok _ _ _ SR) as (FA & _ & OK).
  replace (wires sc now s0 n ms) with (map (fun x : info => snd x) (imap (info_n sc now s0) n ms)) by (rewrite map_imap; reflexivity).
  rewrite forallb_forall in OK. rewrite Forall_forall in FA.
  apply forallb_forall. intros w I. apply in_map_iff in I. destruct I as (x & <- & IX).
  destruct (FA x IX) as [_ Q]. rewrite fnew_msg_of_eq, Q. apply OK. exact IX.
Qed.

End Oracle.

(* the greedy interleaving check accepts every linearisation of pairwise different items *)
Definition distinct (ths : list (list item)) : Prop :=
  forall t1 t2 l1 l2 i1 i2 a b,
    nth_error ths t1 = Some l1 -> nth_error ths t2 = Some l2 -> nth_error l1 i1 = Some a -> nth_error l2 i2 = Some b ->
    (t1 <> t2 \/ i1 <> i2) -> item_eqb a b = false.

Lemma take_first_found : forall ths i t x tail,
  nth_error ths t = Some (x :: tail) ->
  (forall u y r, (u < t)%nat -> nth_error ths u = Some (y :: r) -> item_eqb x y = false) ->
  take_first x ths i = Some ((i + t)%nat, upd ths t tail).
Proof.
  induction ths as [|th ths IH]; intros i t x tail E H; [destruct t; discriminate|].
  destruct t as [|t'].
  - cbn in E. inversion E; subst th. cbn [take_first]. rewrite item_eqb_refl. rewrite Nat.add_0_r. reflexivity.
  - cbn [nth_error] in E. cbn [take_first upd].
    assert (R : take_first x ths (S i) = Some ((S i + t')%nat, upd ths t' tail)).
    { apply IH; [exact E|]. intros u y r L EU. apply (H (S u) y r); [lia|exact EU]. }
    rewrite R. replace (S i + t')%nat with (i + S t')%nat by lia.
    destruct th as [|y r]; [reflexivity|].
    rewrite (H 0%nat y r) by (try lia; reflexivity). reflexivity.
Qed.

Lemma distinct_tail : forall ths t x tail, distinct ths -> nth_error ths t = Some (x :: tail) -> distinct (upd ths t tail).
Proof.
  intros ths t x tail D E t1 t2 l1 l2 i1 i2 a b E1 E2 A B NE.
  destruct (Nat.eq_dec t t1) as [<-|N1]; destruct (Nat.eq_dec t t2) as [<-|N2].
  - rewrite (nth_error_upd_same _ _ _ _ _ E) in E1, E2. inversion E1; inversion E2; subst l1 l2.
    apply (D t t _ _ (S i1) (S i2) a b E E); try assumption. right. destruct NE as [NE|NE]; [contradiction|lia].
  - rewrite (nth_error_upd_same _ _ _ _ _ E) in E1. inversion E1; subst l1.
    rewrite nth_error_upd_other in E2 by exact N2.
    apply (D t t2 _ _ (S i1) i2 a b E E2); try assumption. left. exact N2.
  - rewrite (nth_error_upd_same _ _ _ _ _ E) in E2. inversion E2; subst l2.
    rewrite nth_error_upd_other in E1 by exact N1.
    apply (D t1 t _ _ i1 (S i2) a b E1 E); try assumption. left. congruence.
  - rewrite nth_error_upd_other in E1 by exact N1. rewrite nth_error_upd_other in E2 by exact N2.
    apply (D t1 t2 _ _ i1 i2 a b E1 E2); assumption.
Qed.

Definition items_by (t : nat) (lin : list (nat * item)) : list item :=
  map snd (filter (fun x => Nat.eqb (fst x) t) lin).

Lemma merge_complete : forall lin ths,
  distinct ths ->
  (forall t l, nth_error ths t = Some l -> l = items_by t lin) ->
  Forall (fun x : nat * item => (fst x < length ths)%nat) lin ->
  is_merge (map snd lin) ths = true.
Proof.
  induction lin as [|[t x] lin IH]; intros ths D TH LT.
  - cbn [map is_merge]. apply forallb_forall. intros l I. apply In_nth_error in I. destruct I as [t E].
    rewrite (TH t l E). reflexivity.
  - inversion LT as [|? ? L0 LT']; subst. cbn [fst] in L0.
    destruct (nth_error ths t) as [l|] eqn:E; [|apply nth_error_None in E; lia].
    pose proof (TH t l E) as EL. unfold items_by in EL. cbn [filter fst] in EL. rewrite Nat.eqb_refl in EL. cbn [map snd] in EL.
    fold (items_by t lin) in EL. subst l.
    cbn [map snd is_merge].
    rewrite (take_first_found ths 0 t x (items_by t lin) E).
    + apply IH.
      * eapply distinct_tail; eassumption.
      * intros u l EU. destruct (Nat.eq_dec t u) as [<-|NE].
        -- rewrite (nth_error_upd_same _ _ _ _ _ E) in EU. inversion EU. reflexivity.
        -- rewrite nth_error_upd_other in EU by exact NE. rewrite (TH u l EU). unfold items_by. cbn [filter fst].
           destruct (Nat.eqb t u) eqn:Q; [apply Nat.eqb_eq in Q; contradiction|reflexivity].
      * rewrite length_upd. exact LT'.
    + intros u y r LU EU. apply (D t u _ _ 0%nat 0%nat x y E EU); try reflexivity. left. lia.
Qed.

Definition all_msgs (progs : list (list call)) : list msg := flat_map prog_msgs progs.
Definition subm (progs : list (list call)) : list (list item) := map (fun p => map body_item (prog_msgs p)) progs.

Lemma items_by_map : forall (g : msg -> item) t l,
  items_by t (map (fun x : nat * msg => (fst x, g (snd x))) l) = map g (sent_by t l).
Proof.
  intros g t l. unfold items_by, sent_by. induction l as [|[u m] l IH]; [reflexivity|].
  cbn [map filter fst snd]. destruct (Nat.eqb u t); cbn [map snd]; rewrite IH; reflexivity.
Qed.

Lemma in_sent_by : forall t m lin, In (t, m) lin -> In m (sent_by t lin).
Proof.
  intros t m lin I. unfold sent_by. apply in_map_iff. exists (t, m). split; [reflexivity|].
  apply filter_In. split; [exact I|]. cbn. apply Nat.eqb_refl.
Qed.

Lemma progs_ok_all : forall sc progs, progs_ok sc progs -> Forall (msg_ok25 sc) (all_msgs progs).
Proof.
  intros sc progs H. unfold all_msgs. apply Forall_forall. intros m I. apply in_flat_map in I. destruct I as (p & IP & IM).
  unfold progs_ok in H. rewrite Forall_forall in H. specialize (H p IP). unfold prog_msgs in IM. apply in_flat_map in IM.
  destruct IM as (c & IC & IM). rewrite Forall_forall in H. specialize (H c IC). destruct c as [m' cu ni|m' cu ni|l]; cbn [call_ok call_msgs] in *.
  - destruct IM as [<-|[]]. destruct H as (_ & _ & H). exact H.
  - destruct IM as [<-|[]]. destruct H as (_ & _ & H). exact H.
  - rewrite Forall_forall in H. apply H. exact IM.
Qed.

Section OracleModel.
Variable sc : schema.
Variable now : Z.
Hypothesis WS : wf_schema sc = true.
Hypothesis NB : nonul (sc_begin sc) = true.
Variable s0 : sess.
Notation n0 := (s_next_send s0).

Lemma oracle_from_lin : forall progs (lin : list (nat * msg)) nxt,
  wf_sess s0 = true ->
  progs_ok sc progs -> Forall sorted_out (all_msgs progs) -> distinct (subm progs) ->
  Forall (fun x : nat * msg => (fst x < length progs)%nat) lin ->
  (forall t p, nth_error progs t = Some p -> prog_msgs p = map norm (sent_by t lin)) ->
  nxt = n0 + N.of_nat (length (map snd lin)) ->
  forall att,
  c25_phase_ok n0 (subm progs) (expect sc now s0 n0 (map snd lin)) nxt att (apps sc now s0 n0 (map snd lin)) = true.
Proof.
  intros progs lin nxt W0 PO SO DI LT TH NX att. rewrite expect_eq, apps_eq.
  pose proof (progs_ok_all sc progs PO) as OKA. rewrite Forall_forall in OKA, SO.
  (* every message of the linearisation is, up to its end_of_batch flag, one of the submitted ones *)
  assert (IN : forall x, In x lin -> In (norm (snd x)) (all_msgs progs)).
  { intros [t m] I. cbn [snd]. rewrite Forall_forall in LT. specialize (LT _ I). cbn [fst] in LT.
    destruct (nth_error progs t) as [p|] eqn:EP; [|apply nth_error_None in EP; lia].
    unfold all_msgs. apply in_flat_map. exists p. split; [eapply nth_error_In; exact EP|].
    rewrite (TH t p EP). apply in_map. apply in_sent_by. exact I. }
  assert (PL : Forall (fun m => plain_msg m = true /\ sorted_out m) (map snd lin)).
  { apply Forall_forall. intros m I. apply in_map_iff in I. destruct I as (x & <- & IX).
    specialize (IN x IX). destruct (OKA _ IN) as [P _]. specialize (SO _ IN).
    split; [|exact SO]. destruct (plain17_fields sc _ P) as (Pm & _). exact Pm. }
  assert (PL' : Forall (fun m => plain_msg m = true) (map snd lin)) by (eapply Forall_impl; [|exact PL]; intros a [A _]; exact A).
  unfold c25_phase_ok. rewrite !andb_true_iff. split; [split; [split|]|].
  - apply wires_numbered; assumption.
  - unfold wires. rewrite imap_length, NX. apply N.eqb_refl.
  - rewrite (wires_items sc now WS s0 W0 _ _ PL).
    replace (map body_item (map snd lin)) with (map snd (map (fun x : nat * msg => (fst x, body_item (snd x))) lin))
      by (rewrite !map_map; reflexivity).
    apply merge_complete.
    + exact DI.
    + intros t l E. unfold subm in E. rewrite nth_error_map in E. destruct (nth_error progs t) as [p|] eqn:EP; [|discriminate].
      cbn in E. inversion E; subst l. rewrite items_by_map, (TH t p EP), map_map. reflexivity.
    + unfold subm. rewrite map_length. apply Forall_forall. intros x I. apply in_map_iff in I. destruct I as (y & <- & IY).
      cbn [fst]. rewrite Forall_forall in LT. apply LT. exact IY.
  - destruct att; [|reflexivity]. apply wires_stored; assumption.
Qed.

Theorem c25_oracle_threaded_lemma : forall progs sched,
  good s0 -> s_batch s0 = [] -> progs_ok sc progs -> Forall sorted_out (all_msgs progs) -> distinct (subm progs) ->
  let c := trun sc now sched (tinit s0 progs) in
  (forall t th, nth_error (t_threads c) t = Some th -> tt_prog th = []) ->
  exists wire,
    t_wire c = map EOut wire /\
    c25_phase_ok n0 (subm progs) wire (s_next_send (t_sess c)) (p_attached (s_per s0))
                 (apps sc now s0 n0 (map snd (t_lin c))) = true.
Proof.
  intros progs sched G B PO SO DI c DONE.
  destruct (tinv_run sc now WS NB s0 progs sched G B PO) as [R IW IL IT ID]. fold c in R, IW, IL, IT, ID.
  exists (expect sc now s0 n0 (map snd (t_lin c))). split; [rewrite expect_eq; exact IW|].
  apply oracle_from_lin; try assumption.
  - apply (g_wf _ G).
  - intros t p EP.
    assert (LT : (t < length (t_threads c))%nat) by (rewrite IL; apply nth_error_Some; rewrite EP; discriminate).
    destruct (nth_error (t_threads c) t) as [th|] eqn:E; [|apply nth_error_None in E; lia].
    destruct (IT t th E) as (p' & EP' & PM & _ & _). rewrite EP in EP'. inversion EP'; subst p'.
    rewrite PM, (DONE t th E). cbn [prog_msgs flat_map]. rewrite app_nil_r. reflexivity.
  - apply (ran_facts sc now WS s0 _ _ _ _ R).
Qed.

Theorem c25_oracle_pipelined_lemma : forall progs sched,
  good s0 -> s_batch s0 = [] -> progs_okp sc progs -> Forall sorted_out (all_msgs progs) -> distinct (subm progs) ->
  let c := prun sc now sched (pinit s0 progs) in
  quiescent c = true ->
  exists wire,
    p_wire c = map EOut wire /\
    c25_phase_ok n0 (subm progs) wire (s_next_send (p_sess c)) (p_attached (s_per s0))
                 (apps sc now s0 n0 (map snd (p_pushed c))) = true.
Proof.
  intros progs sched G B POP SO DI c Q.
  pose proof (pinv_run sc now WS NB s0 progs sched G B POP) as I. fold c in I.
  destruct (pinv_quiescent sc now WS s0 progs c I Q) as (PP & WI & _ & TH).
  destruct I as [(pend & out & R & _) _ _ _ _ _ ID].
  exists (expect sc now s0 n0 (map snd (p_pushed c))). split; [exact WI|].
  apply oracle_from_lin; try assumption.
  - apply (g_wf _ G).
  - apply (progs_okp_ok sc). exact POP.
  - rewrite <- PP. apply (ran_facts sc now WS s0 _ _ _ _ R).
Qed.

End OracleModel.

Lemma numbered_nth : forall ws n i w, numbered_from n ws = true -> nth_error ws i = Some w ->
  exists adm, new_msg_of w = Some (adm, n + N.of_nat i, w).
Proof.
  induction ws as [|w0 ws IH]; intros n i w H E; [destruct i; discriminate|].
  cbn [numbered_from] in H. rewrite fnew_msg_of_eq in H. destruct (new_msg_of w0) as [[[adm k] raw]|] eqn:Q; [|discriminate].
  apply andb_true_iff in H. destruct H as [H1 H2]. apply N.eqb_eq in H1. subst k.
  destruct i as [|i'].
  - cbn in E. inversion E; subst w0. exists adm. rewrite N.add_0_r.
    unfold new_msg_of in Q |- *. destruct (flag_y _); [discriminate|].
    destruct (tok_get (dec T_MsgType) (tokens w)); [|discriminate]. destruct (tok_get (dec T_MsgSeqNum) (tokens w)); [|discriminate].
    destruct (undec l0); [|discriminate]. inversion Q; subst. reflexivity.
  - cbn [nth_error] in E. destruct (IH (n + 1) i' w H2 E) as [a Q']. exists a. rewrite Q'.
    replace (n + 1 + N.of_nat i') with (n + N.of_nat (S i')) by lia. reflexivity.
Qed.

Theorem c25_numbers_lemma : forall start subm wire next att stored i j wi wj,
  c25_phase_ok start subm wire next att stored = true ->
  nth_error wire i = Some wi -> nth_error wire j = Some wj -> (i < j)%nat ->
  exists ai aj, new_msg_of wi = Some (ai, start + N.of_nat i, wi) /\ new_msg_of wj = Some (aj, start + N.of_nat j, wj) /\
                start + N.of_nat i < start + N.of_nat j /\ next = start + N.of_nat (length wire).
Proof.
  intros start sb wire next att stored i j wi wj H Ei Ej L. unfold c25_phase_ok in H.
  rewrite !andb_true_iff in H. destruct H as [[[H1 H2] _] _]. apply N.eqb_eq in H2.
  destruct (numbered_nth _ _ _ _ H1 Ei) as [ai Qi]. destruct (numbered_nth _ _ _ _ H1 Ej) as [aj Qj].
  exists ai, aj. repeat split; try assumption. lia.
Qed.

(* witnesses on the demo schema, evaluated in Props/Properties_C25.v *)
From F8 Require Import Sess.Demo.

Definition d_s0 : sess :=
  match w_sess (fst (run_op demo_schema world0 (OStart (demo_init PMem) None))) with
  | Some s => s
  | None => new_session (demo_init PMem) (p_empty PMem)
  end.
Definition d_msg (sp : msgspec) : msg := match build_msg demo_schema sp with Some m => m | None => new_msg [] end.
Definition d_o (c : N) : msg := d_msg (demo_order [c]).
Definition d_hb : msg := d_msg (mkSpec [48] [] [(112, [104])] 0 false true).
(* thread 0: one batch of three orders; thread 1: an order, then a Heartbeat *)
Definition d_progs : list (list call) := [[CBatch [d_o 97; d_o 98; d_o 99]]; [CSend (d_o 120) 0 false; CSend d_hb 0 false]].
(* the same with the by-reference overload for thread 1 (pm_thread) *)
Definition d_progs_ref : list (list call) := [[CBatch [d_o 97; d_o 98; d_o 99]]; [CSendRef (d_o 120) 0 false; CSendRef d_hb 0 false]].
(* pm_pipeline: thread 1's order is queued between the first and the second message of thread 0's batch *)
Definition d_sched_pipe : list actor :=
  [App 0; App 0; App 1; Writer; Writer; App 0; App 0; App 0; App 1; Writer; Writer; Writer].
(* pm_thread: thread 1, thread 0 (the whole batch in one critical section), thread 1 *)
Definition d_sched_thread : list nat := [1; 0; 1]%nat.

Definition seqs_of (evs : list event) : list N :=
  flat_map (fun e => match e with EOut b => match new_msg_of b with Some (_, n, _) => [n] | None => [] end | _ => [] end) evs.

Lemma d_good : good d_s0 /\ s_batch d_s0 = [].
Proof.
  split; [|reflexivity]. constructor; try reflexivity.
  - vm_compute. constructor.
  - vm_compute. constructor.
  - vm_compute. discriminate.
Qed.

Lemma d_progs_ok : progs_okp demo_schema d_progs /\ progs_ok demo_schema d_progs_ref.
Proof.
  split; [unfold d_progs, progs_okp|unfold d_progs_ref, progs_ok]; repeat constructor; vm_compute; reflexivity.
Qed.
