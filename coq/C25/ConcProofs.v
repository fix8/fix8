(* C25: the interleaving model (C25/Conc.v).  Every schedule of either process model does to the session what the
   SEQUENTIAL run of send_process over the linearisation (t_lin / p_popped) does, and that run of plain messages
   with ARBITRARY end_of_batch flags is C16's `after_sends` and C17's `stored`: numbers n, n+1, ..., store = wire bytes of
   the application messages, flushed ++ pending = everything processed, in order, each once.  This file adds
   threads, queue and lock. *)
From Coq Require Import NArith ZArith List Bool Lia.
From F8 Require Import Sess.Bytes Sess.Msg Sess.Persist Sess.Session Sess.SimpleCodec Sess.Wire
  Sess.SessLemmas Sess.SendLemmas C16.Spec_C16 C16.C16Proofs C17.Spec_C17 C17.C17Proofs C25.Conc.
Import ListNotations.
Local Open Scope N_scope.

Lemma nth_error_upd_same : forall (A : Type) (l : list A) i x y, nth_error l i = Some y -> nth_error (upd l i x) i = Some x.
Proof.
  induction l as [|a l IH]; intros i x y H; destruct i; cbn in *; try discriminate; [reflexivity|]. eapply IH; exact H.
Qed.

Lemma nth_error_upd_other : forall (A : Type) (l : list A) i j x, i <> j -> nth_error (upd l i x) j = nth_error l j.
Proof.
  induction l as [|a l IH]; intros i j x H; destruct i, j; cbn; try reflexivity; [contradiction|]. apply IH. congruence.
Qed.

Lemma length_upd : forall (A : Type) (l : list A) i x, length (upd l i x) = length l.
Proof. induction l as [|a l IH]; intros i x; destruct i; cbn; try reflexivity. rewrite IH. reflexivity. Qed.

Lemma upd_out : forall (A : Type) (l : list A) i x, nth_error l i = None -> upd l i x = l.
Proof.
  induction l as [|a l IH]; intros i x H; destruct i; cbn in *; try reflexivity; [discriminate|]. rewrite IH by exact H. reflexivity.
Qed.

Lemma nth_error_upd : forall (A : Type) (l : list A) t u x y z,
  nth_error l t = Some y -> nth_error (upd l t x) u = Some z -> (t = u /\ z = x) \/ (t <> u /\ nth_error l u = Some z).
Proof.
  intros A l t u x y z E H. destruct (Nat.eq_dec t u) as [<-|NE].
  - rewrite (nth_error_upd_same _ _ _ _ _ E) in H. inversion H. left. split; reflexivity.
  - rewrite nth_error_upd_other in H by exact NE. right. split; assumption.
Qed.

Section Seq.
Variable sc : schema.
Variable now : Z.
Hypothesis WS : wf_schema sc = true.
Hypothesis NB : nonul (sc_begin sc) = true.

Fixpoint seq_run (s : sess) (ms : list msg) : N * sess * list event :=
  match ms with
  | [] => (0, s, [])
  | m :: r =>
    let '(ok, s1, e1) := send_process sc now s m in
    let '(n, s2, e2) := seq_run s1 r in
    ((if ok then 1 else 0) + n, s2, (e1 ++ e2)%list)
  end.

Definition wire_at (s0 : sess) (n : N) (m : msg) : bytes := wire sc now (w_next_send n s0) m.

Fixpoint expect (s0 : sess) (n : N) (ms : list msg) : list bytes :=
  match ms with
  | [] => []
  | m :: r => wire_at s0 n m :: expect s0 (n + 1) r
  end.

Fixpoint apps (s0 : sess) (n : N) (ms : list msg) : list (N * bytes) :=
  match ms with
  | [] => []
  | m :: r => ((if session_type (m_type m) then [] else [(n, wire_at s0 n m)]) ++ apps s0 (n + 1) r)%list
  end.

Fixpoint infos_of (s0 : sess) (n : N) (ms : list msg) : list info :=
  match ms with
  | [] => []
  | m :: r => (session_type (m_type m), n, wire_at s0 n m) :: infos_of s0 (n + 1) r
  end.

(* seq_run, expect, apps, infos_of (the vocabulary of Props/Properties_C25.v) are send_seq and the wire, store entries
   and classification of C16 / C17 *)
Lemma seq_run_eq : forall ms s, seq_run s ms = send_seq sc now s ms.
Proof.
  induction ms as [|m r IH]; intro s; cbn [seq_run send_seq]; [reflexivity|].
  destruct (send_process sc now s m) as [[ok s1] e1]. rewrite IH. reflexivity.
Qed.

Lemma expect_eq : forall s0 ms n, expect s0 n ms = wires sc now s0 n ms.
Proof. intros s0 ms. induction ms as [|m r IH]; intro n; cbn [expect]; [reflexivity|]. rewrite IH. reflexivity. Qed.

Lemma apps_eq : forall s0 ms n, apps s0 n ms = concat (imap (adds_n sc now s0) n ms).
Proof. intros s0 ms. induction ms as [|m r IH]; intro n; cbn [apps]; [reflexivity|]. rewrite IH. reflexivity. Qed.

Lemma infos_of_eq : forall s0 ms n, infos_of s0 n ms = imap (info_n sc now s0) n ms.
Proof. intros s0 ms. induction ms as [|m r IH]; intro n; cbn [infos_of]; [reflexivity|]. rewrite IH. reflexivity. Qed.

(* Conc's mark_eob and batch_msgs are convertible with SendLemmas' marked and batched: the same fixpoint *)
Lemma batch_msgs_length : forall l, length (batch_msgs l) = length l.
Proof. intros [|a [|b r]]; try reflexivity. apply (marked_length (a :: b :: r)). Qed.

(* write_batch changes end_of_batch flags only; wire and store entries do not depend on them *)
Definition norm (m : msg) : msg := set_eob true m.

Lemma norm_id : forall m, m_eob m = true -> norm m = m.
Proof. intros [t h b c n e] H. cbn in H. subst. reflexivity. Qed.

Lemma norm_ids : forall l, Forall (fun m => m_eob m = true) l -> map norm l = l.
Proof. induction 1 as [|m r E _ IH]; cbn [map]; [reflexivity|]. rewrite (norm_id m E), IH. reflexivity. Qed.

Lemma imap_norm : forall (B : Type) (f : N -> msg -> B) a b n,
  (forall k m, f k (norm m) = f k m) -> map norm a = map norm b -> imap f n a = imap f n b.
Proof.
  intros B f a b n H E.
  rewrite <- (imap_ext _ _ _ _ a n H), <- (imap_ext _ _ _ _ b n H), <- (imap_map _ _ _ f norm a), <- (imap_map _ _ _ f norm b), E.
  reflexivity.
Qed.

Variable s0 : sess.                       (* the session when the threads are started *)
Notation n0 := (s_next_send s0).

(* C16's and C17's invariants of the run from s0 *)
Definition ran (s : sess) (done pend : list msg) (out : list bytes) : Prop :=
  after_sends sc now s0 s done pend out /\ stored sc now s0 s done.

Lemma ran_init : good s0 -> s_batch s0 = [] -> ran s0 [] [] [].
Proof. intros G B. split; [apply sent_init; [apply G|apply G|exact B]|apply stored_init; exact G]. Qed.

Theorem ran_facts : forall s done pend out, ran s done pend out ->
  s_next_send s = n0 + N.of_nat (length done) /\
  s_batch s = concat (map (encode sc) pend) /\
  (out ++ map (encode sc) pend)%list = expect s0 n0 done /\
  (done = [] \/ m_eob (last done (new_msg [])) = true -> pend = []) /\
  sentrel n0 (infos_of s0 n0 done) (apps s0 n0 done) /\
  (p_attached (s_per s0) = true -> p_store (s_per s) = (p_store (s_per s0) ++ apps s0 n0 done)%list) /\
  (p_attached (s_per s0) = false -> p_store (s_per s) = p_store (s_per s0)).
Proof.
  intros s done pend out [[O W FR PL NX B OUT FL CT] [G ST]]. rewrite expect_eq, infos_of_eq, apps_eq.
  split; [exact NX|]. split; [exact B|]. split; [exact OUT|]. split; [exact FL|].
  split; [apply sentrel_run; assumption|].
  split; intro A; rewrite A in ST; [exact ST|rewrite app_nil_r in ST; exact ST].
Qed.

Definition sent_by (t : nat) (lin : list (nat * msg)) : list msg :=
  map snd (filter (fun x => Nat.eqb (fst x) t) lin).

Lemma sent_by_app : forall t a b, sent_by t (a ++ b) = (sent_by t a ++ sent_by t b)%list.
Proof. intros. unfold sent_by. rewrite filter_app, map_app. reflexivity. Qed.

Lemma sent_by_same : forall t ms, sent_by t (map (pair t) ms) = ms.
Proof.
  intros t ms. unfold sent_by. induction ms as [|m r IH]; [reflexivity|].
  cbn [map filter fst]. rewrite Nat.eqb_refl. cbn [map snd]. rewrite IH. reflexivity.
Qed.

Lemma sent_by_other : forall t u ms, u <> t -> sent_by t (map (pair u) ms) = [].
Proof.
  intros t u ms H. unfold sent_by. induction ms as [|m r IH]; [reflexivity|].
  cbn [map filter fst]. destruct (Nat.eqb u t) eqn:E; [apply Nat.eqb_eq in E; contradiction|]. exact IH.
Qed.

Lemma map_snd_pair : forall (t : nat) (ms : list msg), map snd (map (pair t) ms) = ms.
Proof. intros. rewrite map_map. cbn. apply map_id. Qed.

Definition call_ret (c : call) : N := N.of_nat (length (call_msgs c)).

Definition msg_ok25 (m : msg) : Prop := plain17 sc m = true /\ m_eob m = true.
Definition call_ok (c : call) : Prop :=
  match c with
  | CSend m custom noinc => custom = 0 /\ noinc = false /\ msg_ok25 m
  | CSendRef m custom noinc => custom = 0 /\ noinc = false /\ msg_ok25 m
  | CBatch l => Forall msg_ok25 l
  end.
Definition progs_ok (progs : list (list call)) : Prop := Forall (Forall call_ok) progs.
(* pm_pipeline: the by-reference overload throws there; the programs of the pipelined theorems do not use it *)
Definition no_ref (c : call) : Prop := match c with CSendRef _ _ _ => False | _ => True end.
Definition call_okp (c : call) : Prop := call_ok c /\ no_ref c.
Definition progs_okp (progs : list (list call)) : Prop := Forall (Forall call_okp) progs.
Lemma progs_okp_ok : forall progs, progs_okp progs -> progs_ok progs.
Proof.
  intros progs H. unfold progs_okp, progs_ok in *. eapply Forall_impl; [|exact H]. intros p HP.
  eapply Forall_impl; [|exact HP]. intros c [A _]. exact A.
Qed.

Lemma batch_ok : forall l, Forall msg_ok25 l ->
  Forall (fun m => plain17 sc m = true) (batched l) /\
  (batched l <> [] -> m_eob (last (batched l) (new_msg [])) = true) /\
  map norm (batched l) = l.
Proof.
  intros l H. destruct (batched_Forall (fun m => plain17 sc m = true) (fun _ _ P => P) l H) as [FP LE].
  split; [exact FP|]. split; [exact LE|].
  transitivity (map norm l); [destruct l as [|a [|b r]]; try reflexivity; apply marked_norm|].
  apply norm_ids. eapply Forall_impl; [|exact H]. intros a [_ E]. exact E.
Qed.

Record tinv (progs : list (list call)) (c : tcfg) : Prop := {
  ti_ran : ran (t_sess c) (map snd (t_lin c)) [] (wires sc now s0 n0 (map snd (t_lin c)));
  ti_wire : t_wire c = map EOut (wires sc now s0 n0 (map snd (t_lin c)));
  ti_len : length (t_threads c) = length progs;
  ti_thr : forall t th, nth_error (t_threads c) t = Some th ->
    exists p, nth_error progs t = Some p /\
              prog_msgs p = (map norm (sent_by t (t_lin c)) ++ prog_msgs (tt_prog th))%list /\
              Forall call_ok (tt_prog th) /\
              map call_ret p = (tt_rets th ++ map call_ret (tt_prog th))%list;
  ti_tid : Forall (fun x : nat * msg => (fst x < length progs)%nat) (t_lin c)
}.

Lemma tinv_init : forall progs, good s0 -> s_batch s0 = [] -> progs_ok progs -> tinv progs (tinit s0 progs).
Proof.
  intros progs G B PO. constructor; cbn [tinit t_sess t_wire t_threads t_lin map].
  - apply ran_init; assumption.
  - reflexivity.
  - apply map_length.
  - intros t th E. rewrite nth_error_map in E. destruct (nth_error progs t) as [p|] eqn:EP; [|discriminate].
    cbn in E. inversion E; subst. exists p. cbn [tt_prog tt_rets sent_by filter map app].
    split; [reflexivity|]. split; [reflexivity|]. split; [|reflexivity].
    unfold progs_ok in PO. rewrite Forall_forall in PO. apply PO. eapply nth_error_In. exact EP.
  - constructor.
Qed.

(* what one critical section does to the configuration *)
Lemma tinv_cs : forall progs c t cl rest rets ms n s' evs,
  tinv progs c -> nth_error (t_threads c) t = Some (mkTT (cl :: rest) rets) ->
  Forall (fun m => plain17 sc m = true) ms -> (ms <> [] -> m_eob (last ms (new_msg [])) = true) ->
  map norm ms = call_msgs cl ->
  send_seq sc now (t_sess c) ms = (n, s', evs) ->
  n = call_ret cl /\
  tinv progs (mkT s' (t_wire c ++ evs) (upd (t_threads c) t (mkTT rest (rets ++ [n]))) (t_lin c ++ map (pair t) ms)).
Proof.
  intros progs c t cl rest rets ms n s' evs [[IS IJ] IW IL IT ID] E FP LE NM ER.
  destruct (stored_cs sc WS NB now s0 ms (t_sess c) _ _ IS IJ FP LE) as (s2 & ER2 & IS2 & IJ2).
  rewrite ER in ER2. inversion ER2; subst n s2 evs. clear ER2.
  assert (LM : length ms = length (call_msgs cl)) by (rewrite <- NM, map_length; reflexivity).
  split; [unfold call_ret; rewrite LM; reflexivity|].
  assert (WA : wires sc now s0 n0 (map snd (t_lin c) ++ ms) =
               (wires sc now s0 n0 (map snd (t_lin c)) ++ wires sc now s0 (n0 + N.of_nat (length (map snd (t_lin c)))) ms)%list)
    by apply imap_app.
  constructor; cbn [t_sess t_wire t_threads t_lin]; rewrite ?map_app, ?map_snd_pair, ?WA.
  - split; assumption.
  - rewrite IW, map_app. reflexivity.
  - rewrite length_upd. exact IL.
  - intros u th EU. destruct (nth_error_upd _ _ _ _ _ _ _ E EU) as [[<- ->]|[NE EU']].
    + destruct (IT t _ E) as (p & EP & PM & CO & RT). exists p. cbn [tt_prog tt_rets] in *.
      split; [exact EP|]. split; [|split].
      * rewrite sent_by_app, sent_by_same, map_app, NM, <- app_assoc. exact PM.
      * inversion CO; assumption.
      * rewrite RT. cbn [map]. rewrite <- app_assoc. cbn [app]. unfold call_ret at 2. rewrite LM. reflexivity.
    + destruct (IT u th EU') as (p & EP & PM & CO & RT). exists p.
      split; [exact EP|]. split; [|split; assumption].
      rewrite sent_by_app, sent_by_other by exact NE. rewrite app_nil_r. exact PM.
  - apply Forall_app. split; [exact ID|]. apply Forall_forall. intros x IX. apply in_map_iff in IX.
    destruct IX as (m' & <- & _). cbn [fst]. rewrite <- IL. apply nth_error_Some. rewrite E. discriminate.
Qed.

Lemma tinv_step : forall progs c t, tinv progs c -> tinv progs (tstep sc now c t).
Proof.
  intros progs c t I. unfold tstep.
  destruct (nth_error (t_threads c) t) as [[[|cl rest] rets]|] eqn:E; try exact I.
  destruct (ti_thr _ _ I t _ E) as (p & EP & PM & CO & RT). cbn [tt_prog] in CO.
  inversion CO as [|? ? OK CO']; subst.
  destruct cl as [m custom noinc|m custom noinc|l].
  1, 2: (* both overloads of send: one message in its own critical section *)
    destruct OK as (-> & -> & [P EB]); unfold send; cbn [N.eqb prep_send];
    destruct (send_process sc now (t_sess c) m) as [[ok s'] evs] eqn:EP';
    assert (ER : send_seq sc now (t_sess c) [m] = ((if ok then 1 else 0), s', evs)) by (rewrite send_seq_one, EP'; reflexivity);
    apply (tinv_cs progs c t _ rest rets [m] _ s' evs I E);
      [constructor; [exact P|constructor]|intros _; exact EB|cbn [map call_msgs]; rewrite (norm_id m EB); reflexivity|exact ER].
  - destruct (batch_ok l OK) as (FP & LE & NM).
    rewrite send_batch_seq. change (batch_msgs l) with (batched l).
    destruct (send_seq sc now (t_sess c) (batched l)) as [[n s'] evs] eqn:ER.
    apply (tinv_cs progs c t _ rest rets (batched l) n s' evs I E FP LE NM ER).
Qed.

Theorem tinv_run : forall progs sched, good s0 -> s_batch s0 = [] -> progs_ok progs ->
  tinv progs (trun sc now sched (tinit s0 progs)).
Proof.
  intros progs sched G B PO. unfold trun.
  assert (H : forall sched c, tinv progs c -> tinv progs (fold_left (tstep sc now) sched c)).
  { induction sched0 as [|t r IH]; intros c I; [exact I|]. cbn [fold_left]. apply IH. apply tinv_step. exact I. }
  apply H. apply tinv_init; assumption.
Qed.

Definition pc_rest (pc : ppc) : list msg := match pc with PIdle => [] | PLocked r _ => r end.

Record pinv (progs : list (list call)) (c : pcfg) : Prop := {
  pi_ran : exists pend out, ran (p_sess c) (p_popped c) pend out /\ p_wire c = map EOut out;
  pi_queue : map snd (p_pushed c) = (p_popped c ++ p_queue c)%list;
  pi_plain : Forall (fun m => plain17 sc m = true) (p_queue c);
  pi_len : length (p_threads c) = length progs;
  pi_thr : forall t th, nth_error (p_threads c) t = Some th ->
    exists p, nth_error progs t = Some p /\
              prog_msgs p = (map norm (sent_by t (p_pushed c)) ++ pc_rest (pt_pc th) ++ prog_msgs (pt_prog th))%list /\
              Forall call_okp (pt_prog th) /\ Forall msg_ok25 (pc_rest (pt_pc th));
  (* unless some thread is in the middle of a batch, the last message pushed closes a batch *)
  pi_last : (forall t th, nth_error (p_threads c) t = Some th -> pc_rest (pt_pc th) = []) ->
            map snd (p_pushed c) = [] \/ m_eob (last (map snd (p_pushed c)) (new_msg [])) = true;
  pi_tid : Forall (fun x : nat * msg => (fst x < length progs)%nat) (p_pushed c)
}.

Lemma pinv_init : forall progs, good s0 -> s_batch s0 = [] -> progs_okp progs -> pinv progs (pinit s0 progs).
Proof.
  intros progs G B PO. constructor; cbn [pinit p_sess p_wire p_threads p_queue p_pushed p_popped map app].
  - exists [], []. split; [apply ran_init; assumption|reflexivity].
  - reflexivity.
  - constructor.
  - apply map_length.
  - intros t th E. rewrite nth_error_map in E. destruct (nth_error progs t) as [p|] eqn:EP; [|discriminate].
    cbn in E. inversion E; subst. exists p. cbn [pt_prog pt_pc pc_rest sent_by filter map app].
    split; [reflexivity|]. split; [reflexivity|]. split; [|constructor].
    unfold progs_okp in PO. rewrite Forall_forall in PO. apply PO. eapply nth_error_In. exact EP.
  - intros _. left. reflexivity.
  - constructor.
Qed.

Lemma pinv_lock : forall progs c l, pinv progs c -> pinv progs (with_lock c l).
Proof. intros progs c l [A B C D E F H]. constructor; assumption. Qed.

(* thread t pushes q and moves on to th' *)
Lemma pinv_push : forall progs c t th th' q,
  pinv progs c -> nth_error (p_threads c) t = Some th ->
  plain17 sc q = true ->
  (pc_rest (pt_pc th) ++ prog_msgs (pt_prog th) = norm q :: pc_rest (pt_pc th') ++ prog_msgs (pt_prog th'))%list ->
  Forall call_okp (pt_prog th') -> Forall msg_ok25 (pc_rest (pt_pc th')) ->
  (pc_rest (pt_pc th') = [] -> m_eob q = true) ->
  pinv progs (with_thread (push c t q) t th').
Proof.
  intros progs c t th th' q [IS IQ IP IL IT ILA ID] E PQ EQ CO RO LQ.
  constructor; cbn [with_thread push p_sess p_wire p_threads p_queue p_pushed p_popped].
  - exact IS.
  - rewrite map_app, IQ, <- app_assoc. reflexivity.
  - apply Forall_app. split; [exact IP|]. constructor; [exact PQ|constructor].
  - rewrite length_upd. exact IL.
  - intros u thu EU. change ((t, q) :: nil) with (map (pair t) [q]).
    destruct (nth_error_upd _ _ _ _ _ _ _ E EU) as [[<- ->]|[NE EU']].
    + destruct (IT t _ E) as (p & EP & PM & _ & _). exists p.
      split; [exact EP|]. split; [|split; assumption].
      rewrite PM, EQ, sent_by_app, sent_by_same, map_app. cbn [map]. rewrite <- app_assoc. reflexivity.
    + destruct (IT u thu EU') as (p & EP & PM & CO' & RO'). exists p.
      split; [exact EP|]. split; [|split; assumption].
      rewrite sent_by_app, sent_by_other by exact NE. rewrite app_nil_r. exact PM.
  - intros AL. right. rewrite map_app. cbn [map snd]. rewrite last_app_ne by discriminate. cbn [last].
    apply LQ. apply (AL t). eapply nth_error_upd_same. exact E.
  - apply Forall_app. split; [exact ID|]. constructor; [|constructor]. cbn [fst]. rewrite <- IL.
    apply nth_error_Some. rewrite E. discriminate.
Qed.

(* thread t moves on to th' without pushing *)
Lemma pinv_move : forall progs c t th th',
  pinv progs c -> nth_error (p_threads c) t = Some th ->
  (pc_rest (pt_pc th) ++ prog_msgs (pt_prog th) = pc_rest (pt_pc th') ++ prog_msgs (pt_prog th'))%list ->
  Forall call_okp (pt_prog th') -> Forall msg_ok25 (pc_rest (pt_pc th')) ->
  (pc_rest (pt_pc th') = [] -> pc_rest (pt_pc th) = []) ->
  pinv progs (with_thread c t th').
Proof.
  intros progs c t th th' [IS IQ IP IL IT ILA ID] E EQ CO RO LQ.
  constructor; cbn [with_thread p_sess p_wire p_threads p_queue p_pushed p_popped]; try assumption.
  - rewrite length_upd. exact IL.
  - intros u thu EU. destruct (nth_error_upd _ _ _ _ _ _ _ E EU) as [[<- ->]|[NE EU']]; [|apply IT; exact EU'].
    destruct (IT t _ E) as (p & EP & PM & _ & _). exists p.
    split; [exact EP|]. split; [|split; assumption]. rewrite PM, EQ. reflexivity.
  - intros AL. apply ILA. intros u thu EU. destruct (Nat.eq_dec t u) as [<-|NE].
    + rewrite E in EU. inversion EU; subst thu. apply LQ. apply (AL t). eapply nth_error_upd_same. exact E.
    + apply (AL u). rewrite nth_error_upd_other by exact NE. exact EU.
Qed.

Lemma app_step_inv : forall progs c t, pinv progs c -> pinv progs (app_step c t).
Proof.
  intros progs c t I. unfold app_step.
  destruct (nth_error (p_threads c) t) as [[prog pc rets]|] eqn:E; [|exact I].
  destruct (pi_thr _ _ I t _ E) as (p & EP & PM & CO & RO). cbn [pt_prog pt_pc] in CO, RO.
  destruct pc as [|[|m r] cnt].
  - (* between calls *)
    destruct prog as [|[m custom noinc|m custom noinc|l] rest]; [exact I| | |];
      inversion CO as [|? ? [OK NR] CO']; subst; cbn [call_ok] in OK.
    + destruct OK as (-> & -> & [P EB]).
      apply (pinv_push progs c t _ _ _ I E); cbn [pt_pc pt_prog pc_rest prog_msgs flat_map call_msgs app prep_send N.eqb];
        [exact P|rewrite (norm_id m EB); reflexivity|exact CO'|constructor|intros _; exact EB].
    + destruct NR.
    + destruct l as [|m1 [|m2 l']].
      * apply (pinv_move progs c t _ _ I E); cbn [pt_pc pt_prog pc_rest prog_msgs flat_map call_msgs app];
          [reflexivity|exact CO'|constructor|intros _; reflexivity].
      * inversion OK as [|? ? [P EB] _]; subst.
        apply (pinv_push progs c t _ _ _ I E); cbn [pt_pc pt_prog pc_rest prog_msgs flat_map call_msgs app];
          [exact P|rewrite (norm_id m1 EB); reflexivity|exact CO'|constructor|intros _; exact EB].
      * destruct (p_lock c); [exact I|]. apply pinv_lock.
        apply (pinv_move progs c t _ _ I E); cbn [pt_pc pt_prog pc_rest prog_msgs flat_map call_msgs app];
          [reflexivity|exact CO'|exact OK|intro Z; discriminate].
  - (* leaving write_batch *)
    apply pinv_lock.
    apply (pinv_move progs c t _ _ I E); cbn [pt_pc pt_prog pc_rest app];
      [reflexivity|exact CO|constructor|intros _; reflexivity].
  - (* one push inside write_batch *)
    cbn [pc_rest] in RO. inversion RO as [|? ? [P EB] RO']; subst.
    apply (pinv_push progs c t _ _ _ I E); cbn [pt_pc pt_prog pc_rest app];
      [exact P|change (norm (set_eob (is_last r) m)) with (norm m); rewrite (norm_id m EB); reflexivity|exact CO|exact RO'|].
    intro Z. subst r. reflexivity.
Qed.

Lemma writer_step_inv : forall progs c, pinv progs c -> pinv progs (writer_step sc now c).
Proof.
  intros progs c [IS IQ IP IL IT ILA ID]. unfold writer_step.
  destruct (p_queue c) as [|m q] eqn:Q; [constructor; try assumption; rewrite Q; assumption|].
  destruct IS as (pend & out & SI & WI). inversion IP as [|? ? Pm IP']; subst.
  destruct (stored_step sc WS NB now s0 (p_sess c) _ _ _ m SI Pm) as (s' & pend' & o & ER & SI'). rewrite ER.
  constructor; cbn [p_sess p_wire p_threads p_queue p_pushed p_popped]; try assumption.
  - exists pend', (out ++ o)%list. split; [exact SI'|]. rewrite WI, map_app. reflexivity.
  - rewrite IQ, <- app_assoc. reflexivity.
Qed.

Theorem pinv_run : forall progs sched, good s0 -> s_batch s0 = [] -> progs_okp progs ->
  pinv progs (prun sc now sched (pinit s0 progs)).
Proof.
  intros progs sched G B PO. unfold prun.
  assert (H : forall sched c, pinv progs c -> pinv progs (fold_left (pstep sc now) sched c)).
  { induction sched0 as [|a r IH]; intros c I; [exact I|]. cbn [fold_left]. apply IH.
    destruct a; [apply writer_step_inv|apply app_step_inv]; exact I. }
  apply H. apply pinv_init; assumption.
Qed.

Theorem pinv_quiescent : forall progs c, pinv progs c -> quiescent c = true ->
  p_popped c = map snd (p_pushed c) /\
  p_wire c = map EOut (expect s0 n0 (map snd (p_pushed c))) /\ s_batch (p_sess c) = [] /\
  forall t p, nth_error progs t = Some p -> prog_msgs p = map norm (sent_by t (p_pushed c)).
Proof.
  intros progs c [(pend & out & R & WI) IQ IP IL IT ILA ID] Q. unfold quiescent in Q. apply andb_true_iff in Q. destruct Q as [Q1 Q2].
  assert (TH : forall t th, nth_error (p_threads c) t = Some th -> pt_prog th = [] /\ pt_pc th = PIdle).
  { intros t th E. rewrite forallb_forall in Q1. specialize (Q1 th (nth_error_In _ _ E)).
    unfold pt_done in Q1. destruct (pt_prog th); [|discriminate]. destruct (pt_pc th); [split; reflexivity|discriminate]. }
  assert (PP : p_popped c = map snd (p_pushed c)) by (destruct (p_queue c); [rewrite IQ, app_nil_r; reflexivity|discriminate]).
  destruct (ran_facts _ _ _ _ R) as (_ & BT & OUT & FL & _).
  assert (PE : pend = []).
  { apply FL. rewrite PP. apply ILA. intros t th E. destruct (TH t th E) as [_ PC]. rewrite PC. reflexivity. }
  subst pend. cbn [map concat] in *. rewrite app_nil_r in OUT.
  split; [exact PP|]. split; [rewrite WI, OUT, PP; reflexivity|]. split; [exact BT|].
  intros t p EP.
  assert (LT : (t < length (p_threads c))%nat) by (rewrite IL; apply nth_error_Some; rewrite EP; discriminate).
  destruct (nth_error (p_threads c) t) as [th|] eqn:E; [|apply nth_error_None in E; lia].
  destruct (IT t th E) as (p' & EP' & PM & _ & _). rewrite EP in EP'. inversion EP'; subst p'.
  destruct (TH t th E) as [PR PC]. rewrite PM, PR, PC. cbn [pc_rest prog_msgs flat_map app]. rewrite app_nil_r. reflexivity.
Qed.

(* a single message of another thread queued inside a batch: x flushes what the writer has buffered of the batch *)
Theorem c25_foreign_in_batch_lemma : forall s l1 l2 x,
  good s -> s_batch s = [] -> frame s0 s ->
  Forall msg_ok25 (l1 ++ l2) -> msg_ok25 x -> l2 <> [] ->
  let queue := (map (set_eob false) l1 ++ [x] ++ mark_eob l2)%list in
  let n := s_next_send s in
  exists s',
    seq_run s queue = (N.of_nat (length l1 + 1 + length l2), s', map EOut (expect s0 n (l1 ++ [x] ++ l2))) /\
    s_batch s' = [] /\ s_next_send s' = n + N.of_nat (length l1 + 1 + length l2) /\
    (p_attached (s_per s) = true -> p_store (s_per s') = (p_store (s_per s) ++ apps s0 n (l1 ++ [x] ++ l2))%list).
Proof.
  intros s l1 l2 x G B (_ & F2 & F3 & _) OK [Px Ex] NE queue n. subst n.
  apply Forall_app in OK. destruct OK as [OK1 OK2].
  assert (FP : Forall (fun m => plain17 sc m = true) queue).
  { apply Forall_app. split; [|constructor; [exact Px|apply marked_Forall; [intros ? ? H; exact H|]]].
    - apply Forall_map. eapply Forall_impl; [|exact OK1]. intros a [A _]. exact A.
    - eapply Forall_impl; [|exact OK2]. intros a [A _]. exact A. }
  assert (LE : queue <> [] -> m_eob (last queue (new_msg [])) = true).
  { intros _. unfold queue. rewrite app_assoc, last_app_ne by (destruct l2; [contradiction|discriminate]).
    apply marked_last. exact NE. }
  assert (LQ : length queue = (length l1 + 1 + length l2)%nat).
  { unfold queue. rewrite !app_length, map_length. change (mark_eob l2) with (marked l2). rewrite marked_length. cbn [length]. lia. }
  (* up to end_of_batch flags the queue is l1, x, l2, and s has the CompIDs of s0 *)
  assert (NQ : map norm queue = map norm (l1 ++ [x] ++ l2)).
  { unfold queue, norm. change (mark_eob l2) with (marked l2). rewrite !map_app, map_map, marked_norm. reflexivity. }
  assert (EW : wires sc now s (s_next_send s) queue = expect s0 (s_next_send s) (l1 ++ [x] ++ l2)).
  { rewrite expect_eq. unfold wires. rewrite (imap_norm _ _ _ _ (s_next_send s) (fun k => wire_n_eob sc now s k true) NQ). apply imap_ext.
    intros k m. unfold wire_n. rewrite (stamped_frame sc now s s0) by assumption. reflexivity. }
  assert (EA : concat (imap (adds_n sc now s) (s_next_send s) queue) = apps s0 (s_next_send s) (l1 ++ [x] ++ l2)).
  { rewrite apps_eq. f_equal.
    assert (H : forall k m, adds_n sc now s k (norm m) = adds_n sc now s k m).
    { intros k m. unfold adds_n. cbn [norm set_eob m_type]. fold (norm m). unfold norm. rewrite wire_n_eob. reflexivity. }
    rewrite (imap_norm _ _ _ _ (s_next_send s) H NQ). apply imap_ext.
    intros k m. unfold adds_n, wire_n. rewrite (stamped_frame sc now s s0) by assumption. reflexivity. }
  destruct (stored_from sc WS NB now s queue G B FP LE) as (s' & ES & I & [_ ST]).
  exists s'. rewrite seq_run_eq, ES, LQ, EW. split; [reflexivity|].
  split; [rewrite (se_batch _ _ _ _ _ _ _ I); reflexivity|]. split; [rewrite (se_next _ _ _ _ _ _ _ I), LQ; reflexivity|].
  intro A. rewrite ST, A, EA. reflexivity.
Qed.

End Seq.
