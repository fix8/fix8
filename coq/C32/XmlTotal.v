(* C32 -- fuel.  The fuel of parse_doc is never exhausted on arbitrary bytes, and the loops of
   xlate do not depend on fuel beyond length + 1.  Fuel that suffices is irrelevant: the relation
   [yields] speaks of the answer of the loop without counting iterations. *)
From Coq Require Import NArith List Bool Lia.
From F8 Require Import C32.XmlBase C32.Xml C32.Spec_C32 C32.XmlProofs.
Import ListNotations.
Local Open Scope N_scope.

(* potential of a stream: twice the characters left, plus the failing read still to come *)
Definition mu (s : stream) : nat := if sgood s then (2 * length (s_rest s) + 2)%nat else 0%nat.

Lemma mu_good : forall s, sgood s = true -> (2 <= mu s)%nat.
Proof. intros. unfold mu. rewrite H. lia. Qed.

Lemma mu_sget : forall s oc s1, sgood s = true -> sget s = (oc, s1) -> (mu s1 + 2 = mu s)%nat.
Proof.
  intros [r [|] [|] l] oc s1 G; try discriminate G. destruct r; intros [= <- <-]; cbn; lia.
Qed.

Lemma mu_sbump : forall s, mu (sbump s) = mu s.
Proof. intros [r e f l]. reflexivity. Qed.

Lemma mu_speek : forall s p s', speek s = (p, s') -> (mu s' <= mu s)%nat /\ forall c, (mu (sputback c s') <= mu s + 2)%nat.
Proof.
  intros [r [|] [|] l] p s'; destruct r; intros [= <- <-]; split; try intros c; cbn; lia.
Qed.

Lemma mu_slash_gt : forall c s b s', slash_gt c s = (b, s') -> (mu s' <= mu s)%nat.
Proof.
  intros c s b s' H. unfold slash_gt in H. destruct (c =? 47).
  - destruct (speek s) eqn:E. injection H as _ <-. apply (mu_speek _ _ _ E).
  - injection H as _ <-. lia.
Qed.

(* what one step does to the stream: only state value can give characters back *)
Lemma step_mu : forall d f c s,
  match step d f c s with
  | Cont _ s2 => (mu s2 <= mu s)%nat
  | Child f2 s2 => (mu s2 <= mu s + 2)%nat /\ f_st f = Svalue /\ f2 = f
  | Throw _ => True
  end.
Proof.
  intros. unfold step.
  destruct (f_st f);
    repeat match goal with
           | |- context [if ?b then _ else _] => destruct b
           | |- context [let (_, _) := ?x in _] => let E := fresh "E" in destruct x eqn:E
           end;
    try exact I; try apply le_n;
    try (eapply mu_slash_gt; eassumption); try (eapply mu_speek; eassumption).
  repeat split. eapply mu_speek; eassumption.
Qed.

Definition in_value (f : frame) : nat := match f_st f with Svalue => 1%nat | _ => 0%nat end.

Lemma in_value_le : forall f, (in_value f <= 1)%nat.
Proof. intros. unfold in_value. destruct (f_st f); lia. Qed.

Lemma astep_no_fuel : forall line f c, astep line f c <> OutOfFuel.
Proof.
  intros. unfold astep, astep_tag.
  destruct (a_st f); repeat match goal with |- (if ?b then _ else _) <> _ => destruct b end; discriminate.
Qed.

Lemma aloop_no_fuel : forall line s f prev, aloop line f s prev <> OutOfFuel.
Proof.
  induction s as [|c s IH]; intros; cbn [aloop]; [apply astep_no_fuel|].
  pose proof (astep_no_fuel line f c). destruct (astep line f c); [apply IH|discriminate|contradiction].
Qed.

Lemma finish_no_fuel : forall f s, finish f s <> OutOfFuel.
Proof.
  intros. unfold finish, parse_attrs. destruct (f_attr f) as [|c a]; [discriminate|].
  pose proof (aloop_no_fuel (s_line s) (c :: a) (mkA Aews [] [] 0 []) 0).
  destruct (aloop _ _ (c :: a) 0); [discriminate..|contradiction].
Qed.

(* What the answer of the loop says about the stream.  Fuel above the potential of the stream (one
   more in state value, whose iteration on '<' reads nothing on balance) is never exhausted; the
   potential never grows, and an iteration that happens lowers it for good. *)
Lemma loop_total : forall fuel d f s,
  match loop fuel d f s with
  | Ok (_, s') => (mu s' + (if sgood s && negb (is_finished (f_st f)) then 2 else 0) <= mu s)%nat
  | Err _ => True
  | OutOfFuel => (fuel <= mu s + in_value f)%nat
  end.
Proof.
  induction fuel as [|fuel IH]; intros d f s; [apply le_0_n|].
  cbn [loop].
  destruct (sgood s) eqn:G; cbn [negb orb andb]; [|lia].
  destruct (is_finished (f_st f)); cbn [negb]; [lia|].
  (* going on with the rest of the fuel after the stream has lost two units *)
  assert (GO : forall f2 s2, (mu s2 + 2 <= mu s)%nat ->
            match loop fuel d f2 s2 with
            | Ok (_, s') => (mu s' + 2 <= mu s)%nat
            | Err _ => True
            | OutOfFuel => (S fuel <= mu s + in_value f)%nat
            end).
  { intros f2 s2 M. pose proof (IH d f2 s2) as B. pose proof (in_value_le f2).
    destruct (loop fuel d f2 s2) as [[f' s']|m|]; [lia|exact I|lia]. }
  destruct (sget s) as [oc s1] eqn:SG. pose proof (mu_sget s oc s1 G SG) as M1.
  set (c := match oc with Some c0 => c0 | None => f_prev f end).
  destruct (c =? 10); [apply GO; rewrite mu_sbump; lia|].
  destruct (c =? 13); [apply GO; lia|].
  pose proof (step_mu d (with_prev f c) c s1) as M2.
  destruct (step d (with_prev f c) c s1) as [f2 s2|m|f2 s2]; [apply GO; lia|exact I|].
  (* a child element: it starts below the fuel left, and hands back a shorter stream *)
  destruct M2 as (M2 & SV & ->).
  assert (IV : in_value f = 1%nat) by (unfold in_value; cbn in SV; rewrite SV; reflexivity).
  pose proof (IH (S d) init_frame s2) as B1. change (in_value init_frame) with 0%nat in B1.
  destruct (loop fuel (S d) init_frame s2) as [[cf s3]|m|]; [|exact I|lia].
  cbn [init_frame f_st is_finished negb] in B1.
  assert (M3 : (mu s3 + 2 <= mu s)%nat).
  { destruct (sgood s2) eqn:G2; cbn [andb] in B1; [lia|].
    pose proof (mu_good s G). unfold mu in B1 at 2. rewrite G2 in B1. lia. }
  pose proof (finish_no_fuel cf s3).
  destruct (finish cf s3); [apply GO; exact M3|exact I|contradiction].
Qed.

Lemma loop_doc_fuel : forall bytes, loop (doc_fuel bytes) 0 init_frame (mkS bytes false false 1) <> OutOfFuel.
Proof.
  intros bytes E. pose proof (loop_total (doc_fuel bytes) 0 init_frame (mkS bytes false false 1)) as T.
  rewrite E in T. unfold mu, doc_fuel in T. cbn in T. lia.
Qed.

Lemma c32_total_lemma : forall bytes, parse_doc bytes <> OutOfFuel.
Proof.
  intros bytes. unfold parse_doc. pose proof (loop_doc_fuel bytes).
  destruct (loop (doc_fuel bytes) 0 init_frame _) as [[f s]|m|]; [apply finish_no_fuel|discriminate|contradiction].
Qed.

Lemma c32_xlate_fuel_lemma : forall s fuel1 fuel2,
  (length s < fuel1)%nat ->
  (length (xlate_named fuel1 s) < fuel2)%nat ->
  xlate_num fuel2 (xlate_named fuel1 s) = xlate s.
Proof.
  intros s fuel1 fuel2 L1 L2. unfold xlate.
  rewrite (xlate_named_fuel_stable fuel1 (S (length s)) s L1) in * by lia.
  apply xlate_num_fuel_stable; lia.
Qed.

Lemma loop_mono : forall fuel fuel' d f s,
  (fuel <= fuel')%nat -> loop fuel d f s <> OutOfFuel -> loop fuel' d f s = loop fuel d f s.
Proof.
  induction fuel as [|fuel IH]; intros [|fuel'] d f s L H; try lia; try contradiction.
  cbn [loop] in *.
  destruct (negb (sgood s) || is_finished (f_st f)); [reflexivity|].
  destruct (sget s) as [oc s1].
  set (c := match oc with Some c0 => c0 | None => f_prev f end) in *.
  destruct (c =? 10); [apply IH; [lia|exact H]|].
  destruct (c =? 13); [apply IH; [lia|exact H]|].
  destruct (step d (with_prev f c) c s1) as [f2 s2|m|f2 s2]; [apply IH; [lia|exact H]|reflexivity|].
  rewrite (IH fuel' (S d) init_frame s2) by (lia || intros E; rewrite E in H; contradiction).
  destruct (loop fuel (S d) init_frame s2) as [[cf s3]|m|]; [|reflexivity..].
  destruct (finish cf s3); [apply IH; [lia|exact H]|reflexivity..].
Qed.

(* the loop answers r from (f, s), given enough fuel *)
Definition yields (d : nat) (f : frame) (s : stream) (r : res (frame * stream)) : Prop :=
  r <> OutOfFuel /\ exists fuel, loop fuel d f s = r.

Lemma yields_loop : forall d f s r fuel,
  yields d f s r -> loop fuel d f s <> OutOfFuel -> loop fuel d f s = r.
Proof.
  intros d f s r fuel (NR & fuel0 & <-) H.
  rewrite <- (loop_mono fuel (max fuel fuel0)), <- (loop_mono fuel0 (max fuel fuel0)) by (lia || assumption).
  reflexivity.
Qed.

Lemma yields_fin : forall d f s, f_st f = Sfinished -> yields d f s (Ok (f, s)).
Proof.
  intros d f s H. split; [discriminate|]. exists 1%nat. cbn [loop]. rewrite H, orb_true_r. reflexivity.
Qed.

(* a good stream *)
Notation G r line := (mkS r false false line).

(* one iteration that goes on: what is left to show is about the frame and stream step computes *)
Lemma yields_cont : forall d f c rest line r,
  is_finished (f_st f) = false -> (c =? 10) = false -> (c =? 13) = false ->
  match step d (with_prev f c) c (G rest line) with Cont f2 s2 => yields d f2 s2 r | _ => False end ->
  yields d f (G (c :: rest) line) r.
Proof.
  intros d f c rest line r FIN NL CR Y.
  destruct (step d (with_prev f c) c (G rest line)) as [f2 s2| |] eqn:ST; try contradiction.
  destruct Y as (NR & fuel & <-). split; [exact NR|].
  exists (S fuel). cbn [loop sgood s_eof s_fail negb andb orb sget s_rest s_line].
  rewrite FIN, NL, CR, ST. reflexivity.
Qed.

(* '<' in state value: the child runs on its own, then the parent goes on *)
Lemma yields_child : forall d f c rest line f2 s2 cf s3 child r,
  is_finished (f_st f) = false -> (c =? 10) = false -> (c =? 13) = false ->
  step d (with_prev f c) c (G rest line) = Child f2 s2 ->
  yields (S d) init_frame s2 (Ok (cf, s3)) ->
  finish cf s3 = Ok child -> is_empty (el_tag child) = false ->
  yields d (with_kids f2 (f_kids f2 ++ [child])) s3 r -> yields d f (G (c :: rest) line) r.
Proof.
  intros d f c rest line f2 s2 cf s3 child r FIN NL CR ST (_ & fuel1 & E1) FI NE (NR & fuel2 & <-).
  split; [exact NR|].
  exists (S (max fuel1 fuel2)). cbn [loop sgood s_eof s_fail negb andb orb sget s_rest s_line].
  rewrite FIN, NL, CR, ST.
  rewrite (loop_mono fuel1), E1, FI, NE by (lia || rewrite E1; discriminate).
  apply loop_mono; [lia|exact NR].
Qed.
