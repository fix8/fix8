(* C32 -- markup characters written as NUMERIC references survive InplaceXlate under the same
   hypothesis as the named ones. *)
From Coq Require Import NArith List Bool Lia ZifyBool.
From F8 Require Import C32.XmlBase C32.Xml C32.Spec_C32 C32.XmlProofs.
Import ListNotations.
Local Open Scope N_scope.

Section NumericEscapes.
  Variable E : byte -> str.
  Hypothesis E_plain : forall c, is_markup c = false -> E c = [c].
  Hypothesis E_ref : forall c, is_markup c = true ->
    exists ds mm, E c = 38 :: 35 :: ds /\
      forallb (fun d => negb (d =? 38) && negb (d =? 0)) ds = true /\
      (forall x, num_at (ds ++ x) = Some (mm, x)) /\
      num_val mm = [c].

  Lemma find_named_skip : forall ds rest,
    forallb (fun d => negb (d =? 38) && negb (d =? 0)) ds = true ->
    find_named rest = None -> find_named (ds ++ rest) = None.
  Proof.
    induction ds as [|d ds IH]; intros rest H R; [exact R|].
    apply forallb_cons in H as [Hd H].
    cbn [app find_named]. rewrite (IH rest H R).
    destruct (d =? 0); [reflexivity|]. destruct (d =? 38); [discriminate|reflexivity].
  Qed.

  (* every '&' of the written text is followed by '#': the first loop finds nothing *)
  Lemma find_named_num_escaped : forall v, find_named (flat_map E v) = None.
  Proof.
    induction v as [|c v IH]; [reflexivity|].
    cbn [flat_map].
    destruct (is_markup c) eqn:MK.
    - destruct (E_ref c MK) as (ds & mm & -> & OK & _).
      cbn [app find_named N.eqb Pos.eqb]. rewrite find_named_skip by assumption. reflexivity.
    - rewrite (E_plain c MK). cbn [app find_named]. rewrite IH.
      destruct (c =? 0); [reflexivity|].
      replace (c =? 38) with false by (unfold is_markup in MK; lia). reflexivity.
  Qed.

  Lemma xlate_num_escape : forall v, value_ok v = true -> xlate (flat_map E v) = v.
  Proof.
    intros v H. unfold xlate. cbn [xlate_named]. rewrite find_named_num_escaped, xlate_num_rescan.
    apply (decode_escaped _ _ (fun r _ N => num_ref_none r N) E); [|exact H|lia].
    intros c. destruct (is_markup c) eqn:MK; [right|left; exact (E_plain c MK)].
    split; [apply markup_stopper, MK|].
    destruct (E_ref c MK) as (ds & mm & -> & _ & AT & V).
    exists (35 :: ds), mm. repeat split; [|exact V]. intros x. exact (AT x).
  Qed.
End NumericEscapes.

Lemma c32_entity_numeric_partial_lemma : forall v, value_ok v = true ->
  xlate (escape_dec v) = v /\ xlate (escape_hex v) = v.
Proof.
  intros v H. split.
  - apply (xlate_num_escape esc_dec_byte); [intros c MK; apply if_markup_plain, MK| |exact H].
    intros c MK. destruct (markup_cases c MK) as [->|[->|[->|[->| ->]]]]; eexists _, _; repeat split.
  - apply (xlate_num_escape esc_hex_byte); [intros c MK; apply if_markup_plain, MK| |exact H].
    intros c MK. destruct (markup_cases c MK) as [->|[->|[->|[->| ->]]]]; eexists _, _; repeat split.
Qed.
