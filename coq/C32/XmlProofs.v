(* C32 -- proofs about the model Xml.v: entity decoding vs escaping, ParseAttrs vs the attribute
   printer, find vs reach.  (The element-tree round trip is in XmlTreeProofs.v.) *)
From Coq Require Import NArith List Bool Lia ZifyBool.
From F8 Require Import C32.XmlBase C32.Xml C32.Spec_C32.
Import ListNotations.
Local Open Scope N_scope.

Lemma str_eqb_refl : forall a, str_eqb a a = true.
Proof. induction a; simpl; auto. rewrite N.eqb_refl. auto. Qed.

Lemma str_eqb_eq : forall a b, str_eqb a b = true <-> a = b.
Proof.
  induction a; destruct b; simpl; try (split; (discriminate || reflexivity)).
  rewrite andb_true_iff, N.eqb_eq, IHa. split; [intros [-> ->]; reflexivity|intros [= -> ->]; auto].
Qed.

Lemma str_eqb_neq : forall a b, str_eqb a b = false <-> a <> b.
Proof. intros. rewrite <- str_eqb_eq. destruct (str_eqb a b); split; congruence. Qed.

Lemma str_eqb_sym : forall a b, str_eqb a b = str_eqb b a.
Proof. induction a; destruct b; simpl; auto. rewrite N.eqb_sym, IHa. reflexivity. Qed.

Lemma app_snoc : forall [A : Type] (p : list A) c x, p ++ c :: x = (p ++ [c]) ++ x.
Proof. intros. rewrite <- app_assoc. reflexivity. Qed.

Lemma forallb_cons : forall (A : Type) (p : A -> bool) x l,
  forallb p (x :: l) = true -> p x = true /\ forallb p l = true.
Proof. intros A p x l. apply andb_true_iff. Qed.

Lemma forallb_imp : forall (A : Type) (p q : A -> bool) l,
  (forall x, p x = true -> q x = true) -> forallb p l = true -> forallb q l = true.
Proof. intros A p q l H. rewrite !forallb_forall. auto. Qed.

Lemma forallb_flat_map : forall (A B : Type) (p : A -> bool) (q : B -> bool) (g : A -> list B) l,
  (forall x, p x = true -> forallb q (g x) = true) -> forallb p l = true -> forallb q (flat_map g l) = true.
Proof.
  induction l as [|x l IH]; intros H P; [reflexivity|].
  apply forallb_cons in P as [Px Pl]. cbn [flat_map]. rewrite forallb_app, H, IH; auto.
Qed.

Lemma span_skip_count : forall p s, span p s = (firstn (count_while p s) s, skip_while p s).
Proof.
  induction s; simpl; auto.
  destruct (p a); auto. rewrite IHs. reflexivity.
Qed.

Lemma length_firstn_count : forall p s, length (firstn (count_while p s) s) = count_while p s.
Proof. induction s; simpl; auto. destruct (p a); simpl; auto. Qed.

Lemma length_skip_while : forall p s, (length (skip_while p s) <= length s)%nat.
Proof. induction s; simpl; auto. destruct (p a); simpl; lia. Qed.

Lemma count_while_app_stop : forall p a c y, p c = false -> count_while p (a ++ c :: y) = count_while p a.
Proof. induction a; simpl; intros. - rewrite H. auto. - destruct (p a); auto. Qed.

Lemma skip_while_app_stop : forall p a c y, p c = false -> skip_while p (a ++ c :: y) = skip_while p a ++ c :: y.
Proof. induction a; simpl; intros. - rewrite H. auto. - destruct (p a); auto. Qed.

Lemma semicolon_next_app_stop : forall x c y, (c =? 59) = false -> semicolon_next (x ++ c :: y) = semicolon_next x.
Proof. destruct x; simpl; auto. Qed.

(* a character that cannot occur inside  name;  #digits;  or  #xhex;  *)
Definition stopper (c : byte) : bool := negb (lower_c c) && negb (hex_c c) && negb (c =? 59) && negb (c =? 35).

Lemma stopper_facts : forall c, stopper c = true ->
  lower_c c = false /\ d14_c c = false /\ digit_c c = false /\ hex_c c = false /\
  (c =? 59) = false /\ (c =? 35) = false /\ (c =? 120) = false.
Proof. unfold stopper, hex_c, lower_c, d14_c, digit_c. lia. Qed.

Lemma markup_cases : forall c, is_markup c = true -> c = 38 \/ c = 60 \/ c = 62 \/ c = 34 \/ c = 39.
Proof. unfold is_markup. lia. Qed.

Lemma markup_stopper : forall c, is_markup c = true -> stopper c = true.
Proof. unfold is_markup, stopper, hex_c, lower_c, digit_c. lia. Qed.

Lemma ref_tail_app_stop : forall a c y, stopper c = true ->
  named_tail (a ++ c :: y) = named_tail a /\ num_tail (a ++ c :: y) = num_tail a.
Proof.
  intros a c y H. destruct (stopper_facts c H) as (LO & D14 & DG & HX & SEMI & HASH & EX).
  split.
  - unfold named_tail.
    rewrite count_while_app_stop, !skip_while_app_stop, semicolon_next_app_stop by assumption.
    reflexivity.
  - destruct a as [|h [|x a]]; cbn [app num_tail].
    + rewrite HASH. reflexivity.
    + rewrite EX. cbn [count_while]. rewrite DG. reflexivity.
    + destruct (x =? 120).
      * rewrite count_while_app_stop, skip_while_app_stop, semicolon_next_app_stop by assumption. reflexivity.
      * change (x :: a ++ c :: y) with ((x :: a) ++ c :: y).
        rewrite count_while_app_stop, skip_while_app_stop, semicolon_next_app_stop by assumption. reflexivity.
Qed.

Lemma named_at_none : forall s, named_tail s = false -> named_at s = None.
Proof.
  intros s H. unfold named_at. rewrite !span_skip_count, length_firstn_count.
  unfold named_tail in H. change is_lower with lower_c. change is_14 with d14_c.
  destruct (Nat.leb 2 (count_while lower_c s)); [|reflexivity].
  destruct (skip_while d14_c (skip_while lower_c s)); [reflexivity|].
  cbn in H. rewrite H. reflexivity.
Qed.

Lemma named_at_length : forall s name post, named_at s = Some (name, post) -> (length post < length s)%nat.
Proof.
  intros s name post. unfold named_at. rewrite !span_skip_count.
  pose proof (length_skip_while is_lower s) as L1.
  pose proof (length_skip_while is_14 (skip_while is_lower s)) as L2.
  destruct (Nat.leb 2 _); [|discriminate].
  destruct (skip_while is_14 _) as [|c r3]; [discriminate|].
  destruct (c =? 59); [|discriminate]. intros [= _ <-]. simpl in L2. lia.
Qed.

(* the common part of  #digits;  and  #xhex;  in num_at *)
Definition digits_semi (p : byte -> bool) (b : bool) (s : str) : option (bool * str * str) :=
  let (ds, r1) := span p s in
  match ds, r1 with
  | _ :: _, d :: r2 => if d =? 59 then Some (b, ds, r2) else None
  | _, _ => None
  end.

Lemma digits_semi_none : forall p b s,
  Nat.leb 1 (count_while p s) && semicolon_next (skip_while p s) = false -> digits_semi p b s = None.
Proof.
  intros p b s H. unfold digits_semi. rewrite span_skip_count.
  pose proof (length_firstn_count p s) as L.
  destruct (firstn (count_while p s) s); [reflexivity|].
  rewrite <- L in H. 
  destruct (skip_while p s); [reflexivity|]. cbn in H. rewrite H. reflexivity.
Qed.

Lemma digits_semi_length : forall p b s m post,
  digits_semi p b s = Some (m, post) -> (length post < length s)%nat.
Proof.
  intros p b s m post. unfold digits_semi. rewrite span_skip_count.
  pose proof (length_skip_while p s) as L.
  destruct (firstn _ s); [discriminate|].
  destruct (skip_while p s) as [|d r2]; [discriminate|].
  destruct (d =? 59); [|discriminate]. intros [= _ <-]. simpl in L. lia.
Qed.

(* what may follow "&": '#' and a numeric reference *)
Definition num_ref (r : str) : option (bool * str * str) :=
  match r with h :: r' => if h =? 35 then num_at r' else None | [] => None end.

Lemma num_ref_none : forall r, num_tail r = false -> num_ref r = None.
Proof.
  intros [|h [|x r]] H; try reflexivity; cbn [num_ref num_at]; cbn [num_tail] in H.
  - destruct (h =? 35); reflexivity.
  - destruct (h =? 35); [|reflexivity]. destruct (x =? 120); apply digits_semi_none; exact H.
Qed.

Lemma num_ref_length : forall r m post, num_ref r = Some (m, post) -> (length post + 2 <= length r)%nat.
Proof.
  intros [|h [|x r]] m post H; try discriminate; cbn [num_ref num_at] in H.
  - destruct (h =? 35); discriminate.
  - destruct (h =? 35); [|discriminate].
    destruct (x =? 120); apply digits_semi_length in H; simpl in *; lia.
Qed.

Lemma value_ok_cons : forall a v, value_ok (a :: v) = true ->
  (a =? 0) = false /\ ((a =? 38) = true -> named_tail v = false /\ num_tail v = false) /\ value_ok v = true.
Proof. unfold value_ok, no_nul. cbn [forallb ref_free]. intros. destruct (a =? 38); lia. Qed.

(* Both loops of InplaceXlate have one shape: find the leftmost '&' (before any NUL) after which
   an anchored matcher succeeds, replace the match, start again from the beginning. *)
Section Rescan.
  Context {M : Type}.
  Variable ref_at : str -> option (M * str).
  Variable val : M -> str.

  Fixpoint scan (s : str) : option (str * M * str) :=
    match s with
    | [] => None
    | c :: r =>
      if c =? 0 then None else
      match (if c =? 38 then ref_at r else None) with
      | Some (m, post) => Some ([], m, post)
      | None => match scan r with
                | Some (pre, m, post) => Some (c :: pre, m, post)
                | None => None
                end
      end
    end.

  Fixpoint rescan (fuel : nat) (s : str) : str :=
    match fuel with
    | O => s
    | S f => match scan s with
             | None => s
             | Some (pre, m, post) => rescan f (pre ++ val m ++ post)
             end
    end.

  (* every replacement shortens the text, so fuel above its length is never used up *)
  Hypothesis ref_at_shrinks : forall r m post,
    ref_at r = Some (m, post) -> (length (val m) + length post <= length r)%nat.

  Lemma scan_shrinks : forall s pre m post,
    scan s = Some (pre, m, post) -> (length (pre ++ val m ++ post) < length s)%nat.
  Proof.
    induction s as [|c r IH]; intros pre m post H; [discriminate|].
    cbn [scan] in H. destruct (c =? 0); [discriminate|].
    destruct (if c =? 38 then ref_at r else None) as [[m' post']|] eqn:E.
    - destruct (c =? 38); [|discriminate]. injection H as <- <- <-.
      apply ref_at_shrinks in E. cbn [app]. rewrite app_length. simpl. lia.
    - destruct (scan r) as [[[pre' m'] post']|]; [|discriminate]. injection H as <- <- <-.
      specialize (IH _ _ _ eq_refl). simpl. lia.
  Qed.

  Lemma rescan_fuel : forall fuel1 fuel2 s,
    (length s < fuel1)%nat -> (length s < fuel2)%nat -> rescan fuel1 s = rescan fuel2 s.
  Proof.
    induction fuel1 as [|f1 IH]; intros [|f2] s L1 L2; try lia.
    cbn [rescan]. destruct (scan s) as [[[pre m] post]|] eqn:F; [|reflexivity].
    apply scan_shrinks in F. apply IH; lia.
  Qed.

  Hypothesis ref_at_none : forall r, named_tail r = false -> num_tail r = false -> ref_at r = None.

  Lemma scan_value_ok : forall v, value_ok v = true -> scan v = None.
  Proof.
    induction v as [|a v IH]; intros H; [reflexivity|].
    apply value_ok_cons in H as (NZ & AMP & OK).
    cbn [scan]. rewrite NZ, (IH OK).
    destruct (a =? 38); [rewrite ref_at_none by (apply AMP; reflexivity)|]; reflexivity.
  Qed.

  (* ... also when the text goes on with a reference: the first stopper ends every candidate *)
  Lemma scan_after_prefix : forall p c r m mm x,
    value_ok (p ++ c :: r) = true -> stopper c = true -> ref_at m = Some (mm, x) ->
    scan (p ++ 38 :: m) = Some (p, mm, x).
  Proof.
    induction p as [|a p IH]; intros c r m mm x OK SC AT.
    - cbn [app scan N.eqb Pos.eqb]. rewrite AT. reflexivity.
    - apply value_ok_cons in OK as (NZ & AMP & OK).
      cbn [app scan]. rewrite NZ, (IH c r m mm x OK SC AT).
      destruct (a =? 38); [|reflexivity].
      destruct (ref_tail_app_stop p c r SC) as [E1 E2].
      destruct (ref_tail_app_stop p 38 m eq_refl) as [F1 F2].
      rewrite ref_at_none; [reflexivity|rewrite F1, <- E1|rewrite F2, <- E2]; apply AMP; reflexivity.
  Qed.

  (* a writer of texts: a byte is left alone, or is a stopper written as a reference to it *)
  Variable E : byte -> str.
  Hypothesis E_spec : forall c, E c = [c] \/
    (stopper c = true /\ exists m mm, E c = 38 :: m /\ (forall x, ref_at (m ++ x) = Some (mm, x)) /\ val mm = [c]).

  (* one unit of fuel per character written is enough *)
  Lemma rescan_escaped : forall r p fuel,
    value_ok (p ++ r) = true -> (length (flat_map E r) <= fuel)%nat ->
    rescan fuel (p ++ flat_map E r) = p ++ r.
  Proof.
    induction r as [|c r IH]; intros p fuel OK L.
    - destruct fuel; [reflexivity|]. cbn [rescan flat_map]. rewrite scan_value_ok by exact OK. reflexivity.
    - assert (NEXT : forall fuel', (length (flat_map E r) <= fuel')%nat ->
                rescan fuel' (p ++ c :: flat_map E r) = p ++ c :: r).
      { intros fuel' L'. rewrite (app_snoc p c r), (app_snoc p c (flat_map E r)).
        apply IH; [rewrite <- app_snoc; exact OK|exact L']. }
      cbn [flat_map] in *. rewrite app_length in L.
      destruct (E_spec c) as [EC | (SC & m & mm & EC & AT & V)]; rewrite EC in *.
      + apply NEXT. simpl in L. lia.
      + destruct fuel as [|fuel]; [simpl in L; lia|].
        cbn [rescan app]. rewrite (scan_after_prefix p c r _ mm (flat_map E r) OK SC (AT _)).
        rewrite V. apply NEXT. simpl in L. lia.
  Qed.

  Lemma decode_escaped : forall v fuel,
    value_ok v = true -> (length (flat_map E v) <= fuel)%nat -> rescan fuel (flat_map E v) = v.
  Proof. intros v. exact (rescan_escaped v []). Qed.
End Rescan.

Lemma find_named_scan : forall s, find_named s = scan named_at s.
Proof. induction s as [|c r IH]; [reflexivity|]. cbn [find_named scan]. rewrite IH. reflexivity. Qed.

Lemma xlate_named_rescan : forall fuel s,
  xlate_named fuel s = rescan named_at (fun name => [entity_char name]) fuel s.
Proof.
  induction fuel as [|f IH]; intros s; [reflexivity|].
  cbn [xlate_named rescan]. rewrite find_named_scan.
  destruct (scan named_at s) as [[[pre name] post]|]; [apply IH|reflexivity].
Qed.

Definition num_val (m : bool * str) : str := num_bytes (parse_int (if fst m then 16 else 10) (snd m)).

Lemma find_num_scan : forall s, find_num s = scan num_ref s.
Proof.
  induction s as [|c r IH]; [reflexivity|]. cbn [find_num scan]. rewrite IH.
  fold (num_ref r). destruct (if c =? 38 then num_ref r else None) as [[[hx ds] post]|]; reflexivity.
Qed.

Lemma xlate_num_rescan : forall fuel s, xlate_num fuel s = rescan num_ref num_val fuel s.
Proof.
  induction fuel as [|f IH]; intros s; [reflexivity|].
  cbn [xlate_num rescan]. rewrite find_num_scan.
  destruct (scan num_ref s) as [[[pre [hx ds]] post]|]; [apply IH|reflexivity].
Qed.

Lemma named_at_shrinks : forall r name post,
  named_at r = Some (name, post) -> (length [entity_char name] + length post <= length r)%nat.
Proof. intros r name post H. apply named_at_length in H. simpl. lia. Qed.

Lemma num_ref_shrinks : forall r m post,
  num_ref r = Some (m, post) -> (length (num_val m) + length post <= length r)%nat.
Proof.
  intros r m post H. apply num_ref_length in H.
  unfold num_val, num_bytes. destruct (N.land _ 65280 =? 0); simpl; lia.
Qed.

Lemma xlate_named_fuel_stable : forall fuel1 fuel2 s,
  (length s < fuel1)%nat -> (length s < fuel2)%nat -> xlate_named fuel1 s = xlate_named fuel2 s.
Proof. intros. rewrite !xlate_named_rescan. apply rescan_fuel; [exact named_at_shrinks|assumption..]. Qed.

Lemma xlate_num_fuel_stable : forall fuel1 fuel2 s,
  (length s < fuel1)%nat -> (length s < fuel2)%nat -> xlate_num fuel1 s = xlate_num fuel2 s.
Proof. intros. rewrite !xlate_num_rescan. apply rescan_fuel; [exact num_ref_shrinks|assumption..]. Qed.

Lemma if_markup_plain : forall (a l g q p : str) c, is_markup c = false ->
  (if c =? 38 then a else if c =? 60 then l else if c =? 62 then g
   else if c =? 34 then q else if c =? 39 then p else [c]) = [c].
Proof.
  intros a l g q p c H. unfold is_markup in H.
  repeat (apply orb_false_iff in H as [H ->]). rewrite H. reflexivity.
Qed.

Lemma esc_byte_spec : forall c, esc_byte c = [c] \/
  (stopper c = true /\ exists m name, esc_byte c = 38 :: m /\
     (forall x, named_at (m ++ x) = Some (name, x)) /\ [entity_char name] = [c]).
Proof.
  intros c. destruct (is_markup c) eqn:MK; [right|left; apply if_markup_plain, MK].
  split; [apply markup_stopper, MK|].
  destruct (markup_cases c MK) as [->|[->|[->|[->| ->]]]]; eexists _, _; repeat split.
Qed.

Lemma xlate_escape : forall v, value_ok v = true -> xlate (escape v) = v.
Proof.
  intros v H. unfold xlate. rewrite xlate_named_rescan, xlate_num_rescan.
  unfold escape. rewrite (decode_escaped _ _ (fun r N _ => named_at_none r N) _ esc_byte_spec) by (assumption || lia).
  cbn [rescan]. rewrite (scan_value_ok _ (fun r _ N => num_ref_none r N)) by exact H. reflexivity.
Qed.

(* the character loop without the extra turn at the end of the string *)
Fixpoint arun (line : N) (f : aframe) (s : str) : res aframe :=
  match s with
  | [] => Ok f
  | c :: r => match astep line f c with
              | Ok f' => arun line f' r
              | Err m => Err m
              | OutOfFuel => OutOfFuel
              end
  end.

Lemma arun_cons : forall line f c r,
  arun line f (c :: r) = match astep line f c with
                         | Ok f' => arun line f' r
                         | Err m => Err m
                         | OutOfFuel => OutOfFuel
                         end.
Proof. reflexivity. Qed.

Lemma aloop_arun : forall line s f prev, exists c,
  aloop line f s prev = match arun line f s with
                        | Ok f' => astep line f' c
                        | Err m => Err m
                        | OutOfFuel => OutOfFuel
                        end.
Proof.
  induction s as [|c r IH]; intros; cbn [aloop arun]; [exists prev; reflexivity|].
  destruct (astep line f c); [apply IH|exists 0; reflexivity..].
Qed.

Lemma arun_app : forall line s1 s2 f,
  arun line f (s1 ++ s2) = match arun line f s1 with
                           | Ok f' => arun line f' s2
                           | Err m => Err m
                           | OutOfFuel => OutOfFuel
                           end.
Proof.
  induction s1 as [|c r IH]; intros; simpl; auto.
  destruct (astep line f c); auto.
Qed.

(* the extra turn starts from state ews after a complete attribute: it cannot add one *)
Lemma parse_attrs_arun : forall line s m,
  arun line (mkA Aews [] [] 0 []) s = Ok (mkA Aews [] [] 0 m) -> parse_attrs line s = Ok m.
Proof.
  intros line s m H. unfold parse_attrs.
  destruct (aloop_arun line s (mkA Aews [] [] 0 []) 0) as [c ->]. rewrite H.
  cbn [astep a_st a_tag a_val a_com a_attrs].
  destruct (c =? 47); [reflexivity|]. destruct (negb (isspace c)); reflexivity.
Qed.

(* name characters are none of the characters the two lexers treat specially *)
Lemma name_char_facts : forall c, name_char c = true ->
  isspace c = false /\ (c =? 61) = false /\ is_quote c = false /\ (c =? 47) = false /\
  mem_byte c [92; 39; 34; 61] = false /\ (c =? 62) = false /\ (c =? 63) = false /\ (c =? 33) = false /\
  (c =? 92) = false /\ (c =? 34) = false /\ (c =? 39) = false /\ (c =? 10) = false /\ (c =? 13) = false.
Proof. unfold name_char, isspace, is_quote, mem_byte. lia. Qed.

Lemma arun_name : forall line k t v com acc,
  forallb name_char k = true ->
  arun line (mkA Atag t v com acc) k = Ok (mkA Atag (t ++ k) v com acc).
Proof.
  induction k as [|c r IH]; intros t v com acc H.
  - rewrite app_nil_r. reflexivity.
  - apply forallb_cons in H as [Hc Hr].
    destruct (name_char_facts c Hc) as (F1 & F2 & F3 & _).
    cbn [arun astep a_st]. unfold astep_tag. cbn [a_tag a_val a_com a_attrs]. rewrite F1, F2, F3.
    rewrite IH, <- app_snoc by assumption. reflexivity.
Qed.

Lemma arun_value : forall line s t v com acc,
  forallb (fun c => negb (c =? com)) s = true ->
  arun line (mkA Avalue t v com acc) s = Ok (mkA Avalue t (v ++ s) com acc).
Proof.
  induction s as [|c r IH]; intros t v com acc H.
  - rewrite app_nil_r. reflexivity.
  - apply forallb_cons in H as [Hc Hr].
    cbn [arun astep a_st a_tag a_val a_com a_attrs].
    rewrite Hc, IH, <- app_snoc by assumption. reflexivity.
Qed.

Lemma escape_no_quote : forall v, forallb (fun c => negb (c =? 34)) (escape v) = true.
Proof.
  intros v. apply (forallb_flat_map _ _ (fun _ => true)); [|apply forallb_forall; reflexivity].
  intros c _. destruct (is_markup c) eqn:MK.
  - destruct (markup_cases c MK) as [->|[->|[->|[->| ->]]]]; reflexivity.
  - unfold esc_byte. rewrite if_markup_plain by exact MK. cbn [forallb]. unfold is_markup in MK. lia.
Qed.

Lemma has_any_name : forall k, forallb name_char k = true -> has_any [92; 39; 34; 61] k = false.
Proof.
  induction k as [|c k IH]; intros H; [reflexivity|].
  apply forallb_cons in H as [Hc Hr].
  destruct (name_char_facts c Hc) as (_ & _ & _ & _ & F5 & _).
  cbn [has_any]. rewrite F5. auto.
Qed.

Lemma astep_ews_blank : forall line t v com acc,
  astep line (mkA Aews t v com acc) 32 = Ok (mkA Aews t v com acc).
Proof. reflexivity. Qed.

Lemma astep_ews_name : forall line t v com acc c, name_char c = true ->
  astep line (mkA Aews t v com acc) c = Ok (mkA Atag (t ++ [c]) v com acc).
Proof.
  intros. destruct (name_char_facts c H) as (F1 & _ & _ & F4 & _).
  cbn [astep a_st a_tag a_val a_com a_attrs]. rewrite F4, F1. reflexivity.
Qed.

Lemma astep_tag_eq : forall line t v com acc,
  astep line (mkA Atag t v com acc) 61 = Ok (mkA Aoq t v com acc).
Proof. reflexivity. Qed.

Lemma astep_oq_quote : forall line t v com acc,
  astep line (mkA Aoq t v com acc) 34 = Ok (mkA Avalue t v 34 acc).
Proof. reflexivity. Qed.

Lemma astep_value_close : forall line t v acc,
  has_any [92; 39; 34; 61] t = false -> str_eqb t s_docpath = false -> has_key t acc = false ->
  astep line (mkA Avalue t v 34 acc) 34 = Ok (mkA Aews [] [] 0 (acc ++ [(t, xlate v)])).
Proof.
  intros. cbn [astep a_st a_tag a_val a_com a_attrs].
  rewrite N.eqb_refl. cbn [negb]. rewrite H, H0, H1. reflexivity.
Qed.

Lemma arun_attr : forall line k v acc,
  key_ok k = true -> value_ok v = true -> has_key k acc = false ->
  arun line (mkA Aews [] [] 0 acc) (print_attr (k, v)) = Ok (mkA Aews [] [] 0 (acc ++ [(k, v)])).
Proof.
  intros line k v acc K V HK.
  unfold key_ok, is_name in K. apply andb_true_iff in K as [K DP]. apply andb_true_iff in K as [NE NM].
  apply negb_true_iff in DP.
  destruct k as [|c k]; [discriminate|].
  pose proof NM as NM'. cbn [forallb] in NM'. apply andb_true_iff in NM' as [Hc Hk].
  change (print_attr (c :: k, v)) with (32 :: c :: (k ++ 61 :: 34 :: escape v ++ [34])).
  rewrite arun_cons, astep_ews_blank.
  rewrite arun_cons, astep_ews_name by assumption.
  rewrite arun_app, arun_name by assumption.
  rewrite arun_cons, astep_tag_eq.
  rewrite arun_cons, astep_oq_quote.
  rewrite arun_app, arun_value by apply escape_no_quote.
  cbn [app]. rewrite arun_cons, astep_value_close, xlate_escape by auto using has_any_name.
  reflexivity.
Qed.

Lemma keys_nodup_fresh : forall acc k v m, keys_nodup (acc ++ (k, v) :: m) = true -> has_key k acc = false.
Proof.
  induction acc as [|[k' v'] acc IH]; intros k v m H; [reflexivity|].
  cbn [app keys_nodup has_key] in *. apply andb_true_iff in H as [H1 H2].
  rewrite existsb_app in H1. cbn [existsb fst] in H1.
  rewrite (IH _ _ _ H2), str_eqb_sym. lia.
Qed.

Lemma arun_attrs : forall line m acc,
  keys_nodup (acc ++ m) = true ->
  forallb (fun kv => key_ok (fst kv) && value_ok (snd kv)) m = true ->
  arun line (mkA Aews [] [] 0 acc) (print_attrs m) = Ok (mkA Aews [] [] 0 (acc ++ m)).
Proof.
  induction m as [|[k v] m IH]; intros acc ND OK.
  - rewrite app_nil_r. reflexivity.
  - cbn [forallb fst snd] in OK. apply andb_true_iff in OK as [OK1 OK2]. apply andb_true_iff in OK1 as [OKk OKv].
    change (print_attrs ((k, v) :: m)) with (print_attr (k, v) ++ print_attrs m).
    rewrite arun_app, arun_attr by eauto using keys_nodup_fresh.
    rewrite (app_snoc acc (k, v) m) in *. apply IH; assumption.
Qed.

Lemma mem_index_of_none : forall d s, mem_byte d s = false -> index_of d s = None.
Proof.
  induction s as [|a s IH]; cbn [index_of mem_byte]; intros H; [reflexivity|].
  apply orb_false_iff in H as [H1 H2].
  rewrite (N.eqb_sym a d), H1, IH by assumption. reflexivity.
Qed.

Lemma index_of_none : forall d s, index_of d s = None -> split_on d s = [s].
Proof.
  induction s as [|a s IH]; cbn [index_of split_on]; intros H; [reflexivity|].
  destruct (a =? d); [discriminate|].
  destruct (index_of d s); [discriminate|]. rewrite IH; reflexivity.
Qed.

Lemma index_of_some : forall d s p, index_of d s = Some p ->
  s = firstn p s ++ d :: skipn (S p) s /\ split_on d s = firstn p s :: split_on d (skipn (S p) s).
Proof.
  induction s as [|a s IH]; cbn [index_of split_on]; intros p H; [discriminate|].
  destruct (a =? d) eqn:E.
  - injection H as <-. apply N.eqb_eq in E. subst a. split; reflexivity.
  - destruct (index_of d s) as [n|]; [|discriminate]. injection H as <-.
    destruct (IH n eq_refl) as [EQ SP]. cbn [firstn app]. rewrite (skipn_cons (S n)), SP, <- EQ. split; reflexivity.
Qed.

(* the component find compares with the tag of a child *)
Lemma split_on_head : forall d s, exists rest,
  split_on d s = (match index_of d s with None => s | Some p => firstn p s end) :: rest.
Proof.
  intros d s. destruct (index_of d s) eqn:I.
  - apply index_of_some in I as [_ ->]. eexists. reflexivity.
  - rewrite (index_of_none _ _ I). eexists. reflexivity.
Qed.

Lemma mapi_from_ext : forall (A B : Type) (g h : nat -> A -> B) l n,
  (forall i k, In k l -> g i k = h i k) -> mapi_from n g l = mapi_from n h l.
Proof.
  induction l; simpl; intros; auto.
  rewrite H by auto. rewrite IHl; auto.
Qed.

Lemma mapi_from_map : forall (A B C : Type) (g : nat -> A -> B) (h : B -> C) l n,
  map h (mapi_from n g l) = mapi_from n (fun i k => h (g i k)) l.
Proof. induction l; simpl; intros; auto. rewrite IHl. reflexivity. Qed.

Lemma strip_root_noroot : forall s, starts_with [47; 47] s = false -> strip_root s = (false, s).
Proof.
  intros [|c1 [|c2 r]] H; try reflexivity. cbn [starts_with strip_root] in *.
  rewrite andb_true_r in H. rewrite (N.eqb_sym c1 47), (N.eqb_sym c2 47), H. reflexivity.
Qed.

Lemma find_tags_ok_kids : forall d t k, find_tags_ok d t = true -> In k (el_kids t) -> find_tags_ok d k = true.
Proof.
  intros d [tag dc v att kids] k H I. cbn [find_tags_ok el_kids] in *.
  apply andb_true_iff in H as [_ H]. rewrite forallb_forall in H. auto.
Qed.

Lemma find_tags_ok_tag : forall d t, find_tags_ok d t = true ->
  el_tag t <> [] /\ mem_byte d (el_tag t) = false /\ starts_with [47; 47] (el_tag t) = false.
Proof.
  intros d [tag dc v att kids] H. cbn [find_tags_ok el_tag] in *.
  destruct tag; [discriminate|]. split; [discriminate|]. cbn [is_empty negb andb] in H. lia.
Qed.

Lemma tag_path_not_rooted : forall d t s,
  find_tags_ok d t = true ->
  (match index_of d s with None => s | Some p => firstn p s end) = el_tag t ->
  starts_with [47; 47] s = false.
Proof.
  intros d t s TK H. destruct (find_tags_ok_tag d t TK) as (NE & ND & NR).
  destruct (index_of d s) as [p|] eqn:I; [|subst; exact NR].
  apply index_of_some in I as [-> _]. rewrite H.
  destruct (el_tag t) as [|c1 [|c2 tag]]; [contradiction| |exact NR].
  cbn [app starts_with mem_byte] in *. lia.
Qed.

Lemma reach_cons2 : forall c c2 rest q t a,
  reach (c :: c2 :: rest) q t a =
  if str_eqb c (el_tag t)
  then List.concat (mapi_from 0 (fun i k => reach (c2 :: rest) q k (a ++ [i])) (el_kids t))
  else [].
Proof. reflexivity. Qed.

Lemma find_all_exact : forall root d q, find_tags_ok d root = true ->
  forall fuel what cur a, find_tags_ok d cur = true -> (length what < fuel)%nat ->
  find_all fuel root cur a what d q = reach_path root cur a what d q.
Proof.
  intros root d q TR. induction fuel as [|f IH]; intros what cur a TK L; [lia|].
  cbn [find_all]. destruct (starts_with [47; 47] what) eqn:SW.
  - (* "//": again from the root *)
    destruct what as [|c1 [|c2 r]]; cbn [starts_with] in SW; try lia.
    cbn [skipn]. rewrite IH by (auto; simpl in L; lia).
    unfold reach_path. cbn [strip_root]. replace ((c1 =? 47) && (c2 =? 47)) with true by lia.
    destruct (strip_root r) as [[] p]; reflexivity.
  - (* the walk below cur; it goes into a child only with a path that begins with the child's tag *)
    unfold reach_path. rewrite strip_root_noroot by exact SW.
    destruct (find_tags_ok_tag d cur TK) as (_ & TNS & _).
    destruct (str_eqb what (el_tag cur)) eqn:E.
    { apply str_eqb_eq in E. subst what.
      rewrite index_of_none by (apply mem_index_of_none; exact TNS).
      cbn [reach]. rewrite str_eqb_refl. reflexivity. }
    destruct (index_of d what) as [fpos|] eqn:I.
    2: { rewrite (index_of_none _ _ I). cbn [reach]. rewrite E. destruct (el_kids cur); reflexivity. }
    destruct (index_of_some _ _ _ I) as [EQ ->].
    set (lwhat := skipn (S fpos) what) in *.
    assert (LL : (length lwhat < f)%nat).
    { apply (f_equal (@length _)) in EQ. rewrite app_length in EQ. cbn [length] in EQ. lia. }
    destruct (split_on_head d lwhat) as [rest SP]. rewrite SP, reach_cons2.
    destruct (str_eqb (firstn fpos what) (el_tag cur)); [|destruct (el_kids cur); reflexivity].
    destruct (el_kids cur) as [|k0 ks] eqn:KS; [reflexivity|].
    f_equal. apply mapi_from_ext. intros i k IN.
    assert (TKk : find_tags_ok d k = true).
    { apply (find_tags_ok_kids d cur); [exact TK|]. rewrite KS. exact IN. }
    destruct (str_eqb (el_tag k) _) eqn:EK; [|cbn [reach]; rewrite str_eqb_sym, EK; reflexivity].
    apply str_eqb_eq in EK. rewrite IH by assumption.
    unfold reach_path. rewrite strip_root_noroot, SP; [reflexivity|].
    exact (tag_path_not_rooted d k lwhat TKk (eq_sym EK)).
Qed.

Lemma first_some_concat : forall (A : Type) (ls : list (list A)),
  first_some (map (@hd_error A) ls) = hd_error (List.concat ls).
Proof.
  induction ls; simpl; auto.
  destruct a; simpl; auto.
Qed.

Lemma find_first_hd : forall root d q fuel what cur a,
  find_first fuel root cur a what d q = hd_error (find_all fuel root cur a what d q).
Proof.
  intros root d q. induction fuel as [|f IH]; intros; [reflexivity|].
  cbn [find_first find_all].
  destruct (starts_with [47; 47] what); [apply IH|].
  destruct (str_eqb what (el_tag cur)).
  - destruct (attr_pred q cur); reflexivity.
  - destruct (el_kids cur) eqn:KS; [reflexivity|]. rewrite <- KS.
    destruct (index_of d what); [|reflexivity].
    destruct (str_eqb _ (el_tag cur)); [|reflexivity].
    rewrite <- first_some_concat. rewrite mapi_from_map.
    f_equal. apply mapi_from_ext. intros i k _.
    destruct (str_eqb (el_tag k) _); [apply IH|reflexivity].
Qed.

Lemma reach_filter : forall comps q t a,
  reach comps q t a = map fst (filter (fun p => attr_ok q (snd p)) (reach_el comps t a)).
Proof.
  induction comps as [|c rest IH]; intros; [reflexivity|].
  cbn [reach reach_el].
  destruct (str_eqb c (el_tag t)); [|reflexivity].
  destruct rest as [|c2 rest'].
  - cbn [filter snd]. destruct (attr_ok q t); reflexivity.
  - rewrite <- concat_filter_map, concat_map. f_equal.
    rewrite !mapi_from_map. apply mapi_from_ext. intros i k _. apply IH.
Qed.

Lemma reach_path_filter : forall root cur a path d q,
  reach_path root cur a path d q =
  map fst (filter (fun p => attr_ok q (snd p)) (reach_path_el root cur a path d)).
Proof.
  intros. unfold reach_path, reach_path_el.
  destruct (strip_root path) as [rooted p]. destruct rooted; apply reach_filter.
Qed.

Lemma c32_find_filter_lemma : forall root cur a path d q,
  find_tags_ok d root = true -> find_tags_ok d cur = true ->
  let matched := reach_path_el root cur a path d in
  find_all (find_fuel path) root cur a path d (None, None) = map fst matched /\
  find_all (find_fuel path) root cur a path d q = map fst (filter (fun p => attr_ok q (snd p)) matched) /\
  find_first (find_fuel path) root cur a path d q =
    hd_error (map fst (filter (fun p => attr_ok q (snd p)) matched)).
Proof.
  intros root cur a path d q TR TK matched. unfold matched.
  rewrite find_first_hd, !find_all_exact, !reach_path_filter by (unfold find_fuel; auto).
  repeat split. f_equal.
  induction (reach_path_el root cur a path d) as [|x l IH]; [reflexivity|exact (f_equal (cons x) IH)].
Qed.
