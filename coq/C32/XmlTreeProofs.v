(* C32 -- the element-tree round trip: parse_doc (print_el t) = Ok t for the trees of tree_ok. *)
From Coq Require Import String.
From Coq Require Import NArith List Bool Lia ZifyBool Arith.
From F8 Require Import C32.XmlBase C32.Xml C32.Spec_C32 C32.XmlProofs C32.XmlTotal.
Import ListNotations.
Local Open Scope N_scope.

Ltac name_facts c H :=
  let F := fresh "F" in
  pose proof (name_char_facts c H) as F;
  destruct F as (?F & ?F & ?F & ?F & ?F & ?F & ?F & ?F & ?F & ?F & ?F & ?F & ?F).

(* rewrite with (and consume) every hypothesis  b = false  *)
Ltac rw_false := repeat match goal with H : _ = false |- _ => rewrite ?H; clear H end.

Ltac frame_cbn :=
  cbn [step with_prev with_st with_otag with_ctag with_val with_attr with_dec with_result with_kids
       f_st f_otag f_ctag f_val f_attr f_dec f_start f_tag f_value f_decl f_kids f_prev].

(* starttmpotag is set at the first tag character, if it is still 0 *)
Definition upd_start (line st : N) : N := if st =? 0 then line else st.

Lemma upd_start_idem : forall line st, upd_start line (upd_start line st) = upd_start line st.
Proof. intros. unfold upd_start. destruct (st =? 0) eqn:E; [destruct (line =? 0)|rewrite E]; reflexivity. Qed.

(* Runs of characters that one state absorbs.  The frame's last field, the C++ variable c, is read
   only when a read fails: each run is stated for every value it may have afterwards. *)

Lemma phase_otag_name : forall s d otag ctag val attr dec start tg vl dc kids prev rest line r,
  forallb name_char s = true ->
  (forall prev', yields d (mkF Sotag (otag ++ s) ctag val attr dec
                              (match s with [] => start | _ => upd_start line start end)
                              tg vl dc kids prev') (G rest line) r) ->
  yields d (mkF Sotag otag ctag val attr dec start tg vl dc kids prev) (G (s ++ rest) line) r.
Proof.
  induction s as [|c s IH]; intros until r; intros H Y.
  - specialize (Y prev). rewrite app_nil_r in Y. exact Y.
  - apply forallb_cons in H as [Hc Hs]. name_facts c Hc.
    cbn [app]. apply yields_cont; auto. frame_cbn. unfold slash_gt. rw_false. cbn [andb orb negb s_line].
    fold (upd_start line start).
    apply IH; [exact Hs|]. intros prev'. specialize (Y prev'). rewrite <- app_snoc.
    destruct s; [|rewrite upd_start_idem]; exact Y.
Qed.

(* characters that may be stored by states oattr / value / ctag without ending them *)
Definition plain_char (c : byte) : bool :=
  negb (c =? 60) && negb (c =? 62) && negb (c =? 10) && negb (c =? 13).

Lemma plain_char_facts : forall c, plain_char c = true ->
  (c =? 60) = false /\ (c =? 62) = false /\ (c =? 10) = false /\ (c =? 13) = false.
Proof. unfold plain_char. lia. Qed.

(* the attribute text collected in state oattr, up to a character that is not '>': the peek
   after a '/' does not see the end of the tag *)
Lemma phase_oattr : forall s q d otag ctag val attr dec start tg vl dc kids prev rest line r,
  forallb plain_char s = true -> plain_char q = true ->
  (forall prev', yields d (mkF Soattr otag ctag val (attr ++ s) dec start tg vl dc kids prev')
                        (G (q :: rest) line) r) ->
  yields d (mkF Soattr otag ctag val attr dec start tg vl dc kids prev) (G (s ++ q :: rest) line) r.
Proof.
  induction s as [|c s IH]; intros until r; intros H Q Y.
  - specialize (Y prev). rewrite app_nil_r in Y. exact Y.
  - apply forallb_cons in H as [Hc Hs].
    destruct (plain_char_facts c Hc) as (P1 & P2 & P3 & P4).
    assert (GO : yields d (mkF Soattr otag ctag val (attr ++ [c]) dec start tg vl dc kids c)
                   (G (s ++ q :: rest) line) r).
    { apply IH; [exact Hs|exact Q|]. intros prev'. rewrite <- app_snoc. apply Y. }
    assert (NX : exists x y, s ++ q :: rest = x :: y /\ (x =? 62) = false).
    { destruct s as [|x s]; eexists _, _; (split; [reflexivity|]).
      - apply plain_char_facts in Q. tauto.
      - apply forallb_cons in Hs as [Hx _]. apply plain_char_facts in Hx. tauto. }
    destruct NX as (x & y & E & NX). cbn [app]. rewrite E in GO |- *.
    apply yields_cont; auto. frame_cbn. unfold slash_gt.
    destruct (c =? 47); [|rewrite P2; exact GO].
    cbn [speek sgood s_eof s_fail negb andb s_rest opt_is]. rewrite NX, P2. exact GO.
Qed.

Lemma phase_value_text : forall s d otag ctag val attr dec start tg vl dc kids prev rest line r,
  forallb plain_char s = true ->
  (forall prev', yields d (mkF Svalue otag ctag (val ++ s) attr dec start tg vl dc kids prev') (G rest line) r) ->
  yields d (mkF Svalue otag ctag val attr dec start tg vl dc kids prev) (G (s ++ rest) line) r.
Proof.
  induction s as [|c s IH]; intros until r; intros H Y.
  - specialize (Y prev). rewrite app_nil_r in Y. exact Y.
  - apply forallb_cons in H as [Hc Hs].
    destruct (plain_char_facts c Hc) as (P1 & P2 & P3 & P4).
    cbn [app]. apply yields_cont; auto. frame_cbn. rewrite P1.
    apply IH; [exact Hs|]. intros prev'. rewrite <- app_snoc. apply Y.
Qed.

Lemma phase_ctag_name : forall s d otag ctag val attr dec start tg vl dc kids prev rest line r,
  forallb name_char s = true ->
  (forall prev', yields d (mkF Sctag otag (ctag ++ s) val attr dec start tg vl dc kids prev') (G rest line) r) ->
  yields d (mkF Sctag otag ctag val attr dec start tg vl dc kids prev) (G (s ++ rest) line) r.
Proof.
  induction s as [|c s IH]; intros until r; intros H Y.
  - specialize (Y prev). rewrite app_nil_r in Y. exact Y.
  - apply forallb_cons in H as [Hc Hs]. name_facts c Hc.
    cbn [app]. apply yields_cont; auto. frame_cbn. rw_false. cbn [negb].
    apply IH; [exact Hs|]. intros prev'. rewrite <- app_snoc. apply Y.
Qed.

Lemma name_plain : forall c, name_char c = true -> plain_char c = true.
Proof. unfold name_char, plain_char. lia. Qed.

Lemma esc_byte_plain : forall c, text_char c = true -> forallb plain_char (esc_byte c) = true.
Proof.
  intros c H. destruct (is_markup c) eqn:MK.
  - destruct (markup_cases c MK) as [->|[->|[->|[->| ->]]]]; reflexivity.
  - unfold esc_byte. rewrite (if_markup_plain _ _ _ _ _ c MK). cbn [forallb].
    unfold text_char, is_markup, plain_char in *. lia.
Qed.

Lemma escape_plain : forall v, forallb text_char v = true -> forallb plain_char (escape v) = true.
Proof. intros v. apply forallb_flat_map, esc_byte_plain. Qed.

Lemma doc_value_text : forall v, doc_value_ok v = true -> forallb text_char v = true.
Proof. intros v H. unfold doc_value_ok in H. apply andb_true_iff in H. tauto. Qed.

Lemma doc_value_value : forall v, doc_value_ok v = true -> value_ok v = true.
Proof.
  intros v H. unfold doc_value_ok in H. apply andb_true_iff in H as [T R].
  unfold value_ok, no_nul. rewrite R, (forallb_imp _ text_char _ v); [reflexivity| |exact T].
  unfold text_char. lia.
Qed.

Lemma doc_attrs_attrs : forall a, doc_attrs_ok a = true -> attrs_ok a = true.
Proof.
  intros a H. unfold doc_attrs_ok in H. apply andb_true_iff in H as [ND OK].
  unfold attrs_ok. rewrite ND. refine (forallb_imp _ _ _ a _ OK).
  intros [k v] H. apply andb_true_iff in H as [K V]. cbn [fst snd] in *. rewrite K, doc_value_value; auto.
Qed.

Lemma print_attrs_plain : forall a, doc_attrs_ok a = true -> forallb plain_char (print_attrs a) = true.
Proof.
  intros a H. unfold doc_attrs_ok in H. apply andb_true_iff in H as [_ H].
  refine (forallb_flat_map _ _ _ _ _ a _ H). intros [k v] KV. apply andb_true_iff in KV as [K V].
  unfold key_ok, is_name in K. apply andb_true_iff in K as [K _]. apply andb_true_iff in K as [_ K].
  change (print_attr (k, v)) with ([32] ++ k ++ [61; 34] ++ escape v ++ [34]).
  rewrite !forallb_app, (forallb_imp _ _ _ k name_plain K), (escape_plain v (doc_value_text v V)).
  reflexivity.
Qed.

Lemma has_nonblank_app : forall a b, has_nonblank (a ++ b) = has_nonblank a || has_nonblank b.
Proof. induction a; simpl; intros; auto. rewrite IHa. apply orb_assoc. Qed.

Lemma escape_nonblank : forall x,
  forallb text_char x = true -> existsb (fun c => negb ((c =? 32) || (c =? 9))) x = true ->
  has_nonblank (escape x) = true.
Proof.
  induction x as [|c x IH]; cbn [forallb existsb escape flat_map]; intros T E; [discriminate|].
  apply andb_true_iff in T as [Tc Tx].
  rewrite has_nonblank_app. apply orb_true_iff.
  apply orb_true_iff in E as [E|E]; [left|right; exact (IH Tx E)].
  destruct (is_markup c) eqn:MK.
  - destruct (markup_cases c MK) as [->|[->|[->|[->| ->]]]]; reflexivity.
  - unfold esc_byte. rewrite (if_markup_plain _ _ _ _ _ c MK).
    unfold text_char in Tc. cbn [has_nonblank mem_byte]. lia.
Qed.

(* the attribute text as state oattr collects it: without the blank that ended the tag *)
Definition attr_chunk (a : list (str * str)) : str :=
  match a with [] => [] | _ => tl (print_attrs a) end.

(* ... and it ends with the quote that closes the last value *)
Lemma print_attrs_snoc : forall a, a <> [] -> exists x, print_attrs a = 32 :: x ++ [34].
Proof.
  induction a as [|[k v] a IH]; intros NE; [contradiction|].
  change (print_attrs ((k, v) :: a)) with (32 :: (k ++ 61 :: 34 :: escape v ++ [34]) ++ print_attrs a).
  destruct a as [|kv a].
  - exists (k ++ 61 :: 34 :: escape v). cbn [print_attrs flat_map]. rewrite app_nil_r, <- app_assoc. reflexivity.
  - destruct IH as [x ->]; [discriminate|]. exists ((k ++ 61 :: 34 :: escape v ++ [34]) ++ 32 :: x).
    apply (f_equal (cons 32)), (app_assoc _ (32 :: x)).
Qed.

Lemma parse_attrs_chunk : forall line a,
  a <> [] -> attrs_ok a = true -> parse_attrs line (attr_chunk a) = Ok a.
Proof.
  intros line [|kv a] NE OK; [contradiction|].
  unfold attrs_ok in OK. apply andb_true_iff in OK as [ND OK].
  apply parse_attrs_arun. exact (arun_attrs line (kv :: a) [] ND OK).
Qed.

Definition open_frame (line : N) (tag : str) (a : list (str * str)) : frame :=
  match a with
  | [] => mkF Sotag tag [] [] [] [] line [] None None [] (last tag 60)
  | _ => mkF Soattr tag [] [] (attr_chunk a) [] line [] None None [] 34
  end.

Lemma open_frame_attr : forall line tag a, f_attr (open_frame line tag a) = attr_chunk a.
Proof. intros. destruct a; reflexivity. Qed.

Lemma tag_ok_facts : forall tag, tag_ok tag = true ->
  forallb name_char tag = true /\ str_eqb tag s_include = false /\ is_empty tag = false.
Proof. unfold tag_ok, is_name. change s_xi_include with s_include. intros. lia. Qed.

(* "<tag attrs" *)
Lemma run_open : forall d tag a rest line r,
  tag_ok tag = true -> doc_attrs_ok a = true ->
  (forall prev, yields d (with_prev (open_frame line tag a) prev) (G rest line) r) ->
  yields d init_frame (G (60 :: tag ++ print_attrs a ++ rest) line) r.
Proof.
  intros d tag a rest line r TG AT Y.
  destruct (tag_ok_facts tag TG) as (TNM & _ & TEMP).
  apply yields_cont; try reflexivity.
  change (yields d (mkF Sotag [] [] [] [] [] 0 [] None None [] 60) (G (tag ++ print_attrs a ++ rest) line) r).
  apply phase_otag_name; [exact TNM|]. intros prev. cbn [app].
  replace (match tag with [] => 0 | _ => upd_start line 0 end) with line
    by (destruct tag; [discriminate|reflexivity]).
  destruct a as [|kv a]; [exact (Y prev)|].
  destruct (print_attrs_snoc (kv :: a)) as [x PA]; [discriminate|].
  pose proof (print_attrs_plain _ AT) as PL.
  specialize (Y 34). unfold open_frame, attr_chunk in Y. rewrite PA in *.
  cbn [forallb] in PL. rewrite forallb_app in PL. apply andb_true_iff in PL as [_ PL].
  apply andb_true_iff in PL as [PX _].
  cbn [app]. rewrite <- app_assoc.
  apply yields_cont; try reflexivity.
  frame_cbn. unfold slash_gt. cbn [N.eqb Pos.eqb isspace orb andb]. rewrite TEMP. cbn [negb].
  apply phase_oattr; [exact PX|reflexivity|]. intros prev'.
  apply yields_cont; try reflexivity. exact Y.
Qed.

(* '>' after a closing tag that matches: the element is complete *)
Lemma run_ctag_gt : forall d tag val attr line tg vl kids prev rest,
  tag_ok tag = true ->
  yields d (mkF Sctag tag tag val attr [] line tg vl None kids prev) (G (62 :: rest) line)
         (Ok (mkF Sfinished tag tag val attr [] line tag
                  (if negb (is_empty val) && has_nonblank val then Some (xlate val) else vl)
                  None kids 62, G rest line)).
Proof.
  intros d tag val attr line tg vl kids prev rest TG.
  destruct (tag_ok_facts tag TG) as (_ & TINC & _).
  apply yields_cont; try reflexivity.
  frame_cbn. cbn [N.eqb Pos.eqb]. rewrite str_eqb_refl, TINC. apply yields_fin. reflexivity.
Qed.

(* "/>" *)
Lemma run_selfclose : forall d tag a prev rest line,
  tag_ok tag = true ->
  yields d (with_prev (open_frame line tag a) prev) (G (47 :: 62 :: rest) line)
         (Ok (mkF Sfinished tag tag [] (attr_chunk a) [] line tag None None [] 62, G rest line)).
Proof.
  intros d tag a prev rest line TG.
  apply yields_cont; try (destruct a; reflexivity).
  destruct a; exact (run_ctag_gt d tag [] _ line [] None [] 47 rest TG).
Qed.

(* ">" *)
Lemma run_gt : forall d tag a prev rest line r,
  yields d (mkF Svalue tag [] [] (attr_chunk a) [] line [] None None [] 62) (G rest line) r ->
  yields d (with_prev (open_frame line tag a) prev) (G (62 :: rest) line) r.
Proof. intros d tag a prev rest line r Y. apply yields_cont; destruct a; try reflexivity; exact Y. Qed.

(* "</tag>" *)
Lemma run_close : forall d tag val attr kids prev rest line,
  tag_ok tag = true ->
  yields d (mkF Svalue tag [] val attr [] line [] None None kids prev)
         (G (60 :: 47 :: tag ++ 62 :: rest) line)
         (Ok (mkF Sfinished tag tag val attr [] line tag
                  (if negb (is_empty val) && has_nonblank val then Some (xlate val) else None)
                  None kids 62, G rest line)).
Proof.
  intros d tag val attr kids prev rest line TG.
  destruct (tag_ok_facts tag TG) as (TNM & _ & _).
  apply yields_cont; try reflexivity.
  apply yields_cont; try reflexivity.
  apply phase_ctag_name; [exact TNM|]. intros prev'. apply run_ctag_gt, TG.
Qed.

Definition final_frame (line : N) (t : el) : frame :=
  match t with
  | El tag _ v a kids =>
    mkF Sfinished tag tag (escape (opt_str v)) (attr_chunk a) [] line tag v None kids 62
  end.

Lemma tree_ok_unfold : forall d tag dc v a kids,
  tree_ok d (El tag dc v a kids) = true ->
  tag_ok tag = true /\ dc = None /\ text_ok v = true /\ doc_attrs_ok a = true /\
  Nat.leb d 128 = true /\ forallb (tree_ok (S d)) kids = true.
Proof.
  intros d tag dc v a kids H. cbn [tree_ok] in H. fold tree_ok in H.
  do 5 (apply andb_true_iff in H as [H ?]).
  destruct dc; [discriminate|]. repeat split; auto.
Qed.

Lemma finish_final : forall d t s line,
  tree_ok d t = true -> finish (final_frame line t) s = Ok t.
Proof.
  intros d [tag dc v a kids] s line H.
  destruct (tree_ok_unfold _ _ _ _ _ _ H) as (_ & -> & _ & AT & _).
  unfold finish. cbn [final_frame f_attr f_tag f_decl f_value f_kids].
  destruct a as [|kv a]; [reflexivity|].
  destruct (print_attrs_snoc (kv :: a)) as [x PA]; [discriminate|].
  destruct (attr_chunk (kv :: a)) eqn:E.
  { unfold attr_chunk in E. rewrite PA in E. destruct x; discriminate. }
  rewrite <- E, parse_attrs_chunk; [reflexivity|discriminate|apply doc_attrs_attrs, AT].
Qed.

(* at any depth, before any continuation of the stream: the loop consumes exactly the printed
   element and stops with the element's parts in its frame *)
Definition el_round_trip (t : el) : Prop :=
  forall d rest line, tree_ok d t = true ->
    yields d init_frame (G (print_el t ++ rest) line) (Ok (final_frame line t, G rest line)).

(* one child element seen from the parent in state value *)
Lemma run_kid : forall k, el_round_trip k ->
  forall d otag ctag val attr dec start tg vl dc kids prev rest line r,
  tree_ok (S d) k = true ->
  yields d (mkF Svalue otag ctag val attr dec start tg vl dc (kids ++ [k]) 60) (G rest line) r ->
  yields d (mkF Svalue otag ctag val attr dec start tg vl dc kids prev) (G (print_el k ++ rest) line) r.
Proof.
  intros k RT. intros until r; intros TK.
  specialize (RT (S d) rest line TK).
  destruct k as [tag dc' v a kids'].
  destruct (tree_ok_unfold _ _ _ _ _ _ TK) as (TG & _ & _ & _ & DP & _).
  destruct (tag_ok_facts tag TG) as (TNM & _ & TE).
  destruct tag as [|c2 tag]; [discriminate|].
  apply forallb_cons in TNM as [NC _].
  cbn [print_el app] in *.
  refine (yields_child _ _ _ _ _ (mkF Svalue otag ctag val attr dec start tg vl dc kids 60) _ _ _ _ _
            _ _ _ _ RT (finish_final (S d) _ _ _ TK) TE); try reflexivity.
  name_facts c2 NC.
  frame_cbn. cbn [N.eqb Pos.eqb speek sgood s_eof s_fail negb andb s_rest opt_is]. rw_false.
  replace (Nat.ltb MaxDepth (S d)) with false; [reflexivity|].
  symmetry. apply Nat.ltb_ge, Nat.leb_le, DP.
Qed.

Lemma run_kids : forall ks, Forall el_round_trip ks ->
  forall d otag ctag val attr dec start tg vl dc kids prev rest line r,
  forallb (tree_ok (S d)) ks = true ->
  (forall prev', yields d (mkF Svalue otag ctag val attr dec start tg vl dc (kids ++ ks) prev') (G rest line) r) ->
  yields d (mkF Svalue otag ctag val attr dec start tg vl dc kids prev)
         (G (flat_map print_el ks ++ rest) line) r.
Proof.
  induction 1 as [|k ks RT _ IH]; intros until r; intros TK Y.
  - specialize (Y prev). rewrite app_nil_r in Y. exact Y.
  - apply forallb_cons in TK as [TK1 TK2].
    cbn [flat_map]. rewrite <- app_assoc.
    apply (run_kid k RT); [exact TK1|]. apply IH; [exact TK2|].
    intros prev'. rewrite <- app_snoc. apply Y.
Qed.

Lemma el_ind_nested (P : el -> Prop) :
  (forall tag dc v a kids, Forall P kids -> P (El tag dc v a kids)) -> forall t, P t.
Proof.
  intros H. fix IH 1. intros [tag dc v a kids]. apply H.
  induction kids as [|k ks IHk]; constructor; [apply IH|exact IHk].
Qed.

Lemma text_ok_facts : forall v, text_ok v = true ->
  forallb plain_char (escape (opt_str v)) = true /\
  (if negb (is_empty (escape (opt_str v))) && has_nonblank (escape (opt_str v))
   then Some (xlate (escape (opt_str v))) else None) = v.
Proof.
  intros [x|] H; cbn [opt_str text_ok] in *; [|split; reflexivity].
  apply andb_true_iff in H as [DV NB].
  pose proof (doc_value_text _ DV) as TC.
  split; [apply escape_plain; exact TC|].
  rewrite (escape_nonblank x TC NB), xlate_escape by (apply doc_value_value; exact DV).
  destruct x as [|c x]; [discriminate|]. cbn [escape flat_map].
  destruct (esc_byte_spec c) as [-> | (_ & m & name & -> & _)]; reflexivity.
Qed.

(* the printed element before a continuation of the stream, as one right-nested text *)
Lemma print_el_app : forall tag dc v a kids rest,
  print_el (El tag dc v a kids) ++ rest =
  60 :: tag ++ print_attrs a ++
  match v, kids with
  | None, [] => 47 :: 62 :: rest
  | _, _ => 62 :: escape (opt_str v) ++ flat_map print_el kids ++ 60 :: 47 :: tag ++ 62 :: rest
  end.
Proof.
  intros. cbn [print_el app]. rewrite <- !app_assoc. do 3 f_equal.
  destruct v, kids; cbn [app]; rewrite <- ?app_assoc; cbn [app]; rewrite <- ?app_assoc; reflexivity.
Qed.

Lemma all_round_trip : forall t, el_round_trip t.
Proof.
  induction t as [tag dc v a kids IHK] using el_ind_nested.
  intros d rest line TK.
  destruct (tree_ok_unfold _ _ _ _ _ _ TK) as (TG & -> & TX & AT & _ & KD).
  destruct (text_ok_facts v TX) as (TPL & TVAL).
  rewrite print_el_app. cbn [final_frame].
  apply run_open; [exact TG|exact AT|]. intros prev.
  (* <tag attrs>text children</tag> *)
  assert (FULL : yields d (with_prev (open_frame line tag a) prev)
            (G (62 :: escape (opt_str v) ++ flat_map print_el kids ++ 60 :: 47 :: tag ++ 62 :: rest) line)
            (Ok (mkF Sfinished tag tag (escape (opt_str v)) (attr_chunk a) [] line tag v None kids 62,
                 G rest line))).
  { apply run_gt, phase_value_text; [exact TPL|]. intros prev1.
    apply (run_kids kids IHK); [exact KD|]. intros prev2.
    pose proof (run_close d tag (escape (opt_str v)) (attr_chunk a) kids prev2 rest line TG) as R.
    rewrite TVAL in R. exact R. }
  destruct v as [x|]; [exact FULL|]. destruct kids as [|k ks]; [|exact FULL].
  (* <tag attrs/> *)
  apply run_selfclose, TG.
Qed.

Lemma c32_tree_partial_lemma : forall t, tree_ok 0 t = true -> parse_doc (print_el t) = Ok t.
Proof.
  intros t H. unfold parse_doc.
  pose proof (all_round_trip t 0%nat [] 1 H) as R. rewrite app_nil_r in R.
  rewrite (yields_loop _ _ _ _ _ R (loop_doc_fuel _)).
  apply (finish_final 0%nat), H.
Qed.

(* the trees of c32_tree_partial are trees of c32_find_exact (delimiter '/') *)
Lemma tree_ok_find_tags : forall t d, tree_ok d t = true -> find_tags_ok 47 t = true.
Proof.
  induction t as [tag dc v a kids IHK] using el_ind_nested. intros d H.
  destruct (tree_ok_unfold _ _ _ _ _ _ H) as (TG & _ & _ & _ & _ & KD).
  destruct (tag_ok_facts tag TG) as (TNM & _ & TEMP).
  assert (NS : mem_byte 47 tag = false).
  { clear - TNM. induction tag as [|c tag IH]; [reflexivity|].
    apply forallb_cons in TNM as [C T].
    destruct (name_char_facts c C) as (_ & _ & _ & F4 & _).
    cbn [mem_byte]. rewrite (N.eqb_sym 47 c), F4. exact (IH T). }
  assert (NR : starts_with [47; 47] tag = false).
  { destruct tag as [|c tag]; [reflexivity|]. cbn [mem_byte starts_with] in *. lia. }
  cbn [find_tags_ok]. rewrite TEMP, NS, NR. cbn [negb andb].
  rewrite forallb_forall in *. rewrite Forall_forall in IHK.
  intros k IN. exact (IHK k IN (S d) (KD k IN)).
Qed.

(* the tree of c32_nonvacuous *)
Definition sample_tree : el :=
  El (bs "cfg") None (Some (bs " a<b & c> "))
     [(bs "name", bs "x""y'z>&"); (bs "v.1", bs "&l; &#; &lt")]
     [El (bs "item") None None [(bs "id", bs "1")] [];
      El (bs "ns:other") None (Some (bs "'")) [] [];
      El (bs "item") None (Some (bs "t")) [(bs "id", bs "2")]
         [El (bs "leaf-1") None None [] []; El (bs "item") None None [] []]].
