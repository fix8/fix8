(* C04: what the soundness invariants (SoundProofs) and the lockstep with the spec (ExactProofs)
   share: [put], the relation [tracks] between an object and the tags seen so far, what wf_ctx
   provides, the one-step equation of the message loop, the freshly constructed parts. *)
From Coq Require Import NArith ZArith List Bool Lia Permutation.
From F8 Require Import Codec.Bytes Codec.Meta Codec.Extract Codec.Decode Codec.Lemmas C04.Spec_C04 C04.Strict C04.Sound.
Import ListNotations.
Local Open Scope N_scope.

Lemma bind_ok {A B} (r : res A) (f : A -> res B) b : bind r f = Ok b -> exists a, r = Ok a /\ f a = Ok b.
Proof. destruct r; try discriminate. intros H. eauto. Qed.

Lemma memN_In x l : memN x l = true <-> In x l.
Proof.
  unfold memN. rewrite existsb_exists. split.
  - intros (y & Hy & E). apply N.eqb_eq in E. subst. assumption.
  - intros H. exists x. split; [assumption | apply N.eqb_refl].
Qed.
Lemma nodupN_NoDup l : nodupN l = true -> NoDup l.
Proof.
  induction l as [|x r IH]; cbn [nodupN]; [constructor|].
  intros H. apply andb_true_iff in H. destruct H as [H1 H2]. constructor; [|auto].
  intros Hin. apply memN_In in Hin. rewrite Hin in H1. discriminate.
Qed.

(* the one way decode, decode_group and the header / trailer constructors add a field *)
Definition put (m : mbase) (f p : N) (v : list N) : mbase := mark_present (add_field_decoder m f p v) f.

Lemma fp_put m f p v : mb_fp (put m f p v) = upd_trait (set_present true) (mb_fp m) f.
Proof. destruct m; reflexivity. Qed.
Lemma pos_put m f p v : mb_pos (put m f p v) = pos_insert p (f, v) (mb_pos m).
Proof. destruct m; reflexivity. Qed.
Lemma subs_put m f p v : mb_subs (put m f p v) = mb_subs m.
Proof. destruct m; reflexivity. Qed.
Lemma groups_put m f p v : mb_groups (put m f p v) = mb_groups m.
Proof. destruct m; reflexivity. Qed.
Lemma fields_put m f p v : mb_fields (put m f p v) <> [].
Proof.
  destruct m as [fp subs fields pos groups unk]. cbn. destruct fields as [|[k' v'] r]; cbn [map_insert]; [discriminate|].
  destruct (f <? k'); [discriminate|]. destruct (f =? k'); discriminate.
Qed.

Lemma fp_wg m v : mb_fp (with_groups m v) = mb_fp m. Proof. destruct m; reflexivity. Qed.
Lemma pos_wg m v : mb_pos (with_groups m v) = mb_pos m. Proof. destruct m; reflexivity. Qed.
Lemma subs_wg m v : mb_subs (with_groups m v) = mb_subs m. Proof. destruct m; reflexivity. Qed.
Lemma groups_wg m v : mb_groups (with_groups m v) = v. Proof. destruct m; reflexivity. Qed.
Lemma fields_wg m v : mb_fields (with_groups m v) = mb_fields m. Proof. destruct m; reflexivity. Qed.
Lemma wg_id m : with_groups m (mb_groups m) = m. Proof. destruct m; reflexivity. Qed.

Lemma pos_insert_k_perm {A} p (x : A) l : Permutation (pos_insert_k p x l) ((p, x) :: l).
Proof.
  induction l as [|[q y] r IH]; cbn; [reflexivity|].
  destruct (p <? q); [reflexivity|]. rewrite IH. apply perm_swap.
Qed.
Lemma pos_tags_put m f p v : Permutation (pos_tags (put m f p v)) (f :: pos_tags m).
Proof.
  unfold pos_tags, tags_of. rewrite pos_put. unfold pos_insert. rewrite pos_insert_k_perm. reflexivity.
Qed.

Lemma strip_inv t t' : strip t = strip t' -> t = set_present (t_present t) t'.
Proof. destruct t, t'. cbn. intros H. injection H; intros; subst; reflexivity. Qed.
Lemma same_table_find fp ts f : same_table fp ts ->
  match find_trait fp f with
  | Some tr => exists tr' b, find_trait ts f = Some tr' /\ tr = set_present b tr'
  | None => find_trait ts f = None
  end.
Proof.
  unfold same_table. revert ts. induction fp as [|x r IH]; intros [|y s] H; try discriminate H; [reflexivity|].
  cbn [map] in H. assert (Hxy : strip x = strip y) by congruence. assert (Hrs : map strip r = map strip s) by congruence.
  apply strip_inv in Hxy. cbn [find_trait].
  assert (En : t_fnum x = t_fnum y) by (rewrite Hxy; reflexivity). rewrite En.
  destruct (t_fnum y =? f); [exists y, (t_present x); split; [reflexivity | exact Hxy] | apply IH; exact Hrs].
Qed.
Lemma same_table_mark fp ts f : same_table fp ts -> same_table (upd_trait (set_present true) fp f) ts.
Proof.
  unfold same_table. intros <-. induction fp as [|x r IH]; cbn [upd_trait map]; [reflexivity|].
  destruct (t_fnum x =? f); cbn [map]; [destruct x; reflexivity | rewrite IH; reflexivity].
Qed.
Lemma same_table_fnums fp ts : same_table fp ts -> map t_fnum fp = map t_fnum ts.
Proof.
  assert (E : forall l, map t_fnum (map strip l) = map t_fnum l)
    by (intros l; rewrite map_map; apply map_ext; intros []; reflexivity).
  unfold same_table. intros H. rewrite <- (E fp), H. apply E.
Qed.

Lemma present_mark fp f tr f' :
  find_trait fp f = Some tr ->
  (present_in (upd_trait (set_present true) fp f) f' <-> f' = f \/ present_in fp f').
Proof.
  intros Hf. unfold present_in. rewrite find_trait_upd by reflexivity.
  destruct (N.eqb_spec f' f) as [->|Hne].
  - rewrite Hf. split; [intros _; left; reflexivity|]. intros _. exists (set_present true tr). split; reflexivity.
  - split; [intros H; right; exact H|]. intros [H|H]; [congruence | exact H].
Qed.

Lemma find_missing_none ts : find_missing ts = None <-> forall x, In x ts -> t_mand x = true -> t_present x = true.
Proof.
  induction ts as [|y r IH]; cbn [find_missing]; [split; [intros _ x [] | reflexivity]|].
  destruct (t_mand y && negb (t_present y)) eqn:E.
  - split; [discriminate|]. intros H. apply andb_true_iff in E. destruct E as [E1 E2].
    apply negb_true_iff in E2. rewrite (H y (or_introl eq_refl) E1) in E2. discriminate.
  - rewrite IH. split.
    + intros H x [<-|Hin] Hm; [|auto]. rewrite Hm in E. cbn in E. apply negb_false_iff in E. assumption.
    + intros H x Hin. apply H. right. assumption.
Qed.

(* the soundness invariants take seen := the tags of m's position list, the lockstep the spec's
   own list of tags seen *)
Definition tracks (g : gmeta) (m : mbase) (seen : list N) : Prop :=
  same_table (mb_fp m) (g_traits g) /\ mb_subs m = g_subs g /\ forall f, In f seen <-> present_in (mb_fp m) f.

Lemma tracks_put g m seen f tr p v :
  tracks g m seen -> find_trait (mb_fp m) f = Some tr -> tracks g (put m f p v) (f :: seen).
Proof.
  intros (H1 & H2 & H3) Hf. unfold tracks. rewrite fp_put, subs_put.
  split; [apply same_table_mark; exact H1|]. split; [exact H2|].
  intros f'. rewrite (present_mark _ _ _ f' Hf), <- (H3 f'). cbn [In].
  split; (intros [E|E]; [left; congruence | right; exact E]).
Qed.
Lemma tracks_wg g m seen gs : tracks g m seen -> tracks g (with_groups m gs) seen.
Proof. unfold tracks. rewrite fp_wg, subs_wg. trivial. Qed.
Lemma tracks_ext g m a b : (forall f, In f a <-> In f b) -> tracks g m a -> tracks g m b.
Proof. intros E (H1 & H2 & H3). split; [exact H1|]. split; [exact H2|]. intros f. rewrite <- (E f). apply H3. Qed.
Lemma tracks_put_pos g m f tr p v :
  tracks g m (pos_tags m) -> find_trait (mb_fp m) f = Some tr -> tracks g (put m f p v) (pos_tags (put m f p v)).
Proof.
  intros H Hf. apply (tracks_ext _ _ (f :: pos_tags m)); [|eapply tracks_put; eassumption].
  intros f'. pose proof (pos_tags_put m f p v) as HP.
  split; [apply Permutation_in; symmetry; exact HP | apply Permutation_in; exact HP].
Qed.

Lemma tracks_find g m seen f : tracks g m seen ->
  find_trait (mb_fp m) f = option_map (set_present (memN f seen)) (find_trait (g_traits g) f).
Proof.
  intros (Hst & _ & Hseen). pose proof (same_table_find _ _ f Hst) as E.
  destruct (find_trait (mb_fp m) f) as [tr0|] eqn:Hf; [|rewrite E; reflexivity].
  destruct E as (tr & b & -> & ->). cbn [option_map]. do 2 f_equal. change b with (t_present (set_present b tr)).
  destruct (memN f seen) eqn:E.
  - apply memN_In, Hseen in E. destruct E as (tr' & Hf' & Hp). congruence.
  - destruct (t_present (set_present b tr)) eqn:Hp; [|reflexivity].
    assert (E2 : memN f seen = true) by (apply memN_In, Hseen; eexists; eauto). congruence.
Qed.

Lemma map_find_insert {A} f (v : A) gs : exists l, map_find f (map_insert f v gs) = Some l.
Proof.
  induction gs as [|[k w] r IH]; cbn [map_insert].
  - exists v. cbn [map_find]. rewrite N.eqb_refl. reflexivity.
  - destruct (f <? k) eqn:E1.
    + exists v. cbn [map_find]. rewrite N.eqb_refl. reflexivity.
    + destruct (f =? k) eqn:E2.
      * exists w. cbn [map_find]. rewrite E2. reflexivity.
      * destruct IH as (l & Hl). exists l. cbn [map_find]. rewrite E2. exact Hl.
Qed.
Lemma Forall_map_insert {A} (Q : N * A -> Prop) k v l :
  Forall Q l -> Q (k, v) -> Forall Q (map_insert k v l).
Proof.
  intros Hl Hq. induction l as [|[k' v'] r IH]; cbn [map_insert]; [constructor; [assumption | constructor]|].
  inversion Hl; subst.
  destruct (k <? k'); [constructor; assumption|].
  destruct (k =? k'); [assumption|]. constructor; [assumption | apply IH; assumption].
Qed.
Lemma Forall_map_set {A} (R : N -> A -> Prop) k v (l : list (N * A)) :
  Forall (fun g => R (fst g) (snd g)) l -> R k v -> Forall (fun g => R (fst g) (snd g)) (map_set k v l).
Proof.
  intros Hl Hq. induction l as [|[k' v'] r IH]; cbn [map_set]; [constructor|].
  inversion Hl; subst.
  destruct (k =? k') eqn:E.
  - apply N.eqb_eq in E. subst. constructor; assumption.
  - constructor; [assumption | apply IH; assumption].
Qed.

Lemma deep_unfold P m :
  deep P m <-> Forall (fun g => Forall (fun e => P (mb_subs m) (fst g) e /\ deep P e) (snd g)) (mb_groups m).
Proof.
  destruct m as [fp subs fields pos groups unk]. cbn [deep mb_subs mb_groups].
  induction groups as [|g r IH].
  - split; [constructor | trivial].
  - split.
    + intros [Hg Hr]. constructor; [|apply IH; exact Hr].
      clear IH Hr. induction (snd g) as [|e es IHe]; [constructor|].
      destruct Hg as [He Hes]. constructor; [exact He | apply IHe; exact Hes].
    + intros H. inversion H as [|? ? Hg Hr]; subst. split; [|apply IH; exact Hr].
      clear IH Hr H. induction (snd g) as [|e es IHe]; [exact I|].
      inversion Hg; subst. split; [assumption | apply IHe; assumption].
Qed.
Lemma elems_sound_put m f p v : elems_sound m -> elems_sound (put m f p v).
Proof. unfold elems_sound. rewrite !deep_unfold, subs_put, groups_put. trivial. Qed.

Lemma wf_table_unfold c elem g :
  wf_table c elem g = true ->
  nodupN (map t_fnum (g_traits g)) = true /\
  forallb (trait_ok c (g_subs g) elem) (g_traits g) = true /\
  (forall f sg, find_sub (g_subs g) f = Some sg -> wf_table c true sg = true).
Proof.
  destruct g as [ts subs d]. cbn [wf_table g_traits g_subs]. rewrite !andb_true_iff. intros ((Hn & Hf) & Hs).
  split; [assumption|]. split; [exact Hf|].
  clear Hn Hf. induction subs as [|[k sg] r IH]; intros f sg' Hfs; cbn [find_sub] in Hfs; [discriminate|].
  apply andb_true_iff in Hs. destruct Hs as [H1 H2].
  destruct (k =? f); [injection Hfs as <-; assumption | eapply IH; eassumption].
Qed.

Lemma wf_trait c elem g f tr :
  wf_table c elem g = true -> find_trait (g_traits g) f = Some tr ->
  f < 65536 /\ find_be (c_fields c) f = Some (t_ftype tr) /\
  (t_group tr = true -> is_int_type (t_ftype tr) = true /\
                        exists sg, find_sub (g_subs g) f = Some sg /\ wf_table c true sg = true) /\
  (elem = true -> t_haspos tr = true /\ t_auto tr = false /\ t_present tr = false).
Proof.
  intros Hwf Hf. destruct (wf_table_unfold _ _ _ Hwf) as (_ & Hall & Hsubs).
  destruct (find_trait_In _ _ _ Hf) as [Hin Hn].
  rewrite forallb_forall in Hall. specialize (Hall _ Hin). unfold trait_ok in Hall.
  rewrite Hn, !andb_true_iff in Hall. destruct Hall as (((H1 & H2) & H3) & H4).
  split; [apply N.ltb_lt; exact H1|]. split; [|split].
  - destruct (find_be (c_fields c) f) as [ty|]; [|discriminate]. apply N.eqb_eq in H2. congruence.
  - intros Hg. rewrite Hg in H3. cbn [negb orb] in H3. apply andb_true_iff in H3. destruct H3 as [H3 H5].
    split; [assumption|]. destruct (find_sub (g_subs g) f) as [sg|] eqn:E; [|discriminate].
    exists sg. split; [reflexivity | eapply Hsubs; eassumption].
  - intros ->. cbn [negb orb] in H4. rewrite !andb_true_iff, !negb_true_iff in H4. tauto.
Qed.

Definition subs_wf (c : ctx) (subs : list (N * gmeta)) : Prop :=
  forall f sg, find_sub subs f = Some sg -> wf_table c true sg = true.
Lemma tracks_subs_wf c elem g m seen : wf_table c elem g = true -> tracks g m seen -> subs_wf c (mb_subs m).
Proof. intros Hwf (_ & -> & _) f sg. apply (wf_table_unfold _ _ _ Hwf). Qed.

Lemma mand_rel c elem g m seen :
  wf_table c elem g = true -> tracks g m seen -> (find_missing (mb_fp m) = None <-> mand_ok g seen = true).
Proof.
  intros Hwf Htr. destruct (wf_table_unfold _ _ _ Hwf) as (Hnd & _ & _). apply nodupN_NoDup in Hnd.
  assert (Hnd' : NoDup (map t_fnum (mb_fp m))) by (rewrite (same_table_fnums _ _ (proj1 Htr)); exact Hnd).
  rewrite find_missing_none. unfold mand_ok. rewrite forallb_forall. split.
  - intros H tr Hin. destruct (t_mand tr) eqn:Hm; [|reflexivity].
    pose proof (tracks_find _ _ _ (t_fnum tr) Htr) as E. rewrite (In_find_trait _ _ Hnd Hin) in E.
    destruct (find_trait_In _ _ _ E) as [Hinx _]. exact (H _ Hinx Hm).
  - intros H x Hin Hm. pose proof (tracks_find _ _ _ (t_fnum x) Htr) as E. rewrite (In_find_trait _ _ Hnd' Hin) in E.
    destruct (find_trait (g_traits g) (t_fnum x)) as [tr|] eqn:Hf; [|discriminate]. injection E as E.
    destruct (find_trait_In _ _ _ Hf) as [Hintr Hn]. specialize (H _ Hintr).
    rewrite E in Hm |- *. cbn [set_present t_mand t_present] in Hm |- *. rewrite Hm, Hn in H. exact H.
Qed.
(* the form in which both loops use it: on the outcome of the spec's test *)
Lemma mand_cases c elem g m seen :
  wf_table c elem g = true -> tracks g m seen ->
  if mand_ok g seen then find_missing (mb_fp m) = None else exists f, find_missing (mb_fp m) = Some f.
Proof.
  intros Hwf Htr. destruct (mand_rel c elem g m seen Hwf Htr) as [H1 H2].
  destruct (mand_ok g seen); [exact (H2 eq_refl)|].
  destruct (find_missing (mb_fp m)) as [f|]; [exists f; reflexivity | discriminate (H1 eq_refl)].
Qed.

Lemma find_msg_In ms ty md : find_msg ms ty = Some md -> In md ms.
Proof.
  induction ms as [|x r IH]; cbn [find_msg]; [discriminate|].
  destruct (list_eqb (md_type x) ty); [intros H; injection H as <-; left; reflexivity | intros H; right; auto].
Qed.

Lemma wf_body_table c g : wf_body c g = true ->
  wf_table c false g = true /\ forall tr, In tr (g_traits g) -> t_present tr = false /\ t_auto tr = false.
Proof.
  unfold wf_body. rewrite andb_true_iff, forallb_forall. intros [H1 H2]. split; [exact H1|].
  intros tr Hin. specialize (H2 _ Hin). rewrite andb_true_iff, !negb_true_iff in H2. exact H2.
Qed.

Lemma wf_ctx_all c : wf_ctx c = true ->
  wf_table c false (c_header c) = true /\ wf_table c false (c_trailer c) = true /\
  init_ok (c_header c) (c_hdr_init c) = true /\ init_ok (c_trailer c) (c_trl_init c) = true /\
  (exists p1 p2 p3 v9 v35, c_hdr_init c = [(p1, (8, c_begin c)); (p2, (9, v9)); (p3, (35, v35))]) /\
  (exists p4 v10, c_trl_init c = [(p4, (10, v10))]) /\
  forallb (fun tr => negb (t_group tr)) (g_traits (c_trailer c)) = true /\
  (forall md, In md (c_msgs c) -> wf_body c (md_meta md) = true).
Proof.
  unfold wf_ctx. rewrite !andb_true_iff. intros (((((((((A1 & A2) & A3) & A4) & A5) & A6) & A7) & _) & A9) & A10).
  apply list_eqb_eq in A5, A6.
  repeat (split; [assumption|]). split; [|split; [|split; [assumption|]]].
  - destruct (c_hdr_init c) as [|[p1 [f1 v1]] [|[p2 [f2 v2]] [|[p3 [f3 v3]] [|x l]]]]; try discriminate A5.
    injection A5 as -> -> ->. apply list_eqb_eq in A7. subst v1. eauto 6.
  - destruct (c_trl_init c) as [|[p4 [f4 v4]] [|x l]]; try discriminate A6. injection A6 as ->. eauto.
  - intros md Hin. rewrite forallb_forall in A10. auto.
Qed.

Lemma dec_loop_strict_S c cp from fsize gfuel fuel m off pos lvp lvo tb :
  dec_loop c cp from fsize false gfuel (S fuel) m off pos lvp lvo tb =
  if off <=? fsize then
    match tok_at cp from fsize off with
    | XOOB s => OOB s
    | XFail _ _ => dec_finish false m off pos lvp lvo
    | XOk tag val result =>
      let tb1 := tagbuf_after tag tb in
      let tv := fast_atoi_u16 tag in
      match find_trait (mb_fp m) tv with
      | None => dec_finish false m off pos lvp lvo
      | Some tr =>
        if t_present tr then
          if t_auto tr then dec_loop c cp from fsize false gfuel fuel m (off + result) pos lvp lvo tb1
          else Exc (EDuplicateField tv)
        else
          match find_be (c_fields c) tv with
          | None => Exc (EUnknownField tv)
          | Some _ =>
            let pos1 := (pos + 1) mod 4294967296 in
            bind (opt_group c cp from fsize gfuel (put m tv pos1 (cstr val)) tr tv (cstr val) (off + result))
            (fun '(m2, off2) =>
              if negb (t_ftype tr =? ft_Length) || (tv =? Common_BodyLength)
              then dec_loop c cp from fsize false gfuel fuel m2 off2 pos1 lvp lvo tb1
              else
                (* a Length field: the next token is read with the fixed width and, if it is the
                   data field of the pair, added without the duplicate test *)
                if MAX_FLD_LENGTH - 1 <? fast_atoi_u32 val then Exc EValueTooLarge
                else match extract_element_fixed_width (skipN off2 from) (fsize - off2) (fast_atoi_u32 val)
                                                       (cap_tag cp) (cap_val cp) with
                | XOOB s => OOB s
                | XFail _ _ => Exc EFixedWidth
                | XOk tag2 val2 result2 =>
                  let tb2 := tagbuf_after_fw tag2 tb1 in
                  match cstr_known tb2 with
                  | None => OOB site_uninit_tag
                  | Some tagstr =>
                    let tv2 := fast_atoi_u16 tagstr in
                    match find_trait (mb_fp m2) tv2 with
                    | None => dec_finish false m2 off2 pos1 lvp lvo
                    | Some tr2 =>
                        if negb (t_ftype tr2 =? ft_data) || negb (tv + 1 =? tv2)
                        then dec_loop c cp from fsize false gfuel fuel m2 off2 pos1 lvp lvo tb2
                        else
                          match find_be (c_fields c) tv2 with
                          | None => Exc (EUnknownField tv2)
                          | Some _ =>
                            let pos2 := (pos1 + 1) mod 4294967296 in
                            bind (opt_group c cp from fsize gfuel (put m2 tv2 pos2 (cstr val2)) tr2 tv2 (cstr val2)
                                            (off2 + result2))
                                 (fun '(m4, off4) => dec_loop c cp from fsize false gfuel fuel m4 off4 pos2 lvp lvo tb2)
                          end
                    end
                  end
                end)
          end
      end
    end
  else dec_finish false m off pos lvp lvo.
Proof. reflexivity. Qed.

Lemma dec_finish_ok m off pos lvp lvo m' off' :
  dec_finish false m off pos lvp lvo = Ok (m', off') -> m' = m /\ find_missing (mb_fp m) = None.
Proof.
  unfold dec_finish. destruct (find_missing (mb_fp m)); [discriminate|].
  intros H; injection H as <- _. auto.
Qed.

Lemma deep_groups_sound g d : elems_sound (create_group g d).
Proof.
  apply deep_unfold. cbn [create_group mb_groups mb_subs]. unfold deep_groups. destruct (d && g_deep g); [|constructor].
  generalize (g_subs g) at 1. intros subs'.
  induction (g_subs g) as [|s r IH]; cbn [fold_right]; [constructor|].
  apply Forall_map_insert; [exact IH | constructor].
Qed.
Lemma tracks_create g d : (forall f, ~ present_in (g_traits g) f) -> tracks g (create_group g d) [].
Proof.
  intros H. split; [reflexivity|]. split; [reflexivity|]. intros f. split; [intros [] | intros Hp; exact (H f Hp)].
Qed.
Lemma wf_elem_not_present c g f : wf_table c true g = true -> ~ present_in (g_traits g) f.
Proof.
  intros Hwf (tr & Hf & Hp). destruct (wf_trait _ _ _ _ _ Hwf Hf) as (_ & _ & _ & He).
  destruct (He eq_refl) as (_ & _ & Hnp). congruence.
Qed.
Lemma wf_body_not_present c g f : wf_body c g = true -> ~ present_in (g_traits g) f.
Proof.
  intros Hwf (tr & Hf & Hp). destruct (wf_body_table _ _ Hwf) as [_ H].
  destruct (find_trait_In _ _ _ Hf) as [Hin _]. destruct (H _ Hin). congruence.
Qed.

Lemma fold_init g : forall init m,
  same_table (mb_fp m) (g_traits g) ->
  (forall f, In f (tags_of init) -> find_trait (g_traits g) f <> None) ->
  let m' := fold_left add_init init m in
  same_table (mb_fp m') (g_traits g) /\ mb_subs m' = mb_subs m /\ mb_groups m' = mb_groups m /\
  Permutation (map snd (mb_pos m')) (map snd (mb_pos m) ++ map snd init) /\
  (forall f, present_in (mb_fp m') f <-> In f (tags_of init) \/ present_in (mb_fp m) f).
Proof.
  induction init as [|[p [f v]] r IH]; intros m Hst Htab; cbn [fold_left map tags_of].
  - rewrite app_nil_r. repeat split; try reflexivity; try assumption; [right; assumption | intros [[]|H]; exact H].
  - change (add_init m (p, (f, v))) with (put m f p v).
    assert (Hf : exists tr, find_trait (mb_fp m) f = Some tr).
    { pose proof (same_table_find _ _ f Hst) as E. destruct (find_trait (mb_fp m) f); [eauto|].
      exfalso. apply (Htab f); [left; reflexivity | exact E]. }
    destruct Hf as (tr & Hf).
    destruct (IH (put m f p v)) as (A & B & C & D & E).
    { rewrite fp_put. apply same_table_mark. exact Hst. }
    { intros f' Hin. apply Htab. right. exact Hin. }
    rewrite subs_put in B. rewrite groups_put in C. rewrite pos_put in D. rewrite fp_put in E.
    split; [exact A|]. split; [exact B|]. split; [exact C|]. split.
    + rewrite D. unfold pos_insert. rewrite pos_insert_k_perm. cbn [map snd fst app]. apply Permutation_middle.
    + intros f'. rewrite E, (present_mark _ _ _ f' Hf). cbn [fst snd In]. intuition congruence.
Qed.

Lemma init_ok_facts g init : init_ok g init = true ->
  NoDup (tags_of init) /\
  (forall f, In f (tags_of init) ->
     exists tr, find_trait (g_traits g) f = Some tr /\ t_group tr = false /\ t_mand tr = false /\ t_auto tr = true) /\
  (forall f tr, find_trait (g_traits g) f = Some tr -> ~ In f (tags_of init) -> t_auto tr = false /\ t_present tr = false).
Proof.
  unfold init_ok. cbv zeta. fold (tags_of init). rewrite !andb_true_iff, !forallb_forall. intros ((H1 & H2) & H3).
  split; [apply nodupN_NoDup; exact H1|].
  assert (H3' : forall f tr, find_trait (g_traits g) f = Some tr ->
                  t_auto tr = memN f (tags_of init) /\ (t_present tr = true -> memN f (tags_of init) = true)).
  { intros f tr Hf. destruct (find_trait_In _ _ _ Hf) as [Htr Hn]. specialize (H3 _ Htr).
    rewrite Hn, andb_true_iff in H3. destruct H3 as [A B]. apply eqb_prop in A. split; [exact A|].
    intros Hp. rewrite Hp in B. exact B. }
  split.
  - intros f Hin. specialize (H2 _ Hin). destruct (find_trait (g_traits g) f) as [tr|] eqn:Hf; [|discriminate].
    exists tr. rewrite !andb_true_iff, !negb_true_iff in H2. destruct (H3' f tr Hf) as [-> _].
    split; [reflexivity|]. split; [apply H2|]. split; [apply H2 | apply memN_In; exact Hin].
  - intros f tr Hf Hnin. destruct (H3' f tr Hf) as [A B].
    destruct (memN f (tags_of init)) eqn:Em; [apply memN_In in Em; contradiction|].
    split; [exact A|]. destruct (t_present tr); [discriminate (B eq_refl) | reflexivity].
Qed.

Lemma mk_part_facts c g init : wf_table c false g = true -> init_ok g init = true ->
  let m := mk_part g init true in
  tracks g m (tags_of init) /\ Permutation (map snd (mb_pos m)) (map snd init) /\ mb_groups m = deep_groups g true.
Proof.
  intros Hwf Hio. destruct (init_ok_facts _ _ Hio) as (_ & Hin & Hout). cbv zeta. unfold mk_part.
  destruct (fold_init g init (create_group g true)) as (A & B & C & D & E); [reflexivity | |].
  { intros f Hf. destruct (Hin f Hf) as (tr & -> & _). discriminate. }
  split; [|split; [exact D | exact C]]. split; [exact A|]. split; [exact B|].
  intros f. rewrite E. split; [left; assumption|]. intros [H|(tr & Hf & Hp)]; [exact H|].
  destruct (in_dec N.eq_dec f (tags_of init)) as [Hi|Hi]; [exact Hi|].
  destruct (Hout f tr Hf Hi) as [_ Hnp]. cbn [create_group mb_fp] in Hf. congruence.
Qed.
