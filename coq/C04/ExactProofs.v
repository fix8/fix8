(* C04: proof of c04_exact_partial -- the decoder model and the spec's greedy parse walk the
   token list in lockstep (induction on the model's fuel; the spec's fuel is any amount above
   three units per remaining token).  The result is [exact_verdict]: what the strict decoder does
   with a framed, well-formed token list whatever the spec's verdict; c04_exact_partial is its
   reading when no token is left over. *)
From Coq Require Import NArith ZArith List Bool Lia Permutation.
From F8 Require Import C07.Chksum.
From F8 Require Import Codec.Bytes Codec.Meta Codec.Extract Codec.Decode Codec.Lemmas
                       C04.Spec_C04 C04.Strict C04.Tokens C04.Sound C04.Exact
                       C04.BytesFacts C04.DecodeFacts C04.SoundProofs.
Import ListNotations.
Local Open Scope N_scope.

Definition throws {A} (r : res A) : Prop := exists e, r = Exc e.
Lemma throws_bind {A B} (r : res A) (f : A -> res B) : throws r -> throws (bind r f).
Proof. intros (e & ->). exists e. reflexivity. Qed.

Lemma val_ok_facts v : val_ok v = true ->
  no_soh v /\ lenN v < 2048 /\ no_nul v /\ Forall (fun b => b < 256) v.
Proof.
  unfold val_ok. rewrite andb_true_iff, forallb_forall, N.ltb_lt. intros [H Hl].
  assert (Hall : forall b, In b v -> (b =? SOH) = false /\ (b =? 0) = false /\ b < 256).
  { intros b Hb. specialize (H b Hb). rewrite !andb_true_iff, !negb_true_iff, N.ltb_lt in H. tauto. }
  split; [apply Forall_forall; intros b Hb; apply Hall; assumption|]. split; [assumption|].
  split; apply Forall_forall; intros b Hb; apply Hall; assumption.
Qed.

Lemma tok_ok_facts c t : tok_ok c t = true ->
  k_tag t < 65536 /\ val_ok (k_val t) = true /\
  (is_int_type (ftype c (k_tag t)) = true -> canon_int (k_val t) = true) /\
  (ftype c (k_tag t) = ft_Length -> k_tag t = Common_BodyLength).
Proof.
  unfold tok_ok. rewrite !andb_true_iff, N.ltb_lt. intros (((H1 & H2) & H3) & H4).
  split; [assumption|]. split; [assumption|]. split.
  - intros Hi. rewrite Hi in H3. exact H3.
  - intros Hl. rewrite Hl, N.eqb_refl in H4. apply negb_true_iff, negb_false_iff, N.eqb_eq in H4. exact H4.
Qed.

(* the tag as decode (16 bits) and decode_group (32 bits, then cut) read it back *)
Lemma tok_ok_tag c t : tok_ok c t = true ->
  fast_atoi_u16 (itoa_N (k_tag t)) = k_tag t /\ fast_atoi_u32 (itoa_N (k_tag t)) mod 65536 = k_tag t.
Proof.
  intros H. destruct (tok_ok_facts _ _ H) as (Ht & _).
  rewrite atoi_u16_itoa, atoi_u32_itoa, N.mod_small by lia. auto.
Qed.

Definition reads (c : ctx) (from : list N) (fsize off : N) (ts : list tok) (tail : list N) : Prop :=
  toks_ok c ts = true /\ at_toks from fsize off ts tail.

Lemma reads_nil c from fsize off tail : reads c from fsize off [] tail -> off = fsize.
Proof. intros (_ & pre & _ & _ & H). cbn in H. lia. Qed.

Lemma reads_app c from fsize off a b tail :
  reads c from fsize off (a ++ b) tail -> reads c from fsize (off + lenN (ser a)) b tail.
Proof.
  unfold reads, toks_ok. rewrite forallb_app. intros (Hok & pre & Hfrom & Hoff & Hfs).
  apply andb_true_iff in Hok. split; [apply Hok|].
  exists (pre ++ ser a). rewrite ser_app, !lenN_app in *. split; [|lia].
  rewrite Hfrom, <- !app_assoc. reflexivity.
Qed.

Lemma reads_cons c from fsize off t r tail :
  reads c from fsize off (t :: r) tail ->
  tok_ok c t = true /\ off < fsize /\
  tok_at real_caps from fsize off = XOk (itoa_N (k_tag t)) (k_val t) (lenN (ser_tok t)) /\
  cstr (k_val t) = k_val t /\
  reads c from fsize (off + lenN (ser_tok t)) r tail.
Proof.
  intros H. pose proof (reads_app c from fsize off [t] r tail H) as Hr.
  cbn [ser flat_map] in Hr. rewrite app_nil_r in Hr.
  destruct H as (Hok & pre & Hfrom & Hoff & Hfs). cbn [toks_ok forallb] in Hok. apply andb_true_iff in Hok.
  destruct Hok as [Hokt _]. destruct (tok_ok_facts _ _ Hokt) as (Htag & Hval & _).
  destruct (val_ok_facts _ Hval) as (Hsoh & Hlen & Hnz & _).
  rewrite ser_cons, lenN_app in Hfs. pose proof (lenN_ser_tok_pos t) as Hpos.
  split; [exact Hokt|]. split; [lia|]. split; [|split; [apply cstr_no_nul; exact Hnz | exact Hr]].
  unfold tok_at. rewrite Hfrom, Hoff, skipN_app, ser_cons, <- app_assoc.
  pose proof (tag_len t Htag).
  apply extract_ser_tok; [exact Hsoh | exact Hlen | change (cap_tag real_caps) with 2048; lia | lia].
Qed.

Lemma tok_at_end_real from fsize : tok_at real_caps from fsize fsize = XFail [] [].
Proof. unfold tok_at, extract_element. rewrite N.sub_diag. destruct (skipN fsize from); reflexivity. Qed.

Definition gflat (gs : list (N * list mbase)) : list (N * list N) :=
  flat_map (fun g => flat_map mflat (snd g)) gs.
Lemma mflat_eq m : mflat m = map snd (mb_pos m) ++ gflat (mb_groups m).
Proof. destruct m; reflexivity. Qed.

Lemma gflat_insert f gs : gflat (map_insert f [] gs) = gflat gs.
Proof.
  induction gs as [|[k v] r IH]; cbn [map_insert]; [reflexivity|].
  destruct (f <? k); [reflexivity|]. destruct (f =? k); [reflexivity|].
  unfold gflat in *. cbn [flat_map]. rewrite IH. reflexivity.
Qed.
Lemma gflat_set f els0 new gs :
  map_find f gs = Some els0 ->
  Permutation (gflat (map_set f (els0 ++ new) gs)) (gflat gs ++ flat_map mflat new).
Proof.
  induction gs as [|[k v] r IH]; cbn [map_find map_set]; [discriminate|].
  destruct (f =? k) eqn:E.
  - intros H; injection H as ->. unfold gflat. cbn [flat_map snd]. rewrite flat_map_app.
    rewrite <- !app_assoc. apply Permutation_app_head. apply Permutation_app_comm.
  - intros H. unfold gflat in *. cbn [flat_map snd]. rewrite <- app_assoc.
    apply Permutation_app_head. apply IH. assumption.
Qed.

Definition took (m m' : mbase) (ts : list tok) : Prop :=
  Permutation (mflat m') (mflat m ++ map tok_pair ts).

Lemma took_refl m : took m m [].
Proof. unfold took. cbn [map]. rewrite app_nil_r. reflexivity. Qed.
Lemma took_trans m m1 m2 a b : took m m1 a -> took m1 m2 b -> took m m2 (a ++ b).
Proof. unfold took. intros H1 H2. rewrite H2, H1, map_app, app_assoc. reflexivity. Qed.
Lemma took_put m t p : took m (put m (k_tag t) p (k_val t)) [t].
Proof.
  unfold took. rewrite !mflat_eq, pos_put, groups_put. unfold pos_insert. rewrite pos_insert_k_perm.
  cbn [map snd]. apply (Permutation_cons_append _ (tok_pair t)).
Qed.

Definition advance (m : mbase) (off : N) (ts : list tok) (seen : list N)
                   (m' : mbase) (off' : N) (seen' : list N) (rest : list tok) : Prop :=
  exists consumed, ts = consumed ++ rest /\ off' = off + lenN (ser consumed) /\
    took m m' consumed /\ incl seen seen'.

Lemma advance_refl m off ts seen : advance m off ts seen m off seen ts.
Proof. exists []. rewrite N.add_0_r. split; [reflexivity|]. split; [reflexivity|]. split; [apply took_refl | apply incl_refl]. Qed.

Lemma advance_step m off t cons1 r' seen m2 m' off' seen' rest :
  took m m2 (t :: cons1) ->
  advance m2 (off + lenN (ser_tok t) + lenN (ser cons1)) r' (k_tag t :: seen) m' off' seen' rest ->
  advance m off (t :: cons1 ++ r') seen m' off' seen' rest /\ seen' <> [].
Proof.
  intros Htk (cons2 & -> & -> & Htk2 & Hinc). split.
  - exists (t :: cons1 ++ cons2). split; [cbn [app]; rewrite app_assoc; reflexivity|].
    split; [rewrite ser_cons, ser_app, !lenN_app, !N.add_assoc; reflexivity|].
    split; [exact (took_trans _ _ _ (t :: cons1) cons2 Htk Htk2) | intros f Hf; apply Hinc; right; exact Hf].
  - intros E. rewrite E in Hinc. exact (Hinc (k_tag t) (or_introl eq_refl)).
Qed.

Definition sp_group (sf : nat) (g : gmeta) (tr : trait) (t : tok) (r : list tok) : option (list tok) :=
  if t_group tr && count_pos (k_val t) then
    match find_sub (g_subs g) (k_tag t) with Some sg => sp_elems sf sg r | None => None end
  else Some r.

Lemma sp_fields_S sf g in_elem seen t r :
  sp_fields (S sf) g in_elem seen (t :: r) =
  match find_trait (g_traits g) (k_tag t) with
  | None => if in_elem && isnil seen then PViol else PRest seen (t :: r)
  | Some tr =>
      if memN (k_tag t) seen then if in_elem then PRest seen (t :: r) else PViol
      else if in_elem && isnil seen && negb (t_pos tr =? 1) then PViol
      else match sp_group sf g tr t r with
           | Some r' => sp_fields sf g in_elem (k_tag t :: seen) r'
           | None => PViol
           end
  end.
Proof.
  cbn [sp_fields]. unfold sp_group. destruct (find_trait _ _) as [tr|]; [|reflexivity].
  destruct (memN _ _); [reflexivity|]. destruct (_ && _ && _); [reflexivity|].
  destruct (t_group tr && _); [|reflexivity]. destruct (find_sub _ _); [|reflexivity].
  destruct (sp_elems _ _ _); reflexivity.
Qed.

Lemma sp_plain sf g seen t r tr :
  find_trait (g_traits g) (k_tag t) = Some tr -> t_group tr = false -> memN (k_tag t) seen = false ->
  sp_fields (S sf) g false seen (t :: r) = sp_fields sf g false (k_tag t :: seen) r.
Proof. intros Hf Hg Hm. rewrite sp_fields_S, Hf, Hm. unfold sp_group. rewrite Hg. reflexivity. Qed.

Definition elem_rel (sg : gmeta) (grp : mbase) (seen : list N) (pos : N) : Prop :=
  tracks sg grp seen /\ (pos =? 0) = isnil seen /\ (seen <> [] -> mb_fields grp <> []).

(* why decode_group's inner loop stops where the spec's element ends *)
Definition stopw (seen : list N) (rest : list tok) : stop :=
  match rest with [] => SEnd | t :: _ => if memN (k_tag t) seen then SDup else SForeign end.

(* last clause: an element that starts empty consumes a token, so the outer loop's list gets shorter *)
Definition el_ok (sg : gmeta) (grp : mbase) (off : N) (ts : list tok) (seen : list N)
                 (R : res (mbase * N * N * stop)) (seen' : list N) (rest : list tok) : Prop :=
  exists grp' pos' off', R = Ok (grp', pos', off', stopw seen' rest) /\
    elem_rel sg grp' seen' pos' /\ advance grp off ts seen grp' off' seen' rest /\
    (seen = [] -> ts <> [] -> ts <> rest /\ seen' <> []).

Lemma el_ok_stop sg grp pos off ts seen why :
  elem_rel sg grp seen pos -> why = stopw seen ts -> (seen = [] -> ts = []) ->
  el_ok sg grp off ts seen (Ok (grp, pos, off, why)) seen ts.
Proof.
  intros Hrel -> Hnil. exists grp, pos, off. split; [reflexivity|]. split; [exact Hrel|].
  split; [apply advance_refl|]. intros E Hne. destruct (Hne (Hnil E)).
Qed.

Section Lockstep.
Variable c : ctx. Variable from : list N. Variable fsize : N.
Notation DGE := (dg_elem c real_caps from fsize).
Notation DGL := (dg_loop c real_caps from fsize).
Notation DGG := (decode_group c real_caps from fsize).

Definition stmtEL (mf : nat) : Prop := forall sg grp pos off ts tail seen sf,
  wf_table c true sg = true -> elem_rel sg grp seen pos -> reads c from fsize off ts tail ->
  (3 * length ts + 1 <= sf)%nat -> (3 * length ts + 1 <= mf)%nat ->
  match sp_fields sf sg true seen ts with
  | PViol => throws (DGE mf grp pos off)
  | PRest seen' rest => el_ok sg grp off ts seen (DGE mf grp pos off) seen' rest
  end.

Definition gl_ok (els : list mbase) (off : N) (ts : list tok) (R : res (list mbase * N)) (rest : list tok) : Prop :=
  exists new consumed, ts = consumed ++ rest /\ R = Ok (els ++ new, off + lenN (ser consumed)) /\
    Permutation (flat_map mflat new) (map tok_pair consumed).

Definition stmtGL (mf : nat) : Prop := forall gm els off ts tail sf,
  wf_table c true gm = true -> reads c from fsize off ts tail ->
  (3 * length ts + 2 <= sf)%nat -> (3 * length ts + 2 <= mf)%nat ->
  match sp_elems sf gm ts with
  | None => throws (DGL mf gm els off)
  | Some rest => gl_ok els off ts (DGL mf gm els off) rest
  end.

Definition stmtDL (mf : nat) : Prop := forall m f sg off ts tail sf,
  find_sub (mb_subs m) f = Some sg -> wf_table c true sg = true -> reads c from fsize off ts tail ->
  (3 * length ts + 2 <= sf)%nat -> (3 * length ts + 3 <= mf)%nat ->
  match sp_elems sf sg ts with
  | None => throws (DGG mf m f off)
  | Some rest =>
      exists gs consumed, ts = consumed ++ rest /\
        DGG mf m f off = Ok (with_groups m gs, off + lenN (ser consumed)) /\
        took m (with_groups m gs) consumed
  end.

Lemma opt_group_lockstep mf : stmtDL mf -> forall elem g m tr b t off r tail sf,
  wf_table c elem g = true -> find_trait (g_traits g) (k_tag t) = Some tr -> mb_subs m = g_subs g ->
  tok_ok c t = true -> reads c from fsize off r tail ->
  (3 * length r + 2 <= sf)%nat -> (3 * length r + 3 <= mf)%nat ->
  match sp_group sf g tr t r with
  | None => throws (opt_group c real_caps from fsize mf m (set_present b tr) (k_tag t) (k_val t) off)
  | Some r' =>
      exists gs consumed, r = consumed ++ r' /\
        opt_group c real_caps from fsize mf m (set_present b tr) (k_tag t) (k_val t) off
          = Ok (with_groups m gs, off + lenN (ser consumed)) /\
        took m (with_groups m gs) consumed
  end.
Proof.
  intros IHD elem g m tr b t off r tail sf Hwf Hf Hsubs Hokt Hrd Hsf Hmf.
  destruct (wf_trait _ _ _ _ _ Hwf Hf) as (_ & Hbe & Hgrp & _).
  destruct (tok_ok_facts _ _ Hokt) as (_ & _ & Hint & _).
  unfold sp_group, opt_group. change (t_group (set_present b tr)) with (t_group tr).
  (* the decoder's count test is the spec's because the count text is a canonical int *)
  assert (Hcnt : t_group tr && has_group_count_c c (k_tag t) (k_val t) = t_group tr && count_pos (k_val t)).
  { destruct (t_group tr); [|reflexivity]. destruct (Hgrp eq_refl) as (Hit & _). cbn [andb].
    unfold has_group_count_c. rewrite Hbe, Hit. apply count_agree, Hint. unfold ftype. rewrite Hbe. exact Hit. }
  rewrite Hcnt. destruct (t_group tr && count_pos (k_val t)) eqn:E.
  - apply andb_true_iff in E. destruct E as [Hg _]. destruct (Hgrp Hg) as (_ & sg & Hsub & Hwf').
    rewrite Hsub. rewrite <- Hsubs in Hsub. exact (IHD m (k_tag t) sg off r tail sf Hsub Hwf' Hrd Hsf Hmf).
  - exists (mb_groups m), []. rewrite wg_id, N.add_0_r. split; [reflexivity|]. split; [reflexivity | apply took_refl].
Qed.

Lemma stepEL mf : stmtEL mf -> stmtDL mf -> stmtEL (S mf).
Proof.
  intros IHE IHD sg grp pos off ts tail seen sf Hwf Hrel Hrd Hsf Hmf.
  destruct sf as [|sf]; [lia|]. rewrite dg_elem_S.
  destruct ts as [|t r].
  { rewrite (reads_nil _ _ _ _ _ Hrd), N.ltb_irrefl. apply (el_ok_stop sg grp pos); auto. }
  destruct (reads_cons _ _ _ _ _ _ _ Hrd) as (Hokt & Hlt & Htok & Hcstr & Hrd1).
  destruct (tok_ok_tag _ _ Hokt) as (_ & Htag). apply N.ltb_lt in Hlt.
  rewrite Hlt, Htok. cbv zeta. rewrite Htag, Hcstr, sp_fields_S.
  pose proof Hrel as (Htr & Hnil & _).
  pose proof (tracks_find _ _ _ (k_tag t) Htr) as Hf.
  destruct (find_trait (g_traits sg) (k_tag t)) as [tr|] eqn:Hf'; cbn [option_map] in Hf; rewrite Hf.
  2:{ (* foreign tag: an element may not end before it began *)
    rewrite Hnil. cbn [andb]. destruct (isnil seen) eqn:En; [eexists; reflexivity|].
    apply (el_ok_stop sg grp pos); [exact Hrel | | intros ->; discriminate En].
    cbn [stopw]. destruct (memN (k_tag t) seen) eqn:Em; [|reflexivity].
    apply memN_In, Htr in Em. destruct Em as (x & Hx & _). congruence. }
  change (t_present (set_present _ tr)) with (memN (k_tag t) seen).
  destruct (memN (k_tag t) seen) eqn:Hm.
  { (* the tag starts the next element *)
    apply (el_ok_stop sg grp pos); [exact Hrel | cbn [stopw]; rewrite Hm; reflexivity | intros ->; discriminate Hm]. }
  destruct (wf_trait _ _ _ _ _ Hwf Hf') as (_ & Hbe & _ & Helem). destruct (Helem eq_refl) as (Hhp & _ & _).
  change (getPos (set_present false tr)) with (getPos tr). unfold getPos. rewrite Hhp, Hnil. cbn [andb].
  destruct (isnil seen && negb (t_pos tr =? 1)); [eexists; reflexivity|]. rewrite Hbe.
  fold (put grp (k_tag t) (pos + 1) (k_val t)). set (g1 := put grp (k_tag t) (pos + 1) (k_val t)).
  pose proof (opt_group_lockstep mf IHD true sg g1 tr false t _ r tail sf Hwf Hf'
                ltac:(unfold g1; rewrite subs_put; apply Htr) Hokt Hrd1
                ltac:(cbn [length] in Hsf; lia) ltac:(cbn [length] in Hmf; lia)) as HG.
  destruct (sp_group sf sg tr t r) as [r'|]; [|apply throws_bind; exact HG].
  destruct HG as (gs & cons1 & -> & HG & Htk). rewrite HG. cbn [bind].
  cbn [length] in Hsf, Hmf. rewrite app_length in Hsf, Hmf.
  assert (Hrel' : elem_rel sg (with_groups g1 gs) (k_tag t :: seen) (pos + 1)).
  { split; [apply tracks_wg; eapply tracks_put; [exact Htr | exact Hf]|].
    split; [apply N.eqb_neq; lia|]. intros _. rewrite fields_wg. apply fields_put. }
  pose proof (IHE sg _ (pos + 1) _ r' tail (k_tag t :: seen) sf Hwf Hrel' (reads_app _ _ _ _ _ _ _ Hrd1)
                ltac:(lia) ltac:(lia)) as HI.
  destruct (sp_fields sf sg true (k_tag t :: seen) r') as [|seen' rest]; [exact HI|].
  destruct HI as (grp' & pos' & off' & HR & Hrel'' & Hadv & _).
  destruct (advance_step _ _ _ _ _ _ _ _ _ _ _ (took_trans _ _ _ [t] cons1 (took_put grp t (pos + 1)) Htk) Hadv)
    as [Hadv' Hsne].
  exists grp', pos', off'. split; [exact HR|]. split; [exact Hrel''|]. split; [exact Hadv'|]. intros _ _.
  split; [|exact Hsne]. destruct Hadv as (cons2 & -> & _). intros E. apply (f_equal (@length tok)) in E.
  cbn [length] in E. rewrite !app_length in E. lia.
Qed.

Lemma elem_rel_init sg : wf_table c true sg = true -> elem_rel sg (create_group sg false) [] 0.
Proof.
  intros Hwf. split; [apply tracks_create; intros f; exact (wf_elem_not_present c sg f Hwf)|].
  split; [reflexivity | congruence].
Qed.

Lemma stepGL mf : stmtEL mf -> stmtGL mf -> stmtGL (S mf).
Proof.
  intros IHE IHG gm els off ts tail sf Hwf Hrd Hsf Hmf.
  destruct sf as [|sf]; [lia|]. rewrite dg_loop_S.
  destruct ts as [|t r].
  { rewrite (reads_nil _ _ _ _ _ Hrd), N.ltb_irrefl. exists [], []. rewrite (app_nil_r els), N.add_0_r.
    split; [reflexivity|]. split; [reflexivity | constructor]. }
  destruct (reads_cons _ _ _ _ _ _ _ Hrd) as (_ & Hlt & _). apply N.ltb_lt in Hlt. rewrite Hlt. cbn [sp_elems].
  pose proof (IHE gm _ 0 off (t :: r) tail [] sf Hwf (elem_rel_init gm Hwf) Hrd ltac:(lia) ltac:(lia)) as HE.
  destruct (sp_fields sf gm true [] (t :: r)) as [|seen' rest]; [apply throws_bind; exact HE|].
  destruct HE as (grp' & pos' & off' & Hres & (Htr & _ & Hflds) & (consumed & Ets & -> & Htk & _) & Hprog).
  destruct (Hprog eq_refl ltac:(discriminate)) as [Hne Hsne]. rewrite Hres. cbn [bind].
  destruct (mb_fields grp') as [|fl0 flr] eqn:Hfl; [destruct (Hflds Hsne eq_refl)|].
  pose proof (mand_cases c true gm grp' seen' Hwf Htr) as Hmand.
  destruct (mand_ok gm seen'); [|destruct Hmand as (f0 & ->); eexists; reflexivity].
  rewrite Hmand. unfold took in Htk. cbn [create_group mflat map flat_map app] in Htk.
  assert (Hone : gl_ok els off (t :: r) (Ok (els ++ [grp'], off + lenN (ser consumed))) rest).
  { exists [grp'], consumed. cbn [flat_map]. rewrite app_nil_r. auto. }
  destruct rest as [|t' rest']; [exact Hone|]. cbn [stopw]. destruct (memN (k_tag t') seen'); [|exact Hone].
  (* the next element begins at t' *)
  rewrite Ets in Hrd. apply reads_app in Hrd.
  assert (Hlen : (length (t' :: rest') < length (t :: r))%nat).
  { rewrite Ets, app_length. destruct consumed; [destruct (Hne Ets) | cbn [length]; lia]. }
  pose proof (IHG gm (els ++ [grp']) _ (t' :: rest') tail sf Hwf Hrd ltac:(lia) ltac:(lia)) as HG.
  destruct (sp_elems sf gm (t' :: rest')) as [rest2|]; [|exact HG].
  destruct HG as (new2 & cons2 & E2 & Hres2 & Hperm2).
  exists (grp' :: new2), (consumed ++ cons2). split; [rewrite Ets, E2, app_assoc; reflexivity|]. split.
  - rewrite Hres2, <- app_assoc, ser_app, lenN_app, N.add_assoc. reflexivity.
  - cbn [flat_map]. rewrite map_app, Htk, Hperm2. reflexivity.
Qed.

Lemma stepDL mf : stmtGL mf -> stmtDL (S mf).
Proof.
  intros IHG m f sg off ts tail sf Hsub Hwf Hrd Hsf Hmf.
  rewrite decode_group_S, Hsub. cbv zeta.
  destruct (map_find_insert f (@nil mbase) (mb_groups m)) as (els0 & Hfind). rewrite Hfind.
  pose proof (IHG sg els0 off ts tail sf Hwf Hrd Hsf ltac:(lia)) as HG.
  destruct (sp_elems sf sg ts) as [rest|]; [|apply throws_bind; exact HG].
  destruct HG as (new & consumed & Ets & Hres & Hperm). rewrite Hres. cbn [bind].
  eexists _, consumed. split; [exact Ets|]. split; [reflexivity|].
  unfold took. rewrite !mflat_eq, pos_wg, groups_wg, <- app_assoc. apply Permutation_app_head.
  rewrite (gflat_set _ _ _ _ Hfind), gflat_insert, Hperm. reflexivity.
Qed.

Lemma lockstep_groups : forall mf, stmtEL mf /\ stmtGL mf /\ stmtDL mf.
Proof.
  induction mf as [|mf (IE & IG & ID)].
  - split; [|split]; unfold stmtEL, stmtGL, stmtDL; intros; lia.
  - pose proof (stepEL mf IE ID). pose proof (stepGL mf IE IG). pose proof (stepDL mf IG). auto.
Qed.
End Lockstep.

Lemma no_auto_cons g t r : no_auto g (t :: r) = true -> is_auto g (k_tag t) = false /\ no_auto g r = true.
Proof.
  unfold no_auto. cbn [forallb]. rewrite andb_true_iff, negb_true_iff. trivial.
Qed.
Lemma no_auto_app g a b : no_auto g (a ++ b) = true -> no_auto g a = true /\ no_auto g b = true.
Proof. unfold no_auto. rewrite forallb_app, andb_true_iff. trivial. Qed.

Definition part_ok (g : gmeta) (m : mbase) (off : N) (ts : list tok) (seen : list N)
                   (R : res (mbase * N)) (seen' : list N) (rest : list tok) : Prop :=
  exists m' off', R = Ok (m', off') /\ tracks g m' seen' /\ advance m off ts seen m' off' seen' rest.

Definition part_result (g : gmeta) (m : mbase) (off : N) (ts : list tok) (seen : list N) (sf : nat)
                       (R : res (mbase * N)) : Prop :=
  match sp_fields sf g false seen ts with
  | PViol => throws R
  | PRest seen' rest => if mand_ok g seen' then part_ok g m off ts seen R seen' rest else throws R
  end.

Section Part.
Variable c : ctx. Variable from : list N. Variable fsize : N. Variable gfuel : nat.
Notation DEC := (dec_loop c real_caps from fsize false gfuel).

Lemma finish_result g m off pos lvp lvo seen ts :
  wf_table c false g = true -> tracks g m seen ->
  if mand_ok g seen then part_ok g m off ts seen (dec_finish false m off pos lvp lvo) seen ts
  else throws (dec_finish false m off pos lvp lvo).
Proof.
  intros Hwf Htr. pose proof (mand_cases c false g m seen Hwf Htr) as Hmand. unfold dec_finish.
  destruct (mand_ok g seen).
  - rewrite Hmand. exists m, off. split; [reflexivity|]. split; [exact Htr | apply advance_refl].
  - destruct Hmand as (f0 & ->). eexists; reflexivity.
Qed.

Lemma part_lockstep : forall mf g m pos off ts tail seen sf lvp lvo tb,
  wf_table c false g = true -> tracks g m seen -> reads c from fsize off ts tail -> no_auto g ts = true ->
  (3 * length ts + 1 <= sf)%nat -> (length ts + 1 <= mf)%nat -> (3 * length ts + 3 <= gfuel)%nat ->
  part_result g m off ts seen sf (DEC mf m off pos lvp lvo tb).
Proof.
  induction mf as [|mf IH]; intros g m pos off ts tail seen sf lvp lvo tb Hwf Htr Hrd Hna Hsf Hmf Hgf; [lia|].
  destruct sf as [|sf]; [lia|]. unfold part_result. rewrite dec_loop_strict_S.
  destruct ts as [|t r].
  { rewrite (reads_nil _ _ _ _ _ Hrd), N.leb_refl, tok_at_end_real. apply finish_result; assumption. }
  destruct (reads_cons _ _ _ _ _ _ _ Hrd) as (Hokt & Hlt & Htok & Hcstr & Hrd1).
  destruct (tok_ok_tag _ _ Hokt) as (Htag & _). destruct (tok_ok_facts _ _ Hokt) as (_ & _ & _ & Hlen).
  destruct (no_auto_cons _ _ _ Hna) as [Hnat Hnar].
  assert (Hle : (off <=? fsize) = true) by (apply N.leb_le; lia).
  rewrite Hle, Htok. cbv zeta. rewrite Htag, Hcstr, sp_fields_S. cbn [andb].
  pose proof (tracks_find _ _ _ (k_tag t) Htr) as Hf.
  destruct (find_trait (g_traits g) (k_tag t)) as [tr|] eqn:Hf'; cbn [option_map] in Hf; rewrite Hf;
    [|apply finish_result; assumption].
  change (t_present (set_present _ tr)) with (memN (k_tag t) seen).
  change (t_auto (set_present _ tr)) with (t_auto tr). change (t_ftype (set_present _ tr)) with (t_ftype tr).
  destruct (memN (k_tag t) seen) eqn:Hm.
  { (* a duplicate is an exception because the token is not an automatic field *)
    unfold is_auto in Hnat. rewrite Hf' in Hnat. rewrite Hnat. eexists; reflexivity. }
  destruct (wf_trait _ _ _ _ _ Hwf Hf') as (_ & Hbe & _). rewrite Hbe.
  assert (Hnl : negb (t_ftype tr =? ft_Length) || (k_tag t =? Common_BodyLength) = true).
  { destruct (t_ftype tr =? ft_Length) eqn:E; [|reflexivity]. apply N.eqb_eq in E.
    apply N.eqb_eq, Hlen. unfold ftype. rewrite Hbe. exact E. }
  set (pos1 := (pos + 1) mod 4294967296). set (m1 := put m (k_tag t) pos1 (k_val t)).
  destruct (lockstep_groups c from fsize gfuel) as (_ & _ & HDL).
  pose proof (opt_group_lockstep c from fsize gfuel HDL false g m1 tr false t _ r tail sf Hwf Hf'
                ltac:(unfold m1; rewrite subs_put; apply Htr) Hokt Hrd1
                ltac:(cbn [length] in Hsf; lia) ltac:(cbn [length] in Hgf; lia)) as HG.
  destruct (sp_group sf g tr t r) as [r'|]; [|apply throws_bind; exact HG].
  destruct HG as (gs & cons1 & -> & HG & Htk). rewrite HG. cbn [bind]. rewrite Hnl.
  cbn [length] in Hsf, Hmf, Hgf. rewrite app_length in Hsf, Hmf, Hgf.
  pose proof (IH g (with_groups m1 gs) pos1 _ r' tail (k_tag t :: seen) sf lvp lvo
                (tagbuf_after (itoa_N (k_tag t)) tb) Hwf
                (tracks_wg _ _ _ _ (tracks_put _ _ _ _ _ pos1 (k_val t) Htr Hf))
                (reads_app _ _ _ _ _ _ _ Hrd1) (proj2 (no_auto_app _ _ _ Hnar))
                ltac:(lia) ltac:(lia) ltac:(lia)) as HI.
  unfold part_result in HI.
  destruct (sp_fields sf g false (k_tag t :: seen) r') as [|seen' rest]; [exact HI|].
  destruct (mand_ok g seen'); [|exact HI].
  destruct HI as (m' & off' & HR & Htr' & Hadv). exists m', off'. split; [exact HR|]. split; [exact Htr'|].
  exact (proj1 (advance_step _ _ _ _ _ _ _ _ _ _ _ (took_trans _ _ _ [t] cons1 (took_put m t pos1) Htk) Hadv)).
Qed.
End Part.

Lemma scan_tag : forall d rest tag have val n,
  d <> [] -> dec_digits d tag = Some n ->
  scan (d ++ rest) true tag have val = scan rest true n true val.
Proof.
  induction d as [|x d IH]; intros rest tag have val n Hne Hd; [congruence|].
  cbn [app scan dec_digits] in *. destruct (is_digit x); [|discriminate].
  destruct d as [|y d'].
  - cbn [dec_digits] in Hd. injection Hd as <-. reflexivity.
  - apply IH; [discriminate | assumption].
Qed.
Lemma scan_value : forall v rest tag have acc,
  no_soh v ->
  scan (v ++ SOH :: rest) false tag have acc =
  match scan rest true 0 false [] with Some ts => Some (mkTok tag (rev acc ++ v) :: ts) | None => None end.
Proof.
  induction v as [|x v IH]; intros rest tag have acc Hv; cbn [app scan].
  - rewrite N.eqb_refl, app_nil_r. reflexivity.
  - inversion Hv as [|? ? Hx Hv']; subst. rewrite Hx. rewrite IH by assumption.
    cbn [rev]. rewrite <- app_assoc. reflexivity.
Qed.
Lemma tokenize_ser c toks : toks_ok c toks = true -> tokenize (ser toks) = Some toks.
Proof.
  unfold tokenize. induction toks as [|t r IH]; intros Hok; [reflexivity|].
  cbn [toks_ok forallb] in Hok. apply andb_true_iff in Hok. destruct Hok as [Hokt Hokr].
  destruct (tok_ok_facts _ _ Hokt) as (_ & Hval & _). destruct (val_ok_facts _ Hval) as (Hsoh & _).
  rewrite ser_cons. unfold ser_tok. rewrite <- app_assoc.
  rewrite (scan_tag (itoa_N (k_tag t)) _ 0 false [] (k_tag t) (itoa_nonempty _) (dec_digits_itoa _)).
  cbn [app scan]. change (is_digit EQC) with false. cbn iota. rewrite N.eqb_refl. cbn [andb].
  rewrite <- app_assoc. cbn [app]. rewrite scan_value by assumption. rewrite (IH Hokr). destruct t; reflexivity.
Qed.

Lemma extract_header_framed c (t8 t9 t35 : tok) rest :
  k_tag t8 = 8 -> k_tag t9 = 9 -> k_tag t35 = 35 ->
  toks_ok c [t8; t9; t35] = true -> lenN (k_val t9) < 32 -> lenN (k_val t35) < 32 ->
  extract_header (ser (t8 :: t9 :: t35 :: rest)) (cap_htag real_caps) (cap_hval real_caps)
                 (cap_len real_caps) (cap_mtype real_caps)
  = Ok (lenN (ser [t8; t9; t35]), k_val t9, k_val t35).
Proof.
  intros E8 E9 E35 Hok L9 L35. cbn [toks_ok forallb] in Hok. rewrite !andb_true_iff in Hok.
  destruct Hok as (O8 & O9 & O35 & _).
  destruct (tok_ok_facts _ _ O8) as (T8 & V8 & _). destruct (tok_ok_facts _ _ O9) as (T9 & V9 & _).
  destruct (tok_ok_facts _ _ O35) as (T35 & V35 & _). apply tag_len in T8, T9, T35.
  destruct (val_ok_facts _ V8) as (S8 & B8 & _). destruct (val_ok_facts _ V9) as (S9 & _).
  destruct (val_ok_facts _ V35) as (S35 & _).
  unfold extract_header. cbn [real_caps cap_htag cap_hval cap_len cap_mtype].
  unfold MAX_MSGTYPE_FIELD_LEN, MAX_FLD_LENGTH.
  set (from := ser (t8 :: t9 :: t35 :: rest)).
  assert (Hfrom : from = ser_tok t8 ++ ser_tok t9 ++ ser_tok t35 ++ ser rest) by reflexivity.
  assert (Hlen : lenN from = lenN (ser_tok t8) + lenN (ser_tok t9) + lenN (ser_tok t35) + lenN (ser rest)).
  { rewrite Hfrom, !lenN_app. lia. }
  rewrite Hfrom at 1. rewrite extract_ser_tok by (try assumption; lia).
  rewrite E8. change (hd_is (itoa_N 8) 56) with true. cbn [negb].
  rewrite Hfrom at 1. rewrite skipN_app.
  rewrite extract_ser_tok by (try assumption; lia).
  rewrite E9. change (hd_is (itoa_N 9) 57) with true. cbn [negb].
  rewrite Hfrom at 1. rewrite app_assoc, <- lenN_app, skipN_app.
  rewrite extract_ser_tok by (try assumption; rewrite ?lenN_app; lia).
  rewrite E35. change (hd_is (itoa_N 35) 51 && hd_is (tl (itoa_N 35)) 53) with true. cbn [negb].
  do 3 f_equal. cbn [ser flat_map]. rewrite !lenN_app. cbn [lenN]. lia.
Qed.

Lemma memN_app x a b : memN x (a ++ b) = memN x a || memN x b.
Proof. unfold memN. apply existsb_app. Qed.

(* x an automatic field of a table without repeating groups.  The decoder starts with x in the
   object and never reads tx: its run is the parse of ts from s ++ [x] (new tags are consed in
   front, x stays last).  The spec parses ts ++ [tx] from s. *)
Lemma sp_ext g x tx trx :
  forallb (fun tr => negb (t_group tr)) (g_traits g) = true ->
  find_trait (g_traits g) x = Some trx -> t_auto trx = true -> k_tag tx = x ->
  forall ts sf s, no_auto g ts = true -> memN x s = false -> (length ts + 2 <= sf)%nat ->
    match sp_fields sf g false (s ++ [x]) ts with
    | PViol => sp_fields (S sf) g false s (ts ++ [tx]) = PViol
    | PRest s' [] => exists s0, s' = s0 ++ [x] /\ sp_fields (S sf) g false s (ts ++ [tx]) = PRest (x :: s0) []
    | PRest s' (t' :: rest') =>
        exists s0, s' = s0 ++ [x] /\ sp_fields (S sf) g false s (ts ++ [tx]) = PRest s0 (t' :: rest' ++ [tx])
    end.
Proof.
  intros Hng Hfx Hax Etx.
  assert (Hplain : forall f tr, find_trait (g_traits g) f = Some tr -> t_group tr = false).
  { intros f tr Hf. destruct (find_trait_In _ _ _ Hf) as [Hin _]. rewrite forallb_forall in Hng.
    apply negb_true_iff, Hng, Hin. }
  induction ts as [|t r IH]; intros sf s Hts Hms Hsf; (destruct sf as [|sf]; [cbn in Hsf; lia|]).
  - exists s. split; [reflexivity|]. cbn [app].
    rewrite <- Etx in Hfx, Hms. rewrite (sp_plain _ _ _ _ _ _ Hfx (Hplain _ _ Hfx) Hms), Etx. reflexivity.
  - destruct (no_auto_cons _ _ _ Hts) as [Ha Hr].
    assert (Ht : (k_tag t =? x) = false).
    { apply N.eqb_neq. intros E. unfold is_auto in Ha. rewrite E, Hfx, Hax in Ha. discriminate. }
    cbn [app]. rewrite !sp_fields_S. cbn [andb].
    destruct (find_trait (g_traits g) (k_tag t)) as [tr|] eqn:Hf; [|exists s; split; reflexivity].
    rewrite memN_app. cbn [memN existsb]. rewrite Ht. cbn [orb]. rewrite orb_false_r.
    destruct (memN (k_tag t) s) eqn:Hm; [reflexivity|]. unfold sp_group. rewrite (Hplain _ _ Hf). cbn [andb].
    apply (IH sf (k_tag t :: s) Hr); [|cbn [length] in Hsf; lia].
    cbn [memN existsb]. rewrite N.eqb_sym, Ht. exact Hms.
Qed.

Lemma mand_ok_ext g x s trx :
  nodupN (map t_fnum (g_traits g)) = true -> find_trait (g_traits g) x = Some trx -> t_mand trx = false ->
  mand_ok g (s ++ [x]) = mand_ok g s /\ mand_ok g (x :: s) = mand_ok g s.
Proof.
  intros Hnd Hfx Hm. apply nodupN_NoDup in Hnd. unfold mand_ok.
  assert (H : forall tr, In tr (g_traits g) -> t_fnum tr = x -> t_mand tr = false).
  { intros tr Hin E. pose proof (In_find_trait _ _ Hnd Hin) as Hf. rewrite E, Hfx in Hf.
    injection Hf as <-. exact Hm. }
  clear Hnd Hfx. revert H. generalize (g_traits g) as l.
  induction l as [|tr l IH]; intros H; [split; reflexivity|]. cbn [forallb].
  destruct IH as [IH1 IH2]; [intros tr' Hin; apply H; right; exact Hin|].
  rewrite IH1, IH2, memN_app. cbn [memN existsb]. rewrite orb_false_r.
  destruct (t_fnum tr =? x) eqn:E; [|rewrite !orb_false_r; split; reflexivity].
  apply N.eqb_eq in E. rewrite (H tr (or_introl eq_refl) E). split; reflexivity.
Qed.

Lemma int_value_digits v n : v <> [] -> dec_digits v 0 = Some n -> int_value v = Some (Z.of_N n).
Proof.
  intros Hne Hd. destruct v as [|x r]; [congruence|].
  pose proof (dec_digits_all _ _ _ Hd) as Hall. apply Forall_inv, digit_range in Hall.
  rewrite int_value_plain by lia. change (nat_value (x :: r)) with (dec_digits (x :: r) 0). rewrite Hd. reflexivity.
Qed.

Lemma part_of_result g ts (sf : nat) : sf = sp_fuel ts ->
  part g ts = match sp_fields sf g false [] ts with
              | PViol => PViol
              | PRest seen rest => if mand_ok g seen then PRest seen rest else PViol
              end.
Proof. intros ->. reflexivity. Qed.

(* from.size() - ignore in 32-bit arithmetic *)
Lemma fsize_eq n ignore : ignore <= n -> n < 4294967296 -> (n + 4294967296 - ignore) mod 4294967296 = n - ignore.
Proof.
  intros. replace (n + 4294967296 - ignore) with (n - ignore + 1 * 4294967296) by lia.
  rewrite N.mod_add by lia. apply N.mod_small. lia.
Qed.

Lemma ser_len_ge ts : (3 * length ts <= length (ser ts))%nat.
Proof.
  induction ts as [|t r IH]; [cbn; lia|]. rewrite ser_cons, app_length. cbn [length].
  pose proof (lenN_ser_tok_pos t) as H. rewrite lenN_length in H. lia.
Qed.
Lemma lenN_ser_tok10 t : k_tag t = 10 -> lenN (k_val t) = 3 -> lenN (ser_tok t) = 7.
Proof. intros E L. rewrite lenN_ser_tok, E, L. reflexivity. Qed.

(* the fuel Message::decode's model hands out is never exhausted: two units per input byte *)
Lemma part_decode c bytes g m seen ts tail off ignore sf :
  wf_table c false g = true -> tracks g m seen -> ignore <= lenN bytes -> lenN bytes < 4294967296 ->
  reads c bytes (lenN bytes - ignore) off ts tail -> no_auto g ts = true ->
  (3 * length ts + 1 <= sf)%nat -> bytes <> [] ->
  part_result g m off ts seen sf (mbase_decode c real_caps bytes m off ignore false).
Proof.
  intros Hwf Htr Hi Hl Hrd Hna Hsf Hne. unfold mbase_decode, mb_decode. rewrite fsize_eq by assumption.
  assert (Hlen : (length (ser ts) <= length bytes)%nat).
  { destruct Hrd as (_ & pre & -> & _). rewrite !app_length. lia. }
  pose proof (ser_len_ge ts). destruct bytes; [congruence|]. cbn [length] in Hlen.
  eapply part_lockstep; eauto; unfold dec_fuel; cbn [length]; lia.
Qed.

(* a tag the lockstep saw is in the position list: through the soundness invariant *)
Lemma decoded_has c bytes g m seen' m' off off' ignore f :
  wf_table c false g = true -> part_inv g m ->
  mbase_decode c real_caps bytes m off ignore false = Ok (m', off') ->
  tracks g m' seen' -> In f seen' -> In f (pos_tags m').
Proof.
  intros Hwf Hinv Hres (_ & _ & Hseen) Hm.
  destruct (mbase_decode_sound _ _ _ _ _ _ _ _ _ _ Hwf Hinv Hres) as [(_ & _ & _ & Hiff & _) _].
  apply Hiff, Hseen, Hm.
Qed.

Lemma pos_set_split f v : forall pos, In f (tags_of pos) ->
  exists l1 q w l2, pos = l1 ++ (q, (f, w)) :: l2 /\ pos_set f v pos = l1 ++ (q, (f, v)) :: l2.
Proof.
  induction pos as [|[q [g u]] r IH]; intros Hin; [destruct Hin|]. cbn [pos_set].
  destruct (g =? f) eqn:E.
  - apply N.eqb_eq in E. subst g. exists [], q, u, r. auto.
  - destruct Hin as [Hin|Hin]; [apply N.eqb_neq in E; cbn in Hin; congruence|].
    destruct (IH Hin) as (l1 & q' & w & l2 & -> & ->). exists ((q, (g, u)) :: l1), q', w, l2. auto.
Qed.

Lemma mflat_set_value m f v w X1 X2 :
  In f (pos_tags m) -> Permutation (mflat m) (X1 ++ (f, w) :: X2) -> (forall e, In e (X1 ++ X2) -> fst e <> f) ->
  Permutation (mflat (set_value m f v)) (X1 ++ (f, v) :: X2).
Proof.
  destruct m as [fp subs fields pos groups unk]. unfold pos_tags, set_value.
  cbn [mb_pos mb_fields with_pos with_fields mflat]. intros Hin HP Hno.
  destruct (pos_set_split f v pos Hin) as (l1 & q & u & l2 & -> & ->).
  rewrite map_app in *. cbn [map snd] in *. rewrite <- app_assoc in *. cbn [app] in *.
  assert (Hu : In (f, u) (X1 ++ (f, w) :: X2)) by (rewrite <- HP; apply in_elt).
  apply in_elt_inv in Hu. destruct Hu as [Hu|Hu]; [|destruct (Hno _ Hu eq_refl)].
  injection Hu as ->. apply Permutation_elt. apply Permutation_app_inv in HP. exact HP.
Qed.
Lemma pos_tags_set_value m f v : pos_tags (set_value m f v) = pos_tags m.
Proof. destruct m. unfold pos_tags, set_value. cbn [mb_pos mb_fields with_pos with_fields]. apply tags_pos_set. Qed.

Lemma mflat_mk_part c g init : wf_table c false g = true -> init_ok g init = true ->
  Permutation (mflat (mk_part g init true)) (map snd init).
Proof.
  intros Hwf Hio. destruct (mk_part_facts c g init Hwf Hio) as (_ & HP & HG). rewrite mflat_eq, HG, HP.
  assert (E : gflat (deep_groups g true) = []).
  { unfold deep_groups. destruct (true && g_deep g); [|reflexivity].
    induction (g_subs g) as [|s r IH]; cbn [fold_right]; [reflexivity|]. rewrite gflat_insert. exact IH. }
  rewrite E, app_nil_r. reflexivity.
Qed.

Lemma no_auto_tag g ts f : no_auto g ts = true -> is_auto g f = true ->
  forall e, In e (map tok_pair ts) -> fst e <> f.
Proof.
  intros Hna Ha e He. apply in_map_iff in He. destruct He as (t & <- & Ht). cbn [tok_pair fst].
  unfold no_auto in Hna. rewrite forallb_forall in Hna. specialize (Hna _ Ht). intros E. rewrite E, Ha in Hna. discriminate.
Qed.

Lemma mflat_set_auto g h f v w X1 X2 cX :
  In f (pos_tags h) -> Permutation (mflat h) (X1 ++ (f, w) :: X2 ++ map tok_pair cX) ->
  (forall e, In e (X1 ++ X2) -> fst e <> f) -> no_auto g cX = true -> is_auto g f = true ->
  Permutation (mflat (set_value h f v)) (X1 ++ (f, v) :: X2 ++ map tok_pair cX).
Proof.
  intros Hin HP Hno Hna Ha. apply (mflat_set_value h f v w X1 (X2 ++ map tok_pair cX) Hin HP).
  intros e He. rewrite app_assoc in He. apply in_app_or in He.
  destruct He as [He|He]; [apply Hno, He | eapply no_auto_tag; eassumption].
Qed.

Section Assembly.
Variable c : ctx.
Hypothesis Hwf : wf_ctx c = true.

Definition init_pairs : list (N * list N) := map snd (c_hdr_init c) ++ map snd (c_trl_init c).

(* The header decoder starts behind 8, 9, 35, which its constructor has put into the object.  The
   object is described as factory leaves it: BodyLength and MsgType set anew. *)
Lemma header_decode bytes t8 t9 t35 r :
  k_tag t8 = 8 -> k_tag t9 = 9 -> k_tag t35 = 35 -> bytes <> [] -> lenN bytes < 4294967296 ->
  reads c bytes (lenN bytes) (lenN (ser [t8; t9; t35])) r [] -> no_auto (c_header c) r = true ->
  let R := mbase_decode c real_caps bytes (mk_part (c_header c) (c_hdr_init c) true) (lenN (ser [t8; t9; t35])) 0 false in
  match part (c_header c) (t8 :: t9 :: t35 :: r) with
  | PViol => throws R
  | PRest _ rest =>
      exists h cH, r = cH ++ rest /\ R = Ok (h, lenN (ser [t8; t9; t35]) + lenN (ser cH)) /\
        forall L MT, Permutation (mflat (set_value (set_value h 9 L) 35 MT))
                                 ((8, c_begin c) :: (9, L) :: (35, MT) :: map tok_pair cH)
  end.
Proof.
  intros E8 E9 E35 Hne Hlen Hrd Hna R.
  destruct (wf_ctx_all c Hwf) as (Hwh & _ & Hih & _ & (p1 & p2 & p3 & v9 & v35 & Ehi) & _).
  set (m0 := mk_part (c_header c) (c_hdr_init c) true) in *.
  destruct (mk_part_facts c _ _ Hwh Hih) as (Htr & _). fold m0 in Htr.
  destruct (init_ok_facts _ _ Hih) as (_ & Hin & _). rewrite Ehi in Htr, Hin. cbn [tags_of map fst snd] in Htr, Hin.
  destruct (Hin 8 ltac:(cbn; auto)) as (tr8 & Hf8 & Hg8 & _).
  destruct (Hin 9 ltac:(cbn; auto)) as (tr9 & Hf9 & Hg9 & _ & Ha9).
  destruct (Hin 35 ltac:(cbn; auto)) as (tr35 & Hf35 & Hg35 & _ & Ha35).
  unfold part, sp_fuel. set (n := length (t8 :: t9 :: t35 :: r)).
  rewrite (sp_plain _ _ [] t8 _ tr8), E8 by (rewrite ?E8; auto).
  rewrite (sp_plain _ _ [8] t9 _ tr9), E9 by (rewrite ?E9; auto).
  rewrite (sp_plain _ _ [9; 8] t35 _ tr35), E35 by (rewrite ?E35; auto).
  apply (tracks_ext _ _ _ [35; 9; 8]) in Htr; [|intros f; cbn [In]; tauto].
  pose proof (part_decode c bytes _ m0 _ r [] _ 0 (n + n + n) Hwh Htr ltac:(lia) Hlen
                ltac:(rewrite N.sub_0_r; exact Hrd) Hna ltac:(unfold n; cbn [length]; lia) Hne) as PH.
  fold R in PH. unfold part_result in PH.
  destruct (sp_fields (n + n + n) (c_header c) false [35; 9; 8] r) as [|sH r1]; [exact PH|].
  destruct (mand_ok (c_header c) sH); [|exact PH].
  destruct PH as (h & off' & HR & Htrh & cH & Er & -> & Htk & Hinc).
  exists h, cH. split; [exact Er|]. split; [exact HR|]. intros L MT.
  assert (Hhas : forall f, In f [35; 9; 8] -> In f (pos_tags h)).
  { intros f Hf. eapply (decoded_has c bytes _ m0 sH h); eauto. apply (part_init_inv c); assumption. }
  unfold took, m0 in Htk. rewrite (mflat_mk_part c _ _ Hwh Hih), Ehi in Htk. cbn [map snd app] in Htk.
  rewrite Er in Hna. apply no_auto_app in Hna. destruct Hna as [HnaH _].
  apply (mflat_set_auto (c_header c) _ 35 MT v35 [(8, c_begin c); (9, L)] [] cH);
    [rewrite pos_tags_set_value; apply Hhas; cbn; auto | | intros e [<-|[<-|[]]]; discriminate | exact HnaH
     | unfold is_auto; rewrite Hf35; exact Ha35].
  apply (mflat_set_auto (c_header c) h 9 L v9 [(8, c_begin c)] [(35, v35)] cH);
    [apply Hhas; cbn; auto | exact Htk | intros e [<-|[<-|[]]]; discriminate | exact HnaH
     | unfold is_auto; rewrite Hf9; exact Ha9].
Qed.

Lemma body_decode bytes md off ts :
  In md (c_msgs c) -> bytes <> [] -> lenN bytes < 4294967296 -> reads c bytes (lenN bytes) off ts [] ->
  let R := mbase_decode c real_caps bytes (create_group (md_meta md) false) off 0 false in
  match part (md_meta md) ts with
  | PViol => throws R
  | PRest _ rest =>
      exists b cB, ts = cB ++ rest /\ R = Ok (b, off + lenN (ser cB)) /\ Permutation (mflat b) (map tok_pair cB)
  end.
Proof.
  intros Hmd Hne Hlen Hrd R. destruct (wf_ctx_all c Hwf) as (_ & _ & _ & _ & _ & _ & _ & Hwb).
  specialize (Hwb _ Hmd). destruct (wf_body_table _ _ Hwb) as [Hwt Hnp].
  assert (Hna : no_auto (md_meta md) ts = true).
  { apply forallb_forall. intros t _. unfold is_auto.
    destruct (find_trait (g_traits (md_meta md)) (k_tag t)) as [tr|] eqn:Hf; [|reflexivity].
    destruct (find_trait_In _ _ _ Hf) as [Hin _]. destruct (Hnp _ Hin) as [_ ->]. reflexivity. }
  rewrite (part_of_result _ ts (sp_fuel ts) eq_refl).
  pose proof (part_decode c bytes _ _ [] ts [] off 0 (sp_fuel ts) Hwt
                (tracks_create _ false (fun f => wf_body_not_present c _ f Hwb)) ltac:(lia) Hlen
                ltac:(rewrite N.sub_0_r; exact Hrd) Hna ltac:(unfold sp_fuel; lia) Hne) as PB.
  fold R in PB. unfold part_result in PB.
  destruct (sp_fields (sp_fuel ts) (md_meta md) false [] ts) as [|sB rest]; [exact PB|].
  destruct (mand_ok (md_meta md) sB); [|exact PB].
  destruct PB as (b & off' & HR & _ & cB & E & -> & Htk & _). exists b, cB. auto.
Qed.

(* The trailer decoder stops seven bytes before the end: it never sees the token 10, which the
   constructor has put into the object, while the spec meets it as the last token.  The object is
   described as factory leaves it: CheckSum set anew. *)
Lemma trailer_decode bytes t10 r2 off :
  k_tag t10 = 10 -> lenN (k_val t10) = 3 -> 7 <= lenN bytes -> lenN bytes < 4294967296 ->
  reads c bytes (lenN bytes) off r2 [] ->
  (r2 = [] \/ exists r2', r2 = r2' ++ [t10] /\ no_auto (c_trailer c) r2' = true) ->
  let R := mbase_decode c real_caps bytes (mk_part (c_trailer c) (c_trl_init c) true) off 7 false in
  match part (c_trailer c) r2 with
  | PViol => throws R
  | PRest _ rest =>
      exists t cT tl, R = Ok (t, tl) /\
        (forall CK, Permutation (mflat (set_value t 10 CK)) ((10, CK) :: map tok_pair cT)) /\
        (rest = [] -> r2 = [] /\ cT = [] \/ r2 = cT ++ [t10])
  end.
Proof.
  intros E10 L10 H7 Hlen Hrd Hr2 R.
  destruct (wf_ctx_all c Hwf) as (_ & Hwt & _ & Hit & _ & (p4 & v10 & Eti) & Hng & _).
  set (m0 := mk_part (c_trailer c) (c_trl_init c) true) in *.
  destruct (mk_part_facts c _ _ Hwt Hit) as (Htr & _). fold m0 in Htr.
  destruct (init_ok_facts _ _ Hit) as (_ & Hin & _). rewrite Eti in Htr, Hin. cbn [tags_of map fst snd] in Htr, Hin.
  destruct (Hin 10 ltac:(cbn; auto)) as (tr10 & Hf10 & _ & Hm10 & Ha10).
  destruct (wf_table_unfold _ _ _ Hwt) as (Hndt & _ & _).
  assert (Hne : bytes <> []) by (intros ->; cbn in H7; lia).
  assert (Hset : forall t cT tl seen', R = Ok (t, tl) -> tracks (c_trailer c) t seen' -> In 10 seen' ->
            took m0 t cT -> no_auto (c_trailer c) cT = true ->
            forall CK, Permutation (mflat (set_value t 10 CK)) ((10, CK) :: map tok_pair cT)).
  { intros t cT tl seen' HR Ht Hi Htk Hna CK. unfold took, m0 in Htk.
    rewrite (mflat_mk_part c _ _ Hwt Hit), Eti in Htk. cbn [map snd app] in Htk.
    apply (mflat_set_auto (c_trailer c) t 10 CK v10 [] [] cT);
      [|exact Htk | intros e [] | exact Hna | unfold is_auto; rewrite Hf10; exact Ha10].
    eapply (decoded_has c bytes _ m0 seen' t); eauto. apply (part_init_inv c); assumption. }
  destruct Hr2 as [->|(r2' & -> & Hnat)].
  - (* the last token was taken by the header or the body: the decoder starts past its range *)
    apply reads_nil in Hrd.
    change (part (c_trailer c) []) with (if mand_ok (c_trailer c) [] then PRest [] [] else PViol).
    assert (HR : R = dec_finish false m0 off (lenN (mb_pos m0)) None 0).
    { unfold R, mbase_decode, mb_decode. rewrite fsize_eq by assumption. unfold dec_fuel.
      rewrite dec_loop_strict_S. replace (off <=? lenN bytes - 7) with false by (symmetry; apply N.leb_gt; lia).
      reflexivity. }
    pose proof (finish_result c (c_trailer c) m0 off (lenN (mb_pos m0)) None 0 [10] [] Hwt Htr) as HF.
    rewrite <- HR in HF. destruct (mand_ok_ext _ 10 [] tr10 Hndt Hf10 Hm10) as [_ Hme]. rewrite Hme in HF.
    destruct (mand_ok (c_trailer c) []); [|exact HF].
    destruct HF as (t & tl & HRt & Htrt & cT & EcT & _ & Htk & _).
    symmetry in EcT. apply app_eq_nil in EcT. destruct EcT as [-> _].
    exists t, [], tl. split; [exact HRt|].
    split; [eapply Hset; eauto; left; reflexivity | intros _; left; auto].
  - (* the ordinary case: the decoder sees everything up to the last token *)
    assert (Hrd' : reads c bytes (lenN bytes - 7) off r2' (ser [t10])).
    { destruct Hrd as (Hok & pre & Hb & Ho & Hfs). unfold toks_ok in Hok. rewrite forallb_app in Hok.
      apply andb_true_iff in Hok. split; [apply Hok|]. exists pre.
      rewrite ser_app, app_nil_r in Hb. rewrite ser_app, lenN_app in Hfs. cbn [ser flat_map] in Hfs.
      rewrite app_nil_r, (lenN_ser_tok10 _ E10 L10) in Hfs. split; [exact Hb|]. split; [exact Ho | lia]. }
    set (n := length (r2' ++ [t10])). assert (Hn : n = S (length r2')) by (unfold n; rewrite app_length; cbn; lia).
    pose proof (part_decode c bytes _ m0 [10] r2' (ser [t10]) off 7 (S (S (n + n + n))) Hwt Htr H7 Hlen Hrd' Hnat
                  ltac:(lia) Hne) as PT.
    fold R in PT. unfold part_result in PT.
    pose proof (sp_ext (c_trailer c) 10 t10 tr10 Hng Hf10 Ha10 E10 r2' (S (S (n + n + n))) [] Hnat eq_refl ltac:(lia)) as HX.
    cbn [app] in HX. unfold part, sp_fuel. fold n.
    destruct (sp_fields (S (S (n + n + n))) (c_trailer c) false [10] r2') as [|sT rT]; [rewrite HX; exact PT|].
    destruct rT as [|t' rest']; destruct HX as (s0 & -> & HX); rewrite HX;
      destruct (mand_ok_ext _ 10 s0 tr10 Hndt Hf10 Hm10) as [Hme1 Hme2]; rewrite Hme1 in PT.
    + (* all of r2' belongs to the trailer: the spec takes the last token too *)
      rewrite Hme2. destruct (mand_ok (c_trailer c) s0); [|exact PT].
      destruct PT as (t & tl & HRt & Htrt & cT & EcT & _ & Htk & Hinc). rewrite app_nil_r in EcT. subst cT.
      exists t, r2', tl. split; [exact HRt|]. split; [|intros _; right; reflexivity].
      eapply Hset; eauto. apply Hinc. left. reflexivity.
    + (* the trailer ends before t': tokens are left over *)
      destruct (mand_ok (c_trailer c) s0); [|exact PT].
      destruct PT as (t & tl & HRt & Htrt & cT & EcT & _ & Htk & Hinc).
      exists t, cT, tl. split; [exact HRt|]. split; [|intros E; discriminate E].
      eapply Hset; eauto; [apply Hinc; left; reflexivity|].
      rewrite EcT in Hnat. apply no_auto_app in Hnat. apply Hnat.
Qed.

(* struct_verdict, below its framing test and the look-up of the message type *)
Definition parts_verdict (md : msgdef) (toks : list tok) : verdict :=
  match part (c_header c) toks with
  | PViol => VViol
  | PRest _ r1 =>
    match part (md_meta md) r1 with
    | PViol => VViol
    | PRest _ r2 =>
      match part (c_trailer c) r2 with
      | PViol => VViol
      | PRest _ [] => VConf
      | PRest _ _ => VIllegal
      end
    end
  end.

(* [ex]: the last token once more, if a header or body table claims tag 10 *)
Lemma decode_parts t8 t9 t35 t10 mid md :
  let toks := t8 :: t9 :: t35 :: mid ++ [t10] in
  k_tag t8 = 8 -> k_tag t9 = 9 -> k_tag t35 = 35 -> k_tag t10 = 10 -> lenN (k_val t10) = 3 ->
  toks_ok c toks = true -> no_auto (c_header c) mid = true -> no_auto (c_trailer c) mid = true ->
  lenN (ser toks) < 4294967296 -> In md (c_msgs c) ->
  let R := msg_decode c real_caps (ser toks) (mk_message c md false) (lenN (ser [t8; t9; t35])) 7 false in
  match parts_verdict md toks with
  | VViol => throws R
  | v => exists h b t tl, R = Ok (mkMsg (md_type md) h b t, tl) /\
      (v = VConf -> exists ex, incl ex [t10] /\ forall L MT CK,
         Permutation (mflat (set_value (set_value h 9 L) 35 MT) ++ mflat b ++ mflat (set_value t 10 CK))
                     ((8, c_begin c) :: (9, L) :: (35, MT) :: (10, CK) :: map tok_pair (mid ++ ex)))
  end.
Proof.
  intros toks E8 E9 E35 E10 L10 Hok Hah Hat Hlen Hmd R.
  set (bytes := ser toks) in *.
  assert (Hbytes : bytes = ser [t8; t9; t35] ++ ser (mid ++ [t10]) ++ []).
  { rewrite app_nil_r. exact (ser_app [t8; t9; t35] (mid ++ [t10])). }
  assert (Hrd : reads c bytes (lenN bytes) (lenN (ser [t8; t9; t35])) (mid ++ [t10]) []).
  { split.
    - unfold toks, toks_ok in *. cbn [forallb] in Hok. rewrite !andb_true_iff in Hok. apply Hok.
    - exists (ser [t8; t9; t35]). split; [exact Hbytes|]. split; [reflexivity|].
      rewrite Hbytes, app_nil_r, lenN_app. reflexivity. }
  assert (H7 : 7 <= lenN bytes).
  { rewrite Hbytes, app_nil_r, ser_app, !lenN_app. change (ser [t10]) with (ser_tok t10 ++ []).
    rewrite (app_nil_r (ser_tok t10)), (lenN_ser_tok10 _ E10 L10). lia. }
  assert (Hne : bytes <> []) by (intros E; rewrite E in H7; cbn in H7; lia).
  assert (Hnah : no_auto (c_header c) (mid ++ [t10]) = true).
  { unfold no_auto in *. rewrite forallb_app, Hah. cbn [forallb]. rewrite E10, andb_true_r. unfold is_auto.
    destruct (wf_ctx_all c Hwf) as (_ & _ & Hih & _ & (p1 & p2 & p3 & v9 & v35 & Ehi) & _).
    destruct (init_ok_facts _ _ Hih) as (_ & _ & Hout).
    destruct (find_trait (g_traits (c_header c)) 10) as [tr|] eqn:Hf; [|reflexivity].
    destruct (Hout 10 tr Hf) as [-> _]; [rewrite Ehi; cbn; intuition discriminate | reflexivity]. }
  unfold parts_verdict, R, msg_decode. cbn [mk_message m_hdr m_body m_trl m_type].
  pose proof (header_decode bytes t8 t9 t35 _ E8 E9 E35 Hne Hlen Hrd Hnah) as PH. cbv zeta in PH. fold toks in PH.
  destruct (part (c_header c) toks) as [|sH r1]; [apply throws_bind; exact PH|].
  destruct PH as (h & cH & Er & HRh & Hh). rewrite HRh. cbn [bind].
  rewrite Er in Hrd. apply reads_app in Hrd.
  pose proof (body_decode bytes md _ r1 Hmd Hne Hlen Hrd) as PB. cbv zeta in PB.
  destruct (part (md_meta md) r1) as [|sB r2]; [apply throws_bind; exact PB|].
  destruct PB as (b & cB & Er1 & HRb & Hb). rewrite HRb. cbn [bind].
  rewrite Er1 in Hrd. apply reads_app in Hrd.
  assert (Emid : mid ++ [t10] = (cH ++ cB) ++ r2) by (rewrite Er, Er1, app_assoc; reflexivity).
  assert (Hr2 : r2 = [] \/ exists r2', r2 = r2' ++ [t10] /\ no_auto (c_trailer c) r2' = true).
  { destruct r2 as [|x l _] using rev_ind; [left; reflexivity|]. right. exists l.
    rewrite app_assoc in Emid. apply app_inj_tail in Emid. destruct Emid as [Em <-]. split; [reflexivity|].
    rewrite Em in Hat. apply no_auto_app in Hat. apply Hat. }
  pose proof (trailer_decode bytes t10 r2 _ E10 L10 H7 Hlen Hrd Hr2) as PT. cbv zeta in PT.
  destruct (part (c_trailer c) r2) as [|sT r3]; [apply throws_bind; exact PT|].
  destruct PT as (t & cT & tl & HRt & Ht & Hr3). rewrite HRt. cbn [bind].
  destruct r3 as [|x3 r3']; (exists h, b, t, tl; split; [reflexivity | intros Ev]); [|discriminate Ev].
  assert (Hex : exists ex, cH ++ cB ++ cT = mid ++ ex /\ incl ex [t10]).
  { destruct (Hr3 eq_refl) as [[-> ->] | ->].
    - exists [t10]. rewrite app_nil_r in *. split; [symmetry; exact Emid | apply incl_refl].
    - exists []. rewrite !app_assoc in Emid. apply app_inj_tail in Emid. destruct Emid as [Em _].
      rewrite app_nil_r, Em, <- app_assoc. split; [reflexivity | intros x []]. }
  destruct Hex as (ex & Hex & Hinc). exists ex. split; [exact Hinc|]. intros L MT CK.
  rewrite (Hh L MT), Hb, (Ht CK), <- Hex, !map_app. cbn [app]. do 3 apply perm_skip.
  rewrite !app_assoc. symmetry. apply Permutation_middle.
Qed.
End Assembly.

Lemma exact_hyps_facts c toks : exact_hyps c toks = true ->
  framed toks = true /\ toks_ok c toks = true /\
  no_auto (c_header c) (middle toks) = true /\ no_auto (c_trailer c) (middle toks) = true /\
  (forall t8 t9 t35 r, toks = t8 :: t9 :: t35 :: r ->
     lenN (k_val t9) < 32 /\ lenN (k_val t35) < 32 /\ forallb is_digit (k_val (last toks t8)) = true) /\
  lenN (ser toks) < 2147483648.
Proof.
  unfold exact_hyps, auto_once. rewrite !andb_true_iff, N.ltb_lt. intros ((((H1 & H2) & H3a & H3b) & H4) & H5).
  repeat (split; [assumption|]). split; [|assumption].
  intros t8 t9 t35 r ->. rewrite !andb_true_iff, !N.ltb_lt in H4. tauto.
Qed.

Lemma frame_split toks : framed toks = true ->
  exists t8 t9 t35 mid t10, toks = t8 :: t9 :: t35 :: mid ++ [t10] /\
    k_tag t8 = 8 /\ k_tag t9 = 9 /\ k_tag t35 = 35 /\ k_tag t10 = 10 /\ lenN (k_val t10) = 3 /\
    last toks t8 = t10 /\ middle toks = mid.
Proof.
  destruct toks as [|t8 [|t9 [|t35 r]]]; try discriminate. unfold framed. cbv zeta.
  rewrite !andb_true_iff, !N.eqb_eq. intros (((H8 & H9) & H35) & H10 & HL).
  destruct r as [|x r' _] using rev_ind; [cbn [last] in H10; congruence|].
  assert (E : t8 :: t9 :: t35 :: r' ++ [x] = ([t8; t9; t35] ++ r') ++ [x]) by (rewrite <- app_assoc; reflexivity).
  rewrite E, last_last in H10, HL. exists t8, t9, t35, r', x. unfold middle. rewrite E, last_last, removelast_last.
  repeat (split; [assumption || reflexivity|]). reflexivity.
Qed.

Lemma verdict_unfold c t8 t9 t35 r : framed (t8 :: t9 :: t35 :: r) = true ->
  struct_verdict c (t8 :: t9 :: t35 :: r) =
  match find_msg (c_msgs c) (k_val t35) with
  | None => VViol
  | Some md => parts_verdict c md (t8 :: t9 :: t35 :: r)
  end.
Proof. intros H. unfold struct_verdict. rewrite H. reflexivity. Qed.

Lemma bytes_small_ser c toks : toks_ok c toks = true -> bytes_small (ser toks) = true.
Proof.
  induction toks as [|t r IH]; intros Hok; [reflexivity|].
  cbn [toks_ok forallb] in Hok. apply andb_true_iff in Hok. destruct Hok as [Hokt Hokr].
  destruct (tok_ok_facts _ _ Hokt) as (_ & Hval & _). destruct (val_ok_facts _ Hval) as (_ & _ & _ & Hb).
  unfold bytes_small in *. rewrite ser_cons, forallb_app, (IH Hokr), andb_true_r.
  unfold ser_tok. rewrite forallb_app. cbn [forallb]. rewrite forallb_app. cbn [forallb].
  rewrite andb_true_r. apply andb_true_iff. split; apply forallb_forall; intros d Hd; apply N.ltb_lt.
  - pose proof (itoa_digits (k_tag t)) as Hall. unfold all_digits in Hall. rewrite Forall_forall in Hall.
    specialize (Hall _ Hd). apply digit_range in Hall. lia.
  - rewrite Forall_forall in Hb. auto.
Qed.

Lemma factory_tail pre a b d bytes :
  bytes = pre ++ [49; 48; 61; a; b; d; 1] ->
  is_digit a = true -> is_digit b = true -> is_digit d = true ->
  bytes_small bytes = true -> lenN bytes < 2147483648 ->
  (lenN bytes <? 7) = false /\ nthN bytes (lenN bytes - 7) = 49 /\ nthN bytes (lenN bytes - 7 + 1) = 48 /\
  firstN 3 (skipN (lenN bytes - 7 + 3) bytes) = [a; b; d] /\
  (exists h, calc_chksum (map Z.of_N (bytes ++ [0])) (Z.of_N (lenN bytes)) 0 (Z.of_N (lenN bytes) - 7)
             = Some (Z.of_N (sumN (firstN (lenN bytes - 7) bytes) mod 256), h)) /\
  chk_ok bytes = (fast_atoi_u32 [a; b; d] =? sumN (firstN (lenN bytes - 7) bytes) mod 256).
Proof.
  intros Hb Ha Hbd Hd Hsmall Hlen.
  assert (Hl : lenN bytes = lenN pre + 7) by (rewrite Hb, lenN_app; reflexivity).
  assert (E7 : (lenN bytes <? 7) = false) by (apply N.ltb_ge; lia).
  replace (lenN bytes - 7) with (lenN pre) by lia.
  split; [exact E7|]. unfold nthN. rewrite Hb at 1 2 3. rewrite skipN_app, !skipN_add, skipN_app.
  split; [reflexivity|]. split; [reflexivity|]. split; [reflexivity|].
  split; [replace (lenN pre) with (lenN bytes - 7) by lia; apply chk_calc; [assumption | lia | assumption]|].
  unfold chk_ok. cbv zeta. rewrite E7. replace (lenN bytes - 7) with (lenN pre) by lia.
  rewrite Hb at 1. rewrite skipN_app, Ha, Hbd, Hd. cbn [andb]. f_equal.
  pose proof (digit_range _ Ha). pose proof (digit_range _ Hbd). pose proof (digit_range _ Hd).
  symmetry. apply atoi_u32_digits; [cbn [dec_digits]; rewrite Ha, Hbd, Hd; f_equal; lia | lia].
Qed.

Lemma factory_framed c t8 t9 t35 mid t10 :
  let toks := t8 :: t9 :: t35 :: mid ++ [t10] in
  k_tag t8 = 8 -> k_tag t9 = 9 -> k_tag t35 = 35 -> k_tag t10 = 10 -> lenN (k_val t10) = 3 ->
  toks_ok c toks = true -> lenN (k_val t9) < 32 -> lenN (k_val t35) < 32 ->
  forallb is_digit (k_val t10) = true -> lenN (ser toks) < 2147483648 ->
  exists n,
  strict_factory c (ser toks) =
  match find_msg (c_msgs c) (k_val t35) with
  | None => Exc EInvalidMessage
  | Some md =>
    bind (msg_decode c real_caps (ser toks) (mk_message c md false) (lenN (ser [t8; t9; t35])) 7 false)
         (fun '(msg1, _) =>
            if chk_ok (ser toks)
            then Ok (mkMsg (m_type msg1)
                           (set_value (set_value (m_hdr msg1) 9 (itoa_Z (to_i32 (Z.of_N (fast_atoi_u32 (k_val t9))))))
                                      35 (k_val t35))
                           (m_body msg1) (set_value (m_trl msg1) 10 (k_val t10)))
            else Exc (EBadCheckSum n))
  end.
Proof.
  intros toks E8 E9 E35 E10 L10 Hok L9 L35 Hdig Hlen.
  assert (Hok3 : toks_ok c [t8; t9; t35] = true).
  { unfold toks, toks_ok in *. cbn [forallb] in *. rewrite !andb_true_iff in *. tauto. }
  assert (Hok35 : tok_ok c t35 = true) by (cbn [toks_ok forallb] in Hok3; rewrite !andb_true_iff in Hok3; tauto).
  destruct (tok_ok_facts _ _ Hok35) as (_ & V35 & _). destruct (val_ok_facts _ V35) as (_ & _ & Hnz35 & _).
  destruct (k_val t10) as [|a [|b [|d [|e l]]]] eqn:Ev10; cbn [lenN] in L10; try lia.
  cbn [forallb] in Hdig. rewrite !andb_true_iff in Hdig. destruct Hdig as (Ha & Hb & Hd & _).
  assert (Hbytes : ser toks = ser (t8 :: t9 :: t35 :: mid) ++ [49; 48; 61; a; b; d; 1]).
  { unfold toks. change (t8 :: t9 :: t35 :: mid ++ [t10]) with ((t8 :: t9 :: t35 :: mid) ++ [t10]).
    rewrite ser_app. cbn [ser flat_map]. unfold ser_tok at 5. rewrite E10, Ev10. reflexivity. }
  destruct (factory_tail _ a b d (ser toks) Hbytes Ha Hb Hd (bytes_small_ser c toks Hok) Hlen)
    as (T1 & T2 & T3 & T4 & (hull & T5) & T6).
  exists (sumN (firstN (lenN (ser toks) - 7) (ser toks)) mod 256).
  pose proof (extract_header_framed c t8 t9 t35 (mid ++ [t10]) E8 E9 E35 Hok3 L9 L35) as EH. fold toks in EH.
  unfold strict_factory, factory. rewrite EH. cbn [bind].
  assert (Hh0 : (lenN (ser [t8; t9; t35]) =? 0) = false).
  { apply N.eqb_neq. cbn [ser flat_map]. rewrite lenN_app. pose proof (lenN_ser_tok_pos t8). lia. }
  rewrite Hh0, (cstr_no_nul _ Hnz35). destruct (find_msg (c_msgs c) (k_val t35)) as [md|]; [|reflexivity].
  destruct (msg_decode c real_caps (ser toks) (mk_message c md false) (lenN (ser [t8; t9; t35])) 7 false)
    as [[msg1 tl]| | | |]; cbn [bind]; try reflexivity.
  rewrite T1, T2, T3, T4, T5, T6, N2Z.id. cbn [N.eqb Pos.eqb negb orb].
  destruct (fast_atoi_u32 [a; b; d] =? _); reflexivity.
Qed.

(* No assumption on where the tags are legal: tokens left over after the trailer (VIllegal) do not
   make the strict decoder throw; it never ends in a memory error, a hang or out of fuel.  [ex]:
   decode_parts shows it is at most the checksum token, once more. *)
Theorem exact_verdict c toks :
  wf_ctx c = true -> exact_hyps c toks = true ->
  match strict_factory c (ser toks) with
  | Ok m => chk_ok (ser toks) = true /\ struct_verdict c toks <> VViol /\
            (struct_verdict c toks = VConf ->
             exists ex, Permutation (mflat (m_hdr m) ++ mflat (m_body m) ++ mflat (m_trl m))
                                    (expected_pairs c toks ++ map tok_pair ex) /\ incl ex toks)
  | Exc _ => chk_ok (ser toks) = false \/ struct_verdict c toks = VViol
  | _ => False
  end.
Proof.
  intros Hwf Hhyp.
  destruct (exact_hyps_facts _ _ Hhyp) as (Hfr & Hok & Hah & Hat & Hlens & Hlen).
  destruct (frame_split _ Hfr) as (t8 & t9 & t35 & mid & t10 & -> & E8 & E9 & E35 & E10 & L10 & Elast & Emid).
  destruct (Hlens _ _ _ _ eq_refl) as (L9 & L35 & Hdig). rewrite Elast in Hdig. rewrite Emid in Hah, Hat.
  rewrite (verdict_unfold c _ _ _ _ Hfr). unfold expected_pairs. rewrite Elast, Emid. clear Elast Emid Hlens.
  destruct (factory_framed c t8 t9 t35 mid t10 E8 E9 E35 E10 L10 Hok L9 L35 Hdig Hlen) as (n & ->).
  set (toks := t8 :: t9 :: t35 :: mid ++ [t10]) in *.
  destruct (find_msg (c_msgs c) (k_val t35)) as [md|] eqn:Hmd; [|right; reflexivity].
  pose proof (decode_parts c Hwf t8 t9 t35 t10 mid md E8 E9 E35 E10 L10 Hok Hah Hat
                (N.lt_trans _ _ 4294967296 Hlen eq_refl) (find_msg_In _ _ _ Hmd)) as HD.
  cbv zeta in HD. fold toks in HD.
  (* VViol: Message::decode throws.  VConf and VIllegal: it returns, the checksum decides; the
     same steps serve both, the clause on the entries being void for VIllegal *)
  destruct (parts_verdict c md toks); try (destruct HD as (e & ->); right; reflexivity);
    destruct HD as (h & b & t & tl & -> & HP); cbn [bind m_hdr m_body m_trl m_type];
    (destruct (chk_ok (ser toks)); [|left; reflexivity]); (split; [reflexivity|]); (split; [discriminate|]);
    intros Ev; [|discriminate Ev].
  destruct (HP eq_refl) as (ex & Hinc & Hperm). exists ex. split.
  - rewrite <- app_assoc, <- map_app. apply Hperm.
  - intros x Hx. apply Hinc in Hx. destruct Hx as [<-|[]]. unfold toks. do 3 right. apply in_or_app. right. left. reflexivity.
Qed.

Lemma exact_accept_lemma c toks :
  wf_ctx c = true -> exact_hyps c toks = true -> struct_verdict c toks <> VIllegal ->
  match strict_factory c (ser toks) with
  | Ok m => conforms c (ser toks) = true
  | Exc _ => conforms c (ser toks) = false
  | _ => False
  end.
Proof.
  intros Hwf Hhyp Hill. pose proof (exact_verdict c toks Hwf Hhyp) as H.
  unfold conforms. rewrite (tokenize_ser c toks) by apply (exact_hyps_facts _ _ Hhyp).
  destruct (strict_factory c (ser toks)); try exact H.
  - destruct H as (-> & Hv & _). destruct (struct_verdict c toks); [reflexivity | congruence | congruence].
  - destruct H as [-> | ->]; [reflexivity | apply andb_false_r].
Qed.
