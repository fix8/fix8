(* C04: proof of c04_accept_sound_partial -- invariants of MessageBase::decode / decode_group on the
   partially built object, for ALL inputs (no hypothesis on the bytes). *)
From Coq Require Import NArith ZArith List Bool Lia Permutation.
From F8 Require Import C07.Chksum C07.Spec_C07 C07.ChksumProofs.
From F8 Require Import Codec.Bytes Codec.Meta Codec.Extract Codec.Decode Codec.Lemmas
                       C04.Spec_C04 C04.Strict C04.Sound C04.BytesFacts C04.DecodeFacts.
Import ListNotations.
Local Open Scope N_scope.

(* the element under construction: [pos] fields added so far, the first of them (key 1 in the
   position list) a field of schema position 1 *)
Definition elem_inv (sg : gmeta) (grp : mbase) (pos : N) : Prop :=
  tracks sg grp (pos_tags grp) /\ NoDup (pos_tags grp) /\ elems_sound grp /\
  (mb_fields grp = [] -> pos = 0) /\
  (mb_fields grp <> [] ->
   exists f v tr, In (1, (f, v)) (mb_pos grp) /\ find_trait (g_traits sg) f = Some tr /\ getPos tr = 1).

Lemma elem_inv_put sg grp pos tv tr tr' v :
  elem_inv sg grp pos -> find_trait (mb_fp grp) tv = Some tr -> t_present tr = false ->
  find_trait (g_traits sg) tv = Some tr' -> (pos = 0 -> getPos tr' = 1) ->
  elem_inv sg (put grp tv (pos + 1) v) (pos + 1).
Proof.
  intros (Htr & Hnd & Hdeep & H0 & Hfirst) Hf Hnp Hf' Hp1.
  assert (Hnotin : ~ In tv (pos_tags grp)).
  { intros Hin. apply Htr in Hin. destruct Hin as (x & Hx & Hp). congruence. }
  split; [eapply tracks_put_pos; eassumption|].
  split; [rewrite pos_tags_put; constructor; assumption|].
  split; [apply elems_sound_put; exact Hdeep|].
  split; [intros E; destruct (fields_put _ _ _ _ E)|]. intros _. rewrite pos_put. unfold pos_insert.
  destruct (mb_fields grp) eqn:Hfl.
  - rewrite (H0 eq_refl) in *. exists tv, v, tr'. rewrite pos_insert_k_perm. split; [left; reflexivity | auto].
  - destruct Hfirst as (f0 & v0 & tr0 & Hin0 & H1); [discriminate|].
    exists f0, v0, tr0. rewrite pos_insert_k_perm. split; [right; exact Hin0 | exact H1].
Qed.

Lemma elem_inv_wg sg m gs pos :
  elem_inv sg m pos -> elems_sound (with_groups m gs) -> elem_inv sg (with_groups m gs) pos.
Proof.
  intros (H1 & H2 & _ & H4 & H5) Hd. unfold elem_inv, pos_tags. rewrite pos_wg, fields_wg.
  split; [apply tracks_wg; exact H1 | auto].
Qed.

Lemma elem_inv_init c gm : wf_table c true gm = true -> elem_inv gm (create_group gm false) 0.
Proof.
  intros Hwf. split; [apply tracks_create; intros f; exact (wf_elem_not_present c gm f Hwf)|].
  split; [constructor|]. split; [apply deep_groups_sound|]. split; [reflexivity | intros []; reflexivity].
Qed.

Definition ES (sg : gmeta) (e : mbase) : Prop := elem_sound sg e /\ elems_sound e.

Lemma elem_inv_sound sg grp pos :
  elem_inv sg grp pos -> mb_fields grp <> [] -> find_missing (mb_fp grp) = None -> ES sg grp.
Proof.
  intros (Htr & Hnd & Hdeep & _ & Hfirst) Hne Hm. split; [|exact Hdeep].
  destruct (Hfirst Hne) as (f & v & tr' & Hin & Hf' & Hg).
  pose proof (tracks_find _ _ _ f Htr) as Hf. rewrite Hf' in Hf. destruct Htr as (Hst & Hsubs & Hiff).
  split; [exact Hst|]. split; [exact Hsubs|]. split; [exact Hnd|]. split; [exact Hiff|]. split; [exact Hm|].
  exists f, v, (set_present (memN f (pos_tags grp)) tr'). auto.
Qed.

Section Groups.
Variable c : ctx. Variable cp : caps. Variable from : list N. Variable fsize : N.

Definition stmtA (fuel : nat) : Prop := forall sg grp pos off grp' pos' off' why,
  wf_table c true sg = true -> elem_inv sg grp pos ->
  dg_elem c cp from fsize fuel grp pos off = Ok (grp', pos', off', why) -> elem_inv sg grp' pos'.
Definition stmtB (fuel : nat) : Prop := forall gm els off els' off',
  wf_table c true gm = true -> Forall (ES gm) els ->
  dg_loop c cp from fsize fuel gm els off = Ok (els', off') -> Forall (ES gm) els'.
Definition stmtC (fuel : nat) : Prop := forall m f off m' off',
  subs_wf c (mb_subs m) -> elems_sound m ->
  decode_group c cp from fsize fuel m f off = Ok (m', off') ->
  exists gs, m' = with_groups m gs /\ elems_sound m'.

Lemma opt_group_inv fuel : stmtC fuel -> forall m tr tv v off m' off',
  subs_wf c (mb_subs m) -> elems_sound m ->
  opt_group c cp from fsize fuel m tr tv v off = Ok (m', off') ->
  exists gs, m' = with_groups m gs /\ elems_sound m'.
Proof.
  intros HC m tr tv v off m' off' Hsw Hd H. unfold opt_group in H.
  destruct (t_group tr && _); [eapply HC; eassumption|].
  injection H as <- _. exists (mb_groups m). split; [symmetry; apply wg_id | exact Hd].
Qed.

Lemma stepA fuel : stmtA fuel -> stmtC fuel -> stmtA (S fuel).
Proof.
  intros IHA IHC sg grp pos off grp' pos' off' why Hwf Hinv H.
  rewrite dg_elem_S in H. cbv zeta in H.
  destruct (off <? fsize); [|injection H as <- <- <- <-; exact Hinv].
  destruct (tok_at cp from fsize off) as [tag val result | tag val | s];
    [|injection H as <- <- <- <-; exact Hinv|discriminate].
  set (tv := fast_atoi_u32 tag mod 65536) in *.
  destruct (find_trait (mb_fp grp) tv) as [tr|] eqn:Hf.
  2:{ destruct (pos =? 0); [discriminate|]. injection H as <- <- <- <-. exact Hinv. }
  destruct (t_present tr) eqn:Hp; [injection H as <- <- <- <-; exact Hinv|].
  destruct ((pos =? 0) && negb (getPos tr =? 1)) eqn:Efirst; [discriminate|].
  destruct (find_be (c_fields c) tv); [|injection H as <- <- <- <-; exact Hinv].
  apply bind_ok in H. destruct H as ([g2 off2] & HG & H).
  pose proof (same_table_find _ _ tv (proj1 (proj1 Hinv))) as E. rewrite Hf in E. destruct E as (tr' & b & Hf' & ->).
  assert (Hp1 : pos = 0 -> getPos tr' = 1).
  { intros ->. apply negb_false_iff, N.eqb_eq in Efirst. exact Efirst. }
  pose proof (elem_inv_put sg grp pos tv _ tr' (cstr val) Hinv Hf Hp Hf' Hp1) as Hinv1.
  destruct (opt_group_inv fuel IHC _ _ _ _ _ _ _ (tracks_subs_wf _ _ _ _ _ Hwf (proj1 Hinv1))
              (proj1 (proj2 (proj2 Hinv1))) HG) as (gs & -> & Hd).
  eapply IHA; [exact Hwf | apply elem_inv_wg; eassumption | exact H].
Qed.

Lemma stepB fuel : stmtA fuel -> stmtB fuel -> stmtB (S fuel).
Proof.
  intros IHA IHB gm els off els' off' Hwf Hels H.
  rewrite dg_loop_S in H. destruct (off <? fsize); [|injection H as <- <-; exact Hels].
  apply bind_ok in H. destruct H as ([[[grp pos'] off1] why] & HE & H).
  pose proof (IHA gm _ 0 off grp pos' off1 why Hwf (elem_inv_init c gm Hwf) HE) as Hinv.
  destruct (mb_fields grp) as [|fl0 flr] eqn:Hfl; [injection H as <- <-; exact Hels|].
  destruct (find_missing (mb_fp grp)) eqn:HM; [discriminate|].
  assert (Hok : Forall (ES gm) (els ++ [grp])).
  { apply Forall_app. split; [exact Hels|]. constructor; [|constructor].
    eapply elem_inv_sound; [exact Hinv | rewrite Hfl; discriminate | exact HM]. }
  destruct why; try (injection H as <- <-; exact Hok). eapply IHB; eassumption.
Qed.

Lemma stepC fuel : stmtB fuel -> stmtC (S fuel).
Proof.
  intros IHB m f off m' off' Hsw Hdeep H.
  rewrite decode_group_S in H. destruct (find_sub (mb_subs m) f) as [gm|] eqn:HS; [|discriminate]. cbv zeta in H.
  apply bind_ok in H. destruct H as ([els off1] & HL & H). injection H as <- <-.
  set (gs := map_insert f [] (mb_groups m)) in *.
  unfold elems_sound in *. rewrite deep_unfold in Hdeep.
  assert (Hgs : Forall (fun g => Forall (fun e => group_elem (mb_subs m) (fst g) e /\ deep group_elem e) (snd g)) gs)
    by (apply Forall_map_insert; [exact Hdeep | constructor]).
  assert (Hels0 : Forall (ES gm) (match map_find f gs with Some l => l | None => [] end)).
  { destruct (map_find f gs) as [l|] eqn:Hmf; [|constructor].
    apply map_find_In in Hmf. rewrite Forall_forall in Hgs. specialize (Hgs _ Hmf). cbn [fst snd] in Hgs.
    eapply Forall_impl; [|exact Hgs]. cbn beta. intros e [(sg & Hsg & Hes) Hde].
    rewrite HS in Hsg. injection Hsg as <-. split; assumption. }
  pose proof (IHB gm _ off els off1 (Hsw _ _ HS) Hels0 HL) as Hels.
  eexists. split; [reflexivity|]. rewrite deep_unfold, subs_wg, groups_wg.
  apply (Forall_map_set (fun k v => Forall (fun e => group_elem (mb_subs m) k e /\ deep group_elem e) v)); [exact Hgs|].
  eapply Forall_impl; [|exact Hels]. cbn beta. intros e [He Hde]. split; [|exact Hde]. exists gm. auto.
Qed.

Lemma groups_inv : forall fuel, stmtA fuel /\ stmtB fuel /\ stmtC fuel.
Proof.
  induction fuel as [|fuel (IA & IB & IC)].
  - split; [|split]; unfold stmtA, stmtB, stmtC; intros;
      match goal with H : _ = Ok _ |- _ => discriminate H end.
  - pose proof (stepA fuel IA IC) as A. pose proof (stepB fuel IA IB) as B. pose proof (stepC fuel IB) as C.
    auto.
Qed.
End Groups.

Lemma part_inv_tracks g m : part_inv g m -> tracks g m (pos_tags m).
Proof. intros (A & B & _ & D & _). split; [exact A|]. split; [exact B | exact D]. Qed.

(* second alternative: the Length pairing adds the data field without the presence test *)
Lemma part_inv_put g m tv tr p v :
  part_inv g m -> find_trait (mb_fp m) tv = Some tr -> t_present tr = false \/ t_ftype tr = ft_data ->
  part_inv g (put m tv p v).
Proof.
  intros Hinv Hf Hor. destruct (tracks_put_pos g m tv tr p v (part_inv_tracks _ _ Hinv) Hf) as (A & B & D).
  destruct Hinv as (_ & _ & Hdup & Hiff & Hdeep).
  split; [exact A|]. split; [exact B|]. split; [|split; [exact D | apply elems_sound_put; exact Hdeep]].
  intros f. rewrite fp_put, (proj1 (Permutation_count_occ N.eq_dec _ _) (pos_tags_put m tv p v) f). cbn [count_occ].
  destruct (N.eq_dec tv f) as [<-|Hne].
  - destruct Hor as [Hnp|Hty].
    + left. assert (Hnotin : ~ In tv (pos_tags m)).
      { intros Hin. apply Hiff in Hin. destruct Hin as (x & Hx & Hp). congruence. }
      apply (count_occ_not_In N.eq_dec) in Hnotin. rewrite Hnotin. lia.
    + right. exists (set_present true tr). rewrite find_trait_upd, N.eqb_refl, Hf by reflexivity.
      split; [reflexivity | exact Hty].
  - destruct (Hdup f) as [H|(tr' & Hf' & Hd)]; [left; exact H|]. right. exists tr'.
    rewrite find_trait_upd by reflexivity. destruct (N.eqb_spec f tv); [congruence | auto].
Qed.

Lemma part_inv_wg g m gs : part_inv g m -> elems_sound (with_groups m gs) -> part_inv g (with_groups m gs).
Proof.
  intros (H1 & H2 & H3 & H4 & _) Hd. unfold part_inv, dup_free_but_data, pos_tags in *.
  rewrite fp_wg, pos_wg, subs_wg. auto.
Qed.

Lemma part_inv_group c cp from fsize gfuel elem g m tr tv v off m2 off2 :
  wf_table c elem g = true -> part_inv g m ->
  opt_group c cp from fsize gfuel m tr tv v off = Ok (m2, off2) -> part_inv g m2.
Proof.
  intros Hwf Hinv H. destruct (groups_inv c cp from fsize gfuel) as (_ & _ & HC).
  destruct (opt_group_inv _ _ _ _ gfuel HC _ _ _ _ _ _ _
              (tracks_subs_wf _ _ _ _ _ Hwf (part_inv_tracks _ _ Hinv)) ltac:(apply Hinv) H) as (gs & -> & Hd).
  apply part_inv_wg; assumption.
Qed.

Lemma dec_loop_inv c cp from fsize gfuel elem g : wf_table c elem g = true ->
  forall fuel m off pos lvp lvo tb m' off',
  part_inv g m ->
  dec_loop c cp from fsize false gfuel fuel m off pos lvp lvo tb = Ok (m', off') ->
  part_sound g m'.
Proof.
  intros Hwf. induction fuel as [|fuel IH]; intros m off pos lvp lvo tb m' off' Hinv H; [discriminate|].
  rewrite dec_loop_strict_S in H. cbv zeta in H.
  assert (Hfin : forall m0 o p, part_inv g m0 -> dec_finish false m0 o p lvp lvo = Ok (m', off') -> part_sound g m').
  { intros m0 o p Hi Hd. destruct (dec_finish_ok _ _ _ _ _ _ _ Hd) as [-> Hm]. split; assumption. }
  destruct (off <=? fsize); [|eauto].
  destruct (tok_at cp from fsize off) as [tag val result | tag val | s]; [|eauto|discriminate].
  set (tv := fast_atoi_u16 tag) in *.
  destruct (find_trait (mb_fp m) tv) as [tr|] eqn:Hf; [|eauto].
  destruct (t_present tr) eqn:Hp; [destruct (t_auto tr); [eauto | discriminate]|].
  destruct (find_be (c_fields c) tv); [|discriminate].
  apply bind_ok in H. destruct H as ([m2 off2] & HG & H).
  pose proof (part_inv_group _ _ _ _ _ _ _ _ _ _ _ _ _ _ Hwf
                (part_inv_put g m tv tr _ (cstr val) Hinv Hf (or_introl Hp)) HG) as Hinv2.
  destruct (negb (t_ftype tr =? ft_Length) || (tv =? Common_BodyLength)); [eauto|].
  destruct (MAX_FLD_LENGTH - 1 <? fast_atoi_u32 val); [discriminate|].
  destruct (extract_element_fixed_width _ _ _ _ _) as [tag2 val2 result2 | | ]; try discriminate.
  destruct (cstr_known _) as [tagstr|]; [|discriminate].
  set (tv2 := fast_atoi_u16 tagstr) in *.
  destruct (find_trait (mb_fp m2) tv2) as [tr2|] eqn:Hf2; [|eauto].
  destruct (negb (t_ftype tr2 =? ft_data) || negb (tv + 1 =? tv2)) eqn:Ed; [eauto|].
  destruct (find_be (c_fields c) tv2); [|discriminate].
  apply orb_false_iff in Ed. destruct Ed as [Ed _]. apply negb_false_iff, N.eqb_eq in Ed.
  apply bind_ok in H. destruct H as ([m4 off4] & HG2 & H).
  pose proof (part_inv_group _ _ _ _ _ _ _ _ _ _ _ _ _ _ Hwf
                (part_inv_put g m2 tv2 tr2 _ (cstr val2) Hinv2 Hf2 (or_intror Ed)) HG2) as Hinv4.
  eauto.
Qed.

Lemma mbase_decode_sound c cp from elem g m off ignore m' off' :
  wf_table c elem g = true -> part_inv g m ->
  mbase_decode c cp from m off ignore false = Ok (m', off') -> part_sound g m'.
Proof. intros Hwf Hinv H. eapply dec_loop_inv; eauto. Qed.

Lemma body_init_inv c g : wf_body c g = true -> part_inv g (create_group g false).
Proof.
  intros H. destruct (tracks_create g false (fun f => wf_body_not_present c g f H)) as (A & B & D).
  split; [exact A|]. split; [exact B|]. split; [intros f; left; cbn; lia|]. split; [exact D | apply deep_groups_sound].
Qed.

Lemma part_init_inv c g init :
  wf_table c false g = true -> init_ok g init = true -> part_inv g (mk_part g init true).
Proof.
  intros Hwf Hio. destruct (mk_part_facts c g init Hwf Hio) as ((A & B & D) & HP & HG).
  destruct (init_ok_facts _ _ Hio) as (Hnd & _).
  assert (HT : Permutation (pos_tags (mk_part g init true)) (tags_of init)).
  { unfold pos_tags, tags_of. rewrite <- !(map_map snd fst). apply Permutation_map. exact HP. }
  split; [exact A|]. split; [exact B|]. split; [|split].
  - intros f. left. apply (NoDup_count_occ N.eq_dec). rewrite HT. exact Hnd.
  - intros f. rewrite <- (D f). split; apply Permutation_in; [exact HT | symmetry; exact HT].
  - apply deep_unfold. rewrite HG, B. exact (proj1 (deep_unfold _ _) (deep_groups_sound g true)).
Qed.

Lemma tags_pos_set f v l : tags_of (pos_set f v l) = tags_of l.
Proof.
  induction l as [|[q [g w]] r IH]; cbn [pos_set tags_of map]; [reflexivity|].
  destruct (g =? f); cbn [tags_of map fst snd]; [reflexivity|]. f_equal. exact IH.
Qed.
Lemma part_sound_set_value g m f v : part_sound g m -> part_sound g (set_value m f v).
Proof.
  intros [Hinv Hm]. destruct m as [fp subs fields pos groups unk].
  unfold part_sound, part_inv, dup_free_but_data, pos_tags, set_value, elems_sound in *.
  cbn [mb_fp mb_subs mb_pos mb_fields with_pos with_fields] in *. rewrite tags_pos_set.
  cbn [deep] in *. auto.
Qed.

Lemma bytesum_of_N l : bytesum (map Z.of_N l) = Z.of_N (sumN l).
Proof.
  induction l as [|x r IH]; cbn [map bytesum fold_right sumN]; [reflexivity|].
  unfold bytesum in IH. rewrite IH. unfold sumN. lia.
Qed.

Lemma bytes_ok_of_N l : bytes_small l = true -> bytes_ok (map Z.of_N (l ++ [0])) = true.
Proof.
  unfold bytes_small, bytes_ok. intros H. rewrite forallb_forall in *. intros z Hz.
  apply in_map_iff in Hz. destruct Hz as (b & <- & Hb). apply in_app_or in Hb.
  assert (Hlt : b < 256).
  { destruct Hb as [Hb|[<-|[]]]; [apply N.ltb_lt; auto | lia]. }
  apply andb_true_iff. split; [apply Z.leb_le | apply Z.ltb_lt]; lia.
Qed.

(* calc_chksum as factory's model calls it (from ++ [0]: the string with its terminator),
   through C07's theorem *)
Lemma chk_calc (from : list N) :
  bytes_small from = true -> 7 <= lenN from -> lenN from < 2147483648 ->
  exists h, calc_chksum (map Z.of_N (from ++ [0])) (Z.of_N (lenN from)) 0 (Z.of_N (lenN from) - 7)
            = Some (Z.of_N (sumN (firstN (lenN from - 7) from) mod 256), h).
Proof.
  intros Hs H7 Hlt.
  pose proof (c07_len_lemma (map Z.of_N (from ++ [0])) (Z.of_N (lenN from)) 0 (Z.of_N (lenN from) - 7)
                (bytes_ok_of_N _ Hs)) as HL.
  rewrite lenN_length in *.
  assert (Hlen : (Z.of_nat (length (map Z.of_N (from ++ [0%N]))) = Z.of_nat (length from) + 1)%Z).
  { rewrite map_length, app_length. cbn [length]. lia. }
  specialize (HL ltac:(lia) ltac:(lia) ltac:(lia)).
  destruct (calc_chksum _ _ _ _) as [[mchk h]|]; [|discriminate]. exists h. do 2 f_equal.
  apply andb_true_iff in HL. destruct HL as [HL _]. apply Z.eqb_eq in HL. rewrite HL.
  unfold c07_spec, range_len, sub.
  assert (Hne : (Z.of_N (N.of_nat (length from)) - 7 =? -1)%Z = false) by (apply Z.eqb_neq; lia).
  rewrite Hne. cbn [Z.to_nat skipn].
  rewrite firstn_map, firstn_app.
  replace (Z.to_nat (Z.of_N (N.of_nat (length from)) - 7) - length from)%nat with 0%nat by lia.
  cbn [firstn]. rewrite app_nil_r, bytesum_of_N, firstN_firstn.
  replace (N.to_nat (N.of_nat (length from) - 7)) with (Z.to_nat (Z.of_N (N.of_nat (length from)) - 7)) by lia.
  rewrite N2Z.inj_mod. reflexivity.
Qed.

Lemma c04_accept_sound_lemma : forall c bytes m,
  wf_ctx c = true -> bytes_small bytes = true -> lenN bytes < 2147483648 ->
  strict_factory c bytes = Ok m ->
  chk_as_read bytes /\ msg_sound c m.
Proof.
  intros c bytes m Hwf Hsmall Hlen H.
  destruct (wf_ctx_all c Hwf) as (Hwh & Hwt & Hih & Hit & _ & _ & _ & Hwb).
  unfold strict_factory, factory in H.
  apply bind_ok in H. destruct H as ([[hlen len] mtype] & _ & H).
  destruct (hlen =? 0); [discriminate|].
  destruct (find_msg (c_msgs c) (cstr mtype)) as [md|] eqn:Hmd; [|discriminate].
  pose proof (find_msg_In _ _ _ Hmd) as Hin. destruct (wf_body_table _ _ (Hwb _ Hin)) as [Hwbt _].
  apply bind_ok in H. destruct H as ([msg1 tlen] & HD & H).
  unfold msg_decode in HD. cbn [mk_message m_hdr m_body m_trl m_type] in HD.
  apply bind_ok in HD. destruct HD as ([h hl] & HH & HD).
  apply bind_ok in HD. destruct HD as ([b bl] & HB & HD).
  apply bind_ok in HD. destruct HD as ([t tl] & HT & HD). injection HD as <- _.
  pose proof (mbase_decode_sound _ _ _ _ _ _ _ _ _ _ Hwh (part_init_inv _ _ _ Hwh Hih) HH) as Sh.
  pose proof (mbase_decode_sound _ _ _ _ _ _ _ _ _ _ Hwbt (body_init_inv _ _ (Hwb _ Hin)) HB) as Sb.
  pose proof (mbase_decode_sound _ _ _ _ _ _ _ _ _ _ Hwt (part_init_inv _ _ _ Hwt Hit) HT) as St.
  cbn [m_hdr m_body m_trl m_type] in H.
  destruct (lenN bytes <? 7) eqn:H7; [discriminate|]. apply N.ltb_ge in H7.
  destruct (negb (nthN bytes (lenN bytes - 7) =? 49) || negb (nthN bytes (lenN bytes - 7 + 1) =? 48)) eqn:H10;
    [discriminate|].
  apply orb_false_iff in H10. destruct H10 as [Ha Hb]. apply negb_false_iff, N.eqb_eq in Ha, Hb.
  destruct (chk_calc bytes Hsmall H7 Hlen) as (hull & Hc). rewrite Hc, N2Z.id in H.
  destruct (fast_atoi_u32 (firstN 3 (skipN (lenN bytes - 7 + 3) bytes)) =? _) eqn:Hck; [|discriminate].
  apply N.eqb_eq in Hck. injection H as <-.
  split.
  - unfold chk_as_read. cbv zeta. split; [assumption|]. split; [assumption|].
    replace (lenN bytes - 6) with (lenN bytes - 7 + 1) by lia. split; [assumption|].
    replace (lenN bytes - 4) with (lenN bytes - 7 + 3) by lia. exact Hck.
  - exists md. cbn [m_hdr m_body m_trl m_type]. split; [assumption|]. split; [reflexivity|].
    split; [apply part_sound_set_value; apply part_sound_set_value; assumption|].
    split; [assumption | apply part_sound_set_value; assumption].
Qed.
