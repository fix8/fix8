(* C04: decimal texts as the spec reads them (dec_digits, int_value) against what fast_atoi makes
   of them, and extract_element on a serialised token. *)
From Coq Require Import NArith ZArith List Bool Lia.
From F8 Require Import Codec.Bytes Codec.Meta Codec.Extract Codec.Decode Codec.Lemmas C04.Spec_C04 C04.Tokens C04.Exact.
Import ListNotations.
Local Open Scope N_scope.
Ltac Zify.zify_post_hook ::= Z.div_mod_to_equations.

Lemma lenN_cons {A} (x : A) a : lenN (x :: a) = lenN a + 1.
Proof. cbn [lenN]. lia. Qed.
Lemma firstN_app {A} (a b : list A) : firstN (lenN a) (a ++ b) = a.
Proof. apply Lemmas.firstN_app. Qed.

Lemma firstN_firstn {A} (l : list A) : forall n, firstN n l = firstn (N.to_nat n) l.
Proof.
  induction l as [|x r IH]; intros n; [rewrite firstn_nil; reflexivity|].
  destruct n as [|p] using N.peano_ind; [reflexivity|].
  rewrite firstN_succ, N2Nat.inj_succ, IH. reflexivity.
Qed.

Lemma tag_len t : k_tag t < 65536 -> lenN (itoa_N (k_tag t)) <= 5.
Proof. intros H. apply (itoa_len_le 4). change (10 ^ N.of_nat 5) with 100000. lia. Qed.

Lemma dec_digits_app a b acc :
  all_digits a -> dec_digits (a ++ b) acc = match dec_digits a acc with Some v => dec_digits b v | None => None end.
Proof.
  revert acc. induction a as [|x a IH]; intros acc Ha; cbn [app dec_digits]; [reflexivity|].
  inversion Ha as [|? ? Hx Ha']; subst. rewrite Hx. apply IH. assumption.
Qed.
Lemma dec_digits_itoa n : dec_digits (itoa_N n) 0 = Some n.
Proof.
  induction n as [n H|n H IH] using N_div10_ind.
  - rewrite itoa_small by assumption. cbn [dec_digits]. rewrite is_digit_48 by assumption. f_equal. lia.
  - rewrite itoa_step by assumption. rewrite dec_digits_app by apply itoa_digits. rewrite IH.
    cbn [dec_digits]. rewrite is_digit_48 by (apply N.mod_lt; lia). f_equal.
    pose proof (N.div_mod n 10). lia.
Qed.
Lemma dec_digits_ge : forall l acc n, dec_digits l acc = Some n -> acc <= n.
Proof.
  induction l as [|x r IH]; intros acc n H; cbn [dec_digits] in H.
  - injection H as <-. lia.
  - destruct (is_digit x); [|discriminate]. apply IH in H. lia.
Qed.
Lemma dec_digits_all : forall l acc n, dec_digits l acc = Some n -> all_digits l.
Proof.
  induction l as [|x r IH]; intros acc n H; cbn [dec_digits] in H; [constructor|].
  destruct (is_digit x) eqn:E; [|discriminate]. constructor; [assumption | eapply IH; eassumption].
Qed.

Lemma atoi_digits (m : Z) : forall l acc n, dec_digits l acc = Some n -> (Z.of_N n < m)%Z ->
  fold_left (atoi_step m) l (Z.of_N acc) = Z.of_N n.
Proof.
  induction l as [|x r IH]; intros acc n H Hm; cbn [dec_digits fold_left] in *.
  - injection H as <-. reflexivity.
  - destruct (is_digit x) eqn:E; [|discriminate]. pose proof (dec_digits_ge _ _ _ H) as Hge.
    apply digit_range in E. unfold atoi_step at 2, schar.
    destruct (x <? 128) eqn:E2; [|apply N.ltb_ge in E2; lia].
    rewrite Z.mod_small by lia.
    replace (Z.of_N acc * 10 + Z.of_N x - 48)%Z with (Z.of_N (acc * 10 + (x - 48))) by lia.
    apply IH; assumption.
Qed.
Lemma atoi_digits_neg (m : Z) : (0 < m)%Z -> forall l acc n, dec_digits l acc = Some n ->
  fold_left (atoi_step_neg m) l ((- Z.of_N acc) mod m)%Z = ((- Z.of_N n) mod m)%Z.
Proof.
  intros Hm. induction l as [|x r IH]; intros acc n H; cbn [dec_digits fold_left] in *.
  - injection H as <-. reflexivity.
  - destruct (is_digit x) eqn:E; [|discriminate]. apply digit_range in E.
    rewrite <- (IH _ _ H). f_equal. unfold atoi_step_neg, schar.
    destruct (x <? 128) eqn:E2; [|apply N.ltb_ge in E2; lia].
    replace (- Z.of_N (acc * 10 + (x - 48)))%Z with ((- Z.of_N acc) * 10 - (Z.of_N x - 48))%Z by lia.
    rewrite <- (Zminus_mod_idemp_l ((- Z.of_N acc) * 10)), <- (Zmult_mod_idemp_l (- Z.of_N acc)), Zminus_mod_idemp_l.
    reflexivity.
Qed.
Lemma atoi_u32_digits l n : dec_digits l 0 = Some n -> n < 4294967296 -> fast_atoi_u32 l = n.
Proof.
  intros Hd Hn. unfold fast_atoi_u32, fast_atoi_mod.
  rewrite cstr_no_nul by (eapply digits_no_nul, dec_digits_all; exact Hd).
  change 0%Z with (Z.of_N 0). rewrite (atoi_digits two32 l 0 n Hd) by (unfold two32; lia). apply N2Z.id.
Qed.

Lemma int_value_plain x r : x <> 45 -> int_value (x :: r) = option_map Z.of_N (nat_value (x :: r)).
Proof.
  (* int_value's test for '-' is a match on the literal 45, that is on the six low bits of x *)
  intros H. unfold int_value. destruct (nat_value (x :: r)); cbn [option_map];
    (destruct x as [|p]; [reflexivity|]; do 6 (destruct p as [p|p|]; try reflexivity); congruence).
Qed.

Lemma canon_int_value v : canon_int v = true ->
  exists z, int_value v = Some z /\ fast_atoi_i32 v = z.
Proof.
  unfold canon_int. destruct (int_value v) as [z|] eqn:Ei; [|discriminate]. intros H.
  apply andb_true_iff in H. destruct H as [Hlo Hhi]. apply Z.leb_le in Hlo. apply Z.ltb_lt in Hhi.
  exists z. split; [reflexivity|].
  destruct v as [|x r]; [discriminate|].
  assert (Hdig : forall l n, nat_value l = Some n -> dec_digits l 0 = Some n)
    by (intros [|y l] n Hn; [discriminate | exact Hn]).
  unfold fast_atoi_i32, to_i32, two32, two31.
  destruct (N.eq_dec x 45) as [->|Hne45].
  - cbn [int_value] in Ei. destruct (nat_value r) as [n|] eqn:En; [|discriminate]. injection Ei as <-.
    apply Hdig in En. pose proof (digits_no_nul _ (dec_digits_all _ _ _ En)) as Hnz.
    rewrite (cstr_no_nul (45 :: r)) by (constructor; [reflexivity | exact Hnz]). cbn [N.eqb Pos.eqb].
    rewrite (atoi_digits_neg 4294967296 eq_refl r 0 n En : fold_left _ r 0%Z = _). rewrite Z.mod_mod by lia.
    destruct (Z.eq_dec (Z.of_N n) 0) as [E0|E0]; [rewrite E0; reflexivity|].
    rewrite Z_mod_nz_opp_full by (rewrite Z.mod_small; lia). rewrite Z.mod_small by lia.
    destruct (4294967296 - Z.of_N n <? 2147483648)%Z eqn:E2; [apply Z.ltb_lt in E2|]; lia.
  - rewrite (int_value_plain x r Hne45) in Ei.
    destruct (nat_value (x :: r)) as [n|] eqn:En; [|discriminate]. injection Ei as <-. apply Hdig in En.
    rewrite (cstr_no_nul _ (digits_no_nul _ (dec_digits_all _ _ _ En))). assert (E45 : (x =? 45) = false) by (apply N.eqb_neq; exact Hne45). rewrite E45.
    change 0%Z with (Z.of_N 0). rewrite (atoi_digits 4294967296 (x :: r) 0 n En) by lia. rewrite Z.mod_small by lia.
    destruct (Z.of_N n <? 2147483648)%Z eqn:E2; [reflexivity | apply Z.ltb_ge in E2; lia].
Qed.

Lemma count_agree v : canon_int v = true -> has_group_count v = count_pos v.
Proof.
  intros H. destruct (canon_int_value v H) as (z & Hi & Ha).
  unfold has_group_count, count_pos. rewrite Ha, Hi. reflexivity.
Qed.

Lemma ser_cons t r : ser (t :: r) = ser_tok t ++ ser r.
Proof. reflexivity. Qed.
Lemma ser_app a b : ser (a ++ b) = ser a ++ ser b.
Proof. apply flat_map_app. Qed.
Lemma lenN_ser_tok t : lenN (ser_tok t) = lenN (itoa_N (k_tag t)) + 1 + lenN (k_val t) + 1.
Proof. unfold ser_tok. rewrite lenN_app. cbn [lenN]. rewrite lenN_app. cbn [lenN]. lia. Qed.
Lemma lenN_ser_tok_pos t : 3 <= lenN (ser_tok t).
Proof.
  rewrite lenN_ser_tok. pose proof (itoa_nonempty (k_tag t)). destruct (itoa_N (k_tag t)); [congruence|]. cbn [lenN]. lia.
Qed.

Lemma extract_ser_tok t rest sz tcap vcap :
  no_soh (k_val t) -> lenN (k_val t) < vcap -> lenN (itoa_N (k_tag t)) < tcap -> lenN (ser_tok t) <= sz ->
  extract_element (ser_tok t ++ rest) sz tcap vcap = XOk (itoa_N (k_tag t)) (k_val t) (lenN (ser_tok t)).
Proof.
  intros Hv Hc Ht Hsz. rewrite lenN_ser_tok in *. unfold ser_tok.
  rewrite <- app_assoc. cbn [app]. rewrite <- app_assoc. cbn [app].
  apply xe_exact; try assumption. apply itoa_digits.
Qed.
