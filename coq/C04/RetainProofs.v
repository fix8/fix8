(* C04: retention -- on the inputs of c04_exact_partial the accepted object holds every token, and
   the whole oracle c04_ok holds on the model's result. *)
From Coq Require Import NArith ZArith List Bool Lia Permutation.
From F8 Require Import Codec.Bytes Codec.Meta Codec.Extract Codec.Decode Codec.Encode Codec.Lemmas
                       C04.Spec_C04 C04.Strict C04.Tokens C04.Sound C04.Exact C04.DecodeFacts C04.ExactProofs.
Import ListNotations.
Local Open Scope N_scope.

Definition known (c : ctx) (e : N * list N) : Prop := find_be (c_fields c) (fst e) <> None.
Definition rp (c : ctx) (e : N * list N) : N * list N := (fst e, c_render c (ftype c (fst e)) (snd e)).

Lemma printed_known c fp f v : find_be (c_fields c) f <> None -> printed c fp f v = c_render c (ftype c f) v.
Proof.
  intros H. unfold printed, ftype_of, ftype. destruct (find_be (c_fields c) f); [reflexivity | congruence].
Qed.

Lemma map_flat_map {A B C} (f : B -> C) (g : A -> list B) l :
  map f (flat_map g l) = flat_map (fun x => map f (g x)) l.
Proof. induction l as [|x r IH]; cbn [flat_map map]; [reflexivity|]. rewrite map_app, IH. reflexivity. Qed.
Lemma flat_map_map {A B C} (f : A -> B) (g : B -> list C) l :
  flat_map g (map f l) = flat_map (fun x => g (f x)) l.
Proof. induction l as [|x r IH]; cbn [flat_map map]; [reflexivity|]. rewrite IH. reflexivity. Qed.

Lemma flat_obs c : forall m, Forall (known c) (mflat m) -> flat (obs_of_mbase c m) = map (rp c) (mflat m).
Proof.
  induction m as [fp subs fields pos groups unk IH] using mbase_ind'. intros Hk.
  cbn [obs_of_mbase flat mflat] in *. rewrite map_app. apply Forall_app in Hk. destruct Hk as [Hkp Hkg]. f_equal.
  - rewrite map_map. apply map_ext_in. intros e He. unfold rp. cbn [fst snd]. f_equal.
    apply printed_known. rewrite Forall_forall in Hkp. apply (Hkp (snd e)). apply in_map. assumption.
  - rewrite flat_map_map, map_flat_map. apply flat_map_ext_in. intros g Hg. cbn [snd].
    rewrite flat_map_map, map_flat_map. apply flat_map_ext_in. intros e He.
    rewrite Forall_forall in IH. specialize (IH g Hg). rewrite Forall_forall in IH. apply (IH e He).
    rewrite Forall_forall in Hkg |- *. intros x Hx. apply Hkg. apply in_flat_map. exists g. split; [assumption|].
    apply in_flat_map. exists e. split; assumption.
Qed.

Definition cls (ty : N) (v : list N) : Z + list N :=
  if is_int_type ty then match int_value v with Some z => inl z | None => inr v end else inr v.
Definition key (c : ctx) (e : N * list N) : N * (Z + list N) := (fst e, cls (ftype c (fst e)) (snd e)).

Lemma val_eq_cls ty a b : val_eq ty a b = true <-> cls ty a = cls ty b.
Proof.
  unfold val_eq, cls. split.
  - intros H. apply orb_true_iff in H. destruct H as [H|H].
    + apply list_eqb_eq in H. subst. reflexivity.
    + apply andb_true_iff in H. destruct H as [Hi H]. rewrite Hi.
      destruct (int_value a), (int_value b); try discriminate. apply Z.eqb_eq in H. subst. reflexivity.
  - intros H. apply orb_true_iff. destruct (is_int_type ty).
    + destruct (int_value a) as [x|], (int_value b) as [y|]; try discriminate.
      * right. injection H as ->. cbn [andb]. apply Z.eqb_refl.
      * left. injection H as ->. apply list_eqb_refl.
    + left. injection H as ->. apply list_eqb_refl.
Qed.

Lemma tok_match_key c t e : tok_match c t e = true <-> key c (tok_pair t) = key c e.
Proof.
  unfold tok_match, key, tok_pair. cbn [fst snd]. split.
  - intros H. apply andb_true_iff in H. destruct H as [H1 H2]. apply N.eqb_eq in H1. rewrite <- H1.
    f_equal. apply val_eq_cls. assumption.
  - intros H. injection H as H1 H2. apply andb_true_iff. split; [apply N.eqb_eq; assumption|].
    apply val_eq_cls. rewrite H2, H1. reflexivity.
Qed.

Lemma remove_first_perm {A} (p : A -> bool) l l' :
  remove_first p l = Some l' -> exists x, p x = true /\ Permutation l (x :: l').
Proof.
  revert l'. induction l as [|y r IH]; intros l' H; cbn [remove_first] in H; [discriminate|].
  destruct (p y) eqn:E.
  - injection H as <-. exists y. split; [assumption | reflexivity].
  - destruct (remove_first p r) as [r'|]; [|discriminate]. injection H as <-.
    destruct (IH r' eq_refl) as (x & Hx & Hp). exists x. split; [assumption|].
    eapply perm_trans; [apply perm_skip; exact Hp | apply perm_swap].
Qed.
Lemma remove_first_some {A} (p : A -> bool) l x : In x l -> p x = true -> exists l', remove_first p l = Some l'.
Proof.
  induction l as [|y r IH]; intros Hin Hp; [destruct Hin|]. cbn [remove_first].
  destruct (p y) eqn:E; [eauto|]. destruct Hin as [->|Hin]; [congruence|].
  destruct (IH Hin Hp) as (l' & ->). eauto.
Qed.

Lemma ms_incl_complete c : forall toks pool extra,
  Permutation (map (key c) pool) (map (fun t => key c (tok_pair t)) toks ++ extra) ->
  ms_incl c toks pool = true.
Proof.
  induction toks as [|t r IH]; intros pool extra Hp; [reflexivity|]. cbn [ms_incl map app] in *.
  assert (Hin : In (key c (tok_pair t)) (map (key c) pool)).
  { apply (Permutation_in _ (Permutation_sym Hp)). left. reflexivity. }
  apply in_map_iff in Hin. destruct Hin as (e & He & Hine).
  destruct (remove_first_some (tok_match c t) pool e Hine ltac:(apply tok_match_key; symmetry; assumption)) as (pool' & Hrf).
  rewrite Hrf. destruct (remove_first_perm _ _ _ Hrf) as (x & Hx & Hperm).
  apply tok_match_key in Hx. apply (IH pool' extra).
  apply (Permutation_cons_inv (a := key c (tok_pair t))).
  eapply perm_trans; [|exact Hp]. rewrite Hx.
  apply Permutation_sym. apply (Permutation_map (key c)) in Hperm. exact Hperm.
Qed.

Lemma rendered_facts c toks : rendered c toks = true ->
  (forall t, In t toks -> known c (tok_pair t) /\ key c (rp c (tok_pair t)) = key c (tok_pair t)) /\
  (forall t8 t9 r, toks = t8 :: t9 :: r ->
     k_val t8 = c_begin c /\
     cls (ftype c 9) (k_val t9) =
     cls (ftype c 9) (c_render c (ftype c 9) (itoa_Z (to_i32 (Z.of_N (fast_atoi_u32 (k_val t9))))))).
Proof.
  unfold rendered. rewrite andb_true_iff, forallb_forall. intros [H1 H2]. split.
  - intros t Ht. specialize (H1 _ Ht). unfold tok_rendered in H1. rewrite andb_true_iff in H1. destruct H1 as [Hk Hv]. split.
    + unfold known, tok_pair. cbn [fst]. destruct (find_be (c_fields c) (k_tag t)); discriminate.
    + unfold key, rp, tok_pair. cbn [fst snd]. f_equal. symmetry. apply val_eq_cls. assumption.
  - intros t8 t9 r ->. rewrite andb_true_iff in H2. destruct H2 as [H2 H3]. split; [apply list_eqb_eq; assumption|].
    apply val_eq_cls. assumption.
Qed.

Lemma c04_ok_lemma c toks :
  wf_ctx c = true -> exact_hyps c toks = true -> rendered c toks = true ->
  struct_verdict c toks <> VIllegal ->
  c04_ok c (ser toks) (outcome_of c (strict_factory c (ser toks))) = true.
Proof.
  intros Hwf Hhyp Hren Hill.
  pose proof (exact_verdict c toks Hwf Hhyp) as HV. pose proof (exact_accept_lemma c toks Hwf Hhyp Hill) as HA.
  destruct (exact_hyps_facts _ _ Hhyp) as (Hfr & Hok & _).
  destruct (strict_factory c (ser toks)) as [m|e| | |]; cbn [outcome_of c04_ok]; try contradiction;
    rewrite HA; [|reflexivity].
  rewrite (tokenize_ser c toks Hok). cbn [andb].
  destruct HV as (_ & Hnv & HP). destruct HP as (ex & Hperm & Hex); [destruct (struct_verdict c toks); congruence|].
  destruct (rendered_facts _ _ Hren) as (Htoks & Hhead).
  destruct (frame_split _ Hfr) as (t8 & t9 & t35 & mid & t10 & Etoks & E8 & E9 & E35 & E10 & L10 & Elast & Emid).
  destruct (Hhead _ _ _ Etoks) as (Hb8 & Hb9).
  set (p9 := (9, itoa_Z (to_i32 (Z.of_N (fast_atoi_u32 (k_val t9)))))) in *.
  assert (Hexp : expected_pairs c toks = [tok_pair t8; p9; tok_pair t35; tok_pair t10] ++ map tok_pair mid).
  { unfold expected_pairs. rewrite Etoks at 1. rewrite Elast, Emid. unfold tok_pair. rewrite E8, E35, E10, Hb8. reflexivity. }
  assert (Hin : incl ([t8; t9; t35; t10] ++ mid) toks).
  { rewrite Etoks. intros t [<-|[<-|[<-|[<-|Ht]]]]; cbn [In]; auto; do 3 right; apply in_or_app; cbn; auto. }
  assert (K : forall t, In t ([t8; t9; t35; t10] ++ mid ++ ex) ->
              known c (tok_pair t) /\ key c (rp c (tok_pair t)) = key c (tok_pair t)).
  { intros t Ht. apply Htoks. rewrite app_assoc in Ht. apply in_app_or in Ht. destruct Ht; [apply Hin | apply Hex]; assumption. }
  assert (K9 : known c p9 /\ key c (rp c p9) = key c (tok_pair t9)).
  { destruct (K t9 ltac:(cbn; auto)) as [Hk _]. unfold known, key, rp, tok_pair, p9 in *. cbn [fst snd] in *.
    rewrite E9 in *. split; [exact Hk | f_equal; symmetry; exact Hb9]. }
  assert (Hkall : Forall (known c) (mflat (m_hdr m) ++ mflat (m_body m) ++ mflat (m_trl m))).
  { rewrite Hperm, Hexp, <- app_assoc, <- map_app. repeat constructor; try apply K; try apply K9; cbn; auto.
    apply Forall_forall. intros e He. apply in_map_iff in He. destruct He as (t & <- & Ht).
    apply K. do 4 right. exact Ht. }
  apply Forall_app in Hkall. destruct Hkall as [KH Hkall]. apply Forall_app in Hkall. destruct Hkall as [KB KT].
  unfold retains, flat_msg, obs_of_msg. cbn [o_hdr o_body o_trl].
  rewrite (flat_obs c _ KH), (flat_obs c _ KB), (flat_obs c _ KT), <- !map_app.
  apply (ms_incl_complete c toks _ (map (fun t => key c (tok_pair t)) ex)).
  rewrite Hperm, Hexp, !map_app, !map_map, Etoks. cbn [map app].
  rewrite (proj2 (K t8 ltac:(cbn; auto))), (proj2 K9), (proj2 (K t35 ltac:(cbn; auto))), (proj2 (K t10 ltac:(cbn; auto))).
  assert (KM : forall l, incl l (mid ++ ex) ->
            map (fun t => key c (rp c (tok_pair t))) l = map (fun t => key c (tok_pair t)) l).
  { intros l Hl. apply map_ext_in. intros t Ht. apply K. do 4 right. apply Hl, Ht. }
  rewrite (KM mid), (KM ex) by (intros t Ht; apply in_or_app; auto).
  rewrite map_app. cbn [map]. do 3 apply perm_skip. rewrite <- app_assoc. apply Permutation_middle.
Qed.
