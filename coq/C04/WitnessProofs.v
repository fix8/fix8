(* C04: what the witness theorems (c04_retains_refuted, c04_nonvacuous) evaluate: the model's verdict
   and the oracle on the model's own result. *)
From Coq Require Import NArith ZArith List Bool.
From F8 Require Import Codec.Bytes Codec.Meta Codec.Extract Codec.Decode Codec.Example
                       C04.Spec_C04 C04.Strict C04.Tokens C04.Example04 C04.Exact.
Import ListNotations.
Local Open Scope N_scope.

Definition accepted (c : ctx) (bytes : list N) : bool :=
  match strict_factory c bytes with Ok _ => true | _ => false end.
Definition model_ok (c : ctx) (bytes : list N) : bool :=
  c04_ok c bytes (outcome_of c (strict_factory c bytes)).
Definition retained (c : ctx) (toks : list tok) : bool :=
  match strict_factory c (ser toks) with
  | Ok m => retains c toks (obs_of_msg c m)
  | _ => false
  end.
Definition tags_small (toks : list tok) : bool := forallb (fun t => k_tag t <? 65536) toks.
Definition tags_known (c : ctx) (toks : list tok) : bool :=
  forallb (fun t => match find_be (c_fields c) (k_tag t) with Some _ => true | None => false end) toks.
