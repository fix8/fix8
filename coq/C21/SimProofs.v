(* C21: TwoParty.run_sops (the two Sess.Wire worlds driven by a schedule) computes, on the sessions inside its worlds,
   exactly Pair.fstep for the fault-free operations: same sessions, same in-flight bytes, same events step by step. *)
From Coq Require Import NArith ZArith List Bool Lia.
From F8 Require Import Sess.Bytes Sess.Msg Sess.Persist Sess.Session Sess.Wire C20.Peer C21.TwoParty C21.Pair.
Import ListNotations.
Local Open Scope N_scope.

Section Sim.
Variable sc : schema.
Variable decode : bytes -> decode_result.
Variable fl : bytes.
Variable now : Z.

(* the worlds hold these sessions, these bytes are in flight, both clocks show `now` *)
Definition sim (t : tp) (p : pair) : Prop :=
  w_sess (tp_i t) = Some (pa_i p) /\ w_sess (tp_a t) = Some (pa_a p) /\
  tp_ia t = pa_ia p /\ tp_ai t = pa_ai p /\ w_now (tp_i t) = now /\ w_now (tp_a t) = now.

Definition corr (o : sop) (f : fop) : Prop :=
  match o, f with
  | SSendI _ spec, FSendI m =>
    ms_ok spec = true /\ build_msg sc spec = Some m /\ ms_custom spec = 0 /\ ms_noinc spec = false
  | SSendA _ spec, FSendA m =>
    ms_ok spec = true /\ build_msg sc spec = Some m /\ ms_custom spec = 0 /\ ms_noinc spec = false
  | SDeliverA, FDeliverA => True
  | SDeliverI, FDeliverI => True
  | _, _ => False
  end.

Lemma outs_ret : forall e z, outs (e ++ [ERet z]) = outs e.
Proof. intros. unfold outs. rewrite flat_map_app. cbn [flat_map]. rewrite !app_nil_r. reflexivity. Qed.

Lemma side_send : forall w s spec m,
  w_sess w = Some s -> w_now w = now ->
  ms_ok spec = true /\ build_msg sc spec = Some m /\ ms_custom spec = 0 /\ ms_noinc spec = false ->
  side_op sc decode fl w (OSend spec) =
  (let '(ok, s1, e) := send sc now s m 0 false in (with_sess w s1, (e ++ [ERet (if ok then 1 else 0)%Z])%list)).
Proof.
  intros w s spec m S N (C1 & C2 & C3 & C4). unfold side_op, step_op. cbn [run_op]. rewrite S, C1, C2, C3, C4, N. reflexivity.
Qed.

Lemma side_in : forall w s l,
  w_sess w = Some s -> w_now w = now ->
  side_op sc decode fl w (OIn l) = (let '(s1, e) := feed sc decode fl now l s in (with_sess w s1, e)).
Proof. intros w s l S N. unfold side_op, step_op. rewrite S, N. reflexivity. Qed.

Lemma run_sop_sim : forall t p o f,
  sim t p -> corr o f ->
  exists t' p' ei ea,
    run_sop sc decode fl t o = (t', ei, ea) /\ fstep sc decode fl now p f = (p', ei, ea) /\ sim t' p'.
Proof.
  intros t p o f (S1 & S2 & S3 & S4 & S5 & S6) C.
  destruct o as [txt spec|txt spec| | | | | | |a b|t1 m1|t1 m1|]; destruct f as [m|m| |]; cbn [corr] in C; try contradiction;
    cbn [run_sop fstep].
  - unfold send_i. rewrite (side_send _ _ _ _ S1 S5 C). destruct (send sc now (pa_i p) m 0 false) as [[ok s] e].
    rewrite outs_ret. do 4 eexists. repeat split; cbn; congruence.
  - unfold send_a. rewrite (side_send _ _ _ _ S2 S6 C). destruct (send sc now (pa_a p) m 0 false) as [[ok s] e].
    rewrite outs_ret. do 4 eexists. repeat split; cbn; congruence.
  - unfold deliver_a. rewrite S3. destruct (pa_ia p) as [|x l] eqn:E; [do 4 eexists; repeat split; congruence|].
    rewrite (side_in _ _ _ S2 S6). destruct (feed sc decode fl now (x :: l) (pa_a p)) as [s e].
    do 4 eexists. repeat split; cbn; congruence.
  - unfold deliver_i. rewrite S4. destruct (pa_ai p) as [|x l] eqn:E; [do 4 eexists; repeat split; congruence|].
    rewrite (side_in _ _ _ S1 S5). destruct (feed sc decode fl now (x :: l) (pa_i p)) as [s e].
    do 4 eexists. repeat split; cbn; congruence.
Qed.

Lemma snapshot_sess_now : forall w, w_sess (fst (snapshot w)) = w_sess w /\ w_now (fst (snapshot w)) = w_now w.
Proof.
  intro w. unfold snapshot. destruct (w_sess w) as [s|] eqn:E; [|split; [exact E|reflexivity]].
  destruct (p_kind (s_per s)); cbn [fst w_sess w_now]; split; try exact E; reflexivity.
Qed.

Lemma snap2_sim : forall t ei ea p, sim t p ->
  let '(t1, st) := snap2 (t, ei, ea) in sim t1 p /\ st_events (fst st) = ei /\ st_events (snd st) = ea.
Proof.
  intros t ei ea p (S1 & S2 & S3 & S4 & S5 & S6). unfold snap2.
  destruct (snapshot_sess_now (tp_i t)) as [A1 A2]. destruct (snapshot_sess_now (tp_a t)) as [B1 B2].
  destruct (snapshot (tp_i t)) as [wi si]. destruct (snapshot (tp_a t)) as [wa sa]. cbn [fst snd] in *.
  repeat split; cbn [tp_i tp_a tp_ia tp_ai]; congruence.
Qed.

Theorem run_sops_frun : forall sops fops t p,
  sim t p -> Forall2 corr sops fops ->
  let evs := map (fun st => (st_events (fst st), st_events (snd st))) (run_sops sc decode fl t sops) in
  exists p', frun sc decode fl now p fops = (p', concat (map fst evs), concat (map snd evs)).
Proof.
  induction sops as [|o sops IH]; intros fops t p S F; inversion F as [|? f ? fops' C F']; subst;
    cbn [run_sops frun]; [exists p; reflexivity|].
  destruct (run_sop_sim t p o f S C) as (t' & p' & ei & ea & R & FS & S').
  rewrite R, FS. pose proof (snap2_sim t' ei ea p' S') as X.
  destruct (snap2 (t', ei, ea)) as [t1 st]. destruct X as (S'' & E1 & E2).
  destruct (IH fops' t1 p' S'' F') as [p'' E]. cbn zeta in E. rewrite E. exists p''.
  cbn [map concat fst snd]. rewrite E1, E2. reflexivity.
Qed.

End Sim.
