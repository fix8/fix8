(* C21: the delivery theorem for schedules without drops and restarts (c21_nofault_partial), by induction over the
   schedule with the invariant
       what is in flight towards a side is exactly the consecutively numbered new application messages between
       that side's expected number and the other side's next outbound number,
   on top of the send lemmas of coq/Sess/SendLemmas.v and the stream lemmas of coq/C20.

   The one hypothesis about bytes (`codec_at`, part of valid_run): each application message, as fix8's own send path
   writes it (SendLemmas.wire: CompIDs, MsgSeqNum = next_send, SendingTime added; Message::encode), is read back by
   the other side's decoder as "application message of that type, that number, no PossDupFlag, CompIDs as expected"
   (C20.Classify.item_of = the number Session::process scans from the raw bytes + the decoded form).  It is a
   per-message, executable condition about the codec alone; it holds on every message of the correspondence run (the
   model trace would differ from the real one otherwise) and is evaluated for the witness schedule in the Props file. *)
From Coq Require Import NArith ZArith List Bool Lia.
From F8 Require Import Sess.Bytes Sess.Msg Sess.Persist Sess.Session Sess.Wire Sess.SessLemmas Sess.SendLemmas
  Sess.ProcessLemmas C20.Peer C20.Classify C20.SessFacts C20.BurstProofs C20.CheckProofs C21.TwoParty C21.Pair.
Import ListNotations.
Local Open Scope N_scope.

Lemma outs_item_events : forall sc l, outs (flat_map (item_events sc) l) = [].
Proof. induction l as [|[] l IH]; cbn; [reflexivity|exact IH..]. Qed.

(* who sent what, with which number: the deliveries owed to the other side *)
Fixpoint sent_list (from_i : bool) (l : list fop) (n : N) : list (bytes * N * bool) :=
  match l with
  | [] => []
  | FSendI m :: r => if from_i then (m_type m, n, false) :: sent_list from_i r (n + 1) else sent_list from_i r n
  | FSendA m :: r => if from_i then sent_list from_i r n else (m_type m, n, false) :: sent_list from_i r (n + 1)
  | _ :: r => sent_list from_i r n
  end.

Section NoFault.
Variable sc : schema.
Variable decode : bytes -> decode_result.
Variable fl : bytes.
Variable now : Z.

Hypothesis WS : wf_schema sc = true.

Definition facing (s r : sess) : Prop := s_snd s = s_tgt r /\ s_tgt s = s_snd r.

(* the hypothesis about bytes described at the head of the file, for sender s and receiver r *)
Definition codec_at (s r : sess) (m : msg) : Prop :=
  item_of decode r (wire sc now s m) = Some (BApp (m_type m) (s_next_send s) false).

Definition valid_op (p : pair) (o : fop) : Prop :=
  match o with
  | FSendI m => simple_app m = true /\ codec_at (pa_i p) (pa_a p) m
  | FSendA m => simple_app m = true /\ codec_at (pa_a p) (pa_i p) m
  | _ => True
  end.

Fixpoint valid_run (p : pair) (l : list fop) : Prop :=
  match l with
  | [] => True
  | o :: l' => valid_op p o /\ valid_run (fst (fst (fstep sc decode fl now p o))) l'
  end.

Definition ready (s : sess) : Prop :=
  good s /\ s_state s = st_continuous /\ s_closed s = false /\ s_batch s = [] /\ wf_sess s = true.

Lemma simple_fields : forall m, simple_app m = true ->
  is_session_type (m_type m) = false /\ m_hdr m = [] /\ m_custom m = 0 /\ m_noinc m = false /\ m_eob m = true /\
  nosoh (m_type m) = true /\ vals_ok (m_body m) = true /\
  has_field T_MsgSeqNum (m_body m) = false /\ has_field T_PossDupFlag (m_body m) = false.
Proof.
  intros m H. unfold simple_app in H. rewrite !andb_true_iff, !negb_true_iff, N.eqb_eq in H.
  destruct H as ((((((((Ty & Hd) & Cu) & Ni) & Eob) & Nt) & Nb) & B34) & B43).
  destruct (m_hdr m); [|discriminate]. repeat split; assumption.
Qed.

Lemma simple_plain : forall m, simple_app m = true -> plain_msg m = true.
Proof.
  intros m H. destruct (simple_fields m H) as (Ty & Hd & Cu & Ni & _ & Nt & Nb & B34 & B43).
  unfold plain_msg. rewrite Hd, Cu, Ni, (app_not_reset _ Ty), B34, B43, Nt, Nb. reflexivity.
Qed.

Lemma simple_type : forall m, simple_app m = true -> is_session_type (m_type m) = false.
Proof. intros m H. apply (simple_fields m H). Qed.

Lemma send_simple : forall s m, ready s -> simple_app m = true ->
  exists s',
    send sc now s m 0 false = (true, s', [EOut (wire sc now s m)]) /\
    ready s' /\ frame s s' /\ s_next_send s' = s_next_send s + 1.
Proof.
  intros s m (G & St & Cl & Ba & WSs) Sm. destruct (simple_fields m Sm) as (_ & _ & _ & _ & Eob & _).
  unfold send. cbn [N.eqb]. rewrite (send_process_plain sc now s m (simple_plain m Sm) Cl).
  unfold plain_result, wire. rewrite Eob, Ba, out_events_encode by apply (wf_schema_fields sc WS).
  eexists. split; [reflexivity|].
  destruct G as (R & A & Sh & Ru).
  split; [|split; [repeat split|reflexivity]].
  repeat split; try assumption.
Qed.

Lemma feed_encoded : forall ms s,
  s_reader s = true ->
  feed sc decode fl now (map (encode sc) ms) s = reader_loop sc decode fl now (map (encode sc) ms) s [].
Proof.
  intros ms s R. unfold feed. rewrite R, frames_encodes by apply (wf_schema_fields sc WS).
  destruct (reader_loop sc decode fl now (map (encode sc) ms) s []) as [s1 e1]. rewrite app_nil_r. reflexivity.
Qed.

(* one direction of the pair.  What is in flight are whole messages, which the receiver classifies as `items`:
   numbered consecutively from its expected number up to the sender's next number *)
Definition flight_ok (snd rcv : sess) (f : list bytes) (items : list bitem) : Prop :=
  (exists ms, f = map (encode sc) ms) /\ Forall2 (is_item decode rcv) f items /\
  tiles (s_next_recv rcv) items (s_next_send snd).

Lemma flight_nil : forall snd rcv, s_next_recv rcv = s_next_send snd -> flight_ok snd rcv [] [].
Proof. intros snd rcv E. split; [exists []; reflexivity|]. split; [constructor|exact E]. Qed.

Lemma flight_send : forall snd snd' rcv f items m,
  codec_at snd rcv m -> s_next_send snd' = s_next_send snd + 1 -> flight_ok snd rcv f items ->
  flight_ok snd' rcv (f ++ [wire sc now snd m]) (items ++ [BApp (m_type m) (s_next_send snd) false]).
Proof.
  intros snd snd' rcv f items m Cd NS ((ms & E) & F & T).
  split; [exists (ms ++ [filled sc now snd m])%list; rewrite map_app, E; reflexivity|].
  split; [apply Forall2_app; [exact F|]; constructor; [apply item_of_sound; exact Cd|constructor]|].
  rewrite NS. apply tiles_snoc. exact T.
Qed.

(* the receiver has sent something itself *)
Lemma flight_rcv_frame : forall snd rcv rcv' f items,
  frame rcv rcv' -> flight_ok snd rcv f items -> flight_ok snd rcv' f items.
Proof.
  intros snd rcv rcv' f items (_ & F2 & F3) (E & FA & T).
  split; [exact E|]. split; [eapply items_cfg; eassumption|rewrite F2; exact T].
Qed.

(* the sender has received something *)
Lemma flight_snd_recv : forall snd snd' rcv f items,
  recv_only snd snd' -> flight_ok snd rcv f items -> flight_ok snd' rcv f items.
Proof. intros snd snd' rcv f items (_ & Q & _) (E & FA & T). rewrite <- Q in T. split; [exact E|split; assumption]. Qed.

(* the bytes arrive: C20's stream theorem for a session that is aligned with the head of the flight *)
Lemma flight_deliver : forall snd rcv f items,
  ready rcv -> flight_ok snd rcv f items ->
  exists rcv' e,
    feed sc decode fl now f rcv = (rcv', e) /\ ready rcv' /\ recv_only rcv rcv' /\
    s_next_recv rcv' = s_next_send snd /\ outs e = [] /\ dels e = item_dels items.
Proof.
  intros snd rcv f items (G & St & Cl & Ba & Wf) ((ms & ->) & F & T).
  rewrite (feed_encoded ms rcv (proj1 G)).
  apply tiles_accepted in T. rewrite <- St in T at 1.
  destruct (run_accepted sc decode fl now items _ [] rcv [] _ _ F G T) as (s' & RL & G' & Q' & St' & Nr').
  rewrite app_nil_r in RL. rewrite RL. cbn [reader_loop app].
  exists s'. eexists. split; [reflexivity|]. rewrite outs_item_events, dels_item_events.
  split; [|split; [exact Q'|split; [exact Nr'|split; reflexivity]]].
  destruct Q' as ((_ & _ & _ & C4 & C5 & C6 & _) & _ & Q3).
  split; [exact G'|]. split; [exact St'|]. unfold wf_sess in *. rewrite C4, C5, C6, Q3. repeat split; assumption.
Qed.

Lemma facing_cfg : forall s s' r r', cfg s s' -> cfg r r' -> facing s r -> facing s' r'.
Proof.
  intros s s' r r' (_ & _ & _ & _ & A & B & _) (_ & _ & _ & _ & A' & B' & _) [F1 F2]. split; congruence.
Qed.

Definition inv (p : pair) (ia ai : list bitem) : Prop :=
  ready (pa_i p) /\ ready (pa_a p) /\ facing (pa_i p) (pa_a p) /\
  flight_ok (pa_i p) (pa_a p) (pa_ia p) ia /\ flight_ok (pa_a p) (pa_i p) (pa_ai p) ai.

Lemma facing_sym : forall s r, facing s r -> facing r s.
Proof. intros s r [A B]. split; congruence. Qed.

Lemma ready_wf : forall s, ready s -> nosoh (s_snd s) = true /\ nosoh (s_tgt s) = true.
Proof. intros s (_ & _ & _ & _ & W). unfold wf_sess in W. apply andb_true_iff in W. exact W. Qed.

Lemma inv_send_i : forall p ia ai m,
  inv p ia ai -> simple_app m = true -> codec_at (pa_i p) (pa_a p) m ->
  exists p' e,
    fstep sc decode fl now p (FSendI m) = (p', e, []) /\ dels e = [] /\
    s_next_send (pa_i p') = s_next_send (pa_i p) + 1 /\ pa_a p' = pa_a p /\
    inv p' (ia ++ [BApp (m_type m) (s_next_send (pa_i p)) false]) ai.
Proof.
  intros p ia ai m (RI & RA & FC & FI & FA) Sm Cd.
  destruct (send_simple (pa_i p) m RI Sm) as (s' & SE & R' & FR & NS).
  cbn [fstep]. rewrite SE. do 2 eexists. split; [reflexivity|]. split; [reflexivity|].
  split; [exact NS|]. split; [reflexivity|]. split; [exact R'|]. split; [exact RA|].
  split; [exact (facing_cfg _ _ _ _ (frame_cfg _ _ FR) (cfg_refl _) FC)|].
  split; [apply flight_send; assumption|eapply flight_rcv_frame; eassumption].
Qed.

Lemma inv_send_a : forall p ia ai m,
  inv p ia ai -> simple_app m = true -> codec_at (pa_a p) (pa_i p) m ->
  exists p' e,
    fstep sc decode fl now p (FSendA m) = (p', [], e) /\ dels e = [] /\
    s_next_send (pa_a p') = s_next_send (pa_a p) + 1 /\ pa_i p' = pa_i p /\
    inv p' ia (ai ++ [BApp (m_type m) (s_next_send (pa_a p)) false]).
Proof.
  intros p ia ai m (RI & RA & FC & FI & FA) Sm Cd.
  destruct (send_simple (pa_a p) m RA Sm) as (s' & SE & R' & FR & NS).
  cbn [fstep]. rewrite SE. do 2 eexists. split; [reflexivity|]. split; [reflexivity|].
  split; [exact NS|]. split; [reflexivity|]. split; [exact RI|]. split; [exact R'|].
  split; [exact (facing_cfg _ _ _ _ (cfg_refl _) (frame_cfg _ _ FR) FC)|].
  split; [eapply flight_rcv_frame; eassumption|apply flight_send; assumption].
Qed.

Lemma inv_deliver_a : forall p ia ai,
  inv p ia ai ->
  exists p' e,
    fstep sc decode fl now p FDeliverA = (p', [], e) /\ dels e = item_dels ia /\
    pa_i p' = pa_i p /\ s_next_send (pa_a p') = s_next_send (pa_a p) /\ inv p' [] ai.
Proof.
  intros p ia ai (RI & RA & FC & FI & FA). cbn [fstep].
  destruct (flight_deliver _ _ _ _ RA FI) as (s' & e & FE & R' & Q' & NR & O & D).
  destruct (pa_ia p) as [|x l] eqn:EF.
  - destruct FI as (_ & F & T). inversion F; subst. exists p, []. do 4 (split; [reflexivity|]).
    split; [exact RI|]. split; [exact RA|]. split; [exact FC|]. rewrite EF. split; [apply flight_nil, T|exact FA].
  - rewrite FE, O, app_nil_r. do 2 eexists. split; [reflexivity|]. split; [exact D|].
    split; [reflexivity|]. split; [apply Q'|]. split; [exact RI|]. split; [exact R'|].
    split; [exact (facing_cfg _ _ _ _ (cfg_refl _) (proj1 Q') FC)|].
    split; [apply flight_nil, NR|eapply flight_snd_recv; eassumption].
Qed.

Lemma inv_deliver_i : forall p ia ai,
  inv p ia ai ->
  exists p' e,
    fstep sc decode fl now p FDeliverI = (p', e, []) /\ dels e = item_dels ai /\
    pa_a p' = pa_a p /\ s_next_send (pa_i p') = s_next_send (pa_i p) /\ inv p' ia [].
Proof.
  intros p ia ai (RI & RA & FC & FI & FA). cbn [fstep].
  destruct (flight_deliver _ _ _ _ RI FA) as (s' & e & FE & R' & Q' & NR & O & D).
  destruct (pa_ai p) as [|x l] eqn:EF.
  - destruct FA as (_ & F & T). inversion F; subst. exists p, []. do 4 (split; [reflexivity|]).
    split; [exact RI|]. split; [exact RA|]. split; [exact FC|]. rewrite EF. split; [exact FI|apply flight_nil, T].
  - rewrite FE, O, app_nil_r. do 2 eexists. split; [reflexivity|]. split; [exact D|].
    split; [reflexivity|]. split; [apply Q'|]. split; [exact R'|]. split; [exact RA|].
    split; [exact (facing_cfg _ _ _ _ (proj1 Q') (cfg_refl _) FC)|].
    split; [eapply flight_snd_recv; eassumption|apply flight_nil, NR].
Qed.

(* after ANY valid schedule: in each direction, what was in flight and what has been sent since is what has been
   delivered and what is in flight now *)
Theorem frun_inv : forall ops p ia ai,
  inv p ia ai -> valid_run p ops ->
  exists p' ei ea ia' ai',
    frun sc decode fl now p ops = (p', ei, ea) /\ inv p' ia' ai' /\
    (item_dels ia ++ sent_list true ops (s_next_send (pa_i p)) = dels ea ++ item_dels ia')%list /\
    (item_dels ai ++ sent_list false ops (s_next_send (pa_a p)) = dels ei ++ item_dels ai')%list.
Proof.
  induction ops as [|o ops IH]; intros p ia ai I V.
  - exists p, [], [], ia, ai. cbn [frun sent_list dels flat_map app]. rewrite !app_nil_r. split; [reflexivity|]. split; [exact I|]. split; reflexivity.
  - destruct V as [V1 V2]. cbn [frun]. destruct o as [m|m| |]; cbn [sent_list valid_op] in *.
    + destruct (inv_send_i p ia ai m I (proj1 V1) (proj2 V1)) as (p1 & e & E1 & D & NS & PA & I1).
      rewrite E1 in *. destruct (IH p1 _ _ I1 V2) as (p2 & i2 & a2 & ia2 & ai2 & E2 & I2 & C1 & C2).
      rewrite E2. do 5 eexists. split; [reflexivity|]. split; [exact I2|].
      rewrite NS, item_dels_app, <- app_assoc in C1. rewrite PA in C2. cbn [app]. rewrite dels_app, D. split; assumption.
    + destruct (inv_send_a p ia ai m I (proj1 V1) (proj2 V1)) as (p1 & e & E1 & D & NS & PI & I1).
      rewrite E1 in *. destruct (IH p1 _ _ I1 V2) as (p2 & i2 & a2 & ia2 & ai2 & E2 & I2 & C1 & C2).
      rewrite E2. do 5 eexists. split; [reflexivity|]. split; [exact I2|].
      rewrite NS, item_dels_app, <- app_assoc in C2. rewrite PI in C1. cbn [app]. rewrite dels_app, D. split; assumption.
    + destruct (inv_deliver_a p ia ai I) as (p1 & e & E1 & D & PI & NS & I1).
      rewrite E1 in *. destruct (IH p1 _ _ I1 V2) as (p2 & i2 & a2 & ia2 & ai2 & E2 & I2 & C1 & C2).
      rewrite E2. do 5 eexists. split; [reflexivity|]. split; [exact I2|].
      rewrite PI in C1. rewrite NS in C2. cbn [app]. rewrite dels_app, D, <- app_assoc, <- C1. split; [reflexivity|exact C2].
    + destruct (inv_deliver_i p ia ai I) as (p1 & e & E1 & D & PA & NS & I1).
      rewrite E1 in *. destruct (IH p1 _ _ I1 V2) as (p2 & i2 & a2 & ia2 & ai2 & E2 & I2 & C1 & C2).
      rewrite E2. do 5 eexists. split; [reflexivity|]. split; [exact I2|].
      rewrite PA in C2. rewrite NS in C1. cbn [app]. rewrite dels_app, D, <- app_assoc, <- C2. split; [exact C1|reflexivity].
Qed.

Lemma frun_app : forall l1 l2 p,
  frun sc decode fl now p (l1 ++ l2) =
  (let '(p1, i1, a1) := frun sc decode fl now p l1 in
   let '(p2, i2, a2) := frun sc decode fl now p1 l2 in (p2, (i1 ++ i2)%list, (a1 ++ a2)%list)).
Proof.
  induction l1 as [|o l1 IH]; intros l2 p; cbn [app frun].
  - destruct (frun sc decode fl now p l2) as [[p2 i2] a2]. reflexivity.
  - destruct (fstep sc decode fl now p o) as [[q iq] aq]. rewrite IH.
    destruct (frun sc decode fl now q l1) as [[p1 i1] a1]. destruct (frun sc decode fl now p1 l2) as [[p2 i2] a2].
    rewrite !app_assoc. reflexivity.
Qed.

Definition synced (p : pair) : Prop :=
  ready (pa_i p) /\ ready (pa_a p) /\ facing (pa_i p) (pa_a p) /\ pa_ia p = [] /\ pa_ai p = [] /\
  s_next_recv (pa_a p) = s_next_send (pa_i p) /\ s_next_recv (pa_i p) = s_next_send (pa_a p).

Theorem nofault_delivery : forall ops p,
  synced p -> valid_run p ops ->
  exists p' ei ea,
    frun sc decode fl now p (ops ++ [FDeliverA; FDeliverI]) = (p', ei, ea) /\
    synced p' /\
    dels ea = sent_list true ops (s_next_send (pa_i p)) /\
    dels ei = sent_list false ops (s_next_send (pa_a p)).
Proof.
  intros ops p (RI & RA & FC & E1 & E2 & N1 & N2) V.
  assert (I0 : inv p [] []).
  { split; [exact RI|]. split; [exact RA|]. split; [exact FC|]. rewrite E1, E2. split; apply flight_nil; assumption. }
  destruct (frun_inv ops p [] [] I0 V) as (p1 & i1 & a1 & ia & ai & F1 & I1 & C1 & C2).
  destruct (inv_deliver_a p1 ia ai I1) as (p2 & a2 & F2 & D2 & _ & _ & I2).
  destruct (inv_deliver_i p2 [] ai I2) as (p3 & i3 & F3 & D3 & _ & _ & (RI3 & RA3 & FC3 & FI3 & FA3)).
  rewrite frun_app, F1. cbn [frun]. rewrite F2, F3. do 3 eexists. split; [reflexivity|].
  rewrite !dels_app, D2, D3. cbn [dels flat_map app] in *. rewrite !app_nil_r. split; [|split; symmetry; assumption].
  destruct FI3 as (_ & X1 & T1). destruct FA3 as (_ & X2 & T2). inversion X1. inversion X2.
  split; [exact RI3|]. split; [exact RA3|]. split; [exact FC3|]. repeat split; (assumption || symmetry; assumption).
Qed.

End NoFault.
