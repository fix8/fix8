(* C21: c21_nofault_partial on the two-party model itself (TwoParty.run_sops), from the session-level theorem
   (NoFaultProofs.nofault_delivery) through the simulation (SimProofs); soundness of the boolean checkers used to
   instantiate it on concrete schedules, and the instance on the schedule Example21.sops_w. *)
From Coq Require Import NArith ZArith List Bool Lia.
From F8 Require Import Sess.Bytes Sess.Msg Sess.Persist Sess.Session Sess.Wire Sess.SessLemmas Sess.SendLemmas
  Sess.SimpleCodec C20.Peer C20.Classify C20.SessFacts C20.BurstProofs C20.CheckProofs C20.Example
  C21.TwoParty C21.Pair C21.NoFaultProofs C21.SimProofs C21.Example21.
Import ListNotations.
Local Open Scope N_scope.

Section TPP.
Variable sc : schema.
Variable decode : bytes -> decode_result.
Variable fl : bytes.
Variable now : Z.
Hypothesis WS : wf_schema sc = true.

Lemma readyb_sound : forall s, readyb s = true -> ready s.
Proof.
  intros s H. unfold readyb in H. rewrite !andb_true_iff, !negb_true_iff, N.eqb_eq in H.
  destruct H as ((((((R & A) & Sh) & St) & Cl) & Ba) & Wf). destruct (s_batch s) eqn:B; [|discriminate].
  repeat split; try assumption. left. exact St.
Qed.

Lemma syncedb_sound : forall p, syncedb p = true -> synced p.
Proof.
  intros p H. unfold syncedb in H. rewrite !andb_true_iff, !beq_eq, !N.eqb_eq in H.
  destruct H as (((((((RI & RA) & F1) & F2) & E1) & E2) & N1) & N2).
  destruct (pa_ia p) eqn:X1; [|discriminate]. destruct (pa_ai p) eqn:X2; [|discriminate].
  split; [apply readyb_sound, RI|]. split; [apply readyb_sound, RA|]. repeat split; assumption.
Qed.

Lemma codec_atb_sound : forall s r m, codec_atb sc decode now s r m = true -> codec_at sc decode now s r m.
Proof.
  intros s r m H. unfold codec_atb in H. unfold codec_at.
  destruct (item_of decode r (wire sc now s m)) as [it|]; [|discriminate]. apply bitem_eqb_eq in H. congruence.
Qed.

Lemma valid_runb_sound : forall l p, valid_runb sc decode fl now p l = true -> valid_run sc decode fl now p l.
Proof.
  induction l as [|o l IH]; intros p H; cbn [valid_runb valid_run] in *; [exact I|].
  apply andb_true_iff in H. destruct H as [H1 H2]. split; [|apply IH; exact H2].
  destruct o as [m|m| |]; cbn [valid_opb valid_op] in *; try exact I;
    apply andb_true_iff in H1; (split; [apply H1|apply codec_atb_sound, H1]).
Qed.

Definition step_events (st : tstep) : list event * list event := (st_events (fst st), st_events (snd st)).

Theorem twoparty_nofault : forall sops fops t p,
  sim now t p -> synced p -> Forall2 (corr sc) sops fops -> valid_run sc decode fl now p fops ->
  let evs := map step_events (run_sops sc decode fl t (sops ++ [SDeliverA; SDeliverI])) in
  dels (concat (map snd evs)) = sent_list true fops (s_next_send (pa_i p)) /\
  dels (concat (map fst evs)) = sent_list false fops (s_next_send (pa_a p)).
Proof.
  intros sops fops t p S SY C V evs.
  destruct (run_sops_frun sc decode fl now (sops ++ [SDeliverA; SDeliverI]) (fops ++ [FDeliverA; FDeliverI]) t p S)
    as [p' FR]; [apply Forall2_app; [exact C|repeat constructor]|].
  destruct (nofault_delivery sc decode fl now WS fops p SY V) as (p'' & ei & ea & FR' & _ & D1 & D2).
  rewrite FR in FR'. inversion FR'; subst ei ea. split; assumption.
Qed.

Definition nofault_check (t : tp) (fops : list fop) : bool :=
  match proj_pair t with
  | Some p => syncedb p && valid_runb sc decode fl now p fops && (w_now (tp_i t) =? now)%Z && (w_now (tp_a t) =? now)%Z
  | None => false
  end.

Lemma nofault_check_sound : forall t fops, nofault_check t fops = true ->
  exists p, proj_pair t = Some p /\ sim now t p /\ synced p /\ valid_run sc decode fl now p fops.
Proof.
  intros t fops H. unfold nofault_check in H. destruct (proj_pair t) as [p|] eqn:E; [|discriminate].
  exists p. split; [reflexivity|].
  apply andb_true_iff in H; destruct H as [H N2]. apply andb_true_iff in H; destruct H as [H N1].
  apply andb_true_iff in H; destruct H as [S V].
  apply Z.eqb_eq in N1. apply Z.eqb_eq in N2.
  split; [|split; [apply syncedb_sound; exact S|apply valid_runb_sound; exact V]].
  clear S V. unfold proj_pair in E. destruct (w_sess (tp_i t)) as [si|] eqn:E1; [|discriminate].
  destruct (w_sess (tp_a t)) as [sa|] eqn:E2; [|discriminate]. inversion E; subst p.
  repeat split; assumption.
Qed.

End TPP.

Lemma corr_w : Forall2 (corr mini) sops_w fops_w.
Proof.
  assert (B : build_msg mini spec_D = Some m_D) by (vm_compute; reflexivity).
  assert (CI : corr mini SI_D (FSendI m_D)) by (split; [reflexivity|split; [exact B|split; reflexivity]]).
  assert (CA : corr mini SA_D (FSendA m_D)) by (split; [reflexivity|split; [exact B|split; reflexivity]]).
  unfold sops_w, fops_w. repeat (constructor; try assumption; try exact I).
Qed.

Lemma nofault_instance :
  wf_schema mini = true /\
  exists p, proj_pair t_logged = Some p /\ sim T0 t_logged p /\ synced p /\
            Forall2 (corr mini) sops_w fops_w /\ valid_run mini dec_mini [] T0 p fops_w.
Proof.
  split; [reflexivity|].
  destruct (nofault_check_sound mini dec_mini [] T0 t_logged fops_w) as (p & A & B & C & D); [vm_compute; reflexivity|].
  exists p. split; [exact A|]. split; [exact B|]. split; [exact C|]. split; [exact corr_w|exact D].
Qed.
