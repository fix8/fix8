(* Facts about the codec core that the codec properties share: N-indexed lists, the decimal texts
   of itoa_N and their way back through fast_atoi, extract_element on a well-formed token,
   look-ups in the association lists and trait tables of Codec/Meta.v, and one turn of each
   function of the group decoder. *)
From Coq Require Import NArith ZArith List Bool Lia.
From F8 Require Import Codec.Bytes Codec.Meta Codec.Extract Codec.Decode.
Import ListNotations.
Local Open Scope N_scope.

(* ------------------------------------------------------------------ N-indexed lists *)
Lemma lenN_length {A} (a : list A) : lenN a = N.of_nat (length a).
Proof. induction a as [|x a IH]; cbn [lenN length]; [reflexivity|rewrite IH; lia]. Qed.

Lemma lenN_app {A} (a b : list A) : lenN (a ++ b) = lenN a + lenN b.
Proof. rewrite !lenN_length, app_length. lia. Qed.

Lemma lenN_rev {A} (l : list A) : lenN (rev l) = lenN l.
Proof. rewrite !lenN_length, rev_length. reflexivity. Qed.

Lemma skipN_0 {A} (l : list A) : skipN 0 l = l.
Proof. destruct l; reflexivity. Qed.

Lemma skipN_succ {A} n (x : A) l : skipN (N.succ n) (x :: l) = skipN n l.
Proof.
  cbn [skipN]. destruct (N.succ n =? 0) eqn:E; [apply N.eqb_eq in E; lia|].
  f_equal. lia.
Qed.

Lemma firstN_succ {A} n (x : A) l : firstN (N.succ n) (x :: l) = x :: firstN n l.
Proof.
  cbn [firstN]. destruct (N.succ n =? 0) eqn:E; [apply N.eqb_eq in E; lia|].
  do 2 f_equal. lia.
Qed.

Lemma skipN_app {A} (a b : list A) : skipN (lenN a) (a ++ b) = b.
Proof.
  induction a as [|x a IH]; cbn [lenN app]; [apply skipN_0|].
  rewrite skipN_succ. exact IH.
Qed.

Lemma firstN_app {A} (a b : list A) : firstN (lenN a) (a ++ b) = a.
Proof.
  induction a as [|x a IH]; cbn [lenN app]; [destruct b; reflexivity|].
  rewrite firstN_succ, IH. reflexivity.
Qed.

Lemma skipN_add {A} (a b : N) (l : list A) : skipN (a + b) l = skipN b (skipN a l).
Proof.
  revert l. induction a as [|a IH] using N.peano_ind; intros l; [rewrite skipN_0; reflexivity|].
  destruct l as [|x l]; [destruct b; reflexivity|].
  rewrite N.add_succ_l, !skipN_succ. apply IH.
Qed.

(* ------------------------------------------------------------------ classes of bytes *)
Definition all_digits (l : list N) : Prop := Forall (fun b => is_digit b = true) l.
Definition no_soh (l : list N) : Prop := Forall (fun b => (b =? SOH) = false) l.
Definition no_nul (l : list N) : Prop := Forall (fun b => (b =? 0) = false) l.

Lemma is_digit_48 d : d < 10 -> is_digit (48 + d) = true.
Proof. intros. unfold is_digit. apply andb_true_intro; split; apply N.leb_le; lia. Qed.

Lemma digit_range b : is_digit b = true -> 48 <= b <= 57.
Proof. unfold is_digit. intros H. apply andb_prop in H. destruct H as [A B]. apply N.leb_le in A, B. lia. Qed.

Lemma digits_no_nul l : all_digits l -> no_nul l.
Proof. apply Forall_impl. intros a Ha. apply digit_range in Ha. apply N.eqb_neq. lia. Qed.

Lemma digits_no_soh l : all_digits l -> no_soh l.
Proof. apply Forall_impl. intros a Ha. apply digit_range in Ha. apply N.eqb_neq. unfold SOH. lia. Qed.

Lemma cstr_no_nul l : no_nul l -> cstr l = l.
Proof. induction 1 as [|x l Hx Hl IH]; cbn [cstr]; [reflexivity|]. rewrite Hx, IH. reflexivity. Qed.

(* ------------------------------------------------------------------ itoa_N *)
Lemma digits_aux_acc : forall fuel n acc, digits_aux fuel n acc = digits_aux fuel n [] ++ acc.
Proof.
  induction fuel as [|fuel IH]; intros n acc; cbn [digits_aux]; [reflexivity|].
  destruct (n / 10 =? 0); [reflexivity|].
  rewrite (IH (n / 10) ((48 + n mod 10) :: acc)), (IH (n / 10) [48 + n mod 10]).
  rewrite <- app_assoc. reflexivity.
Qed.

(* one unit of fuel per bit is more than enough: more fuel changes nothing *)
Lemma digits_aux_mono : forall f1 n acc, n < 2 ^ N.of_nat f1 -> forall f2, (f1 <= f2)%nat ->
  digits_aux (S f2) n acc = digits_aux (S f1) n acc.
Proof.
  induction f1 as [|f1 IH]; intros n acc Hn f2 Hle.
  - change (2 ^ N.of_nat 0) with 1 in Hn. assert (n = 0) by lia. subst. reflexivity.
  - destruct f2 as [|f2]; [lia|]. cbn [digits_aux]. destruct (n / 10 =? 0) eqn:E; [reflexivity|].
    change (digits_aux (S f2) (n / 10) ((48 + n mod 10) :: acc) = digits_aux (S f1) (n / 10) ((48 + n mod 10) :: acc)).
    apply IH; [|lia]. rewrite Nat2N.inj_succ, N.pow_succ_r' in Hn. apply N.div_lt_upper_bound; lia.
Qed.

Lemma digits_aux_indep f1 f2 n acc : n < 2 ^ N.of_nat f1 -> n < 2 ^ N.of_nat f2 ->
  digits_aux (S f1) n acc = digits_aux (S f2) n acc.
Proof.
  intros H1 H2. destruct (Nat.le_ge_cases f1 f2).
  - symmetry. apply digits_aux_mono; assumption.
  - apply digits_aux_mono; assumption.
Qed.

Lemma size_bound n : n < 2 ^ N.of_nat (N.to_nat (N.size n)).
Proof. rewrite N2Nat.id. apply N.size_gt. Qed.

(* at most one digit per unit of fuel *)
Lemma digits_aux_len : forall fuel n acc, lenN (digits_aux fuel n acc) <= N.of_nat fuel + lenN acc.
Proof.
  induction fuel as [|fuel IH]; intros n acc; cbn [digits_aux]; [lia|].
  destruct (n / 10 =? 0).
  - cbn [lenN]. lia.
  - specialize (IH (n / 10) ((48 + n mod 10) :: acc)). cbn [lenN] in IH. lia.
Qed.

(* the two equations that characterise itoa_N; nothing below unfolds it *)
Lemma itoa_small n : n < 10 -> itoa_N n = [48 + n].
Proof.
  intros H. unfold itoa_N. cbn [digits_aux]. rewrite (N.div_small n 10) by assumption.
  cbn [N.eqb]. rewrite N.mod_small by assumption. reflexivity.
Qed.

Lemma itoa_step n : 10 <= n -> itoa_N n = itoa_N (n / 10) ++ [48 + n mod 10].
Proof.
  intros H. unfold itoa_N at 1. cbn [digits_aux].
  destruct (n / 10 =? 0) eqn:E.
  { apply N.eqb_eq in E. apply N.div_small_iff in E; lia. }
  rewrite digits_aux_acc. f_equal.
  pose proof (N.size_gt n) as Hs.
  destruct (N.size n) as [|p] eqn:Es.
  { change (2 ^ 0) with 1 in Hs. lia. }
  assert (Hq : n / 10 < 2 ^ N.of_nat (Pos.to_nat p - 1)).
  { replace (N.pos p) with (N.succ (N.of_nat (Pos.to_nat p - 1))) in Hs by lia.
    rewrite N.pow_succ_r' in Hs. apply N.div_lt_upper_bound; lia. }
  change (N.to_nat (N.pos p)) with (Pos.to_nat p).
  replace (Pos.to_nat p) with (S (Pos.to_nat p - 1)) at 1 by lia.
  unfold itoa_N. apply digits_aux_indep; [assumption|apply size_bound].
Qed.

Lemma N_div10_ind (P : N -> Prop) :
  (forall n, n < 10 -> P n) -> (forall n, 10 <= n -> P (n / 10) -> P n) -> forall n, P n.
Proof.
  intros Hs Hi n. induction n as [n IH] using (well_founded_induction N.lt_wf_0).
  destruct (N.lt_ge_cases n 10); [apply Hs; assumption|].
  apply Hi; [assumption|]. apply IH. apply N.div_lt; lia.
Qed.

Lemma itoa_digits n : all_digits (itoa_N n).
Proof.
  induction n as [n H|n H IH] using N_div10_ind.
  - rewrite itoa_small by assumption. constructor; [apply is_digit_48; assumption|constructor].
  - rewrite itoa_step by assumption. apply Forall_app. split; [assumption|].
    constructor; [apply is_digit_48; apply N.mod_lt; lia|constructor].
Qed.

Lemma itoa_nonempty n : itoa_N n <> [].
Proof.
  destruct (N.lt_ge_cases n 10); [rewrite itoa_small by assumption; discriminate|].
  rewrite itoa_step by assumption. intros Hc. apply app_eq_nil in Hc. destruct Hc; discriminate.
Qed.

(* a number below 10^(k+1) has at most k+1 digits *)
Lemma itoa_len_le k : forall n, n < 10 ^ N.of_nat (S k) -> lenN (itoa_N n) <= N.of_nat (S k).
Proof.
  induction k as [|k IH]; intros n H.
  - rewrite itoa_small by exact H. cbn. lia.
  - destruct (N.lt_ge_cases n 10) as [Hs|Hs]; [rewrite itoa_small by exact Hs; cbn [lenN]; lia|].
    rewrite itoa_step, lenN_app by exact Hs. rewrite (Nat2N.inj_succ (S k)), N.pow_succ_r' in H.
    specialize (IH (n / 10) ltac:(apply N.div_lt_upper_bound; lia)). cbn [lenN]. lia.
Qed.

(* ------------------------------------------------------------------ fast_atoi on itoa_N *)
(* one step of fast_atoi<T> on a digit is one step of the decimal value, modulo the width of T *)
Lemma atoi_step_digit (m : Z) a x : (0 < m)%Z -> is_digit x = true ->
  atoi_step m (Z.of_N a mod m) x = (Z.of_N (a * 10 + (x - 48)) mod m)%Z.
Proof.
  intros Hm Hx. apply digit_range in Hx. unfold atoi_step, schar.
  replace (x <? 128) with true by (symmetry; apply N.ltb_lt; lia).
  replace (Z.of_N (a * 10 + (x - 48))) with (Z.of_N a * 10 + (Z.of_N x - 48))%Z by lia.
  replace (Z.of_N a mod m * 10 + Z.of_N x - 48)%Z with (Z.of_N a mod m * 10 + (Z.of_N x - 48))%Z by ring.
  rewrite <- (Z.add_mod_idemp_l (Z.of_N a mod m * 10)) by lia. rewrite Z.mul_mod_idemp_l by lia.
  rewrite Z.add_mod_idemp_l by lia. reflexivity.
Qed.

(* fast_atoi<T> reads back what itoa wrote, modulo the width of T *)
Lemma atoi_fold_itoa (m : Z) n : (0 < m)%Z ->
  fold_left (atoi_step m) (itoa_N n) 0%Z = (Z.of_N n mod m)%Z.
Proof.
  intros Hm. induction n as [n H|n H IH] using N_div10_ind.
  - rewrite itoa_small by assumption. cbn [fold_left]. change 0%Z with (Z.of_N 0 mod m)%Z.
    rewrite (atoi_step_digit m 0 (48 + n) Hm (is_digit_48 n H)), (N.add_comm 48), N.add_sub. reflexivity.
  - rewrite itoa_step, fold_left_app by assumption. cbn [fold_left]. rewrite IH.
    rewrite (atoi_step_digit m (n / 10) (48 + n mod 10) Hm (is_digit_48 _ (N.mod_lt n 10 ltac:(lia)))).
    rewrite (N.add_comm 48), N.add_sub, N.mul_comm, <- N.div_mod by lia. reflexivity.
Qed.

Lemma atoi_mod_itoa (m : Z) n : (Z.of_N n < m)%Z -> Z.to_N (fast_atoi_mod m (itoa_N n)) = n.
Proof.
  intros H. unfold fast_atoi_mod. rewrite cstr_no_nul by (apply digits_no_nul, itoa_digits).
  rewrite atoi_fold_itoa, Z.mod_small by lia. apply N2Z.id.
Qed.

Lemma atoi_u16_itoa n : n < 65536 -> fast_atoi_u16 (itoa_N n) = n.
Proof. intros H. apply atoi_mod_itoa. unfold two16. lia. Qed.

Lemma atoi_u32_itoa n : n < 4294967296 -> fast_atoi_u32 (itoa_N n) = n.
Proof. intros H. apply atoi_mod_itoa. unfold two32. lia. Qed.

(* ------------------------------------------------------------------ extract_element *)
Lemma xe_digits : forall ds rest sz ii tagacc nt tcap vcap,
  all_digits ds -> ii + lenN ds <= sz -> nt + lenN ds < tcap ->
  xe_loop (ds ++ rest) sz ii false tagacc [] nt 0 tcap vcap =
  xe_loop rest sz (ii + lenN ds) false (rev ds ++ tagacc) [] (nt + lenN ds) 0 tcap vcap.
Proof.
  induction ds as [|d ds IH]; intros rest sz ii tagacc nt tcap vcap Hd Hsz Hcap.
  - cbn [lenN app rev]. rewrite !N.add_0_r. reflexivity.
  - inversion Hd as [|? ? Hd1 Hd2]; subst. cbn [lenN] in *. cbn [app xe_loop].
    assert (E1 : (ii <? sz) = true) by (apply N.ltb_lt; lia).
    assert (E2 : (nt + 1 <? tcap) = true) by (apply N.ltb_lt; lia).
    rewrite E1, Hd1, E2.
    rewrite IH by (try assumption; lia). cbn [rev]. rewrite <- app_assoc. cbn [app].
    replace (ii + 1 + lenN ds) with (ii + N.succ (lenN ds)) by lia.
    replace (nt + 1 + lenN ds) with (nt + N.succ (lenN ds)) by lia. reflexivity.
Qed.

Lemma xe_value : forall v rest sz ii tag valacc nt nv tcap vcap,
  no_soh v -> ii + lenN v < sz -> nv + lenN v < vcap -> nt < tcap ->
  xe_loop (v ++ SOH :: rest) sz ii true tag valacc nt nv tcap vcap =
  XOk (rev tag) (rev (rev v ++ valacc)) (ii + lenN v + 1).
Proof.
  induction v as [|x v IH]; intros rest sz ii tag valacc nt nv tcap vcap Hv Hsz Hcap Ht.
  - cbn [lenN app rev] in *. cbn [xe_loop].
    assert (E1 : (ii <? sz) = true) by (apply N.ltb_lt; lia). rewrite E1.
    change (SOH =? SOH) with true. cbn iota. unfold zero_write.
    assert (E2 : (nt <? tcap) = true) by (apply N.ltb_lt; lia).
    assert (E3 : (nv <? vcap) = true) by (apply N.ltb_lt; lia).
    rewrite E2, E3. cbn [negb]. rewrite N.add_0_r. reflexivity.
  - inversion Hv as [|? ? Hx Hv']; subst. cbn [lenN] in *. cbn [app xe_loop].
    assert (E1 : (ii <? sz) = true) by (apply N.ltb_lt; lia). rewrite E1, Hx.
    assert (E3 : (nv + 1 <? vcap) = true) by (apply N.ltb_lt; lia). rewrite E3.
    rewrite IH by (try assumption; lia). cbn [rev]. rewrite <- app_assoc. cbn [app].
    f_equal. lia.
Qed.

Theorem xe_exact : forall tag val rest sz tcap vcap,
  all_digits tag -> no_soh val -> lenN tag < tcap -> lenN val < vcap ->
  lenN tag + 1 + lenN val + 1 <= sz ->
  extract_element (tag ++ EQC :: val ++ SOH :: rest) sz tcap vcap = XOk tag val (lenN tag + 1 + lenN val + 1).
Proof.
  intros tag val rest sz tcap vcap Ht Hv Htc Hvc Hsz. unfold extract_element.
  rewrite xe_digits by (try assumption; lia). cbn [N.add]. cbn [xe_loop].
  assert (E1 : (lenN tag <? sz) = true) by (apply N.ltb_lt; lia). rewrite E1.
  change (is_digit EQC) with false. change (EQC =? EQC) with true. cbn iota.
  rewrite xe_value by (try assumption; lia).
  rewrite !app_nil_r, !rev_involutive. reflexivity.
Qed.

(* ------------------------------------------------------------------ extract_element_fixed_width *)
(* a run of digits is copied while it fits with its NUL *)
Lemma xfw_digits tcap vcap sz val_sz rest : forall d ii tag nt,
  all_digits d -> ii + lenN d <= sz -> nt < tcap ->
  xfw_loop (d ++ rest) sz ii val_sz tag nt tcap vcap =
  if nt + lenN d <? tcap then xfw_loop rest sz (ii + lenN d) val_sz (rev d ++ tag) (nt + lenN d) tcap vcap
  else XFail [] [].
Proof.
  induction d as [|c d IH]; intros ii tag nt Hd Hi Hn.
  - cbn [app lenN rev]. rewrite !N.add_0_r, (proj2 (N.ltb_lt nt tcap)) by lia. reflexivity.
  - inversion Hd as [|? ? Hc Hd']; subst. cbn [lenN] in *.
    cbn [app xfw_loop]. rewrite Hc, (proj2 (N.ltb_lt ii sz)) by lia.
    destruct (nt + 1 <? tcap) eqn:E.
    + apply N.ltb_lt in E. rewrite IH by (trivial || lia).
      cbn [rev]. rewrite <- app_assoc, <- !N.add_assoc, !N.add_1_l. reflexivity.
    + apply N.ltb_ge in E. rewrite (proj2 (N.ltb_ge (nt + N.succ (lenN d)) tcap)) by lia. reflexivity.
Qed.

(* ------------------------------------------------------------------ association lists, trait tables, objects *)
Lemma list_eqb_eq a b : list_eqb a b = true -> a = b.
Proof.
  revert b. induction a as [|x a IH]; intros [|y b]; cbn [list_eqb]; try discriminate; [reflexivity|].
  rewrite andb_true_iff. intros [E H]. apply N.eqb_eq in E. subst y. f_equal. apply IH. exact H.
Qed.

Lemma list_eqb_refl a : list_eqb a a = true.
Proof. induction a as [|x a IH]; cbn [list_eqb]; [reflexivity|rewrite N.eqb_refl, IH; reflexivity]. Qed.

Lemma flat_map_ext_in {A B} (f g : A -> list B) l : (forall x, In x l -> f x = g x) -> flat_map f l = flat_map g l.
Proof. intros H. rewrite !flat_map_concat_map. f_equal. apply map_ext_in. exact H. Qed.

(* induction on an object that reaches the elements of its groups *)
Lemma mbase_ind' (P : mbase -> Prop) :
  (forall fp subs fields pos groups unknown,
     Forall (fun g => Forall P (snd g)) groups -> P (MB fp subs fields pos groups unknown)) ->
  forall m, P m.
Proof.
  intros H. fix IH 1. intros [fp subs fields pos groups unknown]. apply H.
  induction groups as [|[f els] r IHr]; constructor; [|exact IHr].
  cbn [snd]. induction els as [|e els IHe]; constructor; [apply IH|exact IHe].
Qed.

Lemma map_find_In {A} k (v : A) l : map_find k l = Some v -> In (k, v) l.
Proof.
  induction l as [|[q z] r IH]; cbn [map_find]; [discriminate|].
  destruct (N.eqb_spec k q) as [->|_].
  - intros H. injection H as ->. left; reflexivity.
  - intros H. right. apply IH. exact H.
Qed.

Lemma find_trait_In ts f tr : find_trait ts f = Some tr -> In tr ts /\ t_fnum tr = f.
Proof.
  induction ts as [|x r IH]; cbn [find_trait]; [discriminate|].
  destruct (N.eqb_spec (t_fnum x) f) as [E|_].
  - intros H. injection H as <-. split; [left; reflexivity|exact E].
  - intros H. destruct (IH H) as [H1 H2]. split; [right; exact H1|exact H2].
Qed.

Lemma In_find_trait ts tr : NoDup (map t_fnum ts) -> In tr ts -> find_trait ts (t_fnum tr) = Some tr.
Proof.
  induction ts as [|x r IH]; intros Hnd Hin; [destruct Hin|].
  cbn [map] in Hnd. inversion Hnd as [|? ? Hx Hr]; subst. cbn [find_trait].
  destruct Hin as [->|Hin]; [rewrite N.eqb_refl; reflexivity|].
  destruct (N.eqb_spec (t_fnum x) (t_fnum tr)) as [E|_]; [|apply IH; assumption].
  destruct Hx. rewrite E. apply in_map. exact Hin.
Qed.

(* FieldTraits::set / clear of one bit: the entry of tag f is updated, the others are as they were *)
Lemma find_trait_upd (u : trait -> trait) ts f h : (forall x, t_fnum (u x) = t_fnum x) ->
  find_trait (upd_trait u ts f) h = if h =? f then option_map u (find_trait ts f) else find_trait ts h.
Proof.
  intros Hu. induction ts as [|x r IH]; cbn [upd_trait find_trait].
  - destruct (h =? f); reflexivity.
  - destruct (N.eqb_spec (t_fnum x) f) as [E|E]; cbn [find_trait].
    + rewrite Hu, E, (N.eqb_sym f h). destruct (h =? f); reflexivity.
    + destruct (N.eqb_spec (t_fnum x) h) as [<-|_]; [|exact IH].
      destruct (N.eqb_spec (t_fnum x) f); [contradiction|reflexivity].
Qed.


Lemma find_trait_notin ts f : ~ In f (map t_fnum ts) -> find_trait ts f = None.
Proof.
  induction ts as [|x r IH]; cbn [find_trait map]; [reflexivity|]. intros H.
  destruct (N.eqb_spec (t_fnum x) f) as [E|_]; [destruct H; left; exact E|].
  apply IH. intros Hc. apply H. right. exact Hc.
Qed.

Lemma find_msg_type ms ty md : find_msg ms ty = Some md -> md_type md = ty.
Proof.
  induction ms as [|x r IH]; cbn [find_msg]; [discriminate|].
  destruct (list_eqb (md_type x) ty) eqn:E; [|exact IH]. intros H. injection H as <-. apply list_eqb_eq. exact E.
Qed.

(* std::map: insert and assignment through an iterator, seen through find *)
Lemma map_find_set_other {A} k k' (v : A) l : k <> k' -> map_find k (map_set k' v l) = map_find k l.
Proof.
  intros Hne. induction l as [|[q w] l IH]; cbn [map_set map_find]; [reflexivity|].
  destruct (N.eqb_spec k' q) as [<-|_]; cbn [map_find].
  - destruct (N.eqb_spec k k'); [contradiction|reflexivity].
  - destruct (k =? q); [reflexivity|exact IH].
Qed.

Lemma map_find_set_same {A} k (v : A) l : map_find k l <> None -> map_find k (map_set k v l) = Some v.
Proof.
  induction l as [|[q w] l IH]; cbn [map_set map_find]; [congruence|].
  destruct (k =? q) eqn:E; cbn [map_find]; rewrite E; [reflexivity|exact IH].
Qed.

Lemma map_find_insert_other {A} k k' (v : A) l : k <> k' -> map_find k (map_insert k' v l) = map_find k l.
Proof.
  intros Hne. apply N.eqb_neq in Hne. induction l as [|[q w] l IH]; cbn [map_insert map_find]; [rewrite Hne; reflexivity|].
  destruct (k' <? q); [cbn [map_find]; rewrite Hne; reflexivity|].
  destruct (k' =? q); [reflexivity|]. cbn [map_find]. destruct (k =? q); [reflexivity|exact IH].
Qed.

Lemma map_find_insert_same {A} k (v : A) l : map_find k l = None -> map_find k (map_insert k v l) = Some v.
Proof.
  induction l as [|[q w] l IH]; cbn [map_insert map_find]; intros H; [rewrite N.eqb_refl; reflexivity|].
  destruct (k =? q) eqn:E; [discriminate|].
  destruct (k <? q); cbn [map_find]; [rewrite N.eqb_refl; reflexivity|rewrite E; exact (IH H)].
Qed.

Lemma map_find_insert_some {A} k (v : A) : forall l, map_find k (map_insert k v l) <> None.
Proof.
  induction l as [|[q w] l IH]; cbn [map_insert map_find]; [rewrite N.eqb_refl; discriminate|].
  destruct (k <? q); [cbn [map_find]; rewrite N.eqb_refl; discriminate|].
  destruct (k =? q) eqn:E; cbn [map_find]; rewrite E; [discriminate|exact IH].
Qed.

(* ------------------------------------------------------------------ the group decoder *)
Section GroupDecoder.
Variable c : ctx. Variable cp : caps. Variable from : list N. Variable fsize : N.

(* one turn of each function of the mutual fixpoint (cbn does not refold the calls of one into
   another) *)
Lemma dg_elem_S fuel grp pos off :
  dg_elem c cp from fsize (S fuel) grp pos off =
  if off <? fsize then
    match tok_at cp from fsize off with
    | XOOB s => OOB s
    | XFail _ _ => Ok (grp, pos, off, SStall)
    | XOk tag val result =>
      let tv := fast_atoi_u32 tag mod 65536 in
      match find_trait (mb_fp grp) tv with
      | None => if pos =? 0 then Exc (EMissingGroupField (fast_atoi_u32 tag)) else Ok (grp, pos, off, SForeign)
      | Some tr =>
          if t_present tr then Ok (grp, pos, off, SDup)
          else if (pos =? 0) && negb (getPos tr =? 1) then Exc (EMissingGroupField (fast_atoi_u32 tag))
          else match find_be (c_fields c) tv with
          | None => Ok (grp, pos, off, SForeign)
          | Some _ =>
            bind (opt_group c cp from fsize fuel (mark_present (add_field_decoder grp tv (pos + 1) (cstr val)) tv)
                            tr tv (cstr val) (off + result))
                 (fun '(g2, off2) => dg_elem c cp from fsize fuel g2 (pos + 1) off2)
          end
      end
    end
  else Ok (grp, pos, off, SEnd).
Proof.
  unfold dg_elem at 1. cbv beta iota. fold (decode_group c cp from fsize) (dg_elem c cp from fsize). unfold opt_group.
  destruct (off <? fsize); [|reflexivity]. destruct (tok_at cp from fsize off); try reflexivity. cbv zeta.
  destruct (find_trait (mb_fp grp) _) as [tr|]; [|reflexivity]. destruct (t_present tr); [reflexivity|].
  destruct (_ && negb _); [reflexivity|]. destruct (find_be _ _); [|reflexivity].
  destruct (t_group tr && _); reflexivity.
Qed.

Lemma dg_loop_S fuel gm els off :
  dg_loop c cp from fsize (S fuel) gm els off =
  if off <? fsize then
    bind (dg_elem c cp from fsize fuel (create_group gm false) 0 off) (fun '(grp, pos, off', why) =>
      match mb_fields grp with
      | [] => Ok (els, off')
      | _ :: _ =>
        match find_missing (mb_fp grp) with
        | Some f => Exc (EMissingMandatory f)
        | None =>
          match why with
          | SDup => dg_loop c cp from fsize fuel gm (els ++ [grp]) off'
          | _ => Ok (els ++ [grp], off')
          end
        end
      end)
  else Ok (els, off).
Proof. reflexivity. Qed.

Lemma decode_group_S fuel m f off :
  decode_group c cp from fsize (S fuel) m f off =
  match find_sub (mb_subs m) f with
  | None => OOB site_null_group
  | Some gm =>
    let gs := map_insert f [] (mb_groups m) in
    bind (dg_loop c cp from fsize fuel gm (match map_find f gs with Some l => l | None => [] end) off)
         (fun '(els, off') => Ok (with_groups m (map_set f els gs), off'))
  end.
Proof.
  unfold decode_group at 1. cbv beta iota. unfold find_add_group.
  destruct (find_sub (mb_subs m) f); [|reflexivity]. destruct m; reflexivity.
Qed.
End GroupDecoder.
