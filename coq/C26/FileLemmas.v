(* Byte-level facts about the FilePersister model: little-endian records, writes, index replay. *)
From Coq Require Import PeanoNat NArith List Bool Lia.
From F8 Require Import C26.SMap C26.SMapProofs C26.PersistSpec C26.MemPersist C26.MemProofs C26.FilePersist.
Import ListNotations.
Local Open Scope N_scope.

(* the three fields fit their widths in IPrec: uint32_t _seq (2^32), off_t _offset (2^64),
   int32_t _size read as unsigned (2^32) *)
Definition rec_ok (r : N * prec) : Prop :=
  fst r < 4294967296 /\ fst (snd r) < 18446744073709551616 /\ snd (snd r) < 4294967296.

Lemma enc_iprec_length : forall seq p, length (enc_iprec seq p) = 16%nat.
Proof. intros. unfold enc_iprec. rewrite !app_length, !le_enc_length. reflexivity. Qed.

Lemma dec_enc_iprec : forall seq p, rec_ok (seq, p) -> dec_iprec (enc_iprec seq p) = (seq, p).
Proof.
  intros seq [off sz] [H1 [H2 H3]]. cbn [fst snd] in *. unfold dec_iprec, enc_iprec. cbn [fst snd].
  rewrite (firstn_exact 4), (skipn_exact 4), (firstn_exact 8) by apply le_enc_length.
  rewrite app_assoc, (skipn_exact 12) by (rewrite app_length, !le_enc_length; reflexivity).
  rewrite (firstn_all2 (le_enc 4 sz)) by (rewrite le_enc_length; lia).
  rewrite !le_dec_enc; auto.
Qed.

Lemma len_nat : forall l, N.to_nat (len l) = length l.
Proof. intros. unfold len. apply Nat2N.id. Qed.

Lemma len_app : forall a b, len (a ++ b) = len a + len b.
Proof. intros. unfold len. rewrite app_length. lia. Qed.

Lemma write_at_end : forall f b, write_at f (len f) b = f ++ b.
Proof.
  intros f b. unfold write_at. rewrite len_nat.
  rewrite firstn_all, Nat.sub_diag. cbn [repeat app].
  rewrite skipn_all2 by lia. rewrite app_nil_r. reflexivity.
Qed.

Lemma write_at_start : forall e0 rest e1, length e0 = length e1 -> write_at (e0 ++ rest) 0 e1 = e1 ++ rest.
Proof.
  intros e0 rest e1 H. unfold write_at. cbn [N.to_nat firstn Nat.sub repeat app Nat.add].
  rewrite skipn_app. rewrite <- H. rewrite skipn_all, Nat.sub_diag. reflexivity.
Qed.

Lemma exec_put : forall d e w,
  exec_all d [SeekEnd Iod; SeekEnd Fod; Write Fod w; Write Iod e] =
  {| d_idx := d_idx d ++ e; d_dat := d_dat d ++ w |}.
Proof.
  intros d e w. unfold exec_all. cbn [fold_left exec_sys fst d_idx d_dat].
  rewrite !write_at_end. reflexivity.
Qed.

Lemma exec_ctl : forall d e, exec_all d [SeekSet Iod 0; Write Iod e] =
  {| d_idx := write_at (d_idx d) 0 e; d_dat := d_dat d |}.
Proof. intros. reflexivity. Qed.

Lemma exec_nil : forall d, exec_all d [] = d.
Proof. intros. reflexivity. Qed.

Lemma exec_seek : forall d off, exec_all d [SeekSet Fod off] = d.
Proof. intros. reflexivity. Qed.

Definition rd (dat : list byte) (p : prec) : list byte :=
  firstn (N.to_nat (snd p)) (skipn (N.to_nat (fst p)) dat).

Lemma rd_app : forall dat w p, fst p + snd p <= len dat -> rd (dat ++ w) p = rd dat p.
Proof.
  intros dat w [off sz] H. unfold rd, len in *. cbn [fst snd] in *.
  rewrite skipn_app, firstn_app.
  replace (N.to_nat sz - length (skipn (N.to_nat off) dat))%nat with 0%nat.
  - rewrite firstn_O, app_nil_r. reflexivity.
  - rewrite skipn_length. lia.
Qed.

Lemma rd_new : forall dat w, rd (dat ++ w) (len dat, len w) = w.
Proof.
  intros dat w. unfold rd. cbn [fst snd]. rewrite !len_nat.
  rewrite skipn_app, skipn_all, Nat.sub_diag, skipn_O. cbn [app]. apply firstn_all.
Qed.

Lemma fetch_ok : forall dat p, fst p + snd p <= len dat -> snd p <= MAX_MSG_LENGTH ->
  file_fetch dat p = FBytes (rd dat p).
Proof.
  intros dat [off sz] H1 H2. unfold file_fetch, rd. cbn [fst snd] in *.
  replace (N.min sz (len dat - off)) with sz by lia.
  destruct (N.ltb_spec MAX_MSG_LENGTH sz); [lia|]. rewrite N.eqb_refl. reflexivity.
Qed.

Definition encs (recs : list (N * prec)) : list byte :=
  concat (map (fun r => enc_iprec (fst r) (snd r)) recs).
Definition ins (ix : smap prec) (r : N * prec) : smap prec := fst (sinsert (fst r) (snd r) ix).

Lemma encs_app : forall a b, encs (a ++ b) = encs a ++ encs b.
Proof. intros. unfold encs. rewrite map_app, concat_app. reflexivity. Qed.

Lemma encs_cons : forall r rs, encs (r :: rs) = enc_iprec (fst r) (snd r) ++ encs rs.
Proof. reflexivity. Qed.

Lemma encs_length : forall recs, length (encs recs) = (16 * length recs)%nat.
Proof.
  induction recs as [|r rs IH]; [reflexivity|].
  rewrite encs_cons, app_length, enc_iprec_length, IH. cbn [length]. lia.
Qed.

Lemma replay_loop_encs : forall recs fuel prev ix, Forall rec_ok recs -> length prev = 16%nat ->
  (length (encs recs) < fuel)%nat ->
  replay_loop fuel (encs recs) prev ix = Some (fold_left ins recs ix).
Proof.
  induction recs as [|[seq p] rs IH]; intros fuel prev ix F Hp Hf.
  - destruct fuel; reflexivity.
  - inversion F; subst. rewrite encs_cons in *. cbn [fst snd] in *.
    pose proof (enc_iprec_length seq p) as He.
    destruct fuel as [|f]; [lia|].
    destruct (enc_iprec seq p) as [|b e'] eqn:Ee; [discriminate|].
    cbn [app replay_loop]. change (b :: e' ++ encs rs) with ((b :: e') ++ encs rs).
    rewrite (firstn_exact 16), (skipn_exact 16) by exact He.
    rewrite He, (skipn_all2 prev), app_nil_r by lia.
    rewrite <- Ee, dec_enc_iprec by auto.
    apply IH; [assumption|apply enc_iprec_length|rewrite app_length in Hf; lia].
Qed.

Lemma replay_encs : forall recs, Forall rec_ok recs -> replay (encs recs) = Some (fold_left ins recs []).
Proof. intros. unfold replay. apply replay_loop_encs; auto. Qed.

Lemma fold_ins_sorted : forall rs m, ssorted m -> ssorted (fold_left ins rs m).
Proof. induction rs; intros; cbn [fold_left]; auto. apply IHrs, ssorted_sinsert; auto. Qed.

(* with a control record at the head of the index, replaying further records neither looks at
   its value nor moves it: a control put that rewrites the first record of the index file
   changes the replayed index at key 0 only *)
Lemma fold_ins_head : forall rs m, exists t, forall c, fold_left ins rs ((0, c) :: m) = (0, c) :: t.
Proof.
  induction rs as [|[k p] rs IH]; intros m; [exists m; reflexivity|].
  destruct (IH (if k =? 0 then m else ins m (k, p))) as [t Ht]. exists t. intros c.
  rewrite <- Ht. cbn [fold_left]. f_equal. unfold ins. cbn [fst snd sinsert].
  destruct k as [|q]; [reflexivity|]. cbn [N.ltb N.compare N.eqb].
  destruct (sinsert (N.pos q) p m); reflexivity.
Qed.
