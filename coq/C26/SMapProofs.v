(* The key-sorted association lists of SMap.v as finite maps: what find, insert, assign, erase,
   the last key, a window filter over the keys and drop0 do on a sorted list. *)
From Coq Require Import NArith List Bool Lia.
From F8 Require Import C26.SMap.
Import ListNotations.
Local Open Scope N_scope.

Definition inwin (lo hi k : N) : bool := (lo <=? k) && (k <=? hi).

Lemma inwin_true : forall lo hi k, inwin lo hi k = true <-> lo <= k <= hi.
Proof. intros. unfold inwin. rewrite andb_true_iff, !N.leb_le. reflexivity. Qed.

Lemma inwin_false : forall lo hi k, ~ lo <= k <= hi -> inwin lo hi k = false.
Proof. intros lo hi k H. apply not_true_is_false. rewrite inwin_true. exact H. Qed.

Section Gen.
Context {V : Type}.
Implicit Types m r : smap V.

Definition keys (m : smap V) : list N := map fst m.
Definition lb (k : N) (m : smap V) : Prop := Forall (fun e => k < fst e) m.
Fixpoint ssorted (m : smap V) : Prop :=
  match m with
  | [] => True
  | (k, _) :: r => lb k r /\ ssorted r
  end.

Lemma lb_in : forall k m e, lb k m -> In e m -> k < fst e.
Proof. intros k m e L. exact (proj1 (Forall_forall _ m) L e). Qed.

Lemma lb_weaken : forall j k m, j <= k -> lb k m -> lb j m.
Proof. intros j k m H. apply Forall_impl. intros e He. lia. Qed.

Lemma ssorted_lb_tail : forall k v r, ssorted ((k, v) :: r) -> lb k r.
Proof. intros k v r [H _]. exact H. Qed.

Lemma sfind_in : forall k m v, sfind k m = Some v -> In (k, v) m.
Proof.
  intros k m v. induction m as [|[k' v'] r IH]; cbn [sfind]; intros H; [discriminate|].
  destruct (N.eqb_spec k k'); [left; congruence|right; auto].
Qed.

Lemma sfind_lb : forall j k m, j <= k -> lb k m -> sfind j m = None.
Proof.
  intros j k m Hj L. destruct (sfind j m) as [v|] eqn:E; [|reflexivity].
  pose proof (lb_in _ _ _ L (sfind_in _ _ _ E)) as H. cbn in H. lia.
Qed.

Lemma in_sfind : forall k m v, ssorted m -> In (k, v) m -> sfind k m = Some v.
Proof.
  intros k m v. induction m as [|[k' v'] r IH]; intros Hso H; [destruct H|]. destruct Hso as [L Hso].
  cbn [sfind]. destruct H as [H|H].
  - inversion H; subst. rewrite N.eqb_refl. reflexivity.
  - destruct (N.eqb_spec k k'); [|auto]. subst. pose proof (lb_in _ _ _ L H) as Hk. cbn in Hk. lia.
Qed.

Lemma sfind_in_keys : forall k m v, sfind k m = Some v -> In k (keys m).
Proof. intros k m v H. apply (in_map fst m (k, v)), sfind_in, H. Qed.

Lemma in_keys_sfind : forall k m, In k (keys m) -> exists v, sfind k m = Some v.
Proof.
  intros k m. induction m as [|[k' v'] r IH]; cbn [sfind keys map fst In]; intros H; [tauto|].
  destruct (N.eqb_spec k k'); [eauto|]. destruct H as [E|E]; [congruence|]. apply IH; auto.
Qed.

Lemma sfind_none_notin : forall k m, sfind k m = None -> ~ In k (keys m).
Proof. intros k m H I. destruct (in_keys_sfind k m I) as [v E]. congruence. Qed.

(* in this shape a rewrite exposes the pair that the models destructure with [let '(m, b) := ..] *)
Lemma sinsert_none : forall k v m, sfind k m = None -> sinsert k v m = (fst (sinsert k v m), true).
Proof.
  intros k v m. induction m as [|[k' v'] r IH]; cbn [sfind sinsert]; intros H; auto.
  destruct (N.ltb_spec k k'); auto.
  destruct (N.eqb_spec k k'); [discriminate|].
  rewrite (IH H). reflexivity.
Qed.

Lemma sinsert_some : forall k v m x, ssorted m -> sfind k m = Some x ->
  sinsert k v m = (m, false).
Proof.
  intros k v m x. induction m as [|[k' v'] r IH]; cbn [sfind sinsert ssorted]; intros Hso H; [discriminate|].
  destruct Hso as [L Hso].
  destruct (N.eqb_spec k k').
  - subst. destruct (N.ltb_spec k' k'); [lia|]. reflexivity.
  - destruct (N.ltb_spec k k').
    + rewrite (sfind_lb k k' r) in H; [discriminate|lia|auto].
    + rewrite (IH Hso H). reflexivity.
Qed.

Lemma sfind_sinsert_none : forall j k v m, sfind k m = None ->
  sfind j (fst (sinsert k v m)) = if j =? k then Some v else sfind j m.
Proof.
  intros j k v m. induction m as [|[k' v'] r IH]; cbn [sfind sinsert]; intros H.
  - cbn [fst sfind]. reflexivity.
  - destruct (N.eqb_spec k k'); [discriminate|].
    destruct (N.ltb_spec k k').
    + cbn [fst sfind]. reflexivity.
    + specialize (IH H). destruct (sinsert k v r) as [r' b]. cbn [fst sfind] in *.
      destruct (N.eqb_spec j k'); auto.
      destruct (N.eqb_spec j k); auto. congruence.
Qed.

Lemma lb_sinsert : forall j k v m, j < k -> lb j m -> lb j (fst (sinsert k v m)).
Proof.
  intros j k v m Hj. induction m as [|[k' v'] r IH]; cbn [sinsert]; intros L.
  - cbn [fst]. constructor; auto.
  - inversion L; subst. cbn [fst] in *.
    destruct (N.ltb_spec k k').
    + cbn [fst]. constructor; auto.
    + destruct (N.eqb_spec k k'); [cbn [fst]; auto|].
      specialize (IH H2). destruct (sinsert k v r) as [r' b]. cbn [fst] in *.
      constructor; auto.
Qed.

Lemma ssorted_sinsert : forall k v m, ssorted m -> ssorted (fst (sinsert k v m)).
Proof.
  intros k v m. induction m as [|[k' v'] r IH]; cbn [sinsert]; intros Hso.
  - cbn. split; [constructor|exact I].
  - destruct Hso as [L Hso].
    destruct (N.ltb_spec k k').
    + cbn [fst ssorted]. split; [|split; auto].
      constructor; [cbn; lia|]. eapply lb_weaken; [|exact L]. lia.
    + destruct (N.eqb_spec k k'); [cbn [fst ssorted]; auto|].
      pose proof (lb_sinsert k' k v r) as LI.
      specialize (IH Hso). destruct (sinsert k v r) as [r' b]. cbn [fst ssorted] in *.
      split; auto. apply LI; [lia|auto].
Qed.

Lemma sfind_sassign : forall j k v m,
  sfind j (sassign k v m) =
  if j =? k then match sfind k m with Some _ => Some v | None => None end else sfind j m.
Proof.
  intros j k v m. induction m as [|[k' v'] r IH]; cbn [sassign sfind].
  - destruct (j =? k); reflexivity.
  - destruct (N.eqb_spec k k').
    + subst. cbn [sfind]. destruct (N.eqb_spec j k'); reflexivity.
    + cbn [sfind]. rewrite IH.
      destruct (N.eqb_spec j k'); [|reflexivity].
      destruct (N.eqb_spec j k); [congruence|reflexivity].
Qed.

Lemma lb_sassign : forall j k v m, lb j m -> lb j (sassign k v m).
Proof.
  intros j k v m L. induction L as [|[k' v'] r H L IH]; cbn [sassign]; [constructor|].
  destruct (k =? k'); constructor; auto.
Qed.

Lemma ssorted_sassign : forall k v m, ssorted m -> ssorted (sassign k v m).
Proof.
  intros k v m. induction m as [|[k' v'] r IH]; intros Hso; [exact I|]. destruct Hso as [L Hso].
  cbn [sassign]. destruct (k =? k'); split; auto using lb_sassign.
Qed.

Lemma ssorted_filter : forall f m, ssorted m -> ssorted (filter f m).
Proof.
  induction m as [|[k v] r IH]; intros Hso; [exact I|]. destruct Hso as [L Hso]. cbn [filter].
  destruct (f (k, v)); [|auto]. split; [|auto]. exact (incl_Forall (incl_filter f r) L).
Qed.

Lemma hd_filter_min : forall f m, ssorted m ->
  (filter f (keys m) = [] ) \/
  (In (hd 0 (filter f (keys m))) (keys m) /\ f (hd 0 (filter f (keys m))) = true /\
   forall k, In k (keys m) -> f k = true -> hd 0 (filter f (keys m)) <= k).
Proof.
  induction m as [|[k v] r IH]; intros Hso; [left; reflexivity|]. destruct Hso as [L Hso].
  cbn [keys map fst filter]. fold (keys r). destruct (f k) eqn:E.
  - right. cbn [hd]. split; [left; reflexivity|]. split; [exact E|].
    intros k' [H|H] _; [lia|]. apply in_map_iff in H. destruct H as [e [E1 E2]].
    pose proof (lb_in _ _ _ L E2). lia.
  - destruct (IH Hso) as [H|[H1 [H2 H3]]]; [left; exact H|right].
    split; [right; exact H1|]. split; [exact H2|].
    intros k' [H|H] Hf; [subst; congruence|auto].
Qed.

Lemma hd_filter_sorted : forall (m : smap V) s last, ssorted m -> In s (keys m) -> s <= last ->
  hd 0 (filter (inwin s last) (keys m)) = s.
Proof.
  intros m s last Hso H Hl.
  assert (Hs : inwin s last s = true) by (apply inwin_true; lia).
  destruct (hd_filter_min (inwin s last) m Hso) as [E|[_ [H2 H3]]].
  - assert (In s []) as []. rewrite <- E. apply filter_In. auto.
  - specialize (H3 s H Hs). apply inwin_true in H2. lia.
Qed.

Lemma slast_cons : forall k v m, slast ((k, v) :: m) = match m with [] => k | _ => slast m end.
Proof. intros. destruct m; reflexivity. Qed.

Lemma slast_max : forall m, ssorted m -> slast m = fold_right N.max 0 (keys m).
Proof.
  induction m as [|[k v] r IH]; intros Hso; [reflexivity|].
  destruct Hso as [L Hso]. rewrite slast_cons. cbn [keys map fst fold_right].
  destruct r as [|[k2 v2] r2].
  - cbn. lia.
  - rewrite (IH Hso). fold (keys ((k2, v2) :: r2)).
    inversion L; subst. cbn [fst keys map fold_right] in *. lia.
Qed.

Lemma keys_le_max : forall (l : list N) k, In k l -> k <= fold_right N.max 0 l.
Proof.
  induction l as [|a l IH]; cbn [In fold_right]; intros k H; [tauto|].
  destruct H as [E|H]; [subst; lia|]. specialize (IH k H). lia.
Qed.

Lemma max_in_or_zero : forall (l : list N), fold_right N.max 0 l = 0 \/ In (fold_right N.max 0 l) l.
Proof.
  induction l as [|a l IH]; cbn [fold_right In]; [auto|].
  destruct (N.max_spec a (fold_right N.max 0 l)) as [[_ E]|[_ E]]; rewrite E.
  - destruct IH as [Z|I]; [rewrite Z in *|]; auto.
  - right. left. reflexivity.
Qed.

Lemma sfind_drop0 : forall k m, k <> 0 -> sfind k (drop0 m) = sfind k m.
Proof.
  intros k [|[k' v] r] H; [reflexivity|]. destruct k' as [|p]; cbn [drop0]; [|reflexivity].
  cbn [sfind]. destruct (N.eqb_spec k 0); [contradiction|reflexivity].
Qed.

Lemma lb0_drop0 : forall m, ssorted m -> lb 0 (drop0 m).
Proof.
  intros [|[[|p] v] r] Hso; cbn [drop0]; [constructor|apply Hso|].
  constructor; [cbn; lia|]. apply (lb_weaken 0 (N.pos p)); [lia|apply Hso].
Qed.

Lemma sfind0_drop0 : forall m, ssorted m -> sfind 0 (drop0 m) = None.
Proof. intros m Hso. apply (sfind_lb 0 0); [lia|apply lb0_drop0, Hso]. Qed.

Lemma max_keys_drop0 : forall (m : smap V),
  fold_right N.max 0 (keys (drop0 m)) = fold_right N.max 0 (keys m).
Proof.
  intros [|[[|p] v] r]; cbn [drop0]; auto. cbn [keys map fst fold_right]. unfold keys. lia.
Qed.

Lemma filter_win_drop0 : forall (m : smap V) lo hi, 1 <= lo ->
  filter (inwin lo hi) (keys (drop0 m)) = filter (inwin lo hi) (keys m).
Proof.
  intros [|[[|p] v] r] lo hi H; cbn [drop0]; auto.
  cbn [keys map fst filter]. rewrite inwin_false by lia. reflexivity.
Qed.

Lemma drop0_id : forall m, sfind 0 m = None -> drop0 m = m.
Proof. intros [|[[|p] v] r] H; try reflexivity. cbn in H. discriminate. Qed.

Lemma in_drop0 : forall e m, ssorted m -> In e (drop0 m) -> In e m /\ fst e <> 0.
Proof.
  intros e m Hso H. pose proof (lb_in 0 _ e (lb0_drop0 m Hso) H). split; [|lia].
  destruct m as [|[[|p] v] r]; cbn [drop0] in H; auto. right. exact H.
Qed.

Lemma drop0_sinsert : forall k v m, k <> 0 -> drop0 (fst (sinsert k v m)) = fst (sinsert k v (drop0 m)).
Proof.
  intros k v [|[k' v'] r] H; cbn [sinsert drop0 fst].
  - destruct k; [contradiction|reflexivity].
  - destruct k' as [|p'].
    + destruct (N.ltb_spec k 0); [lia|]. destruct (N.eqb_spec k 0); [contradiction|].
      destruct (sinsert k v r) as [r' b]. reflexivity.
    + cbn [sinsert]. destruct (N.ltb_spec k (N.pos p')).
      * cbn [fst]. destruct k; [contradiction|reflexivity].
      * destruct (N.eqb_spec k (N.pos p')); [reflexivity|].
        destruct (sinsert k v r) as [r' b]. reflexivity.
Qed.

(* key 0: by whichever route it is written, the list afterwards is (0, c) :: drop0 m *)
Lemma ssorted_set0 : forall c m, ssorted m -> ssorted ((0, c) :: drop0 m).
Proof.
  intros c m Hso. split; [apply lb0_drop0, Hso|]. destruct m as [|[[|p] v] r]; cbn [drop0]; auto. apply Hso.
Qed.

Lemma sinsert0 : forall c m, sfind 0 m = None -> sinsert 0 c m = ((0, c) :: drop0 m, true).
Proof. intros c [|[[|p] v] r] H; try reflexivity. cbn in H. discriminate. Qed.

Lemma sassign0 : forall c m x, ssorted m -> sfind 0 m = Some x -> sassign 0 c m = (0, c) :: drop0 m.
Proof.
  intros c [|[[|p] v] r] x Hso H; [discriminate|reflexivity|]. destruct Hso as [L _].
  cbn [sfind N.eqb] in H. rewrite (sfind_lb 0 (N.pos p) r) in H; [discriminate|lia|exact L].
Qed.

Lemma serase_lb : forall k m, lb k m -> serase k m = m.
Proof.
  intros k m L. induction m as [|[k' v'] r IH]; [reflexivity|]. inversion L; subst. cbn [fst] in *.
  cbn [serase]. destruct (N.eqb_spec k k'); [lia|]. f_equal. apply IH. assumption.
Qed.

Lemma serase0 : forall m, ssorted m -> serase 0 m = drop0 m.
Proof.
  intros m Hso. pose proof (lb0_drop0 m Hso) as L. destruct m as [|[[|p] v] r]; [reflexivity..|].
  apply serase_lb, L.
Qed.

Lemma sinsert0_erase : forall c m, ssorted m -> sinsert 0 c (serase 0 m) = ((0, c) :: drop0 m, true).
Proof.
  intros c m Hso. rewrite serase0, sinsert0, drop0_id; auto; apply sfind0_drop0, Hso.
Qed.

End Gen.
