(* FilePersister model against the store contract: the abstraction [fabs], the invariant [finv]
   that ties the in-memory index to the two files, one lemma per kind of operation, and the
   simulation theorem of PersistProofs.v instantiated. *)
From Coq Require Import PeanoNat NArith List Bool Lia.
From F8 Require Import C26.SMap C26.SMapProofs C26.PersistSpec C26.PersistProofs
  C26.MemPersist C26.MemProofs C26.FilePersist C26.FileLemmas.
Import ListNotations.
Local Open Scope N_scope.

Definition slot_ok (mode : slot0) (recs : list (N * prec)) : Prop :=
  match mode with
  | SVirgin => recs = []
  | SCtl => exists c rs, recs = (0, c) :: rs
  | _ => True
  end.

(* unless a control record has overwritten a message's entry, the index file is a sequence of
   well-formed records that replays to the index in memory *)
Definition disk_inv (mode : slot0) (st : fstate) : Prop :=
  mode <> SLost ->
  exists recs, d_idx (f_disk st) = encs recs /\ f_index st = fold_left ins recs [] /\
               Forall rec_ok recs /\ slot_ok mode recs.

Definition fabs (st : fstate) : spec :=
  {| s_msgs := absm (rd (d_dat (f_disk st))) (f_index st); s_ctl := sfind 0 (f_index st) |}.

Definition entry_ok (dlen k : N) (p : prec) : Prop :=
  k < LIM /\ (k <> 0 -> fst p + snd p <= dlen /\ snd p <= MAX_MSG_LENGTH).

(* [n]: number of operations performed so far (bounds the size of the data file) *)
Record finv (st : fstate) (mode : slot0) (n : N) : Prop := {
  fi_sorted : ssorted (f_index st);
  fi_entries : forall k p, sfind k (f_index st) = Some p -> entry_ok (len (d_dat (f_disk st))) k p;
  fi_datlen : len (d_dat (f_disk st)) <= MAX_MSG_LENGTH * n;
  fi_disk : disk_inv mode st
}.

Lemma finv_empty : finv file_empty SVirgin 0.
Proof.
  split; cbn; auto; try (intros; discriminate); try lia.
  intros _. exists []. repeat split; auto.
Qed.

Lemma finv_replay : forall st mode n, finv st mode n -> mode <> SLost ->
  replay (d_idx (f_disk st)) = Some (f_index st).
Proof.
  intros st mode n I Hm. destruct (fi_disk _ _ _ I Hm) as [recs [H1 [H2 [H3 _]]]].
  rewrite H1, H2. apply replay_encs, H3.
Qed.

Lemma finv_weaken : forall st mode n o, finv st mode n -> (forall s t, o <> OCtlPut s t) ->
  finv st (slot_step mode o) (n + 1).
Proof.
  intros st mode n o [Hso E DL DI] Ho. split; auto; [lia|]. intros Hm.
  destruct DI as [recs [H1 [H2 [H3 H4]]]]; [intros ->; apply Hm; reflexivity|].
  exists recs. repeat split; auto.
  destruct mode, o; cbn [slot_step]; try exact H4; try exact I.
  - destruct ((seq =? 0) || _); [exact H4|exact I].
  - destruct (Ho s t eq_refl).
Qed.

Lemma file_step_read : forall st mode n o,
  finv st mode n -> op_bounded o = true -> op_zero_free o = true -> reads o = true ->
  file_step st o = Some (st, snd (spec_step (fabs st) o)).
Proof.
  intros st mode n o [Hso E DL DI] Hb Hz R. apply op_bounded_spec in Hb.
  assert (B : forall k p, sfind k (f_index st) = Some p -> k < LIM) by (intros k p H; apply (E k p H)).
  destruct o as [ |seq| | | |req last|from to abort| ]; try discriminate R;
    cbn [file_step spec_step snd].
  - (* get: the entry found points into the data file, so the read is complete *)
    destruct (N.eqb_spec seq 0); [reflexivity|]. unfold fabs. cbn [s_msgs].
    rewrite sfind_absm by auto. destruct (sfind seq (f_index st)) as [p|] eqn:Ef; [|reflexivity].
    cbn [option_map]. rewrite fetch_ok; [reflexivity| |]; apply (E seq p Ef); auto.
  - reflexivity.
  - rewrite <- (last_abs (rd (d_dat (f_disk st))) (f_index st) (fabs st)) by auto. reflexivity.
  - apply N.leb_le in Hz. assert (LIM < W32 - 1) by reflexivity.
    rewrite (nearest_abs (rd (d_dat (f_disk st))) (f_index st) (fabs st)) by (auto; lia). reflexivity.
  - apply N.leb_le in Hz.
    rewrite (range_abs (rd (d_dat (f_disk st))) (file_fetch (d_dat (f_disk st))) (f_index st) (fabs st)); auto.
    + apply bound_slast; auto.
    + intros [k p] Hi Hk. apply fetch_ok; apply (E k p (in_sfind _ _ _ Hso Hi)); auto.
Qed.

(* message put = the record appended to the data file, then its entry added to the index
   and appended to the index file.  After the first half nothing has changed for a reader:
   this is also the state a crash between the two writes leaves behind (C27). *)
Lemma finv_append : forall st mode n w, finv st mode n -> len w <= MAX_MSG_LENGTH ->
  let st' := {| f_index := f_index st;
                f_disk := {| d_idx := d_idx (f_disk st); d_dat := d_dat (f_disk st) ++ w |} |} in
  fabs st' = fabs st /\ finv st' mode (n + 1).
Proof.
  intros st mode n w [Hso E DL DI] Hw st'. subst st'.
  pose proof (len_app (d_dat (f_disk st)) w) as Hlen. split.
  - unfold fabs. cbn [f_index f_disk d_dat]. f_equal. apply absm_ext; [exact Hso|].
    intros k p Hk Hz. apply rd_app, (E k p Hk), Hz.
  - split; cbn [f_index f_disk d_dat d_idx]; auto; [|lia].
    intros k p Hk. destruct (E k p Hk) as [H1 H2]. split; [exact H1|].
    intros Hz. specialize (H2 Hz). lia.
Qed.

(* [n <= LIM]: the new entry's offset is at most the data length <= 8192 * n < 2^64 ([rec_ok]) *)
Lemma finv_insert : forall st mode n seq p, finv st mode n -> n <= LIM -> seq <> 0 -> seq < LIM ->
  sfind seq (f_index st) = None ->
  fst p + snd p <= len (d_dat (f_disk st)) -> snd p <= MAX_MSG_LENGTH ->
  let st' := {| f_index := fst (sinsert seq p (f_index st));
                f_disk := {| d_idx := d_idx (f_disk st) ++ enc_iprec seq p;
                             d_dat := d_dat (f_disk st) |} |} in
  fabs st' = {| s_msgs := fst (sinsert seq (rd (d_dat (f_disk st)) p) (s_msgs (fabs st)));
                s_ctl := s_ctl (fabs st) |} /\
  finv st' (match mode with SVirgin => SMsg | _ => mode end) n.
Proof.
  intros st mode n seq p [Hso E DL DI] Hn Hz Hs Hf Hp1 Hp2 st'. subst st'. split.
  - unfold fabs. cbn [f_index f_disk d_dat s_msgs s_ctl].
    rewrite absm_sinsert, sfind_sinsert_none by auto.
    destruct (N.eqb_spec 0 seq); [congruence|reflexivity].
  - split; cbn [f_index f_disk d_dat d_idx]; [apply ssorted_sinsert, Hso| |exact DL|].
    + intros k q. rewrite sfind_sinsert_none by auto.
      destruct (N.eqb_spec k seq); [intros [= <-]; subst k; split; auto|apply E].
    + intros Hm. destruct DI as [recs [H1 [H2 [H3 H4]]]]; [destruct mode; congruence|].
      exists (recs ++ [(seq, p)]). rewrite encs_app, fold_left_app, <- H1, <- H2.
      split; [unfold encs; cbn [map concat fst snd]; rewrite app_nil_r; reflexivity|].
      split; [reflexivity|]. split.
      * apply Forall_app. split; [exact H3|]. constructor; [|constructor].
        assert (LIM = 2147483648) by reflexivity. assert (MAX_MSG_LENGTH = 8192) by reflexivity.
        unfold rec_ok. cbn [fst snd]. lia.
      * destruct mode; cbn [slot_ok] in *; auto.
        destruct H4 as [c [rs ->]]. exists c, (rs ++ [(seq, p)]). reflexivity.
Qed.

Lemma file_put_refines : forall st mode n seq b, finv st mode n -> n < LIM -> seq < LIM ->
  sim_step file_step fabs st (OPut seq b) (clip_op (OPut seq b))
           (fun st' => finv st' (slot_step mode (OPut seq b)) (n + 1)).
Proof.
  intros st mode n seq b I Hn Hs. unfold sim_step.
  assert (Refused : exists st', Some (st, RBool false) = Some (st', snd (fabs st, RBool false)) /\
                                fabs st' = fst (fabs st, RBool false) /\
                                finv st' (slot_step mode (OPut seq b)) (n + 1)).
  { exists st. split; [reflexivity|]. split; [reflexivity|].
    apply finv_weaken; [exact I|discriminate]. }
  cbn [file_step file_sys clip_op].
  destruct (N.ltb_spec MAX_MSG_LENGTH (len b)) as [Hlong|Hlen]; cbn [spec_step].
  - cbn [N.eqb]. destruct (seq =? 0); [exact Refused|].
    destruct (sfind seq (f_index st)); exact Refused.
  - destruct (N.eqb_spec seq 0) as [|Hz]; [exact Refused|].
    change (s_msgs (fabs st)) with (absm (rd (d_dat (f_disk st))) (f_index st)).
    rewrite sfind_absm by auto.
    destruct (sfind seq (f_index st)) eqn:Ef; cbn [option_map]; [exact Refused|].
    rewrite (sinsert_none _ _ _ Ef), exec_put.
    destruct (finv_append st mode n b I Hlen) as [A1 I1].
    destruct (finv_insert _ mode (n + 1) seq (len (d_dat (f_disk st)), len b) I1) as [A2 I2];
      cbn [f_index f_disk d_dat fst snd]; auto; [lia|rewrite len_app; lia|].
    cbn [f_index f_disk d_idx d_dat] in A2, I2. eexists. split; [reflexivity|]. split.
    + cbn [fst]. rewrite A2, A1, rd_new. reflexivity.
    + replace (slot_step mode (OPut seq b)) with (match mode with SVirgin => SMsg | _ => mode end);
        [exact I2|].
      destruct mode; try reflexivity. cbn [slot_step].
      destruct (N.eqb_spec seq 0); [contradiction|].
      destruct (N.ltb_spec MAX_MSG_LENGTH (len b)); [lia|reflexivity].
Qed.

(* control put: the entry under key 0 is set, by insert or by assignment; the first 16
   bytes of the index file are overwritten *)
Lemma file_ctl_refines : forall st mode n s t, finv st mode n -> s < W32 -> t < W32 ->
  sim_step file_step fabs st (OCtlPut s t) (OCtlPut s t)
           (fun st' => finv st' (slot_step mode (OCtlPut s t)) (n + 1)).
Proof.
  intros st mode n s t [Hso E DL DI] Hs Ht. unfold sim_step.
  set (ix := (0, (s, t)) :: drop0 (f_index st)).
  assert (Hix : match sfind 0 (f_index st) with
                | None => fst (sinsert 0 (s, t) (f_index st))
                | Some _ => sassign 0 (s, t) (f_index st)
                end = ix).
  { destruct (sfind 0 (f_index st)) eqn:E0; [apply (sassign0 _ _ _ Hso E0)|].
    rewrite sinsert0 by auto. reflexivity. }
  cbn [file_step file_sys]. rewrite Hix, exec_ctl. eexists. split; [reflexivity|].
  split; [reflexivity|]. split; cbn [f_index f_disk d_dat d_idx]; [apply ssorted_set0, Hso| |lia|].
  - intros k q. unfold ix. cbn [sfind].
    destruct (N.eqb_spec k 0); [intros _; subst; split; [reflexivity|congruence]|].
    rewrite sfind_drop0 by auto. apply E.
  - assert (Hrec : rec_ok (0, (s, t))).
    { assert (W32 = 4294967296) by reflexivity. unfold rec_ok. cbn [fst snd]. lia. }
    intros Hm. destruct mode; cbn [slot_step] in Hm |- *; try congruence;
      destruct DI as [recs [H1 [H2 [H3 H4]]]]; try discriminate; cbn [slot_ok] in H4.
    + (* the first record of the index file *)
      subst recs. cbn in H1, H2. exists [(0, (s, t))]. unfold ix. rewrite H1, H2.
      repeat split; auto. cbn [slot_ok]. eauto.
    + (* the control record is replaced in place *)
      destruct H4 as [c [rs ->]]. destruct (fold_ins_head rs []) as [tl Htl].
      change (fold_left ins ((0, c) :: rs) []) with (fold_left ins rs [(0, c)]) in H2.
      rewrite Htl in H2. exists ((0, (s, t)) :: rs). inversion H3; subst.
      split; [rewrite H1, !encs_cons; apply write_at_start; rewrite !enc_iprec_length; reflexivity|].
      split; [unfold ix; rewrite H2; symmetry; apply Htl|].
      split; [constructor; auto|cbn [slot_ok]; eauto].
Qed.

Lemma file_step_refines : forall st mode n o,
  finv st mode n -> op_bounded o = true -> op_zero_free o = true -> n < LIM ->
  (mode = SLost -> o <> OReopen) ->
  sim_step file_step fabs st o (clip_op o) (fun st' => finv st' (slot_step mode o) (n + 1)).
Proof.
  intros st mode n o I Hb Hz Hn Hre. destruct (reads o) eqn:R.
  { replace (clip_op o) with o by (destruct o; try discriminate R; reflexivity).
    apply sim_same; [apply (file_step_read st mode n); auto|apply reads_same, R|].
    apply finv_weaken; [exact I|intros s t ->; discriminate R]. }
  apply op_bounded_spec in Hb. destruct o as [seq b| |s t| | | | | ]; try discriminate R.
  - apply file_put_refines; auto.
  - destruct Hb. apply file_ctl_refines; auto.
  - (* reopen: the index file replays to the index in memory *)
    apply sim_same; [|reflexivity|apply finv_weaken; [exact I|discriminate]]. cbn [file_step].
    rewrite (finv_replay st mode n I) by (intros Hm; exact (Hre Hm eq_refl)). destruct st; reflexivity.
Qed.

Definition file_good (st : fstate) (ops : list op) : Prop :=
  exists mode n, finv st mode n /\ forallb op_bounded ops = true /\ zero_free ops = true /\
                 n + N.of_nat (length ops) < LIM /\ reopen_safe_from mode ops = true.

Lemma file_good_step : forall st o r, file_good st (o :: r) ->
  sim_step file_step fabs st o (clip_op o) (fun st' => file_good st' r).
Proof.
  intros st o r [mode [n [I [Hb [Hz [Hn Hr]]]]]].
  unfold zero_free in Hz. cbn [forallb length] in Hb, Hz, Hn. rewrite Nat2N.inj_succ in Hn.
  apply andb_true_iff in Hb, Hz. destruct Hb as [Hb1 Hb2], Hz as [Hz1 Hz2].
  destruct (file_step_refines st mode n o I Hb1 Hz1) as [st' [E [A I']]];
    [lia|intros -> ->; discriminate Hr|].
  exists st'. split; [exact E|]. split; [exact A|]. exists (slot_step mode o), (n + 1).
  split; [exact I'|]. repeat split; auto; [lia|].
  cbn [reopen_safe_from] in Hr. destruct mode; auto. destruct o; auto. discriminate.
Qed.

(* split as [a ++ b]: C27 needs the state at a crash point with the hypotheses for what follows *)
Lemma file_exec_refines : forall a b st, file_good st (a ++ b) ->
  exists st', exec file_step st a = Some (st', snd (spec_run (fabs st) (clip a))) /\
              fabs st' = fst (spec_run (fabs st) (clip a)) /\ file_good st' b.
Proof. exact (exec_sim _ file_step fabs clip_op file_good file_good_step). Qed.

Lemma c26_file_refines_anylen_lemma : forall ops,
  forallb op_bounded ops = true -> N.of_nat (length ops) < LIM ->
  zero_free ops = true -> reopen_safe ops = true ->
  file_outputs ops = Some (spec_outputs (clip ops)).
Proof.
  intros ops Hb Hn Hz Hr.
  (* [file_outputs ops] is [run file_step file_empty ops] by conversion *)
  apply (run_sim _ file_step fabs clip_op file_good file_good_step ops file_empty).
  exists SVirgin, 0. split; [apply finv_empty|]. repeat split; auto.
Qed.

Lemma ops_wf_clip : forall ops, forallb op_wf ops = true ->
  forallb op_bounded ops = true /\ clip ops = ops.
Proof.
  induction ops as [|o r IH]; intros H; [auto|]. cbn [forallb clip map] in *. fold (clip r).
  apply andb_true_iff in H. destruct H as [Ho Hr]. destruct (IH Hr) as [-> ->].
  unfold op_wf in Ho. apply andb_true_iff in Ho. destruct Ho as [-> Hl].
  split; [reflexivity|]. f_equal. destruct o; try reflexivity. cbn [clip_op]. apply N.leb_le in Hl.
  destruct (N.ltb_spec MAX_MSG_LENGTH (len b)); [lia|reflexivity].
Qed.

Lemma c26_file_refines_lemma : forall ops,
  ops_wf ops = true -> zero_free ops = true -> reopen_safe ops = true ->
  file_outputs ops = Some (spec_outputs ops).
Proof.
  intros ops Hw Hz Hr. unfold ops_wf in Hw. apply andb_true_iff in Hw. destruct Hw as [Hw Hn].
  destruct (ops_wf_clip ops Hw) as [Hb Hc]. rewrite <- Hc at 2.
  apply c26_file_refines_anylen_lemma; auto. apply N.ltb_lt, Hn.
Qed.

Definition no_reopen (ops : list op) : bool :=
  forallb (fun o => match o with OReopen => false | _ => true end) ops.

Lemma no_reopen_safe : forall ops m, no_reopen ops = true -> reopen_safe_from m ops = true.
Proof.
  induction ops as [|o r IH]; intros m H; [reflexivity|].
  unfold no_reopen in H. cbn [forallb] in H. apply andb_true_iff in H. destruct H as [H1 H2].
  cbn [reopen_safe_from]. destruct m; try (apply IH; exact H2). destruct o; try (apply IH; exact H2). discriminate.
Qed.
