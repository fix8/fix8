(* What the two persisters have in common.  A run of either is [exec] over its step function, and
   "the persister refines the store contract" is one forward simulation ([exec_sim]) over an
   abstraction function.  Both keep their records in a key-sorted map with the control record
   under key 0: for such a map whose other entries can be fetched, slast / nearest / range_get
   compute what the contract says about the abstracted map ([absm]). *)
From Coq Require Import NArith List Bool Lia.
From F8 Require Import C26.SMap C26.SMapProofs C26.PersistSpec.
Import ListNotations.
Local Open Scope N_scope.

Lemma filter_none {A} (f : A -> bool) l : (forall x, In x l -> f x = false) -> filter f l = [].
Proof.
  induction l as [|a l IH]; intros H; [reflexivity|]. cbn [filter].
  rewrite (H a (or_introl eq_refl)). apply IH. intros; apply H; right; auto.
Qed.

Lemma filter_all {A} (f : A -> bool) l : (forall x, In x l -> f x = true) -> filter f l = l.
Proof.
  induction l as [|a l IH]; intros H; [reflexivity|]. cbn [filter].
  rewrite (H a (or_introl eq_refl)). f_equal. apply IH. intros; apply H; right; auto.
Qed.

Lemma filter_map_swap {A B} (f : A -> bool) (h : B -> A) (l : list B) :
  filter f (map h l) = map h (filter (fun e => f (h e)) l).
Proof.
  induction l as [|a l IH]; [reflexivity|]. cbn [map filter].
  destruct (f (h a)); cbn [map]; rewrite IH; reflexivity.
Qed.

Lemma filter_filter {A} (f g : A -> bool) l :
  filter f (filter g l) = filter (fun x => g x && f x) l.
Proof.
  induction l as [|a l IH]; [reflexivity|]. cbn [filter].
  destruct (g a); cbn [filter andb]; [destruct (f a)|]; rewrite IH; reflexivity.
Qed.

Section Sim.
Variables (St : Type) (step : St -> op -> option (St * out)).

Fixpoint exec (s : St) (ops : list op) : option (St * list out) :=
  match ops with
  | [] => Some (s, [])
  | o :: r =>
    match step s o with
    | None => None
    | Some (s', x) =>
      match exec s' r with
      | None => None
      | Some (s'', xs) => Some (s'', x :: xs)
      end
    end
  end.

Fixpoint run (s : St) (ops : list op) : option (list out) :=
  match ops with
  | [] => Some []
  | o :: r =>
    match step s o with
    | None => None
    | Some (s', x) => match run s' r with None => None | Some xs => Some (x :: xs) end
    end
  end.

Lemma run_exec : forall ops s, run s ops = option_map snd (exec s ops).
Proof.
  induction ops as [|o r IH]; intros s; [reflexivity|]. cbn [run exec].
  destruct (step s o) as [[s' x]|]; [|reflexivity]. rewrite IH.
  destruct (exec s' r) as [[s2 xs]|]; reflexivity.
Qed.

Variable abs : St -> spec.
Definition sim_step (s : St) (o o' : op) (P : St -> Prop) : Prop :=
  exists s', step s o = Some (s', snd (spec_step (abs s) o')) /\
             abs s' = fst (spec_step (abs s) o') /\ P s'.

Lemma sim_same : forall s o o' (P : St -> Prop),
  step s o = Some (s, snd (spec_step (abs s) o')) -> fst (spec_step (abs s) o') = abs s -> P s ->
  sim_step s o o' P.
Proof. intros s o o' P E A H. exists s. rewrite A. auto. Qed.

(* [tr o]: the operation the contract sees when the persister is given o; [good s ops]: s is a
   sound state from which the operations [ops] are admissible *)
Variables (tr : op -> op) (good : St -> list op -> Prop).
Hypothesis step_sim : forall s o r, good s (o :: r) -> sim_step s o (tr o) (fun s' => good s' r).

Lemma exec_sim : forall a b s, good s (a ++ b) ->
  exists s', exec s a = Some (s', snd (spec_run (abs s) (map tr a))) /\
             abs s' = fst (spec_run (abs s) (map tr a)) /\ good s' b.
Proof.
  induction a as [|o r IH]; intros b s G; [exists s; cbn; auto|].
  destruct (step_sim s o (r ++ b) G) as [s1 [E1 [A1 G1]]].
  destruct (IH b s1 G1) as [s2 [E2 [A2 G2]]]. exists s2.
  cbn [exec map spec_run]. rewrite E1, E2.
  destruct (spec_step (abs s) (tr o)) as [sp1 x]. cbn [fst snd] in A1. rewrite A1 in *.
  destruct (spec_run sp1 (map tr r)) as [sp2 xs]. auto.
Qed.

Lemma run_sim : forall ops s, good s ops -> run s ops = Some (snd (spec_run (abs s) (map tr ops))).
Proof.
  intros ops s G. rewrite run_exec. rewrite <- (app_nil_r ops) in G.
  destruct (exec_sim ops [] s G) as [s' [E _]]. rewrite E. reflexivity.
Qed.
End Sim.
Arguments exec {St}.
Arguments run {St}.
Arguments sim_step {St}.
Arguments sim_same {St}.

Definition reads (o : op) : bool :=
  match o with OGet _ | OCtlGet | OLast | ONearest _ _ | ORange _ _ _ => true | _ => false end.

Lemma reads_same : forall sp o, reads o = true -> fst (spec_step sp o) = sp.
Proof. intros sp [] H; try discriminate H; reflexivity. Qed.

Section Abs.
Context {V : Type}.
Variable g : V -> list byte.
Variable fetch : V -> fres.

Definition gg (e : N * V) : N * list byte := (fst e, g (snd e)).
Definition absm (m : smap V) : smap (list byte) := map gg (drop0 m).

Lemma keys_map_gg : forall (l : smap V), keys (map gg l) = keys l.
Proof. intros l. unfold keys. rewrite map_map. apply map_ext. intros [k v]; reflexivity. Qed.

Lemma sfind_map_gg : forall k (l : smap V), sfind k (map gg l) = option_map g (sfind k l).
Proof.
  intros k l. induction l as [|[k' v] r IH]; [reflexivity|].
  cbn [map gg fst snd sfind]. destruct (k =? k'); [reflexivity|exact IH].
Qed.

Lemma sfind_absm : forall k m, k <> 0 -> sfind k (absm m) = option_map g (sfind k m).
Proof. intros. unfold absm. rewrite sfind_map_gg, sfind_drop0; auto. Qed.

Lemma sinsert_map_gg : forall k v (l : smap V),
  fst (sinsert k (g v) (map gg l)) = map gg (fst (sinsert k v l)).
Proof.
  intros k v l. induction l as [|[k' v'] r IH]; [reflexivity|].
  cbn [map gg fst snd sinsert].
  destruct (k <? k'); [reflexivity|]. destruct (k =? k'); [reflexivity|].
  destruct (sinsert k v r) as [r1 b1]. destruct (sinsert k (g v) (map gg r)) as [r2 b2].
  cbn [fst map gg snd] in *. f_equal. exact IH.
Qed.

Lemma absm_sinsert : forall k v m, k <> 0 ->
  absm (fst (sinsert k v m)) = fst (sinsert k (g v) (absm m)).
Proof. intros. unfold absm. rewrite drop0_sinsert by auto. symmetry. apply sinsert_map_gg. Qed.

Lemma ssorted_drop0 : forall (m : smap V), ssorted m -> ssorted (drop0 m).
Proof. intros [|[[|p] v] r] Hso; cbn [drop0]; auto. destruct Hso; auto. Qed.

Lemma last_abs : forall m sp, s_msgs sp = absm m -> ssorted m -> slast m = spec_last sp.
Proof.
  intros m sp E Hso. rewrite slast_max by auto. unfold spec_last. rewrite E.
  fold (keys (absm m)). unfold absm. rewrite keys_map_gg. symmetry. apply max_keys_drop0.
Qed.

Lemma nearest_loop_spec : forall fuel (m : smap V) s last, ssorted m -> last < W32 - 1 ->
  (N.to_nat (last + 1 - s) < fuel)%nat ->
  nearest_loop fuel m s last = Some (hd 0 (filter (inwin s last) (keys m))).
Proof.
  induction fuel as [|f IH]; intros m s last Hso Hl Hf; [lia|].
  cbn [nearest_loop]. destruct (N.ltb_spec last s).
  - rewrite filter_none; [reflexivity|]. intros k _. apply inwin_false. lia.
  - destruct (sfind s m) eqn:E.
    + rewrite hd_filter_sorted; auto. eapply sfind_in_keys; eauto.
    + assert (W32 = 4294967296) by reflexivity.
      rewrite N.mod_small by lia. rewrite IH; auto; [|lia].
      f_equal. f_equal. apply filter_ext_in. intros k Hk.
      assert (k <> s). { intros ->. eapply sfind_none_notin; eauto. }
      apply eq_iff_eq_true. rewrite !inwin_true. lia.
Qed.

Lemma nearest_keys : forall (m : smap V) req last, ssorted m -> 1 <= req -> last < W32 - 1 ->
  nearest m req last = Some (hd 0 (filter (inwin req last) (keys m))).
Proof.
  intros m req last Hso Hr Hl. unfold nearest. destruct (N.eqb_spec last 0).
  - subst. rewrite filter_none; [reflexivity|]. intros k _. apply inwin_false. lia.
  - apply nearest_loop_spec; auto; lia.
Qed.

Lemma nearest_abs : forall m sp req last, s_msgs sp = absm m -> ssorted m -> 1 <= req ->
  last < W32 - 1 -> nearest m req last = Some (spec_nearest sp req last).
Proof.
  intros m sp req last E Hso Hr Hl. rewrite nearest_keys by auto. unfold spec_nearest. rewrite E.
  fold (keys (absm m)) (inwin req last). unfold absm.
  rewrite keys_map_gg, filter_win_drop0 by auto. reflexivity.
Qed.

(* what the callback is still handed of [l] once [seen] records are delivered; the contract's cut
   is [cutn abort 0], the loop invariant needs every [seen] *)
Definition cutn (abort seen : N) (l : list (N * list byte)) : list (N * list byte) :=
  if abort =? 0 then l else firstn (N.to_nat (abort - seen)) l.

Lemma cutn_nil : forall abort seen, cutn abort seen [] = [].
Proof. intros. unfold cutn. destruct (abort =? 0); [|rewrite firstn_nil]; reflexivity. Qed.

Lemma cutn_last : forall abort seen x l, seen + 1 = abort -> cutn abort seen (x :: l) = [x].
Proof.
  intros abort seen x l H. unfold cutn. destruct (N.eqb_spec abort 0); [lia|].
  replace (N.to_nat (abort - seen)) with 1%nat by lia. reflexivity.
Qed.

Lemma cutn_cons : forall abort seen x l, seen + 1 <> abort -> abort = 0 \/ seen < abort ->
  cutn abort seen (x :: l) = x :: cutn abort (seen + 1) l.
Proof.
  intros abort seen x l H A. unfold cutn. destruct (N.eqb_spec abort 0); [reflexivity|].
  replace (N.to_nat (abort - seen)) with (S (N.to_nat (abort - (seen + 1)))) by lia. reflexivity.
Qed.

Lemma range_loop_spec : forall (sub : smap V) fin abort seen, ssorted sub ->
  Forall (fun e => 0 < fst e /\ fetch (snd e) = FBytes (g (snd e))) sub ->
  (abort = 0 \/ seen < abort) ->
  range_loop fetch sub fin abort seen =
  Some (cutn abort seen (map gg (filter (fun e => fst e <=? fin) sub))).
Proof.
  induction sub as [|[k v] r IH]; intros fin abort seen Hso F A.
  - cbn [range_loop filter map]. rewrite cutn_nil. reflexivity.
  - destruct Hso as [L Hso]. inversion F as [|? ? [Hk Hf] F']; subst. cbn [fst snd] in *.
    cbn [range_loop filter fst].
    destruct (N.eqb_spec k 0); [lia|]. cbn [orb].
    destruct (N.ltb_spec fin k).
    + (* the loop stops at the first key beyond [fin]; the keys after it are larger still *)
      destruct (N.leb_spec k fin); [lia|].
      rewrite filter_none; [cbn [map]; rewrite cutn_nil; reflexivity|].
      intros e He. pose proof (lb_in _ _ _ L He). destruct (N.leb_spec (fst e) fin); auto; lia.
    + destruct (N.leb_spec k fin); [|lia]. rewrite Hf. cbn [map gg fst snd].
      destruct (N.eqb_spec (seen + 1) abort) as [Hab|Hab].
      * rewrite cutn_last by exact Hab. reflexivity.
      * rewrite IH; auto; [|lia]. rewrite cutn_cons by assumption. reflexivity.
Qed.

Lemma sfrom_filter : forall (m : smap V) from k0 v0 rest, ssorted m ->
  filter (fun e => from <=? fst e) m = (k0, v0) :: rest -> sfrom k0 m = (k0, v0) :: rest.
Proof.
  induction m as [|[k v] r IH]; intros from k0 v0 rest Hso H; [discriminate|].
  destruct Hso as [L Hso]. cbn [filter fst] in H. cbn [sfrom].
  destruct (N.leb_spec from k).
  - rewrite filter_all in H.
    + inversion H; subst. rewrite N.eqb_refl. reflexivity.
    + intros e He. pose proof (lb_in _ _ _ L He). destruct (N.leb_spec from (fst e)); auto; lia.
  - assert (In (k0, v0) (filter (fun e => from <=? fst e) r)) by (rewrite H; left; reflexivity).
    apply filter_In in H1. destruct H1 as [_ H1]. cbn [fst] in H1. apply N.leb_le in H1.
    destruct (N.eqb_spec k0 k); [lia|]. eapply IH; eauto.
Qed.

Lemma range_abs : forall m sp from to abort, s_msgs sp = absm m -> ssorted m -> 1 <= from ->
  slast m < W32 - 1 ->
  (forall e, In e m -> fst e <> 0 -> fetch (snd e) = FBytes (g (snd e))) ->
  let vis := spec_visited sp from to abort in
  range_get fetch m from to abort =
  RRDone (N.of_nat (length vis)) (map (fun kb => (fst kb, snd kb, false)) vis ++ [completion]).
Proof.
  intros m sp from to abort E Hso Hf Hl Hfetch vis.
  set (fin := if to =? 0 then slast m else to).
  set (suf := filter (fun e => from <=? fst e) m).
  assert (Hsuf : forall e, In e suf -> In e m /\ from <= fst e).
  { intros e He. apply filter_In in He. rewrite N.leb_le in He. exact He. }
  (* the search from [from] up to the last key finds the first key >= from *)
  assert (Hstart : nearest m from (slast m) = Some (hd 0 (keys suf))).
  { rewrite nearest_keys by auto. unfold keys, suf. rewrite filter_map_swap. do 3 f_equal.
    apply filter_ext_in. intros e He. unfold inwin.
    destruct (N.leb_spec (fst e) (slast m)) as [|Hgt]; [apply andb_true_r|]. exfalso.
    rewrite slast_max in Hgt by auto. pose proof (keys_le_max (keys m) _ (in_map fst m e He)). lia. }
  (* what the contract visits: the entries from the first key >= from up to [fin], cut at [abort] *)
  assert (Hvis : vis = cutn abort 0 (map gg (filter (fun e => fst e <=? fin) suf))).
  { unfold vis, spec_visited, cutn. rewrite <- (last_abs m sp), N.sub_0_r, E by auto. fold fin.
    replace (filter _ (absm m)) with (map gg (filter (fun e => fst e <=? fin) suf)); [reflexivity|].
    unfold absm, suf. rewrite filter_map_swap, filter_filter. f_equal. cbn [gg fst].
    destruct m as [|[[|p] v] r]; cbn [drop0]; auto.
    cbn [filter fst]. destruct (N.leb_spec from 0); [lia|]. reflexivity. }
  unfold range_get. rewrite Hstart, Hvis. fold fin.
  destruct suf as [|[k0 v0] rest] eqn:Esuf.
  - cbn [keys map hd N.eqb orb filter]. rewrite cutn_nil. reflexivity.
  - cbn [keys map fst hd]. destruct (Hsuf _ (or_introl eq_refl)) as [_ Hk0]. cbn [fst] in Hk0.
    destruct (N.eqb_spec k0 0); [lia|]. cbn [orb].
    destruct (N.ltb_spec fin from).
    + rewrite filter_none; [cbn [map]; rewrite cutn_nil; reflexivity|].
      intros e He. destruct (Hsuf e He). destruct (N.leb_spec (fst e) fin); auto; lia.
    + rewrite (sfrom_filter m from k0 v0 rest Hso Esuf), range_loop_spec; [reflexivity| | |lia].
      * rewrite <- Esuf. apply ssorted_filter, Hso.
      * rewrite Forall_forall. intros e He. destruct (Hsuf e He). split; [lia|].
        apply Hfetch; [auto|lia].
Qed.

End Abs.

Lemma absm_ext {V} : forall (g1 g2 : V -> list byte) (m : smap V), ssorted m ->
  (forall k v, sfind k m = Some v -> k <> 0 -> g1 v = g2 v) -> absm g1 m = absm g2 m.
Proof.
  intros g1 g2 m Hso H. apply map_ext_in. intros [k v] He.
  destruct (in_drop0 _ _ Hso He) as [Hi Hk]. unfold gg. cbn [fst snd] in *.
  rewrite (H k v); auto. apply in_sfind; auto.
Qed.
