(* MemoryPersister model against the store contract.  The little-endian facts and the bounds at
   the top also serve the file persister's proofs. *)
From Coq Require Import PeanoNat NArith List Bool Lia.
From F8 Require Import C26.SMap C26.SMapProofs C26.PersistSpec C26.PersistProofs C26.MemPersist.
Import ListNotations.
Local Open Scope N_scope.

Lemma le_enc_length : forall n v, length (le_enc n v) = n.
Proof. induction n; intros; cbn [le_enc length]; auto. Qed.

Lemma le_dec_enc : forall n v, v < 256 ^ N.of_nat n -> le_dec (le_enc n v) = v.
Proof.
  induction n as [|n IH]; intros v H.
  - cbn in *. lia.
  - cbn [le_enc le_dec]. rewrite IH.
    + pose proof (N.div_mod v 256). lia.
    + rewrite Nat2N.inj_succ, N.pow_succ_r' in H.
      apply N.div_lt_upper_bound; lia.
Qed.

Lemma firstn_exact {A} : forall n (a r : list A), length a = n -> firstn n (a ++ r) = a.
Proof. intros n a r <-. rewrite firstn_app, Nat.sub_diag, firstn_all. apply app_nil_r. Qed.

Lemma skipn_exact {A} : forall n (a r : list A), length a = n -> skipn n (a ++ r) = r.
Proof. intros n a r <-. rewrite skipn_app, skipn_all, Nat.sub_diag. reflexivity. Qed.

Lemma dec_ctl_enc : forall s t, s < W32 -> t < W32 -> dec_ctl (le_enc 4 s ++ le_enc 4 t) = (s, t).
Proof.
  intros s t Hs Ht. unfold dec_ctl.
  rewrite skipn_exact, firstn_exact by apply le_enc_length.
  rewrite (firstn_all2 (le_enc 4 t)) by (rewrite le_enc_length; lia).
  rewrite !le_dec_enc by assumption. reflexivity.
Qed.

Lemma op_bounded_spec : forall o, op_bounded o = true ->
  match o with
  | OPut seq _ | OGet seq => seq < LIM
  | OCtlPut s t => s < W32 /\ t < W32
  | ONearest a b | ORange a b _ => a < LIM /\ b < LIM
  | _ => True
  end.
Proof. intros [] H; cbn in *; rewrite ?andb_true_iff, ?N.ltb_lt in H; auto. Qed.

(* with keys below 2^31 the search loop of find_nearest_highest_seqnum terminates *)
Lemma bound_slast {V} : forall (m : smap V), ssorted m ->
  (forall k v, sfind k m = Some v -> k < LIM) -> slast m < W32 - 1.
Proof.
  intros m Hso B. rewrite slast_max by auto.
  assert (LIM = 2147483648) by reflexivity. assert (W32 = 4294967296) by reflexivity.
  destruct (max_in_or_zero (keys m)) as [Z|I]; [lia|].
  apply in_keys_sfind in I. destruct I as [v Hv]. specialize (B _ _ Hv). lia.
Qed.

Definition idb (b : list byte) : list byte := b.

Definition mabs (st : mstate) : spec :=
  {| s_msgs := absm idb st; s_ctl := option_map dec_ctl (sfind 0 st) |}.

Record minv (st : mstate) : Prop := {
  mi_sorted : ssorted st;
  mi_bound : forall k v, sfind k st = Some v -> k < LIM
}.

Lemma minv_empty : minv mem_empty.
Proof. split; [exact I|]. intros k v H. discriminate H. Qed.

Lemma mem_step_read : forall st o,
  minv st -> op_bounded o = true -> op_zero_free o = true -> reads o = true ->
  mem_step st o = Some (st, snd (spec_step (mabs st) o)).
Proof.
  intros st o [Hso B] Hb Hz R. apply op_bounded_spec in Hb.
  destruct o as [ |seq| | | |req last|from to abort| ]; try discriminate R;
    unfold mem_step; cbn [mem_step_gen spec_step snd].
  - destruct (N.eqb_spec seq 0); [reflexivity|]. unfold mabs. cbn [s_msgs].
    rewrite sfind_absm by auto. destruct (sfind seq st); reflexivity.
  - unfold mabs. cbn [s_ctl]. destruct (sfind 0 st); reflexivity.
  - rewrite <- (last_abs idb st (mabs st)) by auto. reflexivity.
  - apply N.leb_le in Hz. assert (LIM < W32 - 1) by reflexivity.
    rewrite (nearest_abs idb st (mabs st)) by (auto; lia). reflexivity.
  - apply N.leb_le in Hz.
    rewrite (range_abs idb mem_fetch st (mabs st)); auto. apply bound_slast; auto.
Qed.

Lemma mem_step_refines : forall st o,
  minv st -> op_bounded o = true -> op_zero_free o = true -> sim_step mem_step mabs st o o minv.
Proof.
  intros st o I Hb Hz. destruct (reads o) eqn:R.
  { apply sim_same; [apply mem_step_read; auto|apply reads_same, R|exact I]. }
  pose proof I as [Hso B]. apply op_bounded_spec in Hb.
  destruct o as [seq b| |s t| | | | | ]; try discriminate R;
    unfold sim_step, mem_step; cbn [mem_step_gen spec_step].
  - destruct (N.eqb_spec seq 0); [exists st; auto|].
    change (s_msgs (mabs st)) with (absm idb st). rewrite sfind_absm by auto.
    destruct (sfind seq st) eqn:E; cbn [option_map].
    + rewrite (sinsert_some seq b st _ Hso E). exists st. auto.
    + rewrite (sinsert_none seq b st E). eexists. split; [reflexivity|]. cbn [fst]. split.
      * unfold mabs. cbn [s_msgs s_ctl]. rewrite absm_sinsert, sfind_sinsert_none by auto.
        destruct (N.eqb_spec 0 seq); [congruence|reflexivity].
      * split; [apply ssorted_sinsert, Hso|]. intros k v. rewrite sfind_sinsert_none by auto.
        destruct (N.eqb_spec k seq); [intros _; subst; exact Hb|apply B].
  - (* control put: erase(0), then insert: the record is replaced, the call returns true *)
    destruct Hb as [Hs Ht]. rewrite (sinsert0_erase _ st Hso).
    eexists. split; [reflexivity|]. cbn [fst]. split.
    + unfold mabs, absm. cbn [drop0 sfind N.eqb option_map s_msgs]. rewrite dec_ctl_enc by auto.
      reflexivity.
    + split; [apply ssorted_set0, Hso|]. intros k w. cbn [sfind].
      destruct (N.eqb_spec k 0); [intros _; subst; reflexivity|].
      rewrite sfind_drop0 by auto. apply B.
  - exists st. auto.
Qed.

Lemma mem_run_gen_run : forall f ops st, mem_run_gen f st ops = run (mem_step_gen f) st ops.
Proof.
  induction ops as [|o r IH]; intros st; [reflexivity|]. cbn [mem_run_gen run].
  destruct (mem_step_gen f st o) as [[st' x]|]; [|reflexivity]. rewrite IH. reflexivity.
Qed.

Definition mem_good (st : mstate) (ops : list op) : Prop :=
  minv st /\ forallb op_bounded ops = true /\ zero_free ops = true.

Lemma mem_good_step : forall st o r, mem_good st (o :: r) ->
  sim_step mem_step mabs st o o (fun st' => mem_good st' r).
Proof.
  intros st o r [I [Hb Hz]]. unfold zero_free in Hz. cbn [forallb] in Hb, Hz.
  apply andb_true_iff in Hb, Hz. destruct Hb as [Hb1 Hb2], Hz as [Hz1 Hz2].
  destruct (mem_step_refines st o I Hb1 Hz1) as [st' [E [A I']]].
  exists st'. repeat split; auto; apply I'.
Qed.

Lemma c26_mem_refines_lemma : forall ops,
  forallb op_bounded ops = true -> zero_free ops = true ->
  mem_outputs ops = Some (spec_outputs ops).
Proof.
  intros ops Hb Hz. unfold mem_outputs. rewrite mem_run_gen_run.
  rewrite (run_sim _ _ mabs (fun o => o) mem_good mem_good_step); [rewrite map_id; reflexivity|].
  split; [apply minv_empty|]. split; assumption.
Qed.

(* the hypothesis of c26_mem_refines_lemma with the predicate eta-expanded; that [ops_wf] implies it
   is [ops_wf_clip] in FileProofs.v *)
Lemma ops_wf_bounded : forall ops, forallb (fun o => op_bounded o) ops = true -> forallb op_bounded ops = true.
Proof. auto. Qed.
