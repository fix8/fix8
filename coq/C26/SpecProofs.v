(* What the specification's answers mean (they are defined by filter/fold/hd over a sorted list;
   here: in terms of "stored"), the per-clause corollaries of the two refinement theorems, and
   the oracle: [out_eqb] accepts exactly the specification's results. *)
From Coq Require Import PeanoNat NArith List Bool Lia.
From F8 Require Import C26.SMap C26.SMapProofs C26.PersistSpec C26.PersistProofs C26.Spec_C26
  C26.MemPersist C26.MemProofs C26.FilePersist C26.FileLemmas C26.FileProofs.
Import ListNotations.
Local Open Scope N_scope.

Definition spec_state (ops : list op) : spec := fst (spec_run spec_empty ops).
Definition stored (s : spec) (k : N) (b : list byte) : Prop := sfind k (s_msgs s) = Some b.

Lemma spec_run_app : forall a b sp,
  spec_run sp (a ++ b) =
  (fst (spec_run (fst (spec_run sp a)) b), snd (spec_run sp a) ++ snd (spec_run (fst (spec_run sp a)) b)).
Proof.
  induction a as [|o r IH]; intros b sp.
  - cbn. destruct (spec_run sp b); reflexivity.
  - cbn [app spec_run]. destruct (spec_step sp o) as [s1 x]. rewrite IH.
    destruct (spec_run s1 r) as [s2 xs]. cbn [fst snd].
    destruct (spec_run s2 b) as [s3 ys]. reflexivity.
Qed.

Lemma spec_outputs_snoc : forall ops o,
  spec_outputs (ops ++ [o]) = spec_outputs ops ++ [snd (spec_step (spec_state ops) o)].
Proof.
  intros. unfold spec_outputs, spec_state. rewrite spec_run_app. cbn [snd spec_run].
  destruct (spec_step (fst (spec_run spec_empty ops)) o). reflexivity.
Qed.

Lemma spec_step_sorted : forall sp o, ssorted (s_msgs sp) -> ssorted (s_msgs (fst (spec_step sp o))).
Proof.
  intros sp o Hso. destruct o; cbn [spec_step]; auto.
  destruct (seq =? 0); auto. destruct (sfind seq (s_msgs sp)); auto.
  cbn [fst s_msgs]. apply ssorted_sinsert; auto.
Qed.

Lemma spec_run_sorted : forall ops sp, ssorted (s_msgs sp) -> ssorted (s_msgs (fst (spec_run sp ops))).
Proof.
  induction ops as [|o r IH]; intros sp Hso; [exact Hso|]. cbn [spec_run].
  pose proof (spec_step_sorted sp o Hso). destruct (spec_step sp o) as [s1 x]. cbn [fst] in *.
  specialize (IH s1 H). destruct (spec_run s1 r). exact IH.
Qed.

Lemma spec_state_sorted : forall ops, ssorted (s_msgs (spec_state ops)).
Proof. intros. apply spec_run_sorted. exact I. Qed.

Lemma ssorted_firstn {V} : forall n (m : smap V), ssorted m -> ssorted (firstn n m).
Proof.
  induction n as [|n IH]; intros m Hso; [exact I|]. destruct m as [|[k v] r]; [exact I|].
  destruct Hso as [L Hso]. cbn [firstn]. split; [|auto].
  unfold lb in *. rewrite Forall_forall in *. intros e He. apply L.
  rewrite <- (firstn_skipn n r). apply in_or_app. left. exact He.
Qed.

Definition in_range (s : spec) (from to : N) (k : N) : Prop :=
  from <= k <= (if to =? 0 then spec_last s else to).

Definition range_facts (s : spec) (from to abort : N) (vis : list (N * list byte)) : Prop :=
  exists all, ssorted all /\
              (forall k b, In (k, b) all <-> stored s k b /\ in_range s from to k) /\
              vis = if abort =? 0 then all else firstn (N.to_nat abort) all.

Lemma spec_visited_facts : forall s from to abort, ssorted (s_msgs s) ->
  range_facts s from to abort (spec_visited s from to abort).
Proof.
  intros s from to abort Hso. unfold range_facts, spec_visited.
  set (fin := if to =? 0 then spec_last s else to).
  exists (filter (fun kb => (from <=? fst kb) && (fst kb <=? fin)) (s_msgs s)).
  split; [apply ssorted_filter; auto|]. split; [|reflexivity].
  intros k b. unfold stored, in_range. fold fin. rewrite filter_In. cbn [fst]. split.
  - intros [H1 H2]. apply andb_true_iff in H2. destruct H2 as [H2 H3].
    apply N.leb_le in H2, H3. split; [apply in_sfind; auto|lia].
  - intros [H1 [H2 H3]]. split; [apply sfind_in; auto|].
    apply andb_true_iff. split; apply N.leb_le; auto.
Qed.

Definition nearest_facts (s : spec) (req last r : N) : Prop :=
  (r = 0 /\ forall k b, stored s k b -> ~ (req <= k <= last)) \/
  ((exists b, stored s r b) /\ req <= r <= last /\
   forall k b, stored s k b -> req <= k <= last -> r <= k).

Lemma spec_nearest_facts : forall s req last, ssorted (s_msgs s) ->
  nearest_facts s req last (spec_nearest s req last).
Proof.
  intros s req last Hso. unfold nearest_facts, spec_nearest, stored.
  fold (keys (s_msgs s)) (inwin req last).
  destruct (hd_filter_min (inwin req last) (s_msgs s) Hso) as [H|[H1 [H2 H3]]].
  - left. rewrite H. split; [reflexivity|]. intros k b Hk Hw.
    assert (Hin : In k (filter (inwin req last) (keys (s_msgs s)))).
    { apply filter_In. split; [eapply sfind_in_keys; eauto|apply inwin_true; auto]. }
    rewrite H in Hin. destruct Hin.
  - right. split; [apply in_keys_sfind; auto|]. split; [apply inwin_true; auto|].
    intros k b Hk Hw. apply H3; [eapply sfind_in_keys; eauto|apply inwin_true; auto].
Qed.

Definition last_facts (s : spec) (l : N) : Prop :=
  (forall k b, stored s k b -> k <= l) /\ (l = 0 \/ exists b, stored s l b).

Lemma spec_last_facts : forall s, last_facts s (spec_last s).
Proof.
  intros s. unfold last_facts, spec_last, stored. fold (keys (s_msgs s)). split.
  - intros k b H. apply keys_le_max. eapply sfind_in_keys; eauto.
  - destruct (max_in_or_zero (keys (s_msgs s))) as [H|H]; [left; auto|right].
    apply in_keys_sfind; auto.
Qed.

Section Cor.
Variable outputs : list op -> option (list out).
Variable hyp : list op -> Prop.
Hypothesis refines : forall ops, hyp ops -> outputs ops = Some (spec_outputs ops).

Lemma cor_range : forall ops from to abort, hyp (ops ++ [ORange from to abort]) ->
  exists vis, outputs (ops ++ [ORange from to abort]) =
              Some (spec_outputs ops ++
                    [RRange (N.of_nat (length vis))
                            (map (fun kb => (fst kb, snd kb, false)) vis ++ [completion])]) /\
              range_facts (spec_state ops) from to abort vis.
Proof.
  intros ops from to abort H. exists (spec_visited (spec_state ops) from to abort).
  split; [|apply spec_visited_facts, spec_state_sorted].
  rewrite refines by auto. rewrite spec_outputs_snoc. reflexivity.
Qed.

Lemma cor_nearest : forall ops req last, hyp (ops ++ [ONearest req last]) ->
  exists r, outputs (ops ++ [ONearest req last]) = Some (spec_outputs ops ++ [RNum r]) /\
            nearest_facts (spec_state ops) req last r.
Proof.
  intros ops req last H. exists (spec_nearest (spec_state ops) req last).
  split; [|apply spec_nearest_facts, spec_state_sorted].
  rewrite refines by auto. rewrite spec_outputs_snoc. reflexivity.
Qed.

Lemma cor_last : forall ops, hyp (ops ++ [OLast]) ->
  exists l, outputs (ops ++ [OLast]) = Some (spec_outputs ops ++ [RNum l]) /\
            last_facts (spec_state ops) l.
Proof.
  intros ops H. exists (spec_last (spec_state ops)). split; [|apply spec_last_facts].
  rewrite refines by auto. rewrite spec_outputs_snoc. reflexivity.
Qed.
End Cor.

Definition file_hyp (ops : list op) : Prop :=
  ops_wf ops = true /\ zero_free ops = true /\ reopen_safe ops = true.
Definition mem_hyp (ops : list op) : Prop :=
  forallb op_bounded ops = true /\ zero_free ops = true.

Lemma file_refines_hyp : forall ops, file_hyp ops -> file_outputs ops = Some (spec_outputs ops).
Proof. intros ops [H1 [H2 H3]]. apply c26_file_refines_lemma; auto. Qed.
Lemma mem_refines_hyp : forall ops, mem_hyp ops -> mem_outputs ops = Some (spec_outputs ops).
Proof. intros ops [H1 H2]. apply c26_mem_refines_lemma; auto. Qed.

Lemma bytes_eqb_refl : forall l, bytes_eqb l l = true.
Proof. induction l; cbn; auto. rewrite N.eqb_refl. auto. Qed.

Lemma cbrec_list_refl : forall l, list_eqb cbrec_eqb l l = true.
Proof.
  induction l as [|[[k b] f] l IH]; cbn; auto.
  rewrite N.eqb_refl, bytes_eqb_refl, eqb_reflx. auto.
Qed.

(* results of the specification never contain RCtlUnspec, so they equal themselves *)
Definition out_spec_like (x : out) : bool := match x with RCtlUnspec => false | _ => true end.
Lemma out_eqb_refl : forall x, out_spec_like x = true -> out_eqb x x = true.
Proof.
  intros [b|[l|]|[[a b]|]| |n|n c] H; cbn in *; try discriminate; auto.
  - apply eqb_reflx.
  - apply bytes_eqb_refl.
  - rewrite !N.eqb_refl. reflexivity.
  - apply N.eqb_refl.
  - rewrite N.eqb_refl, cbrec_list_refl. reflexivity.
Qed.

Lemma spec_step_like : forall sp o, out_spec_like (snd (spec_step sp o)) = true.
Proof.
  intros sp o. destruct o; cbn [spec_step]; auto.
  - destruct (seq =? 0); auto. destruct (sfind seq (s_msgs sp)); auto.
Qed.

Lemma spec_run_eqb : forall ops sp, list_eqb out_eqb (snd (spec_run sp ops)) (snd (spec_run sp ops)) = true.
Proof.
  induction ops as [|o r IH]; intros sp; [reflexivity|]. cbn [spec_run].
  pose proof (spec_step_like sp o) as L.
  destruct (spec_step sp o) as [s1 x]. specialize (IH s1).
  destruct (spec_run s1 r) as [s2 xs]. cbn [snd list_eqb] in *.
  rewrite out_eqb_refl by auto. exact IH.
Qed.

Lemma list_eqb_eq {A} (e : A -> A -> bool) : (forall x y, e x y = true -> x = y) ->
  forall a b, list_eqb e a b = true -> a = b.
Proof.
  intros He. induction a as [|x a IH]; intros [|y b] H; cbn in H; try discriminate; auto.
  apply andb_true_iff in H. destruct H as [H1 H2]. f_equal; auto.
Qed.

Lemma bytes_eqb_eq : forall a b, bytes_eqb a b = true -> a = b.
Proof. apply list_eqb_eq. intros x y H. apply N.eqb_eq; auto. Qed.

Lemma cbrec_eqb_eq : forall a b, cbrec_eqb a b = true -> a = b.
Proof.
  intros [[k1 b1] f1] [[k2 b2] f2] H. cbn in H.
  apply andb_true_iff in H. destruct H as [H H3]. apply andb_true_iff in H. destruct H as [H1 H2].
  apply N.eqb_eq in H1. apply bytes_eqb_eq in H2. apply eqb_prop in H3. congruence.
Qed.

Lemma out_eqb_eq : forall a b, out_eqb a b = true -> a = b.
Proof.
  intros [b1|[l1|]|[[a1 c1]|]| |n1|n1 c1] [b2|[l2|]|[[a2 c2]|]| |n2|n2 c2] H; cbn in H;
    try discriminate; auto.
  - apply eqb_prop in H. congruence.
  - apply bytes_eqb_eq in H. congruence.
  - apply andb_true_iff in H. destruct H as [H1 H2]. apply N.eqb_eq in H1, H2. congruence.
  - apply N.eqb_eq in H. congruence.
  - apply andb_true_iff in H. destruct H as [H1 H2]. apply N.eqb_eq in H1.
    apply (list_eqb_eq _ cbrec_eqb_eq) in H2. congruence.
Qed.

Lemma c26_ok_iff : forall ops r, c26_ok ops r = true <-> r = Some (spec_outputs ops).
Proof.
  intros ops r. split.
  - destruct r as [outs|]; cbn; [|discriminate]. intros H.
    apply (list_eqb_eq _ out_eqb_eq) in H. congruence.
  - intros ->. apply spec_run_eqb.
Qed.

Definition f31_ops : list op :=
  [OPut 1 [77; 83; 71]; OCtlPut 2 1; OPut 2 [77; 83; 72]; OGet 1; OReopen; OGet 1].

Definition zero_ops : list op := [OCtlPut 1 1; OPut 3 [65]; ONearest 0 5; ORange 0 0 0].

Definition nv_ops : list op :=
  [OCtlPut 4 9; OPut 2 [1; 2]; OPut 5 []; OPut 2 [3]; OPut 0 [4]; OPut 9 [5; 6; 7]; OReopen;
   OGet 2; OGet 7; OLast; ONearest 3 9; ORange 1 0 2; ORange 2 9 0; OPut 7 [8]; ORange 6 0 0;
   OCtlGet; OCtlPut 6 1; OCtlGet].

Definition big_rec : list byte := repeat 65 (N.to_nat 8193).
Definition overlong_ops : list op := [OPut 1 big_rec; OGet 1; OPut 1 [66]; OGet 1].
