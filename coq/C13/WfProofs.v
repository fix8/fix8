(* The specified metadata of every valid schema is well-formed (c13_meta_wf): the trait tree of a
   valid level (wf_own_node_lemma), the field, message and component tables (tables_of_wf), the
   maps keyed by message type (msg_map), then the whole (meta_wf_x) for any expanded schema. *)
From Coq Require Import NArith PeanoNat List Bool Lia Permutation.
From F8 Require Import C13.SMap C13.SMapProofs C13.Schema C13.SchemaProofs C13.WfMeta.
Import ListNotations.
Local Open Scope N_scope.

Lemma nodup_N_true : forall l, NoDup l -> nodup_N l = true.
Proof.
  induction 1 as [|a l NI ND IH]; cbn; [reflexivity|]. rewrite IH, andb_true_r.
  apply negb_true_iff. destruct (existsb (N.eqb a) l) eqn:E; [|reflexivity].
  apply existsb_exists in E. destruct E as [b [I E]]. apply N.eqb_eq in E. subst. contradiction.
Qed.

Lemma fold_left_inv : forall {A B : Type} (P : A -> Prop) (f : A -> B -> A) (l : list B) (a : A),
  P a -> (forall a b, P a -> P (f a b)) -> P (fold_left f l a).
Proof. induction l as [|b l IH]; cbn; intros a Pa step; [assumption|]. apply IH; auto. Qed.

Lemma special_bit3 : forall n r c, N.testbit (special n (mk_flags r false c)) 3 = false.
Proof.
  intros n r c. unfold special.
  destruct ((n =? 8) || (n =? 9) || (n =? 10)); [|destruct (n =? 35)];
    destruct r; destruct c; reflexivity.
Qed.

Lemma group_bit3 : forall r c, N.testbit (mk_flags r true c) 3 = true.
Proof. intros r c. destruct r; destruct c; reflexivity. Qed.

Lemma level_ok_parts : forall its, level_ok its = true ->
  its <> [] /\ NoDup (map (fun y => [item_num y]) its) /\ forallb ritems_ok its = true.
Proof.
  intros its H. unfold level_ok in H. rewrite !andb_true_iff in H. destruct H as [[H1 H2] H3].
  split; [intros ->; discriminate|]. split; [apply nodup_keys_NoDup|]; assumption.
Qed.

Lemma ritems_ok_group : forall n r c sub, ritems_ok (RGroup n r c sub) = true -> level_ok sub = true.
Proof.
  intros n r c sub H. cbn in H. unfold level_ok.
  repeat (apply andb_true_iff in H; destruct H as [H ?]). rewrite H1, H0, H2. reflexivity.
Qed.

(* what wf_node asks of one nested group class under the trait table T *)
Definition sub_ok (T : list (key * trait)) (ks : key * mnode) : bool :=
  match sm_find (fst ks) T with Some t => N.testbit (t_flags t) 3 | None => false end
  && negb (match node_traits (snd ks) with [] => true | _ => false end)
  && existsb (fun kv => t_pos (snd kv) =? 1) (node_traits (snd ks))
  && wf_node (snd ks).

Lemma wf_node_eq : forall T S,
  wf_node (MNode T S)
  = sm_sorted T && trait_keys_ok T
    && nodup_N (map (fun kv => t_pos (snd kv)) T)
    && forallb (fun kv => (1 <=? t_pos (snd kv)) && (t_pos (snd kv) <=? N.of_nat (length T))) T
    && sm_sorted S
    && forallb (fun kv => negb (N.testbit (t_flags (snd kv)) 3) || sm_mem (fst kv) S) T
    && forallb (sub_ok T) S.
Proof.
  intros T S. cbn [wf_node]. f_equal.
  induction S as [|[k sn] S IH]; [reflexivity|]. cbn [forallb]. rewrite <- IH. reflexivity.
Qed.

Lemma wf_own_node_lemma : forall its, level_ok its = true -> wf_node (own_node its) = true.
Proof.
  induction its as [its IH] using level_ind. intro OK.
  destruct (level_ok_parts its OK) as [_ [ND RO]]. rewrite forallb_forall in RO.
  unfold own_node. rewrite wf_node_eq. repeat (apply andb_true_iff; split).
  - apply sm_sorted_ssorted, level_traits_sorted.
  - apply forallb_forall. intros [k t] I. cbn. rewrite (level_traits_key _ _ _ I). apply key_eqb_refl.
  - (* the positions are those of number_from *)
    apply nodup_N_true. rewrite (Permutation_map _ (level_traits_perm its ND)), map_map.
    rewrite (map_ext _ fst) by (intro p; apply trait_of_pos). apply number_from_fst_NoDup.
  - apply forallb_forall. intros [k t] I. cbn. rewrite level_traits_length by assumption.
    apply level_traits_In in I. destruct I as [[i x] [J [_ ->]]]. rewrite trait_of_pos. cbn.
    apply number_from_In in J. apply andb_true_iff. split; apply N.leb_le; lia.
  - apply sm_sorted_ssorted, sm_of_list_sorted.
  - (* a trait with the group bit belongs to a group item, whose entry item_sub lists *)
    apply forallb_forall. intros [k t] I. cbn.
    apply level_traits_In in I. destruct I as [[i x] [J [-> ->]]]. apply number_from_In in J. destruct J as [J _].
    destruct x as [n ty r c|n r c sub]; cbn [trait_of snd t_flags].
    + rewrite special_bit3. reflexivity.
    + apply orb_true_iff. right. apply (sm_of_list_mem (flat_map item_sub its) ([n], own_node sub)).
      apply in_flat_map. exists (RGroup n r c sub). split; [assumption | left; reflexivity].
  - (* every listed entry comes from a group item of the level, with a valid body *)
    apply forallb_forall. intros [k sn] I.
    apply sm_of_list_In, in_flat_map in I. destruct I as [[n ty r c|n r c sub] [Ix Es]]; [contradiction|].
    destruct Es as [Es|[]]. inversion Es; subst k sn. clear Es.
    destruct (number_from_In_inv its 1 _ Ix) as [i Hi].
    pose proof (ritems_ok_group _ _ _ _ (RO _ Ix)) as OKs.
    destruct (level_ok_parts sub OKs) as [NEs [NDs _]].
    fold (own_node sub). unfold sub_ok. cbn [fst snd]. change (node_traits (own_node sub)) with (level_traits sub).
    rewrite (level_traits_find its (i, RGroup n r c sub) ND Hi : sm_find [n] _ = _). cbn [trait_of snd t_flags]. rewrite group_bit3.
    rewrite (IH _ _ _ _ Ix OKs), andb_true_r. cbn [andb].
    (* the first item of the body has position 1 *)
    destruct sub as [|y sub']; [contradiction|].
    assert (F : In ([item_num y], trait_of (1, y)) (level_traits (y :: sub'))).
    { apply sm_find_In. apply (level_traits_find (y :: sub') (1, y) NDs). left. reflexivity. }
    destruct (level_traits (y :: sub')); [contradiction|]. cbn [negb andb].
    apply existsb_exists. eexists. split; [exact F|]. cbn [snd]. rewrite trait_of_pos. reflexivity.
Qed.

Lemma load_fields_ok : forall fl,
  ssorted (sm_keys (load_fields fl)) /\ (forall k f, In (k, f) (load_fields fl) -> k = [fs_num f]).
Proof.
  intro fl. unfold load_fields.
  apply (fold_left_inv (fun m => ssorted (sm_keys m) /\ forall k f, In (k, f) m -> k = [fs_num f])).
  - split; [constructor | intros k f []].
  - intros m fd [S K]. destruct (type_code (fd_type fd)); [|split; assumption]. split.
    + apply sm_ins_sorted; assumption.
    + intros k f I. apply sm_ins_In in I. destruct I as [E|I]; [inversion E; reflexivity | eapply K; eauto].
Qed.

Lemma realm_fold_none : forall ty vs, fold_left (realm_step ty) vs None = None.
Proof. induction vs; cbn; auto. Qed.

(* where it succeeds, the fold of realm_step is a fold of sm_ins keyed by rkey *)
Lemma realm_fold_ins : forall ty vs m r, fold_left (realm_step ty) vs (Some m) = Some r ->
  exists ps, length ps = length vs /\ r = fold_left (fun m p => sm_ins (rkey (fst p)) p m) ps m.
Proof.
  induction vs as [|e vs IH]; cbn; intros m r H.
  - inversion H. exists []. auto.
  - destruct (rval_of ty (ev_enum e)) as [v|]; [|rewrite realm_fold_none in H; discriminate].
    apply IH in H. destruct H as [ps [L ->]].
    exists ((v, match ev_desc e with [] => ev_enum e | d => d end) :: ps). split; [cbn; rewrite L|]; reflexivity.
Qed.

Lemma realm_of_ok : forall f r, realm_of f = Some (Some r) -> realm_ok r = true.
Proof.
  intros f r H. unfold realm_of in H. destruct (fs_vals f) as [|e vs] eqn:V; [discriminate|].
  destruct (fold_left (realm_step (fs_ty f)) (e :: vs) (Some [])) as [m|] eqn:F; [|discriminate].
  inversion H; subst r. clear H. apply realm_fold_ins in F. destruct F as [[|p ps] [L ->]]; [discriminate|].
  unfold realm_ok. cbn [r_vals]. repeat (apply andb_true_iff; split).
  - apply sm_sorted_ssorted, (fold_ins_sorted (fun p => rkey (fst p)) (fun p => p)). constructor.
  - pose proof (fold_ins_mem (fun p => rkey (fst p)) (fun p => p) (p :: ps) [] p ss_nil (or_introl eq_refl)) as M.
    destruct (fold_left _ (p :: ps) []); [discriminate M | reflexivity].
  - apply forallb_forall. intros [k v] I. apply (fold_ins_In (fun p => rkey (fst p)) (fun p => p)) in I.
    destruct I as [[]|[q [_ E]]]. inversion E. apply key_eqb_refl.
Qed.

Lemma ftab_fold_none : forall used l, fold_left (ftab_step used) l None = None.
Proof.
  induction l as [|kv l IH]; cbn; [reflexivity|].
  unfold ftab_step at 2. destruct (existsb (N.eqb (fs_num (snd kv))) used); exact IH.
Qed.

(* the entries keep the order of the field map; each has its number as key and a well-formed realm *)
Definition fe_ok (kv : key * ftab_entry) : Prop :=
  fst kv = [fe_num (snd kv)]
  /\ match fe_realm (snd kv) with Some rl => realm_ok rl = true | None => True end.

Lemma ftab_fold_inv : forall used l acc r,
  (forall k f, In (k, f) l -> k = [fs_num f]) ->
  fold_left (ftab_step used) l (Some acc) = Some r ->
  exists r', r = acc ++ r' /\ subseq (sm_keys r') (sm_keys l) /\ Forall fe_ok r'.
Proof.
  induction l as [|[k f] l IH]; cbn [fold_left]; intros acc r K H.
  - inversion H; subst. exists []. rewrite app_nil_r. split; [reflexivity|]. split; constructor.
  - unfold ftab_step at 2 in H. cbn [snd fst] in H.
    destruct (existsb (N.eqb (fs_num f)) used).
    + destruct (realm_of f) as [rl|] eqn:R; [|rewrite ftab_fold_none in H; discriminate].
      apply IH in H; [|intros; apply K; right; assumption]. destruct H as [r' [E [SQ FA]]].
      eexists. rewrite E, <- app_assoc. split; [reflexivity|]. split; [cbn; constructor; assumption|].
      constructor; [|assumption]. split; cbn.
      * apply K. left. reflexivity.
      * destruct rl; [eapply realm_of_ok; eassumption | exact I].
    + apply IH in H; [|intros; apply K; right; assumption]. destruct H as [r' [E [SQ FA]]].
      exists r'. split; [assumption|]. split; [cbn; constructor|]; assumption.
Qed.

(* the message table and the node map are filled alike: HEADER, TRAILER, then the messages in order *)
Definition msg_map {W : Type} (vh vt : W) (V : msgdef * list ritem -> W) (x : xschema) : list (key * W) :=
  fold_left (fun m mr => sm_ins (md_type (fst mr)) (V mr) m) (x_msgs x) (sm_ins TRAILER vt (sm_ins HEADER vh [])).

Section MsgMap.
  Context {W : Type} (vh vt : W) (V : msgdef * list ritem -> W) (x : xschema).

  Lemma msg_map_init_sorted : ssorted (sm_keys (sm_ins TRAILER vt (sm_ins HEADER vh []))).
  Proof. repeat apply sm_ins_sorted. constructor. Qed.

  Lemma msg_map_sorted : ssorted (sm_keys (msg_map vh vt V x)).
  Proof. apply fold_ins_sorted, msg_map_init_sorted. Qed.

  Lemma msg_map_find :
    sm_find HEADER (msg_map vh vt V x) = Some vh /\ sm_find TRAILER (msg_map vh vt V x) = Some vt.
  Proof. unfold msg_map. rewrite !fold_ins_find by apply msg_map_init_sorted. split; reflexivity. Qed.

  Lemma msg_map_In : forall kw, In kw (msg_map vh vt V x) ->
    kw = (HEADER, vh) \/ kw = (TRAILER, vt) \/ exists mr, In mr (x_msgs x) /\ kw = (md_type (fst mr), V mr).
  Proof.
    intros kw I. apply fold_ins_In in I. destruct I as [I|I]; [|auto].
    apply sm_ins_In in I. destruct I as [I|I]; [auto|]. apply sm_ins_In in I. destruct I as [I|[]]. auto.
  Qed.

  Lemma msg_map_mem : forall mr, In mr (x_msgs x) -> sm_mem (md_type (fst mr)) (msg_map vh vt V x) = true.
  Proof.
    intros mr I. apply (fold_ins_mem (fun mr => md_type (fst mr)) V); [apply msg_map_init_sorted | assumption].
  Qed.
End MsgMap.

Lemma mtab_of_eq : forall x,
  mtab_of x = msg_map (mkMe HEADER HEADER false) (mkMe TRAILER TRAILER false)
                      (fun mr => mkMe (md_type (fst mr)) (md_name (fst mr)) (md_admin (fst mr))) x.
Proof. reflexivity. Qed.

Definition own_nodes (x : xschema) : list (key * mnode) :=
  msg_map (own_node (x_header x)) (own_node (x_trailer x)) (fun mr => own_node (snd mr)) x.

Lemma nodes_of_own : forall x, nodes_of (fun its => Some (own_node its)) x = Some (own_nodes x).
Proof.
  intro x. unfold nodes_of, own_nodes, msg_map.
  generalize (sm_ins TRAILER (own_node (x_trailer x)) (sm_ins HEADER (own_node (x_header x)) [])).
  induction (x_msgs x) as [|mr l IH]; cbn; intro m; [reflexivity|]. apply IH.
Qed.

Lemma tables_of_wf : forall s x t,
  ssorted (sm_keys (x_fm x)) -> (forall k f, In (k, f) (x_fm x) -> k = [fs_num f]) ->
  ssorted (sm_keys (x_comps x)) ->
  tables_of s x = Some t -> wf_tables t = true /\ tb_msgs t = mtab_of x.
Proof.
  intros s x t SF KF SC TB. unfold tables_of in TB. destruct (version_of s) as [v|]; [|discriminate].
  destruct (fold_left (ftab_step (used_nums x)) (x_fm x) (Some [])) as [ft|] eqn:FTB; [|discriminate].
  inversion TB; subst t. clear TB. split; [|reflexivity].
  apply ftab_fold_inv in FTB; [|assumption]. destruct FTB as [r' [-> [SQ FA]]]. rewrite Forall_forall in FA.
  unfold wf_tables, sm_mem. cbn [tb_fields tb_msgs tb_comps app]. rewrite mtab_of_eq.
  rewrite (proj1 (msg_map_find _ _ _ x)), (proj2 (msg_map_find _ _ _ x)), !andb_true_r.
  repeat (apply andb_true_iff; split).
  - apply sm_sorted_ssorted. eapply ssorted_subseq; eauto.
  - apply forallb_forall. intros kv I. rewrite (proj1 (FA _ I)). apply key_eqb_refl.
  - apply forallb_forall. intros kv I. destruct (FA _ I) as [_ R]. destruct (fe_realm (snd kv)); auto.
  - apply sm_sorted_ssorted, msg_map_sorted.
  - apply forallb_forall. intros kv I.
    destruct (msg_map_In _ _ _ _ _ I) as [->|[->|[mr [_ ->]]]]; apply key_eqb_refl.
  - apply keys_sorted_ssorted. eapply ssorted_subseq; [apply subseq_filter | assumption].
Qed.

Lemma special_preamble : forall n r c, (n = 8 \/ n = 9 \/ n = 10 \/ n = 35) ->
  let fl := special n (mk_flags r false c) in N.testbit fl 0 = false /\ N.testbit fl 6 = true.
Proof.
  intros n r c [ -> | [ -> | [ -> | -> ] ] ]; destruct r; destruct c; cbn; auto.
Qed.

Lemma preamble_ok_lemma : forall its n, level_ok its = true -> has_num n its = true ->
  (n = 8 \/ n = 9 \/ n = 10 \/ n = 35) -> preamble_ok n (own_node its) = true.
Proof.
  intros its n OK H NN. destruct (level_ok_parts its OK) as [_ [ND _]].
  unfold has_num in H. apply existsb_exists in H. destruct H as [y [Iy Hy]].
  apply andb_true_iff in Hy. destruct Hy as [G E]. apply N.eqb_eq in E.
  destruct y as [n0 ty r c|n0 r c sub]; [|discriminate]. cbn in E. subst n0.
  destruct (number_from_In_inv its 1 _ Iy) as [i Hi].
  pose proof (level_traits_find its _ ND Hi) as F. cbn [snd item_num] in F.
  unfold preamble_ok, own_node. cbn [node_traits]. rewrite F. cbn [trait_of snd t_flags].
  destruct (special_preamble n r c NN) as [A B]. rewrite A, B, special_bit3. reflexivity.
Qed.

(* The metadata built from ANY expanded schema with sorted field and component maps, valid levels
   and the preamble fields is well-formed; how x was expanded plays no role. *)
Lemma meta_wf_x : forall s x t,
  ssorted (sm_keys (x_fm x)) -> (forall k f, In (k, f) (x_fm x) -> k = [fs_num f]) ->
  ssorted (sm_keys (x_comps x)) ->
  level_ok (x_header x) = true -> level_ok (x_trailer x) = true ->
  forallb (fun mr => level_ok (snd mr)) (x_msgs x) = true ->
  has_num 8 (x_header x) = true -> has_num 9 (x_header x) = true -> has_num 35 (x_header x) = true ->
  has_num 10 (x_trailer x) = true ->
  tables_of s x = Some t -> wf_meta (mkMeta t (own_nodes x)) = true.
Proof.
  intros s x t SF KF SC OKh OKt OKm H8 H9 H35 H10 TB. rewrite forallb_forall in OKm.
  destruct (tables_of_wf s x t SF KF SC TB) as [WT TM].
  destruct (msg_map_find (own_node (x_header x)) (own_node (x_trailer x)) (fun mr => own_node (snd mr)) x) as [NH NT].
  fold (own_nodes x) in NH, NT.
  unfold wf_meta. cbn [mt_tables mt_nodes]. rewrite NH, NT, TM, WT. cbn [andb].
  repeat (apply andb_true_iff; split); try (apply preamble_ok_lemma; auto).
  - apply sm_sorted_ssorted, msg_map_sorted.
  - apply forallb_forall. intros kn I.
    destruct (msg_map_In _ _ _ _ _ I) as [->|[->|[mr [Imr ->]]]]; apply wf_own_node_lemma; auto.
  - (* every message table entry has a node *)
    apply forallb_forall. intros ke I. rewrite mtab_of_eq in I. unfold sm_mem.
    destruct (msg_map_In _ _ _ _ _ I) as [->|[->|[mr [Imr ->]]]]; cbn [fst]; [rewrite NH | rewrite NT |]; try reflexivity.
    apply msg_map_mem. assumption.
Qed.

(* conversion must not unfold the 64 levels of fuel *)
Opaque FUEL expand expand_level expand_msgs.

Lemma expand_schema_parts : forall q s x, expand_schema q s = Some x ->
  x_fm x = load_fields (s_fields s) /\ x_comps x = load_comps (s_comps s).
Proof.
  intros q s x H. unfold expand_schema in H.
  destruct (expand_level false s (s_header s)); [|discriminate].
  destruct (expand_level false s (s_trailer s)); [|discriminate].
  destruct (expand_msgs q s); [|discriminate].
  inversion H. split; reflexivity.
Qed.

Lemma meta_wf_lemma : forall s, wf_schema s = true ->
  exists m, meta_of_schema s = Some m /\ wf_meta m = true.
Proof.
  intros s W. unfold wf_schema in W.
  destruct (expand_schema false s) as [x|] eqn:EX; [|discriminate].
  destruct (meta_of_schema s) as [m|] eqn:MS; [|discriminate].
  exists m. split; [reflexivity|].
  unfold meta_of_schema in MS. rewrite EX, nodes_of_own in MS.
  destruct (tables_of s x) as [t|] eqn:TB; [|discriminate]. inversion MS; subst m. clear MS.
  destruct (expand_schema_parts _ _ _ EX) as [FM CM]. destruct (load_fields_ok (s_fields s)) as [LS LK].
  repeat (apply andb_true_iff in W; destruct W as [W ?]).
  apply (meta_wf_x s); try assumption.
  - rewrite FM. assumption.
  - rewrite FM. assumption.
  - rewrite CM. apply (fold_ins_sorted fst snd). constructor.
  - unfold level_ok. repeat (apply andb_true_iff; split); assumption.
Qed.
