(* Lemmas about the sorted association lists of C13/SMap.v: the order on keys, strict sortedness
   as a proposition, find/insert/set, and the two facts about a fold of insert-if-absent: the first
   occurrence of a key wins, and with distinct keys nothing is lost. *)
From Coq Require Import NArith List Bool Lia Permutation.
From F8 Require Import C13.SMap.
Import ListNotations.
Local Open Scope N_scope.

Lemma lex_cmp_refl : forall a, lex_cmp a a = Eq.
Proof. induction a as [|x a IH]; cbn; [reflexivity|]. rewrite N.compare_refl. exact IH. Qed.

Lemma lex_cmp_eq : forall a b, lex_cmp a b = Eq -> a = b.
Proof.
  induction a as [|x a IH]; destruct b as [|y b]; cbn; intro H; try discriminate; [reflexivity|].
  destruct (N.compare_spec x y); try discriminate. subst. f_equal. apply IH. exact H.
Qed.

Lemma lex_cmp_antisym : forall a b, lex_cmp b a = CompOpp (lex_cmp a b).
Proof.
  induction a as [|x a IH]; destruct b as [|y b]; cbn; try reflexivity.
  rewrite (N.compare_antisym x y). destruct (N.compare x y); cbn; auto.
Qed.

Lemma lex_lt_trans : forall a b c, lex_cmp a b = Lt -> lex_cmp b c = Lt -> lex_cmp a c = Lt.
Proof.
  induction a as [|x a IH]; destruct b as [|y b]; destruct c as [|z c]; cbn; intros H1 H2;
    try discriminate; try reflexivity.
  destruct (N.compare_spec x y) as [->|L1|]; try discriminate.
  - destruct (N.compare y z); try discriminate; [eapply IH; eauto | reflexivity].
  - destruct (N.compare_spec y z) as [<-|L2|]; try discriminate.
    + apply N.compare_lt_iff in L1. rewrite L1. reflexivity.
    + rewrite (proj2 (N.compare_lt_iff x z)) by (eapply N.lt_trans; eauto). reflexivity.
Qed.

Lemma key_eqb_eq : forall a b, key_eqb a b = true -> a = b.
Proof. unfold key_eqb. intros a b H. destruct (lex_cmp a b) eqn:C; try discriminate. apply lex_cmp_eq; auto. Qed.

Lemma key_eqb_refl : forall a, key_eqb a a = true.
Proof. intro a. unfold key_eqb. rewrite lex_cmp_refl. reflexivity. Qed.

Lemma key_eqb_spec : forall a b, reflect (a = b) (key_eqb a b).
Proof.
  intros a b. destruct (key_eqb a b) eqn:E; constructor.
  - apply key_eqb_eq. exact E.
  - intros ->. rewrite key_eqb_refl in E. discriminate.
Qed.

Lemma key_eqb_neq : forall a b, a <> b -> key_eqb a b = false.
Proof. intros a b H. destruct (key_eqb_spec a b); [contradiction | reflexivity]. Qed.

Lemma key_eqb_sym : forall a b, key_eqb a b = key_eqb b a.
Proof. intros a b. destruct (key_eqb_spec a b), (key_eqb_spec b a); congruence. Qed.

Lemma key_eqb_single : forall a b : N, key_eqb [a] [b] = (a =? b).
Proof. intros a b. destruct (key_eqb_spec [a] [b]), (N.eqb_spec a b); congruence. Qed.

Lemma key_ltb_lt : forall a b, key_ltb a b = true <-> lex_cmp a b = Lt.
Proof. intros a b. unfold key_ltb. destruct (lex_cmp a b); split; intro H; try discriminate; reflexivity. Qed.

Inductive all_gt (k : key) : list key -> Prop :=
| ag_nil : all_gt k []
| ag_cons : forall k' l, lex_cmp k k' = Lt -> all_gt k l -> all_gt k (k' :: l).

Inductive ssorted : list key -> Prop :=
| ss_nil : ssorted []
| ss_cons : forall k l, all_gt k l -> ssorted l -> ssorted (k :: l).

Lemma all_gt_iff : forall k l, all_gt k l <-> (forall k', In k' l -> lex_cmp k k' = Lt).
Proof.
  intros k l. split.
  - induction 1; cbn; intros k0 I; [contradiction|]. destruct I as [<-|I]; auto.
  - induction l; intro H; constructor; [apply H; left; reflexivity | apply IHl; intros; apply H; right; assumption].
Qed.

Lemma all_gt_trans : forall k k' l, lex_cmp k k' = Lt -> all_gt k' l -> all_gt k l.
Proof. intros k k' l H A. induction A; constructor; auto. eapply lex_lt_trans; eauto. Qed.

Lemma all_gt_notin : forall k l, all_gt k l -> ~ In k l.
Proof. intros k l A I. pose proof (proj1 (all_gt_iff k l) A k I) as H. rewrite lex_cmp_refl in H. discriminate. Qed.

Lemma ssorted_NoDup : forall l, ssorted l -> NoDup l.
Proof. induction 1; constructor; auto. apply all_gt_notin. assumption. Qed.

Lemma keys_sorted_ssorted : forall l, keys_sorted l = true <-> ssorted l.
Proof.
  induction l as [|k l IH]; [split; constructor|].
  destruct l as [|k' l]; [split; repeat constructor|].
  change (keys_sorted (k :: k' :: l)) with (key_ltb k k' && keys_sorted (k' :: l)).
  rewrite andb_true_iff, key_ltb_lt, IH. split.
  - intros [L S]. inversion S; subst. repeat constructor; auto. eapply all_gt_trans; eauto.
  - intro S. inversion S as [|? ? A S']; subst. inversion A; subst. auto.
Qed.

Lemma sm_sorted_ssorted : forall {V : Type} (m : list (key * V)), ssorted (sm_keys m) -> sm_sorted m = true.
Proof. intros. unfold sm_sorted. apply keys_sorted_ssorted. assumption. Qed.

Inductive subseq {A : Type} : list A -> list A -> Prop :=
| sq_nil : forall l, subseq [] l
| sq_skip : forall a l1 l2, subseq l1 l2 -> subseq l1 (a :: l2)
| sq_take : forall a l1 l2, subseq l1 l2 -> subseq (a :: l1) (a :: l2).

Lemma subseq_filter : forall {A : Type} (p : A -> bool) (l : list A), subseq (filter p l) l.
Proof. induction l as [|a l IH]; cbn; [constructor|]. destruct (p a); constructor; assumption. Qed.

Lemma all_gt_subseq : forall k l1 l2, subseq l1 l2 -> all_gt k l2 -> all_gt k l1.
Proof. induction 1; intro A; [constructor | inversion A; auto | inversion A; subst; constructor; auto]. Qed.

Lemma ssorted_subseq : forall l1 l2, subseq l1 l2 -> ssorted l2 -> ssorted l1.
Proof.
  induction 1; intro S; [constructor | inversion S; auto |].
  inversion S; subst. constructor; [eapply all_gt_subseq; eauto | auto].
Qed.

Lemma ssorted_ext : forall l1 l2, ssorted l1 -> ssorted l2 -> (forall k, In k l1 <-> In k l2) -> l1 = l2.
Proof.
  induction l1 as [|a l1 IH]; intros [|b l2] S1 S2 E; [reflexivity | | |].
  - destruct (proj2 (E b)). left. reflexivity.
  - destruct (proj1 (E a)). left. reflexivity.
  - inversion S1 as [|? ? A1 S1']; inversion S2 as [|? ? A2 S2']; subst.
    assert (a = b) as <-.
    { (* otherwise a is in l2 and b in l1, so b < a < b *)
      destruct (proj1 (E a) (or_introl eq_refl)) as [|X]; [auto|].
      destruct (proj2 (E b) (or_introl eq_refl)) as [|Y]; [auto|].
      pose proof (lex_lt_trans _ _ _ (proj1 (all_gt_iff _ _) A1 _ Y) (proj1 (all_gt_iff _ _) A2 _ X)) as L.
      rewrite lex_cmp_refl in L. discriminate. }
    f_equal. apply IH; auto.
    intro k. split; intro I.
    + destruct (proj1 (E k) (or_intror I)) as [<-|]; [|assumption]. destruct (all_gt_notin _ _ A1 I).
    + destruct (proj2 (E k) (or_intror I)) as [<-|]; [|assumption]. destruct (all_gt_notin _ _ A2 I).
Qed.

Section Map.
  Context {V : Type}.
  Implicit Types m : list (key * V).

  Lemma sm_ins_In : forall k v m kv, In kv (sm_ins k v m) -> kv = (k, v) \/ In kv m.
  Proof.
    induction m as [|[k0 v0] m IH]; cbn; intros kv H.
    - destruct H as [H|[]]; auto.
    - destruct (lex_cmp k k0); cbn in H.
      + right. exact H.
      + destruct H as [H|H]; auto.
      + destruct H as [H|H]; auto. apply IH in H. destruct H; auto.
  Qed.

  Lemma sm_ins_incl : forall k v m kv, In kv m -> In kv (sm_ins k v m).
  Proof.
    induction m as [|[k0 v0] m IH]; cbn; intros kv H; [contradiction|].
    destruct (lex_cmp k k0); cbn; auto. destruct H; auto.
  Qed.

  Lemma sm_ins_sorted : forall k v m, ssorted (sm_keys m) -> ssorted (sm_keys (sm_ins k v m)).
  Proof.
    induction m as [|[k0 v0] m IH]; cbn; intro S.
    - repeat constructor.
    - inversion S as [|? ? A S']; subst. destruct (lex_cmp k k0) eqn:C; cbn.
      + exact S.
      + constructor; [|exact S]. constructor; [exact C|]. eapply all_gt_trans; eauto.
      + constructor; [|apply IH; assumption].
        apply all_gt_iff. intros k' I. apply in_map_iff in I. destruct I as [kv [<- I]].
        apply sm_ins_In in I. destruct I as [->|I].
        * cbn. rewrite lex_cmp_antisym, C. reflexivity.
        * apply (all_gt_iff k0 (sm_keys m)); [assumption | apply in_map; assumption].
  Qed.

  Lemma sm_ins_nonempty : forall k v m, sm_ins k v m <> [].
  Proof. intros k v [|[k0 v0] m]; cbn; [discriminate|]. destruct (lex_cmp k k0); discriminate. Qed.

  Lemma sm_ins_perm : forall k v m, sm_find k m = None -> Permutation (sm_ins k v m) ((k, v) :: m).
  Proof.
    induction m as [|[k0 v0] m IH]; cbn; intro F; [reflexivity|].
    unfold key_eqb in F. destruct (lex_cmp k k0); [discriminate | reflexivity |].
    rewrite IH by assumption. apply perm_swap.
  Qed.

  Lemma sm_find_notin : forall k m, ~ In k (sm_keys m) -> sm_find k m = None.
  Proof.
    induction m as [|[k0 v0] m IH]; cbn; intro H; [reflexivity|].
    destruct (key_eqb_spec k k0) as [->|_]; [destruct H; left; reflexivity|].
    apply IH. intro I. apply H. right. exact I.
  Qed.

  Lemma sm_find_In : forall k v m, sm_find k m = Some v -> In (k, v) m.
  Proof.
    induction m as [|[k0 v0] m IH]; cbn; intro H; [discriminate|].
    destruct (key_eqb_spec k k0) as [->|_]; [left; congruence | right; apply IH; exact H].
  Qed.

  Lemma sm_mem_keys : forall k m, sm_mem k m = true -> In k (sm_keys m).
  Proof.
    intros k m H. unfold sm_mem in H. destruct (sm_find k m) as [v|] eqn:F; [|discriminate].
    apply sm_find_In in F. apply (in_map fst _ _ F).
  Qed.

  Lemma sm_find_sorted_In : forall k v m, ssorted (sm_keys m) -> In (k, v) m -> sm_find k m = Some v.
  Proof.
    induction m as [|[k0 v0] m IH]; cbn; intros S I; [contradiction|].
    inversion S as [|? ? A S']; subst. destruct (key_eqb_spec k k0) as [->|NE]; destruct I as [E|I]; try congruence.
    - destruct (all_gt_notin _ _ A). apply (in_map fst _ _ I).
    - auto.
  Qed.

  Lemma sm_find_ins_same : forall k v m, ssorted (sm_keys m) ->
    sm_find k (sm_ins k v m) = match sm_find k m with Some v' => Some v' | None => Some v end.
  Proof.
    induction m as [|[k0 v0] m IH]; cbn; intro S.
    - rewrite key_eqb_refl. reflexivity.
    - inversion S as [|? ? A S']; subst. unfold key_eqb. destruct (lex_cmp k k0) eqn:C; cbn; unfold key_eqb.
      + rewrite C. reflexivity.
      + (* k is below k0, hence below every key of m *)
        rewrite lex_cmp_refl, sm_find_notin; [reflexivity|].
        apply all_gt_notin. eapply all_gt_trans; eauto.
      + rewrite C. apply IH. assumption.
  Qed.

  Lemma sm_find_ins_other : forall k k' v m, k' <> k -> sm_find k' (sm_ins k v m) = sm_find k' m.
  Proof.
    induction m as [|[k0 v0] m IH]; cbn; intro N.
    - rewrite key_eqb_neq; auto.
    - destruct (lex_cmp k k0) eqn:C; cbn.
      + reflexivity.
      + rewrite (key_eqb_neq k' k); auto.
      + destruct (key_eqb k' k0); auto.
  Qed.

  Lemma sm_set_keys : forall k v m, sm_keys (sm_set k v m) = sm_keys m.
  Proof.
    induction m as [|[k0 v0] m IH]; cbn; [reflexivity|].
    destruct (key_eqb k k0); cbn; [reflexivity|]. f_equal. exact IH.
  Qed.

  Lemma sm_find_set_same : forall k v m, sm_mem k m = true -> sm_find k (sm_set k v m) = Some v.
  Proof.
    unfold sm_mem. induction m as [|[k0 v0] m IH]; cbn; intro H; [discriminate|].
    destruct (key_eqb k k0) eqn:E; cbn; rewrite E; [reflexivity|]. apply IH. exact H.
  Qed.

  Lemma sm_find_set_other : forall k k' v m, k' <> k -> sm_find k' (sm_set k v m) = sm_find k' m.
  Proof.
    induction m as [|[k0 v0] m IH]; cbn; intro N; [reflexivity|].
    destruct (key_eqb_spec k k0) as [<-|_]; cbn.
    - rewrite key_eqb_neq; auto.
    - destruct (key_eqb k' k0); auto.
  Qed.

  Lemma sm_set_In : forall k v m kv, In kv (sm_set k v m) -> In kv m \/ (fst kv = k /\ snd kv = v).
  Proof.
    induction m as [|[k0 v0] m IH]; cbn; intros kv H; [contradiction|].
    destruct (key_eqb_spec k k0) as [<-|_]; cbn in H.
    - destruct H as [<-|H]; [right; auto | left; right; assumption].
    - destruct H as [H|H]; [left; left; assumption|]. apply IH in H. destruct H; auto.
  Qed.

End Map.

Section Fold.
  Context {V A : Type} (kf : A -> key) (vf : A -> V).
  Implicit Types m : list (key * V).

  Lemma fold_ins_sorted : forall l m, ssorted (sm_keys m) -> ssorted (sm_keys (fold_left (fun m a => sm_ins (kf a) (vf a) m) l m)).
  Proof. induction l as [|a l IH]; cbn; intros m S; [assumption|]. apply IH. apply sm_ins_sorted. assumption. Qed.

  Lemma fold_ins_In : forall l m kv, In kv (fold_left (fun m a => sm_ins (kf a) (vf a) m) l m) -> In kv m \/ exists a, In a l /\ kv = (kf a, vf a).
  Proof.
    induction l as [|a l IH]; cbn; intros m kv H; [left; assumption|].
    apply IH in H. destruct H as [H|[b [I E]]].
    - apply sm_ins_In in H. destruct H as [H|H]; [right; exists a; auto | left; assumption].
    - right. exists b. auto.
  Qed.

  (* the first occurrence of a key wins *)
  Lemma fold_ins_find : forall l m k, ssorted (sm_keys m) ->
    sm_find k (fold_left (fun m a => sm_ins (kf a) (vf a) m) l m)
    = match sm_find k m with
      | Some v => Some v
      | None => option_map vf (find (fun a => key_eqb k (kf a)) l)
      end.
  Proof.
    induction l as [|a l IH]; cbn; intros m k S; [destruct (sm_find k m); reflexivity|].
    rewrite IH by (apply sm_ins_sorted; assumption).
    destruct (key_eqb_spec k (kf a)) as [->|NE].
    - rewrite sm_find_ins_same by assumption. destruct (sm_find (kf a) m); reflexivity.
    - rewrite sm_find_ins_other by assumption. reflexivity.
  Qed.

  Lemma fold_ins_mem : forall l m a, ssorted (sm_keys m) -> In a l -> sm_mem (kf a) (fold_left (fun m a => sm_ins (kf a) (vf a) m) l m) = true.
  Proof.
    intros l m a S I. unfold sm_mem. rewrite fold_ins_find by assumption.
    destruct (sm_find (kf a) m); [reflexivity|].
    destruct (find _ l) eqn:F; [reflexivity|].
    pose proof (find_none _ _ F a I) as E. cbv beta in E. rewrite key_eqb_refl in E. discriminate.
  Qed.

  Lemma fold_ins_perm : forall l m, NoDup (map kf l) -> (forall b, In b l -> sm_find (kf b) m = None) ->
    Permutation (fold_left (fun m a => sm_ins (kf a) (vf a) m) l m) (map (fun a => (kf a, vf a)) l ++ m).
  Proof.
    induction l as [|b l IH]; cbn; intros m ND F; [reflexivity|].
    inversion ND as [|? ? NI ND']; subst. rewrite IH.
    - rewrite sm_ins_perm by auto. symmetry. apply Permutation_middle.
    - assumption.
    - intros c Ic. rewrite sm_find_ins_other; [auto|].
      intro X. apply NI. rewrite <- X. apply in_map. assumption.
  Qed.
End Fold.

Lemma sm_of_list_fold : forall {V : Type} (l : list (key * V)),
  sm_of_list l = fold_left (fun m kv => sm_ins (fst kv) (snd kv) m) l [].
Proof. reflexivity. Qed.

Lemma sm_of_list_sorted : forall {V : Type} (l : list (key * V)), ssorted (sm_keys (sm_of_list l)).
Proof. intros. unfold sm_of_list. apply (fold_ins_sorted fst snd). constructor. Qed.

Lemma sm_of_list_In : forall {V : Type} (l : list (key * V)) kv, In kv (sm_of_list l) -> In kv l.
Proof.
  intros V l kv H. unfold sm_of_list in H. apply (fold_ins_In fst snd) in H.
  destruct H as [[]|[a [I E]]]. subst. destruct a; assumption.
Qed.

Lemma sm_of_list_mem : forall {V : Type} (l : list (key * V)) kv, In kv l -> sm_mem (fst kv) (sm_of_list l) = true.
Proof. intros. unfold sm_of_list. apply (fold_ins_mem fst snd); auto. constructor. Qed.

Lemma sm_ins_map : forall {V W : Type} (f : V -> W) k v (m : list (key * V)),
  map (fun kv => (fst kv, f (snd kv))) (sm_ins k v m) = sm_ins k (f v) (map (fun kv => (fst kv, f (snd kv))) m).
Proof.
  induction m as [|[k0 v0] m IH]; cbn; [reflexivity|].
  destruct (lex_cmp k k0); cbn; try reflexivity. f_equal. exact IH.
Qed.

Lemma sm_of_list_map : forall {V W : Type} (f : V -> W) (l : list (key * V)),
  map (fun kv => (fst kv, f (snd kv))) (sm_of_list l) = sm_of_list (map (fun kv => (fst kv, f (snd kv))) l).
Proof.
  intros V W f l. unfold sm_of_list.
  change (@nil (key * W)) with (map (fun kv : key * V => (fst kv, f (snd kv))) []).
  generalize (@nil (key * V)).
  induction l as [|a l IH]; cbn; intro m; [reflexivity|]. rewrite IH, sm_ins_map. reflexivity.
Qed.

Lemma nodup_keys_NoDup : forall l, nodup_keys l = true -> NoDup l.
Proof.
  induction l as [|k l IH]; cbn; intro H; constructor; apply andb_true_iff in H; destruct H as [H1 H2]; [|auto].
  intro I. apply negb_true_iff in H1. rewrite (proj2 (existsb_exists _ _)) in H1; [discriminate|].
  exists k. split; [assumption | apply key_eqb_refl].
Qed.
