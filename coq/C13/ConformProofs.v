(* What the pinned f8c generates (C14/GroupHash.f8c_meta: component expansion with the depth-3
   quirk, groups resolved through the CommonGroupMap) is the specified metadata
   (C13/Schema.meta_of_schema) when the depth-3 rule changes no message, group_hash tells the group
   definitions apart and no level nests FUEL deep; a schema where it is not, and one meeting the premises. *)
From Coq Require Import NArith PeanoNat List Bool Lia.
From F8 Require Import C13.SMap C13.SMapProofs C13.Schema C13.SchemaProofs C13.WfMeta C13.WfProofs
                       C13.Examples C13.Probe C14.GroupHash C14.GroupHashProofs.
Import ListNotations.
Local Open Scope N_scope.

(* conversion must not unfold the 64 levels of fuel (vm_compute is not affected) *)
Opaque FUEL expand expand_level expand_msgs f8c_node.

Definition levels_shallow (x : xschema) : bool :=
  (level_depth (x_header x) <? FUEL)%nat && (level_depth (x_trailer x) <? FUEL)%nat
  && forallb (fun mr : msgdef * list ritem => (level_depth (snd mr) <? FUEL)%nat) (x_msgs x).

Lemma levels_shallow_spec : forall x, levels_shallow x = true ->
  forall its, x_level x its -> (level_depth its < FUEL)%nat.
Proof.
  intros x SH its L. unfold levels_shallow in SH. rewrite !andb_true_iff, forallb_forall in SH.
  destruct SH as [[S1 S2] S3]. apply Nat.ltb_lt.
  destruct L as [->|[->|[m I]]]; [assumption | assumption | exact (S3 _ I)].
Qed.

(* nodes_of applies the node generator to the levels of x only *)
Lemma nodes_of_ext : forall (f g : list ritem -> option mnode) x,
  (forall its, x_level x its -> f its = g its) -> nodes_of f x = nodes_of g x.
Proof.
  intros f g x H.
  assert (Hm : forall mr, In mr (x_msgs x) -> f (snd mr) = g (snd mr))
    by (intros [m its] I; apply H; right; right; exists m; exact I).
  unfold nodes_of. rewrite (H (x_header x)), (H (x_trailer x)) by (unfold x_level; auto).
  destruct (g (x_header x)) as [h|], (g (x_trailer x)) as [t|]; try reflexivity.
  generalize (Some (sm_ins TRAILER t (sm_ins HEADER h []))). revert Hm. generalize (x_msgs x).
  induction l as [|mr l IH]; cbn; intros Hm acc; [reflexivity|].
  rewrite (Hm mr) by (left; reflexivity). apply IH. intros; apply Hm; right; assumption.
Qed.

Lemma conforms_partial_lemma : forall s x,
  expand_schema false s = Some x ->
  expand_msgs true s = expand_msgs false s ->
  defs_injective (schema_defs x) = true -> levels_shallow x = true ->
  f8c_meta s = meta_of_schema s.
Proof.
  intros s x EX Q INJ SH.
  assert (EXq : expand_schema true s = Some x).
  { unfold expand_schema in *. rewrite Q. exact EX. }
  unfold f8c_meta, meta_of_schema. rewrite EX, EXq. cbv zeta.
  rewrite (nodes_of_ext (f8c_node FUEL (build_gm (schema_defs x))) (fun its => Some (own_node its))); [reflexivity|].
  intros its L. apply sound_if_injective_lemma; [assumption | assumption|].
  apply (levels_shallow_spec x); assumption.
Qed.

Lemma conforms_nonvacuous_lemma :
  wf_schema ex_clean = true
  /\ (exists x, expand_schema false ex_clean = Some x
                /\ expand_msgs true ex_clean = expand_msgs false ex_clean
                /\ defs_injective (schema_defs x) = true /\ levels_shallow x = true
                /\ length (schema_defs x) = 4%nat)
  /\ (exists m, meta_of_schema ex_clean = Some m /\ wf_meta m = true /\ length (mt_nodes m) = 5%nat).
Proof.
  (* each table is evaluated once, inside a boolean; its value stays a variable, so that no
     normal form of a table has to be type-checked as a witness *)
  split; [vm_compute; reflexivity|]. split.
  - assert (E : match expand_schema false ex_clean with
                | Some x => defs_injective (schema_defs x) && levels_shallow x
                            && (length (schema_defs x) =? 4)%nat
                | None => false
                end = true) by (vm_compute; reflexivity).
    destruct (expand_schema false ex_clean) as [x|]; [|discriminate E].
    rewrite !andb_true_iff, Nat.eqb_eq in E. destruct E as [[INJ SH] LEN].
    exists x. repeat apply conj; try assumption; [reflexivity | vm_compute; reflexivity].
  - assert (E : match meta_of_schema ex_clean with
                | Some m => wf_meta m && (length (mt_nodes m) =? 5)%nat
                | None => false
                end = true) by (vm_compute; reflexivity).
    destruct (meta_of_schema ex_clean) as [m|]; [|discriminate E].
    rewrite andb_true_iff, Nat.eqb_eq in E. exists m. split; [reflexivity | exact E].
Qed.

Definition OO : bytes := [79; 79].     (* MsgType of OptOuter *)

(* refutation: a valid schema on which the pinned f8c does not implement the specification.
   Message OptOuter = [String; component Outer (required=N)], Outer = [OutA (Y); component Mid (Y)],
   Mid = [MidA (Y); component Inner (Y)], Inner = [InA (Y); InB (N)].  The specification makes all of
   Outer's fields optional; f8precomp.cpp:279 keeps MidA and InA mandatory, so a message that omits
   the optional component is rejected (probe outcome 3 instead of 0). *)
Lemma nested_component_refuted_lemma :
  wf_schema ex_nested_comp = true
  /\ f8c_meta ex_nested_comp <> meta_of_schema ex_nested_comp
  /\ (exists mm ms h nm ns,
        f8c_meta ex_nested_comp = Some mm /\ meta_of_schema ex_nested_comp = Some ms
        /\ sm_find HEADER (mt_nodes ms) = Some h
        /\ sm_find OO (mt_nodes mm) = Some nm /\ sm_find OO (mt_nodes ms) = Some ns
        (* the only mandatory body field of OptOuter is its first item, field 2374 *)
        /\ probe_outcome (fun _ => false) h ns [PField 49; PField 56; PField 34; PField 52] [PField 2374] = 0
        /\ probe_outcome (fun _ => false) h nm [PField 49; PField 56; PField 34; PField 52] [PField 2374] = 3).
Proof.
  split; [vm_compute; reflexivity|].
  assert (E : match f8c_meta ex_nested_comp, meta_of_schema ex_nested_comp with
              | Some mm, Some ms =>
                match sm_find HEADER (mt_nodes ms), sm_find OO (mt_nodes mm), sm_find OO (mt_nodes ms) with
                | Some h, Some nm, Some ns =>
                  let p n := probe_outcome (fun _ => false) h n [PField 49; PField 56; PField 34; PField 52] [PField 2374] in
                  (p ns =? 0) && (p nm =? 3)
                | _, _, _ => false
                end
              | _, _ => false
              end = true) by (vm_compute; reflexivity).
  destruct (f8c_meta ex_nested_comp) as [mm|]; [|discriminate E].
  destruct (meta_of_schema ex_nested_comp) as [ms|]; [|discriminate E].
  destruct (sm_find HEADER (mt_nodes ms)) as [h|] eqn:Eh; [|discriminate E].
  destruct (sm_find OO (mt_nodes mm)) as [nm|] eqn:Enm; [|discriminate E].
  destruct (sm_find OO (mt_nodes ms)) as [ns|] eqn:Ens; [|discriminate E].
  apply andb_true_iff in E. destruct E as [P0 P3]. apply N.eqb_eq in P0, P3.
  split.
  - (* equal metadata would give equal trait trees for OptOuter, hence equal probe outcomes *)
    intros C. injection C as ->. rewrite Enm in Ens. injection Ens as ->. rewrite P0 in P3. discriminate.
  - exists mm, ms, h, nm, ns. repeat apply conj; assumption || reflexivity.
Qed.
