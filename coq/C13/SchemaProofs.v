(* Basic facts about the schema model (C13/Schema.v) shared by the C13 and C14 proofs: induction
   over item trees, the numbering of a level, and the trait table of a level. *)
From Coq Require Import NArith PeanoNat List Bool Lia Permutation.
From F8 Require Import C13.SMap C13.SMapProofs C13.Schema.
Import ListNotations.
Local Open Scope N_scope.

Section RitemInd.
  Variable P : ritem -> Prop.
  Hypothesis Hf : forall n t r c, P (RField n t r c).
  Hypothesis Hg : forall n r c sub, Forall P sub -> P (RGroup n r c sub).
  Fixpoint ritem_ind2 (x : ritem) : P x :=
    match x with
    | RField n t r c => Hf n t r c
    | RGroup n r c sub =>
        Hg n r c sub ((fix go (l : list ritem) : Forall P l :=
                         match l with
                         | [] => Forall_nil P
                         | y :: tl => Forall_cons y (ritem_ind2 y) (go tl)
                         end) sub)
    end.
End RitemInd.

(* the same for levels: to prove P of an item list, assume it of the body of every group in it *)
Lemma level_ind : forall P : list ritem -> Prop,
  (forall its, (forall n r c sub, In (RGroup n r c sub) its -> P sub) -> P its) -> forall its, P its.
Proof.
  intros P step.
  assert (G : forall x, match x with RGroup _ _ _ sub => P sub | RField _ _ _ _ => True end).
  { induction x as [|n r c sub IH] using ritem_ind2; [exact I|].
    apply step. intros n' r' c' sub' I. rewrite Forall_forall in IH. exact (IH _ I). }
  intro its. apply step. intros n r c sub _. exact (G (RGroup n r c sub)).
Qed.

Lemma number_from_In : forall {A : Type} (l : list A) s i x,
  In (i, x) (number_from s l) -> In x l /\ s <= i < s + N.of_nat (length l).
Proof.
  induction l as [|a l IH]; cbn [number_from length]; intros s i x H; [contradiction|].
  destruct H as [E|H].
  - inversion E; subst. split; [left; reflexivity | lia].
  - apply IH in H. destruct H. split; [right; assumption | lia].
Qed.

Lemma number_from_In_inv : forall {A : Type} (l : list A) s x, In x l -> exists i, In (i, x) (number_from s l).
Proof.
  induction l as [|a l IH]; cbn; intros s x H; [contradiction|].
  destruct H as [E|H].
  - subst. exists s. left. reflexivity.
  - destruct (IH (s + 1) x H) as [i Hi]. exists i. right. assumption.
Qed.

Lemma number_from_fst_NoDup : forall {A : Type} (l : list A) s, NoDup (map fst (number_from s l)).
Proof.
  induction l as [|a l IH]; cbn; intro s; constructor; [|apply IH].
  intro I. apply in_map_iff in I. destruct I as [[i x] [E I]]. cbn in E. subst i.
  apply number_from_In in I. lia.
Qed.

Lemma number_from_snd : forall {A : Type} (l : list A) s, map snd (number_from s l) = l.
Proof. induction l as [|a l IH]; cbn; intro s; [reflexivity|]. f_equal. apply IH. Qed.

Lemma number_from_length : forall {A : Type} (l : list A) s, length (number_from s l) = length l.
Proof. intros. rewrite <- (number_from_snd l s) at 2. symmetry. apply map_length. Qed.

Lemma number_from_head : forall {A : Type} (a : A) l s, In (s, a) (number_from s (a :: l)).
Proof. intros. left. reflexivity. Qed.

Lemma filter_partition_perm : forall {A : Type} (p : A -> bool) (l : list A),
  Permutation (filter p l ++ filter (fun x => negb (p x)) l) l.
Proof.
  induction l as [|a l IH]; cbn; [constructor|].
  destruct (p a); cbn.
  - constructor. exact IH.
  - apply Permutation_sym. apply Permutation_cons_app. apply Permutation_sym. exact IH.
Qed.

(* the list level_traits folds over: groups first *)
Definition lt_list (its : list ritem) : list (N * ritem) :=
  filter (fun p => is_group (snd p)) (number_from 1 its)
  ++ filter (fun p => negb (is_group (snd p))) (number_from 1 its).

Lemma lt_list_perm : forall its, Permutation (lt_list its) (number_from 1 its).
Proof. intro its. unfold lt_list. apply (filter_partition_perm (fun p => is_group (snd p))). Qed.

Definition trait_key (p : N * ritem) : key := [item_num (snd p)].

Lemma level_traits_fold : forall its,
  level_traits its = fold_left (fun m p => sm_ins (trait_key p) (trait_of p) m) (lt_list its) [].
Proof. reflexivity. Qed.

Lemma trait_of_num : forall p, t_num (trait_of p) = item_num (snd p).
Proof. intros [i [n t r c|n r c sub]]; reflexivity. Qed.

Lemma trait_of_pos : forall p, t_pos (trait_of p) = fst p.
Proof. intros [i [n t r c|n r c sub]]; reflexivity. Qed.

Lemma level_traits_sorted : forall its, ssorted (sm_keys (level_traits its)).
Proof. intro its. rewrite level_traits_fold. apply fold_ins_sorted. constructor. Qed.

Lemma level_traits_In : forall its k t, In (k, t) (level_traits its) ->
  exists p, In p (number_from 1 its) /\ k = [item_num (snd p)] /\ t = trait_of p.
Proof.
  intros its k t H. rewrite level_traits_fold in H. apply fold_ins_In in H.
  destruct H as [[]|[p [I E]]]. inversion E; subst. exists p. split; auto.
  eapply Permutation_in; [apply lt_list_perm|]. assumption.
Qed.

Lemma level_traits_key : forall its k t, In (k, t) (level_traits its) -> k = [t_num t].
Proof.
  intros its k t H. apply level_traits_In in H. destruct H as [p [_ [E1 E2]]]. subst.
  rewrite trait_of_num. reflexivity.
Qed.

Lemma level_traits_mem : forall its x, In x its -> sm_mem [item_num x] (level_traits its) = true.
Proof.
  intros its x I. destruct (number_from_In_inv its 1 x I) as [i Hi].
  rewrite level_traits_fold. apply (fold_ins_mem trait_key trait_of _ _ (i, x)); [constructor|].
  eapply Permutation_in; [apply Permutation_sym, lt_list_perm|]. assumption.
Qed.

Lemma level_traits_perm : forall its, NoDup (map (fun y => [item_num y]) its) ->
  Permutation (level_traits its) (map (fun p => (trait_key p, trait_of p)) (number_from 1 its)).
Proof.
  intros its ND. rewrite level_traits_fold, fold_ins_perm, app_nil_r.
  - apply Permutation_map, lt_list_perm.
  - rewrite (Permutation_map trait_key (lt_list_perm its)).
    unfold trait_key. rewrite <- (map_map snd (fun y => [item_num y])), number_from_snd. assumption.
  - reflexivity.
Qed.

Lemma level_traits_find : forall its p, NoDup (map (fun y => [item_num y]) its) -> In p (number_from 1 its) ->
  sm_find [item_num (snd p)] (level_traits its) = Some (trait_of p).
Proof.
  intros its p ND I. apply sm_find_sorted_In; [apply level_traits_sorted|].
  eapply Permutation_in; [apply Permutation_sym, level_traits_perm; assumption|].
  apply (in_map (fun p => (trait_key p, trait_of p))). assumption.
Qed.

Lemma level_traits_length : forall its, NoDup (map (fun y => [item_num y]) its) ->
  length (level_traits its) = length its.
Proof.
  intros its ND. rewrite (Permutation_length (level_traits_perm its ND)), map_length. apply number_from_length.
Qed.

Lemma item_sub_group : forall n r c sub, item_sub (RGroup n r c sub) = [([n], own_node sub)].
Proof. reflexivity. Qed.
